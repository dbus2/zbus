(* C16/SplitProofs.v — the server's outcome depends only on the concatenated stream (bytes and fds),
   never on how reads cut it. *)
From ZV Require Import Base.Bytes Base.Res C16.Model C16.LineFacts.

(* everything about a server state except the chunking of what it has not consumed yet *)
Definition sview (s : server) : hstep * bytes * option N * bool * view :=
  (s_step s, s_guid s, s_client_uid s, s_can_pass_fd s, view_of (s_common s)).

Definition swf (s : server) : Prop := in_contract (s_common s).

(* two results are the same up to chunking *)
Definition res_sim (r1 r2 : res herr server) : Prop :=
  match r1, r2 with
  | Ok a, Ok b => sview a = sview b /\ swf a /\ swf b
  | Err e1, Err e2 => e1 = e2
  | Panic _, Panic _ => True
  | _, _ => False
  end.

Definition ssim (a b : server) : Prop := res_sim (Ok a) (Ok b).

Lemma sim_ok : forall a b, sview a = sview b -> swf a -> swf b -> res_sim (Ok a) (Ok b).
Proof. intros. cbn. auto. Qed.

Lemma ssim_fields : forall a b, ssim a b ->
  s_step a = s_step b /\ s_guid a = s_guid b /\ s_client_uid a = s_client_uid b /\ s_can_pass_fd a = s_can_pass_fd b /\
  view_of (s_common a) = view_of (s_common b).
Proof. intros a b [Hv _]. unfold sview in Hv. repeat split; congruence. Qed.

Lemma with_step_sim : forall a b st, ssim a b -> ssim (with_step a st) (with_step b st).
Proof. intros a b st [Hv Hw]. split; [|exact Hw]. unfold sview in *. cbn. congruence. Qed.

Lemma with_common_sim : forall a b c1 c2,
  ssim a b -> view_of c1 = view_of c2 -> in_contract c1 -> in_contract c2 -> ssim (with_common a c1) (with_common b c2).
Proof.
  intros a b c1 c2 [Hv _] Hc I1 I2. split; [|split; assumption]. unfold sview in *. cbn. congruence.
Qed.

Lemma write_commands_sim : forall c1 c2 cmds extra,
  view_of c1 = view_of c2 -> view_of (write_commands c1 cmds extra) = view_of (write_commands c2 cmds extra).
Proof.
  intros c1 c2 cmds extra H. rewrite !write_commands_view. unfold view_of in H. injection H as -> -> -> -> -> ->. reflexivity.
Qed.

Section Transformers.
  Variables s1 s2 : server.
  Hypothesis H : ssim s1 s2.

  Lemma written_sim : forall cmd,
    ssim (with_common s1 (write_command (s_common s1) cmd)) (with_common s2 (write_command (s_common s2) cmd)).
  Proof.
    intro cmd. apply with_common_sim; [exact H | | apply write_in_contract, H ..].
    apply write_commands_sim, (ssim_fields _ _ H).
  Qed.

  Lemma auth_ok_sim : res_sim (Ok (auth_ok s1)) (Ok (auth_ok s2)).
  Proof.
    unfold auth_ok. destruct (ssim_fields _ _ H) as (_ & -> & _). apply with_step_sim, written_sim.
  Qed.

  Lemma mech_common : mechanism (s_common s1) = mechanism (s_common s2).
  Proof. destruct (ssim_fields _ _ H) as (_ & _ & _ & _ & Hc). unfold view_of in Hc. congruence. Qed.

  Lemma rejected_sim : res_sim (Ok (rejected_error s1)) (Ok (rejected_error s2)).
  Proof. unfold rejected_error. rewrite mech_common. apply with_step_sim, written_sim. Qed.

  Lemma unsupported_sim : res_sim (Ok (unsupported_command_error s1)) (Ok (unsupported_command_error s2)).
  Proof. apply written_sim. Qed.

  Lemma check_external_sim : forall id, res_sim (check_external_auth s1 id) (check_external_auth s2 id).
  Proof.
    intro id. unfold check_external_auth.
    destruct (negb (utf8_valid id)); [reflexivity|].
    destruct (parse_u32 id) as [uid|]; [|reflexivity].
    destruct (ssim_fields _ _ H) as (_ & _ & -> & _).
    destruct (opt_N_eqb (s_client_uid s2) uid); [apply auth_ok_sim | apply rejected_sim].
  Qed.

  Lemma handle_auth_k_sim : forall cmd, res_sim (handle_auth_k s1 cmd) (handle_auth_k s2 cmd).
  Proof.
    intro cmd. unfold handle_auth_k. rewrite mech_common.
    destruct cmd as [req resp| | |d|e| |m|g|]; try apply unsupported_sim; try apply rejected_sim.
    destruct (negb (opt_mech_eqb req (mechanism (s_common s2)))); [apply rejected_sim|].
    destruct resp as [id|].
    - destruct (mechanism (s_common s2)); [apply check_external_sim | apply auth_ok_sim].
    - apply with_step_sim, written_sim.
  Qed.

  Lemma handle_auth_data_k_sim : forall m cmd, res_sim (handle_auth_data_k s1 m cmd) (handle_auth_data_k s2 m cmd).
  Proof.
    intros m cmd. unfold handle_auth_data_k.
    destruct m; destruct cmd as [req resp| | |d|e| |mm|g|]; try apply unsupported_sim.
    - destruct d; [apply check_external_sim|].
      destruct (ssim_fields _ _ H) as (_ & _ & -> & _).
      destruct (s_client_uid s2); [apply auth_ok_sim | apply rejected_sim].
    - apply auth_ok_sim.
  Qed.

  Lemma finalize_k_sim : forall cmd, res_sim (finalize_k s1 cmd) (finalize_k s2 cmd).
  Proof.
    intro cmd. unfold finalize_k.
    destruct cmd as [req resp| | |d|e| |mm|g|]; try apply unsupported_sim; try apply rejected_sim.
    - (* BEGIN *) apply with_step_sim, H.
    - (* NEGOTIATE_UNIX_FD *)
      destruct (ssim_fields _ _ H) as (_ & _ & _ & -> & Hc).
      destruct (s_can_pass_fd s2); [|apply written_sim].
      apply with_common_sim; [exact H | | apply write_in_contract, H ..].
      apply write_commands_sim. rewrite !set_cap_view. unfold view_of in Hc. injection Hc as -> -> -> _ -> ->. reflexivity.
  Qed.
End Transformers.

(* reading: by LineFacts the command and the remaining view are the same on both sides *)
Lemma read_then_sim : forall s1 s2 k,
  ssim s1 s2 ->
  (forall t1 t2 cmd, ssim t1 t2 -> res_sim (k t1 cmd) (k t2 cmd)) ->
  res_sim (read_then s1 k) (read_then s2 k).
Proof.
  intros s1 s2 k H Hk. unfold read_then, read_command.
  destruct (ssim_fields _ _ H) as (_ & _ & _ & _ & Hc).
  pose proof (read_commands_spec (s_common s1) _ (conj (proj1 (proj2 H)) Hc)) as R1.
  pose proof (read_commands_spec (s_common s2) _ (conj (proj2 (proj2 H)) eq_refl)) as R2.
  unfold read_spec in R1, R2.
  destruct (line_pure _ _) as [[[cmd rest]|e|p]|].
  - destruct R1 as [c1 [-> [W1 V1]]]. destruct R2 as [c2 [-> [W2 V2]]]. cbn [bind].
    apply Hk, with_common_sim; [exact H | congruence | exact W1 | exact W2].
  - rewrite R1, R2. reflexivity.
  - rewrite R1, R2. exact I.
  - rewrite R1, R2. reflexivity.
Qed.

Lemma perform_sim : forall fuel s1 s2, ssim s1 s2 -> perform fuel s1 = perform fuel s2.
Proof.
  induction fuel as [|f IH]; intros s1 s2 H;
    destruct (ssim_fields _ _ H) as (Hst & _ & _ & _ & Hc); unfold view_of in Hc; injection Hc as Hf Hb Hfd Hcap Hm Ho.
  - cbn. congruence.
  - cbn [perform]. rewrite Hst.
    assert (Step : forall r1 r2, res_sim r1 r2 ->
              match r1 with Ok s' => perform f s' | Err e => OErr e (sock_out (s_common s1)) | Panic _ => OPanic (sock_out (s_common s1)) end =
              match r2 with Ok s' => perform f s' | Err e => OErr e (sock_out (s_common s2)) | Panic _ => OPanic (sock_out (s_common s2)) end).
    { intros [a|e1|p1] [b|e2|p2] Hr; try contradiction; [apply IH; exact Hr | cbn in Hr; congruence ..]. }
    destruct (s_step s2) as [|m| |]; [apply Step, read_then_sim; [exact H | intros t1 t2 cmd Ht] .. | congruence].
    + apply handle_auth_k_sim, Ht.
    + apply handle_auth_data_k_sim, Ht.
    + apply finalize_k_sim, Ht.
Qed.

Lemma split_independence : forall cfg cs1 cs2,
  chunks_nonempty cs1 = true -> chunks_nonempty cs2 = true ->
  stream_of cs1 = stream_of cs2 -> fds_of cs1 = fds_of cs2 ->
  run_server cfg cs1 = run_server cfg cs2.
Proof.
  intros cfg cs1 cs2 N1 N2 Hs Hf. unfold run_server, server_fuel. rewrite Hs.
  apply perform_sim. split; [|split; assumption].
  unfold sview, server_init, view_of, pending, pending_fds, common_new. cbn.
  unfold stream_of, fds_of in *. rewrite Hs, Hf. reflexivity.
Qed.

(* the canonical chunking: everything in one read (or none at all for the empty stream) *)
Definition one_chunk (s : bytes) (fds : list N) : list chunk :=
  match s with [] => [] | _ => [mkChunk s fds] end.

Lemma run_server_one_chunk : forall cfg cs,
  chunks_nonempty cs = true -> fds_of cs = [] \/ stream_of cs <> [] ->
  run_server cfg cs = run_server cfg (one_chunk (stream_of cs) (fds_of cs)).
Proof.
  intros cfg cs Hn Hfd. apply split_independence; try assumption.
  - unfold one_chunk. destruct (stream_of cs); reflexivity.
  - unfold one_chunk, stream_of. destruct (concat (map c_bytes cs)); cbn; [reflexivity | now rewrite app_nil_r].
  - unfold one_chunk, fds_of. destruct (stream_of cs) eqn:E; cbn.
    + destruct Hfd as [H|H]; [exact H | congruence].
    + now rewrite app_nil_r.
Qed.
