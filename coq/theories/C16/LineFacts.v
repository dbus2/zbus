(* C16/LineFacts.v — facts about the line reader: what [read_command] returns depends only on the
   [first_command] flag and on the bytes still to come (buffer ++ unread chunks), not on how they are chunked.
   A stream is cut at its first LF by the specification's [cut_line]; what [line_pure] makes of the segment before
   that LF does not depend on what follows it ([line_pure_cut]). *)
From ZV Require Import Base.Bytes Base.Res Base.WinnowFacts C16.Model C16.Spec.
From Coq Require Import Lia.

Lemma position_lf_app_none : forall a b, position_lf a = None ->
  position_lf (a ++ b) = option_map (fun k => length a + k) (position_lf b).
Proof.
  induction a as [|c a IH]; simpl; intros b H.
  - destruct (position_lf b); reflexivity.
  - destruct (beq c LF); [discriminate|].
    destruct (position_lf a) eqn:E; simpl in H; [discriminate|].
    rewrite (IH b eq_refl). destruct (position_lf b); reflexivity.
Qed.

Lemma position_lf_nth : forall a k, position_lf a = Some k -> nth k a NUL = LF.
Proof.
  induction a as [|c a IH]; simpl; intros k H; [discriminate|].
  destruct (beq c LF) eqn:E.
  - inversion H. apply beq_eq in E. exact E.
  - destruct (position_lf a) as [j|] eqn:E2; simpl in H; [|discriminate].
    inversion H. apply IH. reflexivity.
Qed.

(* ---------------------------------------------------------------- the first LF of a stream *)
Lemma cut_line_spec : forall s,
  match cut_line s with
  | None => position_lf s = None
  | Some (seg, rest) => s = seg ++ LF :: rest /\ no_lf seg = true
  end.
Proof.
  induction s as [|c r IH]; [reflexivity|]. cbn [cut_line position_lf no_lf]. change x0a with LF.
  destruct (beq c LF) eqn:E.
  - apply beq_eq in E. subst c. split; reflexivity.
  - destruct (cut_line r) as [[seg rest]|].
    + destruct IH as [-> Hn]. split; [reflexivity|]. cbn. change x0a with LF. rewrite E. exact Hn.
    + rewrite IH. reflexivity.
Qed.

Lemma position_lf_cut : forall seg rest, no_lf seg = true -> position_lf (seg ++ LF :: rest) = Some (length seg).
Proof.
  induction seg as [|c r IH]; intro rest; [reflexivity|]. cbn. change x0a with LF.
  destruct (beq c LF); [discriminate|]. intro H. rewrite (IH rest H). reflexivity.
Qed.

Lemma cut_line_app : forall body rest,
  no_lf body = true -> cut_line (body ++ [x0d; x0a] ++ rest) = Some (body ++ [x0d], rest).
Proof.
  induction body as [|c r IH]; intros rest H; [reflexivity|].
  cbn in H. apply andb_true_iff in H. destruct H as [H1 H2]. apply negb_true_iff in H1.
  rewrite <- app_comm_cons. cbn [cut_line]. rewrite H1, (IH rest H2). reflexivity.
Qed.

(* ---------------------------------------------------------------- line_pure on a cut stream *)
(* what the loop body makes of the bytes before the first LF *)
Definition parse_seg (first : bool) (seg : bytes) : res herr command :=
  match rev seg with
  | [] => Err EHandshake
  | c :: _ =>
      if negb (beq c CR) then Err EHandshake
      else if first && negb (beq (nth O seg NUL) NUL) then Err EHandshake
      else
        let line := skipn (if first then 1 else 0) (seg ++ [LF]) in
        if negb (utf8_valid line) then Err EHandshake else command_of_str line
  end.

Lemma firstn_skipn_cut : forall (seg rest : bytes) c,
  firstn (S (length seg)) (seg ++ c :: rest) = seg ++ [c] /\ skipn (S (length seg)) (seg ++ c :: rest) = rest.
Proof.
  induction seg as [|b seg IH]; intros rest c; [split; reflexivity|].
  destruct (IH rest c) as [F K]. cbn [length app]. split; [rewrite firstn_cons, F; reflexivity | exact K].
Qed.

Lemma line_pure_cut : forall first seg rest,
  no_lf seg = true ->
  line_pure first (seg ++ LF :: rest) = Some (map_res (fun cmd => (cmd, rest)) (parse_seg first seg)).
Proof.
  intros first seg rest Hn. unfold line_pure, parse_seg. rewrite (position_lf_cut _ _ Hn).
  destruct (firstn_skipn_cut seg rest LF) as [-> ->]. clear Hn.
  induction seg as [|c body _] using rev_ind; [reflexivity|].
  rewrite rev_unit, app_length, Nat.add_1_r.
  rewrite !(app_nth1 (body ++ [c])), nth_middle by (rewrite app_length; cbn; lia).
  destruct (negb (beq c CR)); [reflexivity|].
  destruct (first && _); [reflexivity|].
  cbv zeta. destruct (negb (utf8_valid _)); reflexivity.
Qed.

Lemma line_pure_none : forall first buf, position_lf buf = None -> line_pure first buf = None.
Proof. intros first buf H. unfold line_pure. rewrite H. reflexivity. Qed.

Lemma no_lf_app : forall a b, no_lf (a ++ b) = no_lf a && no_lf b.
Proof. intros. unfold no_lf. apply forallb_app. Qed.

(* the specification's reading of one line ([spec_loop], C17's [next_line]) case by case, with what the code's reader
   does in each: a line is an LF-free body followed by CR LF; an LF not preceded by CR is an error *)
Lemma line_view : forall s,
  match cut_line s with
  | None => line_pure false s = None
  | Some (seg, rest) =>
      match rev seg with
      | [] => line_pure false s = Some (Err EHandshake)
      | c :: rbody =>
          if negb (beq c x0d) then line_pure false s = Some (Err EHandshake)
          else s = rev rbody ++ [x0d; x0a] ++ rest /\ no_lf (rev rbody) = true /\
               line_pure false s =
               Some (if negb (utf8_valid (rev rbody ++ CRLF)) then Err EHandshake
                     else map_res (fun cmd => (cmd, rest)) (command_of_str (rev rbody ++ CRLF)))
      end
  end.
Proof.
  intro s. pose proof (cut_line_spec s) as Hc. destruct (cut_line s) as [[seg rest]|]; [|apply line_pure_none, Hc].
  destruct Hc as [-> Hn]. rewrite (line_pure_cut _ _ _ Hn). unfold parse_seg.
  destruct (rev seg) as [|c rbody] eqn:Hr; [reflexivity|]. change x0d with CR.
  destruct (negb (beq c CR)) eqn:E; [reflexivity|]. apply negb_false_iff, beq_eq in E. subst c.
  assert (seg = rev rbody ++ [CR]) as -> by (rewrite <- (rev_involutive seg), Hr; reflexivity).
  rewrite no_lf_app in Hn. apply andb_true_iff in Hn.
  rewrite <- !app_assoc. split; [reflexivity|]. split; [apply Hn|].
  cbn [andb skipn app]. destruct (negb (utf8_valid _)); reflexivity.
Qed.

(* ---------------------------------------------------------------- views: a connection up to chunking *)
Record view := mkView { v_first : bool; v_bytes : bytes; v_fds : list N; v_cap : bool; v_mech : mech; v_out : bytes }.

Definition view_of (c : common) : view :=
  mkView (first_command c) (pending c) (pending_fds c) (cap_unix_fd c) (mechanism c) (sock_out c).

Definition in_contract (c : common) : Prop := chunks_nonempty (sock_in c) = true.

Lemma write_commands_view : forall c cmds extra,
  view_of (write_commands c cmds extra) =
  mkView (fst (fold_commands (first_command c) cmds [])) (pending c) (pending_fds c) (cap_unix_fd c) (mechanism c)
         (sock_out c ++ snd (fold_commands (first_command c) cmds []) ++ extra).
Proof.
  intros c cmds extra. unfold write_commands. destruct (fold_commands (first_command c) cmds []). reflexivity.
Qed.

Lemma write_commands_in : forall c cmds extra, sock_in (write_commands c cmds extra) = sock_in c.
Proof.
  intros c cmds extra. unfold write_commands. destruct (fold_commands (first_command c) cmds []). reflexivity.
Qed.

Lemma write_in_contract : forall c cmds extra, in_contract c -> in_contract (write_commands c cmds extra).
Proof. intros c cmds extra H. unfold in_contract. rewrite write_commands_in. exact H. Qed.

Lemma set_cap_view : forall c b,
  view_of (set_cap_unix_fd c b) = mkView (first_command c) (pending c) (pending_fds c) b (mechanism c) (sock_out c).
Proof. reflexivity. Qed.

(* ---------------------------------------------------------------- reading one command, in closed form *)
Lemma read_loop_one : forall input c,
  read_loop input 1 0 c [] =
  match line_of_buffer c with
  | Some (Ok (cmd, c')) => Ok ([cmd], set_input c' input)
  | Some (Err e) => Err e
  | Some (Panic p) => Panic p
  | None =>
      match input with
      | [] => Err EHandshake
      | ch :: input' =>
          match c_bytes ch with
          | [] => Err EHandshake
          | _ => read_loop input' 1 0 (push_chunk c ch) []
          end
      end
  end.
Proof.
  intros input c. destruct input as [|ch input']; simpl;
    destruct (line_of_buffer c) as [[[cmd c']|e|p]|]; reflexivity.
Qed.

Definition has_view (c : common) (v : view) : Prop := in_contract c /\ view_of c = v.

Definition read_spec (v : view) (r : res herr (list command * common)) : Prop :=
  match line_pure (v_first v) (v_bytes v) with
  | None => r = Err EHandshake
  | Some (Err e) => r = Err e
  | Some (Panic p) => r = Panic p
  | Some (Ok (cmd, rest)) =>
      exists c', r = Ok ([cmd], c') /\ has_view c' (mkView false rest (v_fds v) (v_cap v) (v_mech v) (v_out v))
  end.

Lemma read_loop_buffered : forall input c seg rest,
  recv_buffer c = seg ++ LF :: rest -> no_lf seg = true -> chunks_nonempty input = true ->
  read_spec (view_of (set_input c input)) (read_loop input 1 0 c []).
Proof.
  intros input c seg rest Hb Hn Hne. unfold read_spec, view_of, pending. rewrite read_loop_one. unfold line_of_buffer.
  cbn [set_input first_command recv_buffer sock_in v_first v_bytes]. rewrite Hb, <- app_assoc. cbn [app].
  rewrite !(line_pure_cut _ _ _ Hn).
  destruct (parse_seg (first_command c) seg) as [cmd|e|p]; cbn [option_map map_res]; try reflexivity.
  eexists. split; [reflexivity|]. split; [exact Hne | reflexivity].
Qed.

(* [read_loop] leaves [sock_in c] alone until it returns: what is still to come is [input] *)
Lemma read_loop_spec : forall input c,
  chunks_nonempty input = true -> read_spec (view_of (set_input c input)) (read_loop input 1 0 c []).
Proof.
  induction input as [|ch input IH]; intros c Hne;
    pose proof (cut_line_spec (recv_buffer c)) as Hc; destruct (cut_line (recv_buffer c)) as [[seg rest]|];
    try exact (read_loop_buffered _ _ _ _ (proj1 Hc) (proj2 Hc) Hne).
  all: unfold read_spec, view_of, pending, pending_fds; rewrite read_loop_one; unfold line_of_buffer.
  all: cbn [set_input first_command recv_buffer received_fds cap_unix_fd mechanism sock_in sock_out map concat
            v_first v_bytes v_fds v_cap v_mech v_out].
  all: rewrite (line_pure_none _ _ Hc); cbn [option_map].
  - rewrite app_nil_r, (line_pure_none _ _ Hc). reflexivity.
  - cbn [chunks_nonempty forallb] in Hne. apply andb_true_iff in Hne. destruct Hne as [Hch Hne].
    destruct (c_bytes ch) as [|b0 bs] eqn:Hb; [discriminate|].
    specialize (IH (push_chunk c ch) Hne). rewrite <- Hb, !app_assoc. exact IH.
Qed.

Lemma read_commands_spec : forall c v, has_view c v -> read_spec v (read_commands c 1).
Proof. intros c v [Hc <-]. destruct c. exact (read_loop_spec _ _ Hc). Qed.
