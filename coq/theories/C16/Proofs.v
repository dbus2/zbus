(* C16/Proofs.v — the model of the server against the specification. *)
From ZV Require Import Base.Bytes Base.Res Base.WinnowFacts C16.Model C16.Spec C16.LineFacts C16.SplitProofs C16.ParseFacts.
From Coq Require Import Lia.

(* ---------------------------------------------------------------- normalised states *)
(* a server that has everything still to come in its buffer (one read), past the first line *)
Definition mkS (x : sctx) (st : hstep) (fd : bool) (out buf : bytes) (fds : list N) : server :=
  mkServer (mkCommon buf fds fd (x_mech x) false [] out) st (x_guid x) (x_uid x) (x_fdcap x).

Definition conc_step (x : sctx) (p : pstate) : hstep :=
  match p with PAuth => WaitingForAuth | PData => WaitingForData (x_mech x) | PBegin => WaitingForBegin end.

(* the same with the [first_command] flag as given: [mkS x] is [mkS1 false x], and [mkS1 true x WaitingForAuth false [] s fds]
   is the server as Builder::build starts it, with the whole stream already in the buffer *)
Definition mkS1 (first : bool) (x : sctx) (st : hstep) (fd : bool) (out buf : bytes) (fds : list N) : server :=
  mkServer (mkCommon buf fds fd (x_mech x) first [] out) st (x_guid x) (x_uid x) (x_fdcap x).

Lemma read_then_norm : forall first x st fd out buf fds k,
  read_then (mkS1 first x st fd out buf fds) k =
  match line_pure first buf with
  | None => Err EHandshake
  | Some (Ok (cmd, rest)) => k (mkS x st fd out rest fds) cmd
  | Some (Err e) => Err e
  | Some (Panic p) => Panic p
  end.
Proof.
  intros. unfold read_then, read_command, read_commands, mkS1. cbn [s_common sock_in]. rewrite read_loop_one.
  unfold line_of_buffer. cbn [first_command recv_buffer].
  destruct (line_pure first buf) as [[[cmd rest]|e|p]|]; reflexivity.
Qed.

Lemma write_command_norm : forall buf fds fd m out cmd,
  write_command (mkCommon buf fds fd m false [] out) cmd =
  mkCommon buf fds fd m false [] (out ++ command_to_bytes cmd ++ CRLF).
Proof.
  intros. unfold write_command, write_commands. cbn. rewrite app_nil_r. reflexivity.
Qed.

(* ---------------------------------------------------------------- replies as bytes *)
Inductive renders (x : sctx) : reply -> bytes -> Prop :=
| rn_data : renders x RData (B "DATA" ++ CRLF)
| rn_ok : renders x ROk (B "OK " ++ x_guid x ++ CRLF)
| rn_rej : renders x RRejected (B "REJECTED " ++ mech_name (x_mech x) ++ CRLF)
| rn_agree : renders x RAgree (B "AGREE_UNIX_FD" ++ CRLF)
| rn_err1 : renders x RError (B "ERROR " ++ error_text ++ CRLF)
| rn_err2 : renders x RError (B "ERROR " ++ fd_error_text ++ CRLF).

Lemma strip_prefix_app : forall p w, strip_prefix p (p ++ w) = Some w.
Proof. induction p as [|a p IH]; intro w; cbn; [reflexivity|]. rewrite beq_refl. apply IH. Qed.

Lemma strip_line : forall a b w, strip_prefix (a ++ b ++ crlf) (a ++ b ++ crlf ++ w) = Some w.
Proof. intros. rewrite !app_assoc. apply strip_prefix_app. Qed.

Lemma match_one : forall x r line rs w,
  renders x r line -> match_replies x (r :: rs) (line ++ w) = match_replies x rs w.
Proof.
  intros x r line rs w H. destruct H; cbn [match_replies]; rewrite <- ?app_assoc; change CRLF with crlf;
    rewrite ?strip_line; reflexivity.
Qed.

(* [out] is exactly the replies [rs], as far as the oracle can tell *)
Definition written_as (x : sctx) (rs : list reply) (out : bytes) : Prop :=
  forall rs' w, match_replies x (rs ++ rs') (out ++ w) = match_replies x rs' w.

Lemma written_nil : forall x, written_as x [] [].
Proof. intros x rs' w. reflexivity. Qed.

Lemma written_snoc : forall x rs out r line,
  written_as x rs out -> renders x r line -> written_as x (rs ++ [r]) (out ++ line).
Proof.
  intros x rs out r line H R rs' w. rewrite <- !app_assoc. rewrite H. cbn [app]. apply match_one. exact R.
Qed.

Lemma written_exact : forall x rs out, written_as x rs out -> match_replies x rs out = true.
Proof. intros x rs out H. specialize (H [] []). rewrite !app_nil_r in H. exact H. Qed.

(* ---------------------------------------------------------------- one step of the server against one step of the spec *)
Definition step_k (x : sctx) (p : pstate) (s : server) (cmd : command) : res herr server :=
  match p with
  | PAuth => handle_auth_k s cmd
  | PData => handle_auth_data_k s (x_mech x) cmd
  | PBegin => finalize_k s cmd
  end.

(* what a step [r] of the ideal server asks of the result [k] of the code's step from a state [mkS x _ fd out buf fds] *)
Definition answers (x : sctx) (fd : bool) (out buf : bytes) (fds : list N) (r : sres) (k : res herr server) : Prop :=
  match r with
  | Next p' r a => exists line, renders x r line /\ k = Ok (mkS x (conc_step x p') (fd || a) (out ++ line) buf fds)
  | Finish => k = Ok (mkS x SDone fd out buf fds)
  | Unclear => k = Err EHandshake
  end.

Section Answers.
  Variables (x : sctx) (st : hstep) (fd : bool) (out buf : bytes) (fds : list N).
  Let S := mkS x st fd out buf fds.

  (* writing the line of a reply and moving on *)
  Lemma answers_reply : forall p' r cmd,
    renders x r (command_to_bytes cmd ++ CRLF) ->
    answers x fd out buf fds (Next p' r false)
      (Ok (with_step (with_common S (write_command (s_common S) cmd)) (conc_step x p'))).
  Proof.
    intros p' r cmd R. exists (command_to_bytes cmd ++ CRLF). split; [exact R|].
    rewrite orb_false_r. unfold S, mkS. cbn [s_common with_common]. rewrite write_command_norm. reflexivity.
  Qed.

  Lemma answers_auth_ok : answers x fd out buf fds (Next PBegin ROk false) (Ok (auth_ok S)).
  Proof. apply (answers_reply PBegin ROk (OkC (x_guid x))), rn_ok. Qed.

  Lemma answers_rejected : answers x fd out buf fds (Next PAuth RRejected false) (Ok (rejected_error S)).
  Proof. apply (answers_reply PAuth RRejected (Rejected (mech_str (x_mech x)))), rn_rej. Qed.

  (* a claimed identity: ANONYMOUS takes any, EXTERNAL compares the uid it denotes with the peer's *)
  Lemma answers_claim : forall id,
    answers x fd out buf fds (claim x id)
      (match x_mech x with Anonymous => Ok (auth_ok S) | External => check_external_auth S id end).
  Proof.
    intro id. unfold claim. destruct (x_mech x); [|apply answers_auth_ok].
    unfold check_external_auth. rewrite parse_u32_denoted.
    destruct (uid_denoted id) as [n|] eqn:Eu; [|destruct (negb (utf8_valid id)); reflexivity].
    rewrite (uid_denoted_ascii _ _ Eu). cbn [negb].
    change (opt_N_eqb (s_client_uid S) n) with (uid_known_eq (x_uid x) n).
    destruct (uid_known_eq (x_uid x) n); [apply answers_auth_ok | apply answers_rejected].
  Qed.
End Answers.

Lemma answers_unsupported : forall x p fd out buf fds,
  answers x fd out buf fds (Next p RError false) (Ok (unsupported_command_error (mkS x (conc_step x p) fd out buf fds))).
Proof. intros. apply (answers_reply x (conc_step x p) fd out buf fds p RError (ErrorC error_text)), rn_err1. Qed.

Lemma mech_eqb_name : forall (mm m : mech), mech_eqb mm m = lbeq (mech_str mm) (mech_name m).
Proof. destruct mm, m; reflexivity. Qed.

Lemma step_sim : forall x p fd out buf fds cmd,
  match sstep x p (cmd_abs cmd) with
  | Next p' r a =>
      exists line, renders x r line /\
        step_k x p (mkS x (conc_step x p) fd out buf fds) cmd =
        Ok (mkS x (conc_step x p') (fd || a) (out ++ line) buf fds)
  | Finish => step_k x p (mkS x (conc_step x p) fd out buf fds) cmd = Ok (mkS x SDone fd out buf fds)
  | Unclear => step_k x p (mkS x (conc_step x p) fd out buf fds) cmd = Err EHandshake
  end.
Proof.
  intros x p fd out buf fds cmd.
  change (answers x fd out buf fds (sstep x p (cmd_abs cmd)) (step_k x p (mkS x (conc_step x p) fd out buf fds) cmd)).
  destruct p; cbn [step_k conc_step].
  - (* waiting for AUTH *)
    unfold handle_auth_k. change (mechanism (s_common (mkS x WaitingForAuth fd out buf fds))) with (x_mech x).
    destruct cmd as [[mm|] [id|]| | |[d|]|e| |ms|gg|]; cbn [cmd_abs sstep opt_mech_eqb negb];
      try apply (answers_unsupported x PAuth); try apply answers_rejected.
    (* AUTH with a mechanism name the code knows: REJECTED unless it is the configured one *)
    all: rewrite mech_eqb_name; destruct (lbeq (mech_str mm) (mech_name (x_mech x))); cbn [negb]; [|apply answers_rejected].
    + apply answers_claim.
    + apply (answers_reply x WaitingForAuth fd out buf fds PData RData (Data None)), rn_data.
  - (* waiting for DATA *)
    unfold handle_auth_data_k. destruct x as [m uid cap g].
    destruct m, cmd as [[mm|] [id|]| | |[d|]|e| |ms|gg|]; cbn [cmd_abs sstep x_mech];
      try exact (answers_unsupported _ PData fd out buf fds).
    + exact (answers_claim _ _ fd out buf fds d).
    + (* a bare DATA under EXTERNAL: the peer's uid must be known *)
      unfold claim_empty. cbn [mkS s_client_uid x_mech x_uid].
      destruct uid; [apply answers_auth_ok | apply answers_rejected].
    + apply answers_auth_ok.
    + apply answers_auth_ok.
  - (* waiting for BEGIN *)
    unfold finalize_k. change (s_can_pass_fd (mkS x WaitingForBegin fd out buf fds)) with (x_fdcap x).
    destruct cmd as [[mm|] [id|]| | |[d|]|e| |ms|gg|]; cbn [cmd_abs sstep];
      try apply (answers_unsupported x PBegin); try apply answers_rejected.
    + reflexivity.
    + destruct (x_fdcap x).
      * exists (B "AGREE_UNIX_FD" ++ CRLF). split; [constructor|].
        rewrite orb_true_r. unfold mkS, set_cap_unix_fd.
        cbn [s_common with_common recv_buffer received_fds mechanism first_command sock_in sock_out].
        rewrite write_command_norm. reflexivity.
      * apply (answers_reply x WaitingForBegin fd out buf fds PBegin RError (ErrorC fd_error_text)), rn_err2.
Qed.

Lemma step_shape : forall x p fd out buf fds cmd,
  (exists st' fd' out',
      step_k x p (mkS x (conc_step x p) fd out buf fds) cmd = Ok (mkS x st' fd' out' buf fds) /\
      (st' = SDone \/ exists p', st' = conc_step x p'))
  \/ step_k x p (mkS x (conc_step x p) fd out buf fds) cmd = Err EHandshake.
Proof.
  intros x p fd out buf fds cmd.
  pose proof (step_sim x p fd out buf fds cmd) as H.
  destruct (sstep x p (cmd_abs cmd)) as [p' r a| |].
  - destruct H as [line [_ H]]. left. do 3 eexists. split; [exact H|]. right. exists p'. reflexivity.
  - left. do 3 eexists. split; [exact H|]. left. reflexivity.
  - right. exact H.
Qed.

(* ---------------------------------------------------------------- one iteration of perform on a normalised state *)
Lemma perform_norm : forall f first x p fd out buf fds,
  perform (S f) (mkS1 first x (conc_step x p) fd out buf fds) =
  match line_pure first buf with
  | None => OErr EHandshake out
  | Some (Ok (cmd, rest)) =>
      match step_k x p (mkS x (conc_step x p) fd out rest fds) cmd with
      | Ok s' => perform f s'
      | Err e => OErr e out
      | Panic _ => OPanic out
      end
  | Some (Err e) => OErr e out
  | Some (Panic _) => OPanic out
  end.
Proof.
  intros. cbn [perform].
  destruct p; cbn [conc_step mkS1 s_step]; unfold handle_auth, handle_auth_data, finalize;
    rewrite (read_then_norm first x _ fd out buf fds);
    destruct (line_pure first buf) as [[[cmd rest]|e|pp]|]; reflexivity.
Qed.

Lemma perform_done : forall f x fd out buf fds,
  perform (S f) (mkS x SDone fd out buf fds) = ODone out fd buf fds.
Proof.
  intros. cbn [perform mkS s_step s_common]. unfold pending, pending_fds. cbn. rewrite !app_nil_r. reflexivity.
Qed.

(* ---------------------------------------------------------------- no fuel exhaustion, no panic *)
Definition safe (o : outcome) : Prop := match o with OPanic _ | OErr EFuel _ => False | _ => True end.

Lemma safe_norm : forall fuel x st fd out buf fds,
  2 + length buf <= fuel -> (st = SDone \/ exists p, st = conc_step x p) ->
  safe (perform fuel (mkS x st fd out buf fds)).
Proof.
  induction fuel as [|f IH]; intros x st fd out buf fds Hf Hst; [lia|].
  destruct Hst as [-> | [p ->]]; [rewrite perform_done; exact I|].
  rewrite (perform_norm f false). pose proof (line_pure_result buf) as L.
  destruct (line_pure false buf) as [[[cmd rest]|e|pp]|]; [| destruct e; try exact I; contradiction | contradiction | exact I].
  destruct L as [body [-> _]].
  destruct (step_shape x p fd out rest fds cmd) as [[st' [fd' [out' [-> Hst']]]] | ->]; [|exact I].
  apply IH; [|exact Hst']. rewrite !app_length in Hf. cbn [length] in Hf. lia.
Qed.

(* ---------------------------------------------------------------- the simulation *)
Lemma conforms_unclear : forall x fds o, safe o -> conforms x VUnclear fds (obs_of o) = true.
Proof. intros x fds [| |] H; [reflexivity | reflexivity | contradiction]. Qed.

Lemma list_N_eqb_eq : forall a b, list_N_eqb a b = true <-> a = b.
Proof.
  induction a as [|x a IH]; destruct b as [|y b]; cbn; split; intro H; try reflexivity; try discriminate.
  - apply andb_true_iff in H. destruct H as [H1 H2]. apply N.eqb_eq in H1. apply IH in H2. congruence.
  - injection H as -> ->. rewrite N.eqb_refl. apply IH. reflexivity.
Qed.

Lemma list_N_eqb_refl : forall l, list_N_eqb l l = true.
Proof. intro l. apply list_N_eqb_eq. reflexivity. Qed.

Lemma first_some_none : forall k, first_some None k = k.
Proof. reflexivity. Qed.

Lemma simulate : forall fuel_m x fds fuel_s p fd out rs buf v k,
  2 + length buf <= fuel_m -> length buf < fuel_s -> written_as x rs out ->
  spec_loop fuel_s x p fd rs buf = (v, k) ->
  (k = None -> conforms x v fds (obs_of (perform fuel_m (mkS x (conc_step x p) fd out buf fds))) = true) /\
  (k = Some KMalformed -> is_done (perform fuel_m (mkS x (conc_step x p) fd out buf fds)) = false).
Proof.
  induction fuel_m as [|f IH]; intros x fds fuel_s p fd out rs buf v k Hfm Hfs Hw Hspec; [lia|].
  destruct fuel_s as [|fs]; [lia|].
  cbn [spec_loop] in Hspec.
  (* whatever happens, the code does not panic *)
  assert (Hsafe : safe (perform (S f) (mkS x (conc_step x p) fd out buf fds))).
  { apply safe_norm; [exact Hfm | right; exists p; reflexivity]. }
  rewrite (perform_norm f false) in *.
  pose proof (line_view buf) as L.
  destruct (cut_line buf) as [[seg rest]|]; [destruct (rev seg) as [|c rbody]; [|destruct (negb (beq c x0d))]|].
  1, 2: (* a bare LF, an LF without CR: an error *)
    injection Hspec as <- <-; rewrite L; split; [reflexivity | discriminate].
  2:{ (* the stream ends inside a line *)
      injection Hspec as <- <-. rewrite L.
      split; [|discriminate]. intros _. cbn. apply written_exact. exact Hw. }
  destruct L as (-> & _ & L). rewrite L in *. clear L.
  destruct (is_ascii (rev rbody)) eqn:Easc; cbn [negb] in Hspec.
  2:{ (* a line with non-ASCII bytes: only "no panic" is demanded *)
      injection Hspec as <- <-. split; [|discriminate]. intros _. apply conforms_unclear. exact Hsafe. }
  rewrite ascii_utf8 in * by (rewrite is_ascii_app, Easc; reflexivity). cbn [negb] in *.
  pose proof (command_of_line (rev rbody)) as Hcmd.
  destruct (command_of_str (rev rbody ++ CRLF)) as [cmd|e|pp]; cbn [map_res]; [| |contradiction].
  2:{ (* not a well-formed command: the code gives up *)
      rewrite (proj2 Hcmd) in Hspec. cbn [negb] in Hspec.
      destruct (sstep x p (classify (rev rbody))) as [p' r a| |];
        [destruct (spec_loop fs x p' (fd || a) (rs ++ [r]) rest) as [v' k']| |];
        injection Hspec as <- <-; (split; [discriminate | reflexivity]). }
  destruct Hcmd as (_ & Hwf & Habs). rewrite Hwf, Habs in Hspec. cbn [negb] in Hspec.
  pose proof (step_sim x p fd out rest fds cmd) as Hstep.
  destruct (sstep x p (cmd_abs cmd)) as [p' r a| |].
  - (* a reply and a next state on both sides *)
    destruct Hstep as [line [Hren ->]].
    destruct (spec_loop fs x p' (fd || a) (rs ++ [r]) rest) as [v' k'] eqn:Hrec.
    injection Hspec as <- <-. cbn [first_some].
    apply (IH x fds fs p' (fd || a) (out ++ line) (rs ++ [r]) rest v' k'); [| |apply written_snoc; assumption | exact Hrec];
      rewrite !app_length in *; cbn [length] in *; lia.
  - (* BEGIN accepted *)
    rewrite Hstep. injection Hspec as <- <-.
    destruct f as [|f']; [lia|]. rewrite perform_done. split; [|discriminate].
    intros _. cbn. rewrite (written_exact _ _ _ Hw), Bool.eqb_reflx, lbeq_refl, list_N_eqb_refl. reflexivity.
  - (* a claimed identity that is no uid: the code gives up *)
    rewrite Hstep. injection Hspec as <- <-. split; [intros _; reflexivity | discriminate].
Qed.

(* ---------------------------------------------------------------- the first line: the NUL byte *)
Lemma line_pure_first_nul : forall s', line_pure true (NUL :: s') = line_pure false s'.
Proof.
  intro s'. unfold line_pure. cbn [position_lf]. change (beq NUL LF) with false. cbv iota.
  destruct (position_lf s') as [[|k]|]; reflexivity.
Qed.

Lemma line_pure_first_other : forall c s',
  beq c NUL = false -> line_pure true (c :: s') = None \/ line_pure true (c :: s') = Some (Err EHandshake).
Proof.
  intros c s' Hn. unfold line_pure. cbn [position_lf].
  destruct (beq c LF); [right; reflexivity|].
  destruct (position_lf s') as [k|]; cbn [option_map]; [right | left; reflexivity].
  f_equal. destruct (negb (beq (nth k (c :: s') NUL) CR)); [reflexivity|].
  cbn [nth andb]. rewrite Hn. reflexivity.
Qed.

(* the server's run from the normalised initial state: a stream that does not start with NUL is refused at once *)
Lemma run_server_norm : forall cfg cs,
  chunks_nonempty cs = true ->
  match stream_of cs with
  | c :: s' =>
      if beq c NUL
      then run_server cfg cs = perform (3 + length s') (mkS (ctx_of cfg) WaitingForAuth false [] s' (fds_of cs))
      else run_server cfg cs = OErr EHandshake []
  | [] => run_server cfg cs = OErr EHandshake []
  end.
Proof.
  intros cfg cs Hn.
  assert (R : run_server cfg cs =
              perform (2 + length (stream_of cs)) (mkS1 true (ctx_of cfg) WaitingForAuth false [] (stream_of cs) (fds_of cs))).
  { apply perform_sim. split; [|split; [exact Hn | reflexivity]].
    unfold sview, server_init, mkS1, view_of, pending, pending_fds, common_new, ctx_of. cbn. rewrite !app_nil_r. reflexivity. }
  rewrite R. destruct (stream_of cs) as [|c s']; [reflexivity|].
  change (2 + length (c :: s')) with (S (2 + length s')). rewrite (perform_norm _ true _ PAuth).
  destruct (beq c NUL) eqn:E.
  - apply beq_eq in E. subst c. rewrite line_pure_first_nul. symmetry. apply (perform_norm _ false _ PAuth).
  - destruct (line_pure_first_other c s' E) as [-> | ->]; reflexivity.
Qed.

(* ---------------------------------------------------------------- the theorems about run_server *)
Definition sfuel (s : bytes) : nat := match s with [] => 1 | _ :: s' => S (length s') end.

Lemma server_sim : forall cfg cs v k,
  chunks_nonempty cs = true ->
  spec_server (ctx_of cfg) (stream_of cs) = (v, k) ->
  (k = None -> conforms (ctx_of cfg) v (fds_of cs) (obs_of (run_server cfg cs)) = true) /\
  (k = Some KMalformed -> is_done (run_server cfg cs) = false).
Proof.
  intros cfg cs v k Hn Hspec. pose proof (run_server_norm cfg cs Hn) as R. unfold spec_server in Hspec.
  destruct (stream_of cs) as [|c s']; [|change x00 with NUL in Hspec; destruct (beq c NUL)]; rewrite R.
  - injection Hspec as <- <-. split; [reflexivity | discriminate].
  - apply (simulate _ _ _ (S (length s')) PAuth false [] [] s'); [lia | lia | apply written_nil | exact Hspec].
  - injection Hspec as <- <-. split; [reflexivity | discriminate].
Qed.

Theorem server_conforms : forall cfg cs,
  chunks_nonempty cs = true ->
  known_class (ctx_of cfg) (stream_of cs) = None ->
  conforms (ctx_of cfg) (spec_verdict (ctx_of cfg) (stream_of cs)) (fds_of cs) (obs_of (run_server cfg cs)) = true.
Proof.
  intros cfg cs Hn Hk. unfold known_class, spec_verdict in *.
  destruct (spec_server (ctx_of cfg) (stream_of cs)) as [v k] eqn:E. cbn in *.
  apply (server_sim cfg cs v k Hn E). exact Hk.
Qed.

Lemma server_safe : forall cfg cs, chunks_nonempty cs = true -> safe (run_server cfg cs).
Proof.
  intros cfg cs Hn. pose proof (run_server_norm cfg cs Hn) as R.
  destruct (stream_of cs) as [|c s']; [|destruct (beq c NUL)]; rewrite R; try exact I.
  apply safe_norm; [lia | right; exists PAuth; reflexivity].
Qed.

(* ---------------------------------------------------------------- the executable verdict and the relation [accepts] *)
Lemma sstep_finish : forall x st c, sstep x st c = Finish -> st = PBegin /\ c = CBegin.
Proof.
  intros x st c H. destruct st; destruct c as [[m|] [| |b]|[| |b]| | | | | |]; cbn in H;
    unfold claim, claim_empty in H;
    repeat match type of H with
           | context [if ?c then _ else _] => destruct c
           | context [match ?e with _ => _ end] => destruct e
           end; try discriminate; auto.
Qed.

Lemma verdict_done_accepts : forall fuel x st fd rs s rs' fd' tail k,
  spec_loop fuel x st fd rs s = (VDone rs' fd' tail, k) -> accepts_from x st s.
Proof.
  induction fuel as [|f IH]; intros x st fd rs s rs' fd' tail k H; [discriminate|].
  cbn [spec_loop] in H.
  pose proof (line_view s) as L.
  destruct (cut_line s) as [[seg rest]|]; [|discriminate].
  destruct (rev seg) as [|c rbody]; [discriminate|]. destruct (negb (beq c x0d)); [discriminate|].
  destruct L as (-> & Hn & _).
  destruct (negb (is_ascii (rev rbody))) eqn:Ea; [discriminate|]. apply negb_false_iff in Ea.
  assert (Hclean : clean (rev rbody)) by (split; assumption).
  destruct (sstep x st (classify (rev rbody))) as [st' r a| |] eqn:Est.
  - destruct (spec_loop f x st' (fd || a) (rs ++ [r]) rest) as [v' k'] eqn:Hrec.
    injection H as -> _. eapply acc_step; [exact Hclean | exact Est | eapply IH; exact Hrec].
  - destruct (sstep_finish _ _ _ Est) as [-> Hcl]. apply acc_begin; assumption.
  - discriminate.
Qed.

Lemma accepts_verdict_done : forall x st s,
  accepts_from x st s ->
  forall fuel fd rs, length s < fuel ->
  exists rs' fd' tail k, spec_loop fuel x st fd rs s = (VDone rs' fd' tail, k).
Proof.
  induction 1 as [body rest [Hn Ha] Hcl | st body rest st' r a [Hn Ha] Hst Hacc IH]; intros fuel fd rs Hf;
    (destruct fuel as [|f]; [lia|]); cbn [spec_loop];
    rewrite (cut_line_app _ _ Hn), rev_unit, rev_involutive, beq_refl, Ha; cbn [negb].
  - rewrite Hcl. cbn [sstep]. eauto.
  - rewrite Hst.
    assert (Hl : length rest < f) by (rewrite !app_length in Hf; cbn in Hf; lia).
    destruct (IH f (fd || a) (rs ++ [r]) Hl) as [rs' [fd' [tail [k Hk]]]]. rewrite Hk. eauto.
Qed.

Lemma accepts_iff_done : forall x s,
  accepts x s <-> exists rs fd tail, spec_verdict x s = VDone rs fd tail.
Proof.
  intros x s. unfold accepts, spec_verdict, spec_server. split.
  - intros [s' [-> H]]. rewrite beq_refl.
    destruct (accepts_verdict_done _ _ _ H (S (length s')) false [] (Nat.lt_succ_diag_r _)) as [rs [fd [tail [k Hk]]]].
    rewrite Hk. cbn [fst]. eauto.
  - intros [rs [fd [tail H]]]. destruct s as [|c s']; [discriminate|].
    destruct (beq c x00) eqn:E; [|discriminate].
    apply beq_eq in E. subst c. exists s'. split; [reflexivity|].
    destruct (spec_loop (S (length s')) x PAuth false [] s') as [v k] eqn:Hl. cbn in H. subst v.
    eapply verdict_done_accepts. exact Hl.
Qed.

(* the specification's own fuel is never the reason for a verdict *)
Lemma spec_loop_fuel : forall f1 f2 x st fd rs s,
  length s < f1 -> length s < f2 -> spec_loop f1 x st fd rs s = spec_loop f2 x st fd rs s.
Proof.
  induction f1 as [|f1 IH]; intros f2 x st fd rs s H1 H2; [lia|]. destruct f2 as [|f2]; [lia|].
  cbn [spec_loop]. pose proof (line_view s) as L. destruct (cut_line s) as [[seg rest]|]; [|reflexivity].
  destruct (rev seg) as [|c rbody]; [reflexivity|].
  destruct (negb (beq c x0d)); [reflexivity|]. destruct L as (-> & _).
  destruct (negb (is_ascii (rev rbody))); [reflexivity|].
  destruct (sstep x st (classify (rev rbody))) as [st' r a| |]; try reflexivity.
  rewrite (IH f2) by (rewrite !app_length in *; cbn [length] in *; lia). reflexivity.
Qed.

(* ---------------------------------------------------------------- authentication, replies, panics *)
Theorem auth_partial : forall cfg cs,
  chunks_nonempty cs = true ->
  known_class (ctx_of cfg) (stream_of cs) = None ->
  spec_verdict (ctx_of cfg) (stream_of cs) <> VUnclear ->
  (is_done (run_server cfg cs) = true <-> accepts (ctx_of cfg) (stream_of cs)).
Proof.
  intros cfg cs Hn Hk Hu. pose proof (server_conforms cfg cs Hn Hk) as Hc.
  rewrite accepts_iff_done.
  destruct (spec_verdict (ctx_of cfg) (stream_of cs)) as [rs fd tail|rs|]; [| |contradiction].
  - split; [eauto|]. intros _. destruct (run_server cfg cs); cbn in *; try discriminate. reflexivity.
  - split.
    + intro Hd. destruct (run_server cfg cs); cbn in *; discriminate.
    + intros [? [? [? ?]]]. discriminate.
Qed.

(* completion is never granted wrongly: no exclusion of streams, also when a malformed line cuts the conversation short *)
Theorem auth_sound : forall cfg cs,
  chunks_nonempty cs = true ->
  spec_verdict (ctx_of cfg) (stream_of cs) <> VUnclear ->
  is_done (run_server cfg cs) = true -> accepts (ctx_of cfg) (stream_of cs).
Proof.
  intros cfg cs Hn Hu Hd.
  destruct (known_class (ctx_of cfg) (stream_of cs)) as [[]|] eqn:Hk.
  - unfold known_class in Hk. destruct (spec_server (ctx_of cfg) (stream_of cs)) as [v k] eqn:E. cbn in Hk. subst k.
    destruct (server_sim cfg cs v _ Hn E) as [_ H]. rewrite (H eq_refl) in Hd. discriminate.
  - apply (auth_partial cfg cs Hn Hk Hu). exact Hd.
Qed.

Theorem replies_partial : forall cfg cs rs,
  chunks_nonempty cs = true ->
  known_class (ctx_of cfg) (stream_of cs) = None ->
  (spec_verdict (ctx_of cfg) (stream_of cs) = VFail rs \/
   exists fd tail, spec_verdict (ctx_of cfg) (stream_of cs) = VDone rs fd tail) ->
  match_replies (ctx_of cfg) rs (written (run_server cfg cs)) = true.
Proof.
  intros cfg cs rs Hn Hk Hv. pose proof (server_conforms cfg cs Hn Hk) as Hc.
  destruct Hv as [Hv | [fd [tail Hv]]]; rewrite Hv in Hc; destruct (run_server cfg cs); cbn in *; try discriminate.
  - exact Hc.
  - repeat (apply andb_true_iff in Hc; destruct Hc as [Hc ?]). exact Hc.
Qed.

Theorem nopanic : forall cfg cs, chunks_nonempty cs = true -> is_panic (run_server cfg cs) = false.
Proof.
  intros cfg cs Hn. pose proof (server_safe cfg cs Hn) as H. destruct (run_server cfg cs); [reflexivity .. | contradiction].
Qed.

Theorem fuel_sufficient : forall cfg cs w, chunks_nonempty cs = true -> run_server cfg cs <> OErr EFuel w.
Proof. intros cfg cs w Hn E. pose proof (server_safe cfg cs Hn) as H. rewrite E in H. exact H. Qed.

(* ---------------------------------------------------------------- the full statement and what still refutes it *)
Definition full_statement : Prop :=
  forall cfg cs, chunks_nonempty cs = true ->
    conforms (ctx_of cfg) (spec_verdict (ctx_of cfg) (stream_of cs)) (fds_of cs) (obs_of (run_server cfg cs)) = true.

Definition guid0 : bytes := B "0123456789abcdef0123456789abcdef".
Definition cfg_ext (uid : option N) : scfg := mkScfg (Some External) Anonymous uid false guid0.

(* \0FOO\r\n *)
Definition w_foo : list chunk := [mkChunk (x00 :: B "FOO" ++ [x0d; x0a]) []].

Theorem malformed_abort_refuted :
  exists cfg cs, chunks_nonempty cs = true /\
                 spec_verdict (ctx_of cfg) (stream_of cs) = VFail [RError] /\
                 run_server cfg cs = OErr EHandshake [].
Proof. exists (cfg_ext (Some 1000%N)), w_foo. repeat split; vm_compute; reflexivity. Qed.

Theorem full_statement_refuted : ~ full_statement.
Proof.
  intro H. specialize (H (cfg_ext (Some 1000%N)) w_foo eq_refl). vm_compute in H. discriminate.
Qed.

(* ---------------------------------------------------------------- instances (non-vacuity) *)
Definition ex_stream : bytes :=
  x00 :: B "AUTH EXTERNAL 31303030" ++ [x0d; x0a] ++ B "NEGOTIATE_UNIX_FD" ++ [x0d; x0a] ++ B "BEGIN" ++ [x0d; x0a] ++ B "xyz".
Definition ex_cfg : scfg := mkScfg None External (Some 1000%N) true guid0.
Definition ex_chunks1 : list chunk := [mkChunk (firstn 9 ex_stream) [7%N]; mkChunk (skipn 9 ex_stream) []].
Definition ex_chunks2 : list chunk :=
  [mkChunk (firstn 24 ex_stream) []; mkChunk (firstn 1 (skipn 24 ex_stream)) [7%N]; mkChunk (skipn 25 ex_stream) []].

Example ex_split : chunks_nonempty ex_chunks1 = true /\ chunks_nonempty ex_chunks2 = true /\
  stream_of ex_chunks1 = stream_of ex_chunks2 /\ fds_of ex_chunks1 = fds_of ex_chunks2 /\ ex_chunks1 <> ex_chunks2 /\
  run_server ex_cfg ex_chunks1 =
    ODone (B "OK " ++ guid0 ++ [x0d; x0a] ++ B "AGREE_UNIX_FD" ++ [x0d; x0a]) true (B "xyz") [7%N].
Proof. repeat split; try (vm_compute; reflexivity). intro H. discriminate. Qed.

Example ex_conforms :
  known_class (ctx_of ex_cfg) (stream_of ex_chunks2) = None /\
  spec_verdict (ctx_of ex_cfg) (stream_of ex_chunks2) = VDone [ROk; RAgree] true (B "xyz").
Proof. repeat split; vm_compute; reflexivity. Qed.

(* a rejected identity, a cancelled attempt and a misplaced BEGIN: REJECTED, REJECTED, ERROR, then EOF *)
Example ex_replies :
  let s := x00 :: B "AUTH EXTERNAL 31303031" ++ [x0d; x0a] ++ B "CANCEL" ++ [x0d; x0a] ++ B "BEGIN" ++ [x0d; x0a] in
  known_class (ctx_of ex_cfg) s = None /\ spec_verdict (ctx_of ex_cfg) s = VFail [RRejected; RRejected; RError].
Proof. split; vm_compute; reflexivity. Qed.

(* an unknown mechanism name is answered REJECTED and the conversation goes on to a proper authentication *)
Example ex_unknown_mechanism :
  let s := x00 :: B "AUTH DBUS_COOKIE_SHA1 31303030" ++ [x0d; x0a] ++ B "AUTH EXTERNAL 31303030" ++ [x0d; x0a]
               ++ B "BEGIN" ++ [x0d; x0a] in
  known_class (ctx_of ex_cfg) s = None /\ spec_verdict (ctx_of ex_cfg) s = VDone [RRejected; ROk] false [] /\
  run_server ex_cfg [mkChunk s []] =
    ODone (B "REJECTED EXTERNAL" ++ [x0d; x0a] ++ B "OK " ++ guid0 ++ [x0d; x0a]) false [] [].
Proof. repeat split; vm_compute; reflexivity. Qed.

(* EXTERNAL with unknown credentials: the empty identity is REJECTED, BEGIN is then misplaced *)
Example ex_bare_data_unknown_creds :
  let s := x00 :: B "AUTH EXTERNAL" ++ [x0d; x0a] ++ B "DATA" ++ [x0d; x0a] ++ B "BEGIN" ++ [x0d; x0a] in
  known_class (ctx_of (cfg_ext None)) s = None /\
  spec_verdict (ctx_of (cfg_ext None)) s = VFail [RData; RRejected; RError] /\
  is_done (run_server (cfg_ext None) [mkChunk s []]) = false.
Proof. repeat split; vm_compute; reflexivity. Qed.

(* a bare LF after a line: an error, no panic *)
Example ex_bare_lf :
  run_server (cfg_ext (Some 1000%N)) [mkChunk (x00 :: B "AUTH" ++ [x0d; x0a; x0a]) []] =
  OErr EHandshake (B "REJECTED EXTERNAL" ++ [x0d; x0a]).
Proof. vm_compute. reflexivity. Qed.
