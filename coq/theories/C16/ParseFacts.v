(* C16/ParseFacts.v — the code's parser (Command::from_str, u32::from_str, from_utf8) against the
   specification's reading of a line. *)
From ZV Require Import Base.Bytes Base.Res Base.WinnowFacts C16.Model C16.Spec C16.LineFacts.
From Coq Require Import Lia.

(* ---------------------------------------------------------------- tokenising *)
Lemma filter_rev : forall (cur : bytes) (rest : list bytes),
  filter (fun w => negb (lbeq w [])) (rev cur :: rest) =
  match cur with [] => filter (fun w => negb (lbeq w [])) rest | _ => rev cur :: filter (fun w => negb (lbeq w [])) rest end.
Proof.
  intros [|a cur] rest; [reflexivity|]. cbn [filter rev].
  destruct (rev cur ++ [a]) eqn:E; [symmetry in E; apply app_cons_not_nil in E; contradiction | reflexivity].
Qed.

Lemma split_filter_toks : forall l cur,
  filter (fun w => negb (lbeq w [])) (split_ws_aux l cur) = toks l cur.
Proof.
  induction l as [|c r IH]; intro cur; cbn [split_ws_aux toks].
  - rewrite filter_rev. destruct cur; reflexivity.
  - change (is_ascii_ws c) with (ws c). destruct (ws c); [rewrite filter_rev, IH; reflexivity | apply IH].
Qed.

Lemma toks_app_crlf : forall l cur, toks (l ++ [CR; LF]) cur = toks l cur.
Proof.
  induction l as [|c r IH]; intro cur.
  - cbn. destruct cur; reflexivity.
  - cbn [app toks]. destruct (ws c); [destruct cur|]; rewrite ?IH; reflexivity.
Qed.

Lemma tokens_line : forall body, split_ascii_whitespace (body ++ CRLF) = tokens body.
Proof. intro body. unfold split_ascii_whitespace. rewrite split_filter_toks. apply toks_app_crlf. Qed.

(* ---------------------------------------------------------------- UTF-8 of ASCII text *)
Lemma ascii_utf8 : forall l, is_ascii l = true -> utf8_valid l = true.
Proof.
  induction l as [|a r IH]; intro H; [reflexivity|].
  cbn in H. apply andb_true_iff in H. destruct H as [Ha Hr].
  cbn [utf8_valid]. rewrite Ha. apply IH. exact Hr.
Qed.

Lemma is_ascii_app : forall a b, is_ascii (a ++ b) = is_ascii a && is_ascii b.
Proof. intros a b. unfold is_ascii. apply forallb_app. Qed.

(* ---------------------------------------------------------------- u32::from_str = the uid an identity denotes *)
Lemma fold_digits_ge : forall ds acc, (acc <= fold_left (fun a c => a * 10 + (bn c - 48)) ds acc)%N.
Proof.
  induction ds as [|d ds IH]; intro acc; cbn [fold_left]; [lia|]. specialize (IH (acc * 10 + (bn d - 48))%N). lia.
Qed.

Lemma parse_digits_spec : forall ds acc,
  (acc <= u32_max)%N ->
  parse_u32_digits ds acc =
  if forallb is_digit ds && (fold_left (fun a c => (a * 10 + (bn c - 48))%N) ds acc <? 4294967296)%N
  then Some (fold_left (fun a c => (a * 10 + (bn c - 48))%N) ds acc) else None.
Proof.
  induction ds as [|d ds IH]; intros acc Hacc.
  - cbn. destruct (N.ltb_spec acc 4294967296); [reflexivity | unfold u32_max in Hacc; lia].
  - cbn [parse_u32_digits forallb fold_left]. destruct (is_digit d); [|reflexivity]. cbn [andb].
    destruct (N.leb_spec (acc * 10 + (bn d - 48)) u32_max) as [E|E]; [apply IH, E|]. unfold u32_max in E.
    (* once over the limit, always over *)
    pose proof (fold_digits_ge ds (acc * 10 + (bn d - 48))) as G.
    destruct (N.ltb_spec (fold_left (fun a c => a * 10 + (bn c - 48)) ds (acc * 10 + (bn d - 48))) 4294967296)%N; [lia|].
    rewrite andb_false_r. reflexivity.
Qed.

Lemma parse_u32_denoted : forall b, parse_u32 b = uid_denoted b.
Proof.
  intro b. unfold parse_u32, uid_denoted.
  destruct b as [|c r]; [reflexivity|].
  destruct (beq c "+"%byte); [destruct r as [|d r]; [reflexivity|] |]; apply parse_digits_spec; unfold u32_max; lia.
Qed.

Lemma digits_ascii : forall ds, forallb is_digit ds = true -> is_ascii ds = true.
Proof.
  unfold is_ascii.
  induction ds as [|d ds IH]; intro Hd; [reflexivity|]. cbn [forallb] in *.
  apply andb_true_iff in Hd. destruct Hd as [H1 H2]. rewrite (IH H2), andb_true_r.
  unfold is_digit, in_range in H1. apply andb_true_iff in H1. destruct H1 as [_ H1].
  apply N.leb_le in H1. apply N.ltb_lt. lia.
Qed.

Lemma uid_denoted_ascii : forall b n, uid_denoted b = Some n -> utf8_valid b = true.
Proof.
  intros b n H. apply ascii_utf8. unfold uid_denoted in H.
  destruct b as [|c r]; [discriminate|].
  destruct (beq c "+"%byte) eqn:E.
  - apply beq_eq in E. subst c. destruct r as [|d r]; [discriminate|].
    destruct (forallb is_digit (d :: r)) eqn:F; [|discriminate].
    change (is_ascii ("+"%byte :: d :: r)) with (true && is_ascii (d :: r)).
    rewrite (digits_ascii _ F). reflexivity.
  - destruct (forallb is_digit (c :: r)) eqn:F; [|discriminate]. apply digits_ascii. exact F.
Qed.

(* ---------------------------------------------------------------- Command::from_str against classify / well_formed *)
Definition cmd_abs (c : command) : scmd :=
  match c with
  | Auth None _ => CAuth None IdNone
  | Auth (Some m) None => CAuth (Some (mech_str m)) IdNone
  | Auth (Some m) (Some b) => CAuth (Some (mech_str m)) (IdBytes b)
  | Cancel => CCancel
  | Begin => CBegin
  | Data None => CData IdNone
  | Data (Some b) => CData (IdBytes b)
  | ErrorC _ => CError
  | NegotiateUnixFD => CNegotiate
  | Rejected _ | OkC _ | AgreeUnixFD => COther
  end.

Lemma mech_of_str_spec : forall m,
  match mech_of_str m with
  | Ok mm => m = mech_str mm
  | Err _ => (lbeq m (B "EXTERNAL") || lbeq m (B "ANONYMOUS")) = false
  | Panic _ => False
  end.
Proof.
  intro m. unfold mech_of_str.
  destruct (lbeq m (B "EXTERNAL")) eqn:E1; [apply lbeq_eq in E1; exact E1|].
  destruct (lbeq m (B "ANONYMOUS")) eqn:E2; [apply lbeq_eq in E2; exact E2 | reflexivity].
Qed.

(* a mechanism name the code does not know is answered like a missing one, in every state *)
Lemma sstep_unknown_mech : forall x p m i,
  (lbeq m (B "EXTERNAL") || lbeq m (B "ANONYMOUS")) = false ->
  sstep x p (CAuth (Some m) i) = sstep x p (CAuth None IdNone).
Proof.
  intros x p m i H. apply orb_false_iff in H. destruct H as [H1 H2].
  destruct p; cbn [sstep]; try reflexivity.
  destruct (x_mech x); cbn [mech_name]; rewrite ?H1, ?H2; reflexivity.
Qed.

(* AUTH <m> [<hex of b>]: the parsed command drives the ideal server like the words do *)
Lemma sstep_auth : forall x p m resp,
  sstep x p (CAuth (Some m) (match resp with Some b => IdBytes b | None => IdNone end)) =
  sstep x p (cmd_abs (Auth (match mech_of_str m with Ok mm => Some mm | _ => None end) resp)).
Proof.
  intros x p m resp. pose proof (mech_of_str_spec m) as Hm.
  destruct (mech_of_str m) as [mm|e|pp]; [subst m; destruct resp; reflexivity | | contradiction].
  apply sstep_unknown_mech. exact Hm.
Qed.

Definition keyword (c : command) : bytes :=
  match c with
  | Auth _ _ => B "AUTH" | Cancel => B "CANCEL" | Begin => B "BEGIN" | Data _ => B "DATA" | ErrorC _ => B "ERROR"
  | NegotiateUnixFD => B "NEGOTIATE_UNIX_FD" | Rejected _ => B "REJECTED" | OkC _ => B "OK" | AgreeUnixFD => B "AGREE_UNIX_FD"
  end.

(* the words of a line that parses to [cmd] *)
Definition spelled (cmd : command) (ts : list bytes) : Prop :=
  exists args, ts = keyword cmd :: args /\
    match cmd with OkC g => exists more, args = g :: more /\ guid_ok g = true | _ => True end.

(* the parser's verdict on a line of the handshake (body ++ CR LF): a line it accepts starts with the command's
   word, is well-formed, and the command drives the ideal server exactly like the specification's reading of the line;
   a line it refuses is not well-formed *)
Lemma command_of_line : forall body,
  match command_of_str (body ++ CRLF) with
  | Ok cmd => spelled cmd (tokens body) /\ well_formed body = true /\
              forall x p, sstep x p (classify body) = sstep x p (cmd_abs cmd)
  | Err e => e <> EFuel /\ well_formed body = false
  | Panic _ => False
  end.
Proof.
  intro body. unfold command_of_str, well_formed, classify, spelled. rewrite tokens_line.
  destruct (tokens body) as [|w args]; [split; [discriminate | reflexivity]|].
  destruct (lbeq w (B "AUTH")) eqn:E1.
  { apply lbeq_eq in E1. subst w. destruct args as [|m [|h rest]]; cbn [nth_error].
    - repeat split; eauto.
    - repeat split; eauto. intros x p. apply (sstep_auth x p m None).
    - unfold hex_decode, hex_ok, ident_of. destruct (bytes_of_hex h) as [b|]; [|split; [discriminate | reflexivity]].
      repeat split; eauto. intros x p. apply (sstep_auth x p m (Some b)). }
  destruct (lbeq w (B "CANCEL")) eqn:E2.
  { apply lbeq_eq in E2. subst w. repeat split; eauto. }
  destruct (lbeq w (B "BEGIN")) eqn:E3.
  { apply lbeq_eq in E3. subst w. repeat split; eauto. }
  destruct (lbeq w (B "DATA")) eqn:E4.
  { apply lbeq_eq in E4. subst w. destruct args as [|h rest]; [repeat split; eauto|].
    unfold hex_decode, hex_ok, ident_of. cbn [nth_error].
    destruct (bytes_of_hex h) as [b|]; [repeat split; eauto | split; [discriminate | reflexivity]]. }
  destruct (lbeq w (B "ERROR")) eqn:E5.
  { apply lbeq_eq in E5. subst w. repeat split; eauto. }
  destruct (lbeq w (B "NEGOTIATE_UNIX_FD")) eqn:E6.
  { apply lbeq_eq in E6. subst w. repeat split; eauto. }
  destruct (lbeq w (B "REJECTED")) eqn:E7.
  { apply lbeq_eq in E7. subst w. repeat split; eauto. }
  destruct (lbeq w (B "OK")) eqn:E8.
  { apply lbeq_eq in E8. subst w. destruct args as [|g rest]; [split; [discriminate | reflexivity]|].
    change (guid_ok g) with (guid_valid g).
    destruct (guid_valid g) eqn:Eg; [repeat split; eauto | split; [discriminate | reflexivity]]. }
  destruct (lbeq w (B "AGREE_UNIX_FD")) eqn:E9.
  { apply lbeq_eq in E9. subst w. repeat split; eauto. }
  split; [discriminate | reflexivity].
Qed.

(* ---------------------------------------------------------------- what reading a line can give *)
(* a successfully read line is a CR LF terminated, LF-free body that the parser accepts;
   the reader never panics (the guard lf_index == 0) and never runs out of fuel *)
Lemma line_pure_result : forall s,
  match line_pure false s with
  | Some (Ok (cmd, rest)) =>
      exists body, s = body ++ [x0d; x0a] ++ rest /\ no_lf body = true /\ command_of_str (body ++ CRLF) = Ok cmd
  | Some (Err e) => e <> EFuel
  | Some (Panic _) => False
  | None => True
  end.
Proof.
  intro s. pose proof (line_view s) as L.
  destruct (cut_line s) as [[seg rest]|]; [destruct (rev seg) as [|c rbody]; [|destruct (negb (beq c x0d))]|];
    [rewrite L; discriminate .. | | rewrite L; exact I].
  destruct L as (Hs & Hn & ->). destruct (negb (utf8_valid (rev rbody ++ CRLF))); [discriminate|].
  pose proof (command_of_line (rev rbody)) as Hp.
  destruct (command_of_str (rev rbody ++ CRLF)) as [cmd|e|p] eqn:Ec; [exists (rev rbody); auto | apply Hp | exact Hp].
Qed.
