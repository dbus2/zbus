(* C28/History.v — well-formedness of the state is an invariant of dispatch, so the per-call theorems of
   C28/Proofs.v apply at every step of every history of calls. *)
From ZV Require Import Base.Bytes Base.WinnowFacts C26.Desc C26.Tree C26.Msg C28.Model C26.Model.
From ZV Require Import C28.Spec C26.Facts C28.Proofs.

(* ---------------------------------------------------------------- the tree after upd_at *)
Lemma find_kid_set_same s c kids : find_kid s (set_kid s c kids) = Some c.
Proof. exact (assoc_set_same s c kids). Qed.

Lemma find_kid_set_other s s' c kids : lbeq s s' = false -> find_kid s' (set_kid s c kids) = find_kid s' kids.
Proof. exact (assoc_set_other s s' c kids). Qed.

(* the instances found anywhere in the updated tree are the old ones, except that the named instance at
   the updated path carries the new values *)
Definition same_or_updated (iname : bytes) (vals : list (bytes * val)) (i' i : inst) : Prop :=
  in_desc i' = in_desc i /\ in_tag i' = in_tag i /\
  (in_vals i' = in_vals i \/ (id_name (in_desc i) = iname /\ in_vals i' = vals)).

Lemma upd_ifs_in iname vals l i' :
  In i' (upd_ifs iname vals l) -> exists i, In i l /\ same_or_updated iname vals i' i.
Proof.
  unfold upd_ifs. intro H. apply in_map_iff in H as (i & <- & Hin). exists i. split; [exact Hin|].
  destruct (lbeq (id_name (in_desc i)) iname) eqn:E; cbn; unfold same_or_updated; cbn; auto.
  apply lbeq_eq in E. auto.
Qed.

Definition inames (n : node) : list bytes := map (fun i => id_name (in_desc i)) (node_ifs n).

Lemma upd_ifs_names iname vals l :
  map (fun i => id_name (in_desc i)) (upd_ifs iname vals l) = map (fun i => id_name (in_desc i)) l.
Proof.
  unfold upd_ifs. rewrite map_map. apply map_ext. intro i. destruct (lbeq _ _); reflexivity.
Qed.

Lemma upd_at_child root segs iname vals : forall segs' n',
  get_child (upd_at root segs iname vals) segs' = Some n' ->
  exists n, get_child root segs' = Some n /\ inames n' = inames n /\
            forall i', In i' (node_ifs n') ->
                       exists i, In i (node_ifs n) /\
                                 (i' = i \/ (segs' = segs /\ same_or_updated iname vals i' i)).
Proof.
  revert root. induction segs as [|s r IH]; intros root segs' n'.
  - cbn [upd_at]. destruct segs' as [|s' r']; cbn [get_child node_kids].
    + intro H. inversion H; subst. exists root. split; [reflexivity|]. split; [apply upd_ifs_names|].
      cbn [node_ifs]. intros i' Hi'.
      apply upd_ifs_in in Hi' as (i & Hin & Hs). exists i. auto.
    + intro H. destruct (find_kid s' (node_kids root)) as [c|] eqn:E; [|discriminate].
      exists n'. split; [exact H|]. split; [reflexivity|]. intros i' Hi'. exists i'. auto.
  - cbn [upd_at]. destruct (find_kid s (node_kids root)) as [c|] eqn:Ek.
    2:{ intro H. exists n'. split; [exact H|]. split; [reflexivity|]. intros i' Hi'. exists i'. auto. }
    destruct segs' as [|s' r']; cbn [get_child node_kids node_ifs].
    + intro H. inversion H; subst. exists root. split; [reflexivity|]. split; [reflexivity|].
      cbn [node_ifs]. intros i' Hi'. exists i'. auto.
    + destruct (lbeq s s') eqn:Es.
      * apply lbeq_eq in Es. subst s'. rewrite find_kid_set_same, Ek. intro H.
        destruct (IH c r' n' H) as (n & Hg & Hnm & Hn). exists n. split; [exact Hg|]. split; [exact Hnm|].
        intros i' Hi'. destruct (Hn i' Hi') as (i & Hin & [->|[-> Hs]]); exists i; auto.
      * rewrite (find_kid_set_other _ _ _ _ Es). intro H. exists n'. split; [exact H|]. split; [reflexivity|].
        intros i' Hi'. exists i'. split; [exact Hi'|now left].
Qed.

(* ---------------------------------------------------------------- values after a setter ran *)
Lemma get_set_other k k' v l : lbeq k k' = false -> get_val k' (set_val k v l) = get_val k' l.
Proof. exact (assoc_set_other k k' v l). Qed.

Lemma nodup_names_distinct {A} (name : A -> bytes) l x y :
  nodupb (map name l) = true -> In x l -> In y l -> name x = name y -> x = y.
Proof. intros Hd Hx Hy E. apply (nodup_find_self name l _ Hd) in Hx, Hy. rewrite E in Hx. congruence. Qed.

Lemma inst_ok_set i p v :
  nodupb (map pd_name (id_props (in_desc i))) = true -> inst_ok i -> In p (id_props (in_desc i)) ->
  has_ty v (pd_ty p) = true ->
  inst_ok {| in_desc := in_desc i; in_tag := in_tag i; in_vals := set_val (pd_name p) v (in_vals i) |}.
Proof.
  intros Hnd Hi Hp Hv q Hq. cbn [in_desc in_vals] in *.
  destruct (lbeq (pd_name p) (pd_name q)) eqn:E.
  - apply lbeq_eq in E. assert (q = p) as -> by (symmetry; eapply (nodup_names_distinct pd_name); eauto).
    exists v. split; [apply get_set_same|exact Hv].
  - rewrite (get_set_other _ _ _ _ E). apply Hi. exact Hq.
Qed.

(* ---------------------------------------------------------------- the invariant *)
Section Inv.
  Variable bh : behaviour.

  Lemma convert_has_ty t sent v : convert t sent = Some v -> has_ty v t = true.
  Proof.
    unfold convert. destruct t; try (destruct (has_ty sent _) eqn:E; [|discriminate]; intro H; inversion H; subst; exact E).
    intro H. inversion H. reflexivity.
  Qed.

  (* a setter only ever stores a value of the property's type, under the property's name *)
  Lemma do_set_vals path i p sent vals :
    sr_vals (do_set bh path i p sent) = Some vals ->
    exists v, vals = set_val (pd_name p) v (in_vals i) /\ has_ty v (pd_ty p) = true.
  Proof.
    unfold do_set. destruct (convert (pd_ty p) sent) as [v|] eqn:Ec; [|discriminate].
    apply convert_has_ty in Ec.
    destruct (if pd_sfall p then _ else None) as [[e m]|]; [discriminate|].
    destruct (eff_emits p); try (intro H; inversion H; eauto; fail).
    destruct (run_getter _ _ _); intro H; inversion H; eauto.
  Qed.

  (* the state invariant: well-formed instances, and at most one instance of a name per node *)
  Definition state_ok (root : node) : Prop :=
    root_ok root /\ forall segs n, get_child root segs = Some n -> nodupb (inames n) = true.

  Lemma state_ok_upd root path i p v :
    state_ok root -> registered root path (iname i) = Some i -> In p (id_props (in_desc i)) ->
    has_ty v (pd_ty p) = true ->
    state_ok (upd_at root (segs_of path) (iname i) (set_val (pd_name p) v (in_vals i))).
  Proof.
    intros [Hok Hun] Hr Hp Hv. split.
    - intros segs' n' i' Hg Hin.
      destruct (upd_at_child _ _ _ _ _ _ Hg) as (n & Hgn & _ & Hn).
      destruct (Hn i' Hin) as (i0 & Hin0 & [->|[-> (Hd & Ht & [Hvals|[Hname Hvals]])]]).
      + apply (Hok _ _ _ Hgn Hin0).
      + destruct (Hok _ _ _ Hgn Hin0) as [Hw Hi]. split; [now rewrite Hd|].
        intros q Hq. rewrite Hd in Hq. rewrite Hvals. apply Hi. exact Hq.
      + (* the updated instance is i itself: names are unique in the node *)
        unfold registered in Hr. rewrite Hgn in Hr. unfold find_inst in Hr.
        assert (Hi_in : In i (node_ifs n)) by (apply find_some in Hr; tauto).
        assert (i0 = i) as ->.
        { apply (nodup_names_distinct (fun i => id_name (in_desc i)) (node_ifs n)); auto. apply (Hun _ _ Hgn). }
        destruct (Hok _ _ _ Hgn Hi_in) as [Hw Hi]. split; [now rewrite Hd|].
        destruct Hw as (_ & _ & Hnd).
        intros q Hq. rewrite Hd in Hq. rewrite Hvals.
        apply (inst_ok_set i p v Hnd Hi Hp Hv q Hq).
    - intros segs' n' Hg. destruct (upd_at_child _ _ _ _ _ _ Hg) as (n & Hgn & Hnm & _).
      rewrite Hnm. apply (Hun _ _ Hgn).
  Qed.

  Lemma props_set_state root path iface pname sent :
    state_ok root -> state_ok (pr_root (props_set bh root path iface pname sent)).
  Proof.
    intro Hs. destruct (registered root path iface) as [i|] eqn:Hr.
    2:{ unfold props_set. now destruct (unregistered_lookup _ _ _ Hr) as [-> | ->]. }
    destruct (registered_valid _ _ _ _ (proj1 Hs) Hr) as (_ & (_ & _ & Hnd) & _ & Hn).
    rewrite (props_set_registered _ _ _ _ _ _ _ Hr Hnd).
    destruct (find_prop (in_desc i) pname) as [p|] eqn:Fp; [|exact Hs]. destruct (writable p); [|exact Hs].
    cbn [pr_root]. destruct (sr_vals (do_set bh path i p sent)) as [vals|] eqn:E; [|exact Hs].
    apply do_set_vals in E as (v & -> & Hv). apply find_prop_name in Fp as [_ Hp].
    apply state_ok_upd; auto. unfold iname. now rewrite Hn.
  Qed.

  (* dispatch preserves the invariant: only a successful setter changes the tree *)
  Lemma props_get_root root path iface pname : pr_root (props_get bh root path iface pname) = root.
  Proof. unfold props_get. now case_all. Qed.
  Lemma props_get_all_root root path iface : pr_root (props_get_all bh root path iface) = root.
  Proof. unfold props_get_all. now case_all. Qed.

  Lemma std_call_state root n path d member c : state_ok root -> state_ok (snd (std_call bh root n path d member c)).
  Proof.
    intro Hs. unfold std_call, of_presult.
    case_all; cbn [snd]; rewrite ?props_get_root, ?props_get_all_root; auto using props_set_state.
  Qed.

  Theorem dispatch_state root c : state_ok root -> state_ok (snd (dispatch bh root c)).
  Proof. intro Hs. unfold dispatch. case_all; cbn [snd]; auto using std_call_state. Qed.

  (* every state a history of calls reaches is well-formed *)
  Fixpoint run_calls (root : node) (cs : list call) : node :=
    match cs with [] => root | c :: r => run_calls (snd (dispatch bh root c)) r end.

  Theorem history_state cs : forall root, state_ok root -> state_ok (run_calls root cs).
  Proof. induction cs as [|c r IH]; intros root Hs; cbn; [exact Hs|]. apply IH. now apply dispatch_state. Qed.

  (* ---------------------------------------------------------------- requests, uniformly *)
  Inductive preq := QGet (iface pname : bytes) | QGetAll (iface : bytes) | QSet (iface pname : bytes) (sent : val).

  Definition req_call (path : bytes) (nr : bool) (q : preq) : call :=
    match q with
    | QGet iface pname => props_call path nr (B "Get") [VS iface; VS pname]
    | QGetAll iface => props_call path nr (B "GetAll") [VS iface]
    | QSet iface pname sent => props_call path nr (B "Set") [VS iface; VS pname; VV sent]
    end.
  Definition req_spec (nr : bool) (root : node) (path : bytes) (q : preq) : expect :=
    match q with
    | QGet iface pname => spec_get bh nr root path iface pname
    | QGetAll iface => spec_get_all bh nr root path iface
    | QSet iface pname sent => spec_set bh nr root path iface pname sent
    end.
  (* the known-deviation classes of C28, on the current state *)
  Definition req_known (root : node) (path : bytes) (q : preq) : Prop :=
    match q with
    | QGet iface pname =>                                   (* variant_typed_property *)
        exists i p, registered root path iface = Some i /\ find_prop (in_desc i) pname = Some p /\
                    readable p = true /\ tv p = true
    | QGetAll iface =>                                      (* getall_omits_failed, variant_typed_property *)
        exists i p v, registered root path iface = Some i /\ In p (id_props (in_desc i)) /\ readable p = true /\
                      get_val (pd_name p) (in_vals i) = Some v /\ (tv p = true \/ getter_error bh i p v <> None)
    | QSet iface pname sent =>                              (* variant_typed_property, changed_getter_fails *)
        exists i p, registered root path iface = Some i /\ find_prop (in_desc i) pname = Some p /\
                    writable p = true /\ set_known bh i p sent
    end.

  Theorem request_partial root path nr q :
    root_ok root -> ~ req_known root path q ->
    meets (req_spec nr root path q) (dispatch bh root (req_call path nr q)).
  Proof.
    intros Hok Hk. destruct q as [iface pname|iface|iface pname sent]; cbn [req_spec req_call req_known] in *.
    - apply get_partial; [exact Hok|]. intros i p Hr Hf Hrd. destruct (tv p) eqn:E; [|reflexivity].
      exfalso. apply Hk. eauto 8.
    - apply get_all_partial; [exact Hok|]. intros i p v Hr Hin Hrd Hg. split.
      + destruct (tv p) eqn:E; [|reflexivity]. exfalso. apply Hk. exists i, p, v. auto 8.
      + destruct (getter_error bh i p v) eqn:E; [|reflexivity]. exfalso. apply Hk. exists i, p, v.
        repeat split; auto. right. congruence.
    - apply set_partial; [exact Hok|]. intros i p Hr Hf Hw Hs. apply Hk. eauto 8.
  Qed.

  (* over histories: after ANY sequence of calls, the next Properties request outside the classes (decided
     on the state the history reached) is answered as the definitions say *)
  Theorem history_partial cs root path nr q :
    state_ok root -> ~ req_known (run_calls root cs) path q ->
    meets (req_spec nr (run_calls root cs) path q) (dispatch bh (run_calls root cs) (req_call path nr q)).
  Proof. intros Hs Hk. apply request_partial; [|exact Hk]. exact (proj1 (history_state cs root Hs)). Qed.
End Inv.
