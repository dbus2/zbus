(* C28/Proofs.v — the Properties interface behaves as the property definitions say: theorems over ALL
   interface descriptions, node trees, property values and getter / setter behaviours, one call at a time
   (histories of calls: C28/History.v). *)
From ZV Require Import Base.Bytes Base.WinnowFacts C26.Desc C26.Tree C26.Msg C27.Model C28.Model C26.Model.
From ZV Require Import C28.Spec C26.Facts.
From ZV Require C10.Model.

(* ---------------------------------------------------------------- well-formed states *)
(* every property of the instance holds a value of its declared type (the struct's fields are typed) *)
Definition inst_ok (i : inst) : Prop :=
  forall p, In p (id_props (in_desc i)) -> exists v, get_val (pd_name p) (in_vals i) = Some v /\ has_ty v (pd_ty p) = true.

Definition is_std (name : bytes) : bool := existsb (fun d => lbeq (id_name d) name) std_ifaces.

(* what the macro and the compiler guarantee of a registered interface *)
Definition desc_wf (d : idesc) : Prop :=
  is_std (id_name d) = false /\ C10.Model.validate_interface (id_name d) = true /\
  nodupb (map pd_name (id_props d)) = true.

Definition root_ok (root : node) : Prop :=
  forall segs n i, get_child root segs = Some n -> In i (node_ifs n) -> desc_wf (in_desc i) /\ inst_ok i.

Definition props_call (path : bytes) (noreply : bool) (member : bytes) (args : list val) : call :=
  {| c_path := Some path; c_iface := Some props_name; c_member := Some member; c_noreply := noreply; c_args := args |}.

(* a property of Rust type OwnedValue: the class variant_typed_property *)
Definition tv (p : pdesc) : bool := ty_eqb (pd_ty p) TV.

Section P.
  Variable bh : behaviour.

  (* ================================================================ routing of a Properties call *)
  Lemma no_std_inst root segs n :
    root_ok root -> get_child root segs = Some n -> find_inst n props_name = None.
  Proof.
    intros Hok Hg. destruct (find_inst n props_name) as [i|] eqn:E; [|reflexivity].
    apply find_inst_in in E as [Hn Hin]. destruct (Hok _ _ _ Hg Hin) as [[Hs _] _].
    rewrite Hn in Hs. discriminate.
  Qed.

  Lemma registered_valid root path iface i :
    root_ok root -> registered root path iface = Some i ->
    C10.Model.validate_interface iface = true /\ desc_wf (in_desc i) /\ inst_ok i /\ id_name (in_desc i) = iface.
  Proof.
    unfold registered. intros Hok H. destruct (get_child root (segs_of path)) as [n|] eqn:Hg; [|discriminate].
    apply find_inst_in in H as [Hn Hin]. destruct (Hok _ _ _ Hg Hin) as [Hw Hi].
    destruct Hw as (H1 & H2 & H3). rewrite Hn in H2. repeat split; auto; now rewrite Hn in *.
  Qed.

  (* with no user instance called Properties, the call reaches the standard interface of the object *)
  Lemma route_props root path nr member args :
    root_ok root ->
    dispatch bh root (props_call path nr member args) =
    match get_child root (segs_of path) with
    | None => (reply_only (RErr EUnknownObject None), root)
    | Some n => std_call bh root n path props_desc member (props_call path nr member args)
    end.
  Proof.
    intro Hok. unfold dispatch. cbn [props_call c_path c_iface c_member].
    destruct (get_child root (segs_of path)) as [n|] eqn:Hg; [|reflexivity].
    now rewrite (no_std_inst _ _ _ Hok Hg).
  Qed.

  Definition routed (root : node) (path iface : bytes) (c : call) (r : presult) : effects * node :=
    match get_child root (segs_of path) with
    | None => (reply_only (RErr EUnknownObject None), root)
    | Some _ => if C10.Model.validate_interface iface then of_presult c r else (reply_only (RErr EInvalidArgs None), root)
    end.

  Lemma route_get root path nr iface pname :
    root_ok root ->
    dispatch bh root (props_call path nr (B "Get") [VS iface; VS pname]) =
    routed root path iface (props_call path nr (B "Get") [VS iface; VS pname]) (props_get bh root path iface pname).
  Proof. intro Hok. now rewrite (route_props _ _ _ _ _ Hok). Qed.

  Lemma route_get_all root path nr iface :
    root_ok root ->
    dispatch bh root (props_call path nr (B "GetAll") [VS iface]) =
    routed root path iface (props_call path nr (B "GetAll") [VS iface]) (props_get_all bh root path iface).
  Proof. intro Hok. now rewrite (route_props _ _ _ _ _ Hok). Qed.

  Lemma route_set root path nr iface pname sent :
    root_ok root ->
    dispatch bh root (props_call path nr (B "Set") [VS iface; VS pname; VV sent]) =
    routed root path iface (props_call path nr (B "Set") [VS iface; VS pname; VV sent])
           (props_set bh root path iface pname sent).
  Proof. intro Hok. now rewrite (route_props _ _ _ _ _ Hok). Qed.

  Lemma is_std_valid iface : is_std iface = true -> C10.Model.validate_interface iface = true.
  Proof.
    unfold is_std. intro H. apply existsb_exists in H as (d & Hd & E). apply lbeq_eq in E. subst iface.
    destruct Hd as [<-|[<-|[<-|[]]]]; reflexivity.
  Qed.

  (* ================================================================ the generated lookups; values of non-variant types *)
  Lemma lookup_registered root path iface :
    lookup_iface root path iface =
    match registered root path iface with
    | Some i => TgUser i
    | None => match get_child root (segs_of path) with
              | Some _ => if is_std iface then TgStd else TgNone
              | None => TgNone
              end
    end.
  Proof.
    unfold lookup_iface, registered, is_std. destruct (get_child root (segs_of path)); [|reflexivity].
    destruct (find_inst n iface); reflexivity.
  Qed.

  (* a value of a non-variant type is not a variant: Value::from leaves it as it is *)
  Lemma content_id v t : has_ty v t = true -> ty_eqb t TV = false -> content v = v.
  Proof. intros H Ht. apply has_ty_sig in H. destruct v; try reflexivity. destruct t; cbn in *; discriminate. Qed.

  Lemma convert_typed v t : ty_eqb t TV = false -> convert t v = if has_ty v t then Some v else None.
  Proof. destruct t; cbn; try reflexivity. discriminate. Qed.

  Lemma getter_of_unique d pname :
    nodupb (map pd_name (id_props d)) = true ->
    getter_of d pname = match find_prop d pname with Some p => if readable p then Some p else None | None => None end.
  Proof. intro H. unfold getter_of, find_prop. apply (find_unique pd_name readable). exact H. Qed.

  Lemma setter_of_unique d pname :
    nodupb (map pd_name (id_props d)) = true ->
    setter_of d pname = match find_prop d pname with Some p => if writable p then Some p else None | None => None end.
  Proof. intro H. unfold setter_of, find_prop. apply (find_unique pd_name writable). exact H. Qed.

  Lemma gen_set_mut_unique d pname :
    nodupb (map pd_name (id_props d)) = true ->
    gen_set_mut d pname =
    match find_prop d pname with Some p => if writable p && pd_smut p then Some p else None | None => None end.
  Proof.
    intro H. unfold gen_set_mut, find_prop. apply (find_unique pd_name (fun p => writable p && pd_smut p)). exact H.
  Qed.

  (* ================================================================ the two ways a request ends early *)
  (* a registered interface has a valid name and stands on an existing object *)
  Lemma routed_registered root path iface c r i :
    root_ok root -> registered root path iface = Some i -> routed root path iface c r = of_presult c r.
  Proof.
    intros Hok Hr. unfold routed. destruct (registered_valid _ _ _ _ Hok Hr) as [-> _].
    unfold registered in Hr. now destruct (get_child root (segs_of path)).
  Qed.

  Lemma meets_any_error nr root e c :
    c_noreply c = nr -> meets (quiet nr root XErrAny) (finish c [] [] (RErr e None), root).
  Proof. intro H. apply (meets_finish _ _ _ _ _ _ _ H). cbn. eauto. Qed.

  Lemma meets_any_error_sent nr root e : meets (quiet nr root XErrAny) (reply_only (RErr e None), root).
  Proof. apply meets_error_sent. cbn. eauto. Qed.

  Definition failed (root : node) (r : presult) : Prop :=
    exists e, r = {| pr_log := []; pr_reply := RErr e None; pr_signals := []; pr_root := root |}.

  Lemma routed_failed root path iface nr member args r :
    failed root r -> meets (quiet nr root XErrAny) (routed root path iface (props_call path nr member args) r).
  Proof.
    intros [e ->]. unfold routed. destruct (get_child root (segs_of path)); [|apply meets_any_error_sent].
    destruct (C10.Model.validate_interface iface); [now apply meets_any_error|apply meets_any_error_sent].
  Qed.

  (* no such object, or no such interface on it *)
  Lemma unregistered_lookup root path iface :
    registered root path iface = None -> lookup_iface root path iface = TgStd \/ lookup_iface root path iface = TgNone.
  Proof.
    intro Hr. rewrite lookup_registered, Hr. destruct (get_child root (segs_of path)); [destruct (is_std iface)|]; auto.
  Qed.

  (* ================================================================ Get *)
  Theorem get_partial root path nr iface pname :
    root_ok root ->
    (forall i p, registered root path iface = Some i -> find_prop (in_desc i) pname = Some p -> readable p = true ->
                 tv p = false) ->
    meets (spec_get bh nr root path iface pname)
          (dispatch bh root (props_call path nr (B "Get") [VS iface; VS pname])).
  Proof.
    intros Hok Hcl. rewrite (route_get _ _ _ _ _ Hok). unfold spec_get.
    destruct (registered root path iface) as [i|] eqn:Hr.
    2:{ apply routed_failed. unfold props_get. destruct (unregistered_lookup _ _ _ Hr) as [-> | ->]; eexists; reflexivity. }
    rewrite (routed_registered _ _ _ _ _ _ Hok Hr).
    destruct (registered_valid _ _ _ _ Hok Hr) as (_ & (_ & _ & Hnd) & Hi & _).
    unfold of_presult, props_get, gen_get. rewrite lookup_registered, Hr, (getter_of_unique _ _ Hnd).
    destruct (find_prop (in_desc i) pname) as [p|] eqn:Fp; [|now apply meets_any_error].
    destruct (readable p) eqn:Rp; [|now apply meets_any_error].
    pose proof (find_prop_name _ _ _ Fp) as [Hpn Hpin]. destruct (Hi p Hpin) as (v & Hgv & Hty).
    specialize (Hcl i p eq_refl Fp Rp). subst pname.
    unfold run_getter, getter_error, iname. rewrite Hgv.
    destruct (if pd_gfall p then bh_gfail bh (id_name (in_desc i)) (pd_name p) v else None) as [[e m]|].
    - now apply meets_finish.
    - rewrite (content_id _ _ Hty Hcl). now apply meets_finish.
  Qed.

  (* ================================================================ GetAll *)
  Lemma getall_aux i ps :
    inst_ok i -> incl ps (id_props (in_desc i)) ->
    (forall p v, In p ps -> readable p = true -> get_val (pd_name p) (in_vals i) = Some v ->
                 tv p = false /\ getter_error bh i p v = None) ->
    exists m, gen_get_all_aux bh i ps = (map (fun p => LGet (in_tag i) (pd_name p)) (filter readable ps), m) /\
              all_values bh i (filter readable ps) = Some m.
  Proof.
    intros Hi. induction ps as [|p r IH]; intros Hincl Hcl; [exists []; split; reflexivity|].
    destruct IH as (m & Hm & Ha).
    { intros x Hx. apply Hincl. now right. }
    { intros q v Hq. apply Hcl. now right. }
    cbn [gen_get_all_aux filter]. rewrite Hm. destruct (readable p) eqn:Rp; [|exists m; split; [reflexivity|assumption]].
    destruct (Hi p (Hincl p (or_introl eq_refl))) as (v & Hgv & Hty).
    destruct (Hcl p v (or_introl eq_refl) Rp Hgv) as [Htv Hge].
    unfold run_getter. rewrite Hgv. unfold getter_error, iname in *. rewrite Hge.
    exists ((pd_name p, v) :: m). cbn [map all_values]. rewrite Hgv, Ha. unfold getter_error. rewrite Hge.
    rewrite (content_id _ _ Hty Htv). split; reflexivity.
  Qed.

  Theorem get_all_partial root path nr iface :
    root_ok root ->
    (forall i p v, registered root path iface = Some i -> In p (id_props (in_desc i)) -> readable p = true ->
                   get_val (pd_name p) (in_vals i) = Some v -> tv p = false /\ getter_error bh i p v = None) ->
    meets (spec_get_all bh nr root path iface)
          (dispatch bh root (props_call path nr (B "GetAll") [VS iface])).
  Proof.
    intros Hok Hcl. rewrite (route_get_all _ _ _ _ Hok). unfold spec_get_all.
    destruct (registered root path iface) as [i|] eqn:Hr.
    2:{ (* a standard interface of an existing object has no properties; anything else fails *)
        fold (is_std iface). unfold routed, of_presult, props_get_all. rewrite lookup_registered, Hr.
        destruct (get_child root (segs_of path)); [|rewrite andb_false_r; apply meets_any_error_sent].
        destruct (is_std iface) eqn:Hs; [rewrite (is_std_valid _ Hs); now apply meets_finish|].
        destruct (C10.Model.validate_interface iface); [now apply meets_any_error|apply meets_any_error_sent]. }
    rewrite (routed_registered _ _ _ _ _ _ Hok Hr).
    destruct (registered_valid _ _ _ _ Hok Hr) as (_ & _ & Hi & _).
    destruct (getall_aux i (id_props (in_desc i)) Hi (incl_refl _)) as (m & Hm & Ha).
    { intros p v Hp. apply (Hcl i p v eq_refl Hp). }
    unfold of_presult, props_get_all, gen_get_all, readable_props. rewrite lookup_registered, Hr, Hm, Ha.
    now apply meets_finish.
  Qed.

  (* ================================================================ Set *)
  Lemma meets_quiet_keep nr root e c lg :
    c_noreply c = nr -> lg = [] ->
    meets (quiet nr root XErrAny) (finish c lg [] (RErr e None), root).
  Proof. intros <- ->. apply meets_any_error. reflexivity. Qed.

  (* the class: the property is variant-typed, or the getter called for the change signal fails *)
  Definition set_known (i : inst) (p : pdesc) (sent : val) : Prop :=
    tv p = true \/
    (has_ty sent (pd_ty p) = true /\ setter_error bh i p sent = None /\ eff_emits p = ETrue /\
     getter_error bh i p sent <> None).

  Lemma get_set_same k v l : get_val k (set_val k v l) = Some v.
  Proof. exact (assoc_set_same k v l). Qed.

  (* the setter body, once the sent value converts: a failing setter stores nothing ... *)
  Lemma do_set_setter_fails path i p sent v e m :
    convert (pd_ty p) sent = Some v -> setter_error bh i p v = Some (e, m) ->
    do_set bh path i p sent =
    {| sr_log := [LSet (in_tag i) (pd_name p) v]; sr_reply := RErr e (Some m); sr_vals := None; sr_signals := [] |}.
  Proof. intros Hc Hs. unfold do_set. rewrite Hc. unfold setter_error in Hs. unfold iname. now rewrite Hs. Qed.

  (* ... a succeeding one stores the value, and the change is signalled as the annotation says, provided the
     getter called for `true` succeeds on the new value *)
  Lemma do_set_ok path i p sent v :
    convert (pd_ty p) sent = Some v -> setter_error bh i p v = None ->
    (eff_emits p = ETrue -> getter_error bh i p v = None) ->
    do_set bh path i p sent =
    {| sr_log := LSet (in_tag i) (pd_name p) v ::
                 (if readable p then match pd_emits p with ETrue => [LGet (in_tag i) (pd_name p)] | _ => [] end else []);
       sr_reply := RRet []; sr_vals := Some (set_val (pd_name p) v (in_vals i));
       sr_signals := spec_changed path i p (content v) |}.
  Proof.
    intros Hc Hs Hg. unfold do_set. rewrite Hc. unfold setter_error in Hs. unfold iname. rewrite Hs.
    unfold spec_changed, eff_emits in *. destruct (readable p); [|reflexivity]. destruct (pd_emits p); try reflexivity.
    unfold run_getter, iname. cbn [in_vals in_desc]. rewrite get_set_same.
    specialize (Hg eq_refl). unfold getter_error in Hg. now rewrite Hg.
  Qed.

  (* a writable property: both branches of the `&self` / `&mut self` split run the same body *)
  Lemma props_set_registered root path iface pname sent i :
    registered root path iface = Some i -> nodupb (map pd_name (id_props (in_desc i))) = true ->
    props_set bh root path iface pname sent =
    match find_prop (in_desc i) pname with
    | Some p =>
        if writable p then
          let r := do_set bh path i p sent in
          {| pr_log := sr_log r; pr_reply := sr_reply r; pr_signals := sr_signals r;
             pr_root := match sr_vals r with Some vals => upd_at root (segs_of path) (iname i) vals | None => root end |}
        else {| pr_log := []; pr_reply := RErr EUnknownProperty None; pr_signals := []; pr_root := root |}
    | None => {| pr_log := []; pr_reply := RErr EUnknownProperty None; pr_signals := []; pr_root := root |}
    end.
  Proof.
    intros Hr Hnd. unfold props_set, gen_set.
    rewrite lookup_registered, Hr, (setter_of_unique _ _ Hnd), (gen_set_mut_unique _ _ Hnd).
    destruct (find_prop (in_desc i) pname) as [p|]; [|reflexivity]. destruct (writable p); [|reflexivity].
    now destruct (pd_smut p).
  Qed.

  Theorem set_partial root path nr iface pname sent :
    root_ok root ->
    (forall i p, registered root path iface = Some i -> find_prop (in_desc i) pname = Some p -> writable p = true ->
                 ~ set_known i p sent) ->
    meets (spec_set bh nr root path iface pname sent)
          (dispatch bh root (props_call path nr (B "Set") [VS iface; VS pname; VV sent])).
  Proof.
    intros Hok Hcl. rewrite (route_set _ _ _ _ _ _ Hok). unfold spec_set.
    destruct (registered root path iface) as [i|] eqn:Hr.
    2:{ apply routed_failed. unfold props_set. destruct (unregistered_lookup _ _ _ Hr) as [-> | ->]; eexists; reflexivity. }
    rewrite (routed_registered _ _ _ _ _ _ Hok Hr).
    destruct (registered_valid _ _ _ _ Hok Hr) as (_ & (_ & _ & Hnd) & Hi & Hn).
    rewrite (props_set_registered _ _ _ _ _ _ Hr Hnd). unfold of_presult.
    destruct (find_prop (in_desc i) pname) as [p|] eqn:Fp; [|now apply meets_any_error].
    destruct (writable p) eqn:Wp; [|now apply meets_any_error].
    pose proof (find_prop_name _ _ _ Fp) as [Hpn _].
    specialize (Hcl i p eq_refl Fp Wp). unfold set_known, tv in Hcl.
    assert (Htv : ty_eqb (pd_ty p) TV = false) by (destruct (ty_eqb (pd_ty p) TV); [now destruct Hcl; left|reflexivity]).
    pose proof (convert_typed sent _ Htv) as Hc. cbn zeta. cbn [andb]. subst pname. rewrite <- Hn.
    destruct (has_ty sent (pd_ty p)) eqn:Hty.
    2:{ unfold do_set. rewrite Hc. now apply meets_any_error. }
    destruct (setter_error bh i p sent) as [[e m]|] eqn:Es.
    { rewrite (do_set_setter_fails _ _ _ _ _ _ _ Hc Es). now apply meets_finish. }
    rewrite (do_set_ok _ _ _ _ _ Hc Es), (content_id _ _ Hty Htv); [now apply meets_finish|].
    intro Em. destruct (getter_error bh i p sent) eqn:E; [|reflexivity]. destruct Hcl. right. repeat split; congruence.
  Qed.
End P.
