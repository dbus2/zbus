(* C28/Examples.v — concrete instances (non-vacuity) and the refutation witnesses of the three classes. *)
From ZV Require Import Base.Bytes C26.Desc C26.Tree C26.Msg C26.Std C27.Model C26.Model.
From ZV Require Import C28.Spec C28.Proofs C28.History C28.Registration.

Definition mkp (n : bytes) (t : ty) (a : access) (e : emits) (gf sf : bool) : pdesc :=
  {| pd_name := n; pd_ty := t; pd_acc := a; pd_emits := e; pd_gfall := gf; pd_sfall := sf; pd_smut := true;
     pd_gasync := false; pd_sasync := false; pd_doc := [] |}.

Definition px_d : idesc :=
  {| id_name := B "org.zv.Px"; id_methods := []; id_signals := [];
     id_props := [mkp (B "PTrue") TU ARW ETrue false false; mkp (B "PInval") TS ARW EInval false false;
                  mkp (B "PConst") TU ARW EConst false false; mkp (B "PRo") TU AR ETrue false false;
                  mkp (B "PWo") TS AW EFalse false false; mkp (B "PGf") TU ARW ETrue true false;
                  mkp (B "PVar") TV ARW EFalse false false] |}.

Definition px_path : bytes := B "/zv/a".
Definition px_i : inst := new_inst px_d px_path.
Definition px_root : node := fst (add_at empty_node (segs_of px_path) px_i).

(* user code: the fallible getter fails on odd values, nothing else fails *)
Definition px_bh : behaviour :=
  {| bh_method := fun _ _ _ => HOk [];
     bh_gfail := fun _ _ v => match v with VU n => if N.odd n then Some (EFailed, B "odd") else None | _ => None end;
     bh_sfail := fun _ _ _ => None |}.

Lemma px_inst_ok : inst_ok px_i.
Proof.
  intros p Hp. cbn in Hp. repeat (destruct Hp as [<-|Hp]; [eexists; split; reflexivity|]). destruct Hp.
Qed.

Lemma px_state_ok : state_ok px_root.
Proof. apply state_ok_add; [apply state_ok_empty|repeat split; reflexivity|apply px_inst_ok]. Qed.

(* ---- a history: Set PTrue (one PropertiesChanged with the value), Set PInval (one naming it), Set PConst
        (none), then GetAll lists exactly the readable properties with the values just written *)
Definition px_history : list call :=
  [props_call px_path false (B "Set") [VS (id_name px_d); VS (B "PTrue"); VV (VU 8)];
   props_call px_path false (B "Set") [VS (id_name px_d); VS (B "PInval"); VV (VS (B "x"))];
   props_call px_path true (B "Set") [VS (id_name px_d); VS (B "PConst"); VV (VU 2)]].

Example px_signals :
  ef_signals (fst (dispatch px_bh px_root (nth 0 px_history (props_call [] false [] [])))) =
    [{| sg_path := px_path; sg_iface := props_name; sg_member := B "PropertiesChanged";
        sg_body := [VS (id_name px_d); VP [(B "PTrue", VU 8)]; VL []] |}] /\
  ef_signals (fst (dispatch px_bh px_root (nth 1 px_history (props_call [] false [] [])))) =
    [{| sg_path := px_path; sg_iface := props_name; sg_member := B "PropertiesChanged";
        sg_body := [VS (id_name px_d); VP []; VL [B "PInval"]] |}] /\
  ef_signals (fst (dispatch px_bh px_root (nth 2 px_history (props_call [] false [] [])))) = [].
Proof. repeat split; reflexivity. Qed.

Example px_after_history :
  let st := run_calls px_bh px_root px_history in
  ~ req_known px_bh st px_path (QGet (id_name px_d) (B "PTrue")) /\
  x_reply (req_spec px_bh false st px_path (QGet (id_name px_d) (B "PTrue"))) = XRet [VV (VU 8)] /\
  meets (req_spec px_bh false st px_path (QGet (id_name px_d) (B "PTrue")))
        (dispatch px_bh st (req_call px_path false (QGet (id_name px_d) (B "PTrue")))).
Proof.
  cbn zeta. assert (Hk : ~ req_known px_bh (run_calls px_bh px_root px_history) px_path (QGet (id_name px_d) (B "PTrue"))).
  { intros (i & p & Hr & Hf & _ & Ht). vm_compute in Hr. inversion Hr; subst i. vm_compute in Hf. inversion Hf; subst p.
    discriminate. }
  split; [exact Hk|]. split; [reflexivity|]. apply history_partial; [apply px_state_ok|exact Hk].
Qed.

(* read-only, unknown and wrongly-typed Sets: an error, setter not run, nothing changes *)
Example px_rejects :
  forall q, In q [QSet (id_name px_d) (B "PRo") (VU 1); QSet (id_name px_d) (B "PNope") (VU 1);
                  QSet (id_name px_d) (B "PTrue") (VS (B "x")); QSet (B "org.zv.Nope") (B "PTrue") (VU 1)] ->
    exists e, dispatch px_bh px_root (req_call px_path false q) = (reply_only (RErr e None), px_root) \/
              dispatch px_bh px_root (req_call px_path false q) =
                ({| ef_replies := [RErr e None]; ef_log := []; ef_signals := [] |}, px_root).
Proof.
  intros q Hq. cbn in Hq. repeat (destruct Hq as [<-|Hq]; [eexists; right; reflexivity|]). destruct Hq.
Qed.

(* ---------------------------------------------------------------- the refutations *)
Definition refutes28 (q : preq) : Prop :=
  root_ok px_root /\ req_known px_bh px_root px_path q /\
  ~ meets (req_spec px_bh false px_root px_path q) (dispatch px_bh px_root (req_call px_path false q)).

(* the state in which PGf's getter fails: an odd value written first *)
Definition px_root_odd : node := snd (dispatch px_bh px_root (props_call px_path false (B "Set") [VS (id_name px_d); VS (B "PGf"); VV (VU 3)])).

(* a Set whose setter succeeded is answered with an error, and no signal, because the getter called for the
   change notification fails — yet the value IS stored *)
Lemma changed_getter_fails_refuted :
  refutes28 (QSet (id_name px_d) (B "PGf") (VU 3)) /\
  get_val (B "PGf") (match registered px_root_odd px_path (id_name px_d) with Some i => in_vals i | None => [] end) = Some (VU 3).
Proof.
  split; [|reflexivity]. split; [apply px_state_ok|]. split.
  - exists px_i, (mkp (B "PGf") TU ARW ETrue true false). repeat split; try reflexivity.
    right. repeat split; try reflexivity. discriminate.
  - unfold meets. vm_compute. intros (H & _). discriminate.
Qed.

(* GetAll silently leaves out a property whose getter fails *)
Lemma getall_omits_failed_refuted :
  root_ok px_root_odd /\ req_known px_bh px_root_odd px_path (QGetAll (id_name px_d)) /\
  ~ meets (req_spec px_bh false px_root_odd px_path (QGetAll (id_name px_d)))
          (dispatch px_bh px_root_odd (req_call px_path false (QGetAll (id_name px_d)))) /\
  exists m, ef_replies (fst (dispatch px_bh px_root_odd (req_call px_path false (QGetAll (id_name px_d))))) = [RRet [VP m]] /\
            get_val (B "PGf") m = None.
Proof.
  split; [apply (proj1 (dispatch_state px_bh px_root _ px_state_ok))|]. split.
  - eexists _, (mkp (B "PGf") TU ARW ETrue true false), (VU 3). repeat split; try reflexivity.
    + vm_compute. auto 10.
    + right. discriminate.
  - split.
    + unfold meets. vm_compute. intros ((e & m & H) & _). discriminate.
    + eexists. split; reflexivity.
Qed.

(* a property of Rust type OwnedValue is declared `v` but its Get reply carries the inner value directly *)
Lemma variant_typed_refuted : refutes28 (QGet (id_name px_d) (B "PVar")).
Proof.
  split; [apply px_state_ok|]. split.
  - exists px_i, (mkp (B "PVar") TV ARW EFalse false false). repeat split; reflexivity.
  - unfold meets. vm_compute. intros (H & _). discriminate.
Qed.

(* ... and a Set with a value that is not a variant is accepted *)
Lemma variant_typed_set_refuted : refutes28 (QSet (id_name px_d) (B "PVar") (VU 5)).
Proof.
  split; [apply px_state_ok|]. split.
  - exists px_i, (mkp (B "PVar") TV ARW EFalse false false). repeat split; try reflexivity. now left.
  - unfold meets. vm_compute. intros ((e & m & H) & _). discriminate.
Qed.

Lemma full_statement_refuted28 :
  ~ (forall (bh : behaviour) (root : node) (path : bytes) (nr : bool) (q : preq),
       root_ok root -> meets (req_spec bh nr root path q) (dispatch bh root (req_call path nr q))).
Proof. intro F. destruct variant_typed_refuted as (R1 & _ & R3). apply R3. apply F. exact R1. Qed.

Lemma changed_getter_fails_refuted_full :
  exists (bh : behaviour) (root : node) (path iface pname : bytes) (sent : val) (i : inst) (p : pdesc),
    root_ok root /\ registered root path iface = Some i /\ find_prop (in_desc i) pname = Some p /\
    writable p = true /\ tv p = false /\ has_ty sent (pd_ty p) = true /\ setter_error bh i p sent = None /\
    eff_emits p = ETrue /\ getter_error bh i p sent <> None /\
    ~ meets (spec_set bh false root path iface pname sent)
            (dispatch bh root (props_call path false (B "Set") [VS iface; VS pname; VV sent])) /\
    (* the reply is an error and there is no signal, yet the value was stored *)
    (exists e m, ef_replies (fst (dispatch bh root (props_call path false (B "Set") [VS iface; VS pname; VV sent]))) = [RErr e m]) /\
    ef_signals (fst (dispatch bh root (props_call path false (B "Set") [VS iface; VS pname; VV sent]))) = [] /\
    exists i', registered (snd (dispatch bh root (props_call path false (B "Set") [VS iface; VS pname; VV sent]))) path iface = Some i' /\
               get_val pname (in_vals i') = Some sent.
Proof.
  destruct changed_getter_fails_refuted as [(R1 & _ & R3) _].
  exists px_bh, px_root, px_path, (id_name px_d), (B "PGf"), (VU 3), px_i, (mkp (B "PGf") TU ARW ETrue true false).
  split; [exact R1|]. do 7 (split; [reflexivity|]). split; [discriminate|]. split; [exact R3|].
  split; [do 2 eexists; reflexivity|]. split; [reflexivity|]. eexists. split; reflexivity.
Qed.

Lemma getall_omits_failed_refuted_full :
  exists (bh : behaviour) (root : node) (path iface : bytes) (i : inst) (p : pdesc) (v : val),
    root_ok root /\ registered root path iface = Some i /\ In p (id_props (in_desc i)) /\ readable p = true /\
    get_val (pd_name p) (in_vals i) = Some v /\ getter_error bh i p v <> None /\
    ~ meets (spec_get_all bh false root path iface) (dispatch bh root (props_call path false (B "GetAll") [VS iface])) /\
    exists m, ef_replies (fst (dispatch bh root (props_call path false (B "GetAll") [VS iface]))) = [RRet [VP m]] /\
              get_val (pd_name p) m = None.
Proof.
  destruct getall_omits_failed_refuted as (R1 & _ & R3 & R4).
  eexists px_bh, px_root_odd, px_path, (id_name px_d), _, (mkp (B "PGf") TU ARW ETrue true false), (VU 3).
  split; [exact R1|]. split; [reflexivity|]. split; [vm_compute; auto 10|]. split; [reflexivity|].
  split; [reflexivity|]. split; [discriminate|]. split; [exact R3|exact R4].
Qed.

Lemma variant_typed_refuted_full :
  exists (bh : behaviour) (root : node) (path iface pname : bytes) (i : inst) (p : pdesc),
    root_ok root /\ registered root path iface = Some i /\ find_prop (in_desc i) pname = Some p /\
    pd_ty p = TV /\ pd_acc p = ARW /\
    ~ meets (spec_get bh false root path iface pname) (dispatch bh root (props_call path false (B "Get") [VS iface; VS pname])) /\
    (* a value that is not a variant is accepted by Set *)
    ef_replies (fst (dispatch bh root (props_call path false (B "Set") [VS iface; VS pname; VV (VU 5)]))) = [RRet []].
Proof.
  destruct variant_typed_refuted as (R1 & _ & R3).
  exists px_bh, px_root, px_path, (id_name px_d), (B "PVar"), px_i, (mkp (B "PVar") TV ARW EFalse false false).
  split; [exact R1|]. do 4 (split; [reflexivity|]). split; [exact R3|reflexivity].
Qed.
