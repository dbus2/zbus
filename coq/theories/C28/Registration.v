(* C28/Registration.v — the state invariant of C28 holds initially and is preserved by ObjectServer::at:
   every tree built by registrations of well-formed instances (and then any history of calls, C28/History.v)
   is [state_ok]. *)
From ZV Require Import Base.Bytes Base.WinnowFacts C26.Desc C26.Tree.
From ZV Require Import C28.Proofs C28.History.

Lemma get_child_empty segs n : get_child empty_node segs = Some n -> n = empty_node.
Proof. destruct segs; cbn; [intro H; now inversion H|discriminate]. Qed.

Lemma find_inst_none_names n x :
  find_inst n x = None -> existsb (lbeq x) (inames n) = false.
Proof.
  unfold find_inst, inames. induction (node_ifs n) as [|j l IH]; cbn; [reflexivity|].
  destruct (lbeq (id_name (in_desc j)) x) eqn:E; [discriminate|]. intro H. rewrite lbeq_sym, E. cbn. auto.
Qed.

Lemma nodupb_snoc l x : nodupb l = true -> existsb (lbeq x) l = false -> nodupb (l ++ [x]) = true.
Proof.
  induction l as [|y l IH]; cbn; [reflexivity|]. intros Hd Hx. apply andb_true_iff in Hd as [H1 H2].
  apply orb_false_iff in Hx as [Hxy Hxl]. apply andb_true_iff. split; [|auto].
  apply negb_true_iff. rewrite existsb_app. cbn. rewrite orb_false_r. apply negb_true_iff in H1. rewrite H1.
  cbn. now rewrite lbeq_sym.
Qed.

(* what a node of the tree after `at` looks like *)
Lemma add_at_child i : forall segs root segs' n',
  get_child (fst (add_at root segs i)) segs' = Some n' ->
  (forall j, In j (node_ifs n') -> j = i \/ exists n, get_child root segs' = Some n /\ In j (node_ifs n)) /\
  ((exists n, get_child root segs' = Some n /\
              (inames n' = inames n \/
               (inames n' = inames n ++ [id_name (in_desc i)] /\ find_inst n (id_name (in_desc i)) = None))) \/
   (get_child root segs' = None /\ (inames n' = [] \/ inames n' = [id_name (in_desc i)]))).
Proof.
  induction segs as [|s r IH]; intros root segs' n'.
  - cbn [add_at]. destruct (find_inst root (id_name (in_desc i))) eqn:Ef; cbn [fst].
    + intro H. split; [intros j Hj; right; eauto|]. left. exists n'. auto.
    + destruct segs' as [|s' r']; cbn [get_child node_kids].
      * intro H. inversion H; subst. cbn [node_ifs]. split.
        -- intros j Hj. apply in_app_or in Hj as [Hj|[<-|[]]]; [right; exists root; auto|now left].
        -- left. exists root. split; [reflexivity|]. right. unfold inames. cbn [node_ifs]. rewrite map_app. auto.
      * intro H. split; [intros j Hj; right; exists n'; auto|]. left. exists n'. auto.
  - cbn [add_at].
    destruct (add_at (match find_kid s (node_kids root) with Some c => c | None => empty_node end) r i) as [c' b] eqn:Ea.
    cbn [fst]. destruct segs' as [|s' r']; cbn [get_child node_kids node_ifs].
    + intro H. inversion H; subst. cbn [node_ifs]. split; [intros j Hj; right; exists root; auto|].
      left. exists root. split; [reflexivity|now left].
    + destruct (lbeq s s') eqn:Es.
      * apply lbeq_eq in Es. subst s'. rewrite find_kid_set_same. intro H.
        specialize (IH (match find_kid s (node_kids root) with Some c => c | None => empty_node end) r' n').
        rewrite Ea in IH. specialize (IH H). destruct IH as [I1 I2].
        destruct (find_kid s (node_kids root)) as [c|] eqn:Ek.
        -- split; [exact I1|exact I2].
        -- (* the child is new: below it the old tree has nothing *)
           split.
           ++ intros j Hj. destruct (I1 j Hj) as [->|(n & Hg & _)]; [now left|].
              apply get_child_empty in Hg. subst n. destruct (I1 j Hj) as [->|(n & Hg' & Hin)]; [now left|].
              apply get_child_empty in Hg'. subst n. destruct Hin.
           ++ right. split; [reflexivity|].
              destruct I2 as [(n & Hg & [Hn|[Hn _]])|[_ Hn]].
              ** apply get_child_empty in Hg. subst n. left. exact Hn.
              ** apply get_child_empty in Hg. subst n. right. exact Hn.
              ** exact Hn.
      * rewrite (find_kid_set_other _ _ _ _ Es). intro H.
        split; [intros j Hj; right; exists n'; cbn [get_child]; auto|]. left. exists n'. cbn [get_child]. auto.
Qed.

Lemma state_ok_empty : state_ok empty_node.
Proof.
  split.
  - intros segs n i Hg Hin. apply get_child_empty in Hg. subst n. destruct Hin.
  - intros segs n Hg. apply get_child_empty in Hg. subst n. reflexivity.
Qed.

Theorem state_ok_add root segs i :
  state_ok root -> desc_wf (in_desc i) -> inst_ok i -> state_ok (fst (add_at root segs i)).
Proof.
  intros [Hok Hun] Hw Hi. split.
  - intros segs' n' j Hg Hin. destruct (add_at_child i segs root segs' n' Hg) as [I1 _].
    destruct (I1 j Hin) as [->|(n & Hgn & Hjn)]; [split; assumption|]. apply (Hok _ _ _ Hgn Hjn).
  - intros segs' n' Hg. destruct (add_at_child i segs root segs' n' Hg) as [_ I2].
    destruct I2 as [(n & Hgn & [->|[-> Hf]])|[_ [->| ->]]]; try reflexivity.
    + apply (Hun _ _ Hgn).
    + apply nodupb_snoc; [apply (Hun _ _ Hgn)|now apply find_inst_none_names].
Qed.

Fixpoint register_all (root : node) (regs : list (list bytes * inst)) : node :=
  match regs with [] => root | (segs, i) :: r => register_all (fst (add_at root segs i)) r end.

Theorem state_ok_registered regs :
  Forall (fun e => desc_wf (in_desc (snd e)) /\ inst_ok (snd e)) regs -> state_ok (register_all empty_node regs).
Proof.
  assert (G : forall root, state_ok root ->
              Forall (fun e => desc_wf (in_desc (snd e)) /\ inst_ok (snd e)) regs -> state_ok (register_all root regs)).
  { induction regs as [|[segs i] r IH]; intros root Hs Hf; cbn; [exact Hs|].
    inversion Hf as [|? ? [Hw Hi] Hr]; subst. apply IH; [|exact Hr]. now apply state_ok_add. }
  apply G. exact state_ok_empty.
Qed.
