(* C24/Facts.v — basic facts about the association lists and the tree of C24/Model.v, shared by the
   proofs of C24 and C25: a tree is read through [ulookup], and get_child_mut + mutation
   ([with_node]) is described by what it does to these lookups. *)
From ZV Require Import Base.Bytes Base.Res Base.WinnowFacts C24.Ops C24.Model.

(* ---- equalities *)
Lemma path_eqb_eq (a : path) : forall b, path_eqb a b = true <-> a = b.
Proof.
  induction a as [|x a IH]; intros [|y b]; cbn; split; intros H; try reflexivity; try discriminate.
  - apply andb_true_iff in H as [H1 H2]. apply lbeq_eq in H1. apply IH in H2. congruence.
  - inversion H; subst. rewrite lbeq_refl. cbn. apply IH; reflexivity.
Qed.

Lemma path_eqb_refl (a : path) : path_eqb a a = true.
Proof. apply path_eqb_eq; reflexivity. Qed.

Lemma path_eqb_false (a b : path) : path_eqb a b = false <-> a <> b.
Proof. apply (eqb_false path_eqb path_eqb_eq). Qed.

Lemma iface_eqb_eq (a b : iface) : iface_eqb a b = true <-> a = b.
Proof. destruct a, b; cbn; split; intros H; try reflexivity; try discriminate. Qed.

Lemma iface_eqb_refl (a : iface) : iface_eqb a a = true.
Proof. destruct a; reflexivity. Qed.

Lemma iface_eqb_false (a b : iface) : iface_eqb a b = false <-> a <> b.
Proof. apply (eqb_false iface_eqb iface_eqb_eq). Qed.

Lemma kind_eqb_eq (a b : kind) : kind_eqb a b = true <-> a = b.
Proof. destruct a, b; cbn; split; intros H; try reflexivity; try discriminate. Qed.

Lemma kind_eqb_refl (a : kind) : kind_eqb a a = true.
Proof. destruct a; reflexivity. Qed.

Lemma ik_eqb (a b : kind) : iface_eqb (ik a) (ik b) = kind_eqb a b.
Proof. destruct a, b; reflexivity. Qed.

Lemma ik_not_std3 k : std3 (ik k) = false.
Proof. destruct k; reflexivity. Qed.

(* ---- interface maps and children maps *)
Lemma find_del_iface k k' l : find_iface k' (del_iface k l) = if iface_eqb k' k then None else find_iface k' l.
Proof.
  unfold del_iface. induction l as [|[k2 v] l IH]; cbn; [destruct (iface_eqb k' k); reflexivity|].
  destruct (iface_eqb k k2) eqn:E; cbn; rewrite IH.
  - apply iface_eqb_eq in E; subst k2. destruct (iface_eqb k' k); reflexivity.
  - destruct (iface_eqb k' k2) eqn:E2; [|reflexivity].
    apply iface_eqb_eq in E2; subst k2. apply iface_eqb_false in E.
    destruct (iface_eqb k' k) eqn:E3; [apply iface_eqb_eq in E3; congruence | reflexivity].
Qed.

Lemma find_del_child i j l : find_child j (del_child i l) = if lbeq j i then None else find_child j l.
Proof.
  unfold del_child. induction l as [|[j2 c] l IH]; cbn; [destruct (lbeq j i); reflexivity|].
  destruct (lbeq i j2) eqn:E; cbn; rewrite IH.
  - apply lbeq_eq in E; subst j2. destruct (lbeq j i); reflexivity.
  - destruct (lbeq j j2) eqn:E2; [|reflexivity].
    apply lbeq_eq in E2; subst j2. rewrite lbeq_sym, E. reflexivity.
Qed.

Lemma find_put_child i j c n :
  find_child j (children (put_child i c n)) = if lbeq j i then Some c else find_child j (children n).
Proof.
  destruct n as [p ch ifs]; cbn. rewrite find_del_child. destruct (lbeq j i); reflexivity.
Qed.

Lemma ifaces_put_child i c n : ifaces (put_child i c n) = ifaces n.
Proof. destruct n; reflexivity. Qed.

Lemma npath_put_child i c n : npath (put_child i c n) = npath n.
Proof. destruct n; reflexivity. Qed.

(* ---- paths: p is q or an ancestor of q *)
Fixpoint prefix (p q : path) : bool :=
  match p, q with
  | [], _ => true
  | x :: p', y :: q' => lbeq x y && prefix p' q'
  | _ :: _, [] => false
  end.

Lemma prefix_app p : forall q, prefix p q = true -> exists r, q = p ++ r.
Proof.
  induction p as [|x p IH]; intros q H; cbn in *; [exists q; reflexivity|].
  destruct q as [|y q]; [discriminate|].
  apply andb_true_iff in H as [H1 H2]. apply lbeq_eq in H1; subst y.
  destruct (IH _ H2) as [r ->]. exists r; reflexivity.
Qed.

Lemma prefix_app_l pp : forall a b, prefix (pp ++ a) (pp ++ b) = prefix a b.
Proof. induction pp as [|x pp IH]; intros a b; cbn; [reflexivity|]. rewrite lbeq_refl. apply IH. Qed.

Lemma prefix_app_true p r : prefix p (p ++ r) = true.
Proof. rewrite <- (app_nil_r p) at 1. apply prefix_app_l. Qed.

Lemma prefix_refl p : prefix p p = true.
Proof. rewrite <- (app_nil_r p) at 2. apply prefix_app_true. Qed.

Lemma prefix_app_weaken a b : forall q, prefix (a ++ b) q = true -> prefix a q = true.
Proof.
  induction a as [|x a IH]; intros q H; cbn in *; [reflexivity|].
  destruct q as [|y q]; [discriminate|]. apply andb_true_iff in H as [H1 H2].
  rewrite H1. cbn. apply IH; exact H2.
Qed.

Lemma path_neq_app (pos : path) (j : seg) (r : path) : pos ++ j :: r <> pos.
Proof. intros H. apply (f_equal (@length _)) in H. rewrite app_length in H. cbn in H. lia. Qed.

Lemma path_eqb_below p j r : path_eqb (p ++ j :: r) p = false.
Proof. apply path_eqb_false, path_neq_app. Qed.

Lemma strict_prefix_app p : forall q, strict_prefix p q = true -> exists r, r <> [] /\ q = p ++ r.
Proof.
  induction p as [|x p IH]; intros q H; cbn in *.
  - destruct q as [|y q]; [discriminate|]. exists (y :: q). split; [discriminate | reflexivity].
  - destruct q as [|y q]; [discriminate|].
    apply andb_true_iff in H as [H1 H2]. apply lbeq_eq in H1; subst y.
    destruct (IH _ H2) as [r [Hr ->]]. exists r; split; [exact Hr | reflexivity].
Qed.

Lemma strict_prefix_app_true p r : r <> [] -> strict_prefix p (p ++ r) = true.
Proof.
  intros Hr. induction p as [|x p IH]; cbn.
  - destruct r; [contradiction | reflexivity].
  - rewrite lbeq_refl; exact IH.
Qed.

Lemma strict_prefix_irrefl p : strict_prefix p p = false.
Proof. induction p as [|x p IH]; cbn; [reflexivity|]. rewrite lbeq_refl; exact IH. Qed.

(* ---- lookups: interface k registered at path p, as lookups see it *)
Definition ulookup (t : node) (p : path) (k : iface) : option N :=
  match get_child t p with Some n => find_iface k (ifaces n) | None => None end.

Lemma get_child_app n : forall p q,
  get_child n (p ++ q) = match get_child n p with Some c => get_child c q | None => None end.
Proof.
  intros p; revert n. induction p as [|i p IH]; intros n q; cbn; [reflexivity|].
  destruct (find_child i (children n)); [apply IH | reflexivity].
Qed.

Lemma ulookup_cons n i r k :
  ulookup n (i :: r) k = match find_child i (children n) with Some c => ulookup c r k | None => None end.
Proof. unfold ulookup; cbn. destruct (find_child i (children n)); reflexivity. Qed.

Lemma ulookup_app n p q k :
  ulookup n (p ++ q) k = match get_child n p with Some c => ulookup c q k | None => None end.
Proof. unfold ulookup. rewrite get_child_app. destruct (get_child n p); reflexivity. Qed.

(* a node just made by Node::new has none of the interfaces a history registers, and nothing below it *)
Lemma ulookup_new pp q k : std3 k = false -> ulookup (new_node pp) q k = None.
Proof. intros Hk. destruct q; [destruct k; try reflexivity; discriminate | reflexivity]. Qed.

(* `obj_manager_path` as get_child_mut computes it: the stored path of the last node passed on the
   way down (the target excluded) that has the ObjectManager interface *)
Fixpoint mgr_of (n : node) (p : path) (mgr : option path) : option path :=
  match p with
  | [] => mgr
  | i :: rest =>
      let mgr' := match find_iface OM (ifaces n) with Some _ => Some (npath n) | None => mgr end in
      match find_child i (children n) with
      | Some c => mgr_of c rest mgr'
      | None => mgr'
      end
  end.

Lemma mgr_of_new pp rest mgr : mgr_of (new_node pp) rest mgr = mgr.
Proof. destruct rest; reflexivity. Qed.

(* ---- get_child_mut + mutation *)
Section WithNode.
  Context {R : Type} (f : node -> option path -> node * R).

  (* the node c found or made at p reads as the tree read below p; the mutated node takes its
     place, the manager path is handed to the mutation, and no lookup off the path changes *)
  Lemma with_node_full : forall p n create np mgr n' r,
    with_node n p create np mgr f = Some (n', r) ->
    exists c,
      (forall q k, std3 k = false -> ulookup c q k = ulookup n (p ++ q) k) /\
      r = snd (f c (mgr_of n p mgr)) /\
      get_child n' p = Some (fst (f c (mgr_of n p mgr))) /\
      (forall q k, prefix p q = false -> std3 k = false -> ulookup n' q k = ulookup n q k).
  Proof.
    induction p as [|i rest IH]; intros n create np mgr n' r H; cbn in H.
    - injection H as H. exists n. cbn. rewrite H. repeat split. discriminate.
    - set (mgr' := match find_iface OM (ifaces n) with Some _ => Some (npath n) | None => mgr end) in H.
      (* the child entered: the one found, or a new one where there was none *)
      assert (exists c0,
                match with_node c0 rest create (np ++ [i]) mgr' f with
                | Some (c', r) => Some (put_child i c' n, r) | None => None end = Some (n', r) /\
                mgr_of c0 rest mgr' = mgr_of n (i :: rest) mgr /\
                forall q k, std3 k = false -> ulookup c0 q k = ulookup n (i :: q) k)
        as (c0 & H0 & Hmgr & Hsub).
      { cbn [mgr_of]. fold mgr'. destruct (find_child i (children n)) as [c0|] eqn:Hc.
        - exists c0. split; [exact H|]. split; [reflexivity|].
          intros q k _. rewrite ulookup_cons, Hc. reflexivity.
        - destruct create; [|discriminate]. exists (new_node (np ++ [i])).
          split; [exact H|]. split; [apply mgr_of_new|].
          intros q k Hk. rewrite ulookup_cons, Hc. apply ulookup_new; exact Hk. }
      destruct (with_node c0 rest create (np ++ [i]) mgr' f) as [[c' r']|] eqn:Hw; [|discriminate].
      injection H0 as <- <-.
      destruct (IH _ _ _ _ _ _ Hw) as (c & Hc & Hr & Hget & Hframe). rewrite Hmgr in Hr, Hget.
      exists c. split; [|split; [exact Hr|split]].
      + intros q k Hk. rewrite (Hc q k Hk). apply Hsub; exact Hk.
      + cbn. rewrite find_put_child, lbeq_refl. exact Hget.
      + intros q k Hq Hk. destruct q as [|j q]; [unfold ulookup; cbn; rewrite ifaces_put_child; reflexivity|].
        rewrite ulookup_cons, find_put_child. cbn in Hq. rewrite (ulookup_cons n).
        destruct (lbeq j i) eqn:E; [|reflexivity]. apply lbeq_eq in E; subst j. rewrite lbeq_refl in Hq.
        rewrite (Hframe q k Hq Hk), (Hsub q k Hk), ulookup_cons. reflexivity.
  Qed.

  (* a mutation that keeps the children changes the lookups at p only *)
  Lemma with_node_update p n create np mgr n' r :
    (forall c m, children (fst (f c m)) = children c) ->
    with_node n p create np mgr f = Some (n', r) ->
    exists c,
      (forall k, std3 k = false -> find_iface k (ifaces c) = ulookup n p k) /\
      r = snd (f c (mgr_of n p mgr)) /\
      get_child n' p = Some (fst (f c (mgr_of n p mgr))) /\
      forall q k, std3 k = false ->
        ulookup n' q k = if path_eqb q p then find_iface k (ifaces (fst (f c (mgr_of n p mgr)))) else ulookup n q k.
  Proof.
    intros Hf H. destruct (with_node_full _ _ _ _ _ _ _ H) as (c & Hc & Hr & Hget & Hframe).
    exists c. split; [|split; [exact Hr|split; [exact Hget|]]].
    - intros k Hk. rewrite <- (app_nil_r p). apply (Hc [] k Hk).
    - intros q k Hk. destruct (prefix p q) eqn:Epq.
      + apply prefix_app in Epq as [x ->]. rewrite ulookup_app, Hget. destruct x as [|j x].
        * rewrite app_nil_r, path_eqb_refl. reflexivity.
        * rewrite path_eqb_below, ulookup_cons, Hf, <- ulookup_cons. apply Hc; exact Hk.
      + rewrite (Hframe q k Epq Hk). destruct (path_eqb q p) eqn:E; [|reflexivity].
        apply path_eqb_eq in E; subst q. rewrite prefix_refl in Epq. discriminate.
  Qed.

  Lemma with_node_none : forall p n np mgr,
    with_node n p false np mgr f = None <-> get_child n p = None.
  Proof.
    induction p as [|i rest IH]; intros n np mgr; cbn.
    - split; discriminate.
    - destruct (find_child i (children n)) as [c0|]; [|split; reflexivity].
      set (mgr' := match find_iface OM (ifaces n) with Some _ => Some (npath n) | None => mgr end).
      specialize (IH c0 (np ++ [i]) mgr').
      destruct (with_node c0 rest false (np ++ [i]) mgr' f) as [[c' r']|].
      + split; [discriminate|]. intros H. apply IH in H. discriminate.
      + split; [intros _; apply IH; reflexivity | reflexivity].
  Qed.

  Lemma with_node_create : forall p n np mgr, with_node n p true np mgr f <> None.
  Proof.
    induction p as [|i rest IH]; intros n np mgr; cbn; [discriminate|].
    set (mgr' := match find_iface OM (ifaces n) with Some _ => Some (npath n) | None => mgr end).
    destruct (find_child i (children n)) as [c0|].
    - specialize (IH c0 (np ++ [i]) mgr'). destruct (with_node c0 rest true (np ++ [i]) mgr' f) as [[? ?]|]; [discriminate | contradiction].
    - specialize (IH (new_node (np ++ [i])) (np ++ [i]) mgr').
      destruct (with_node (new_node (np ++ [i])) rest true (np ++ [i]) mgr' f) as [[? ?]|]; [discriminate | contradiction].
  Qed.
End WithNode.
