(* C24/Proofs.v — the tree model refines the flat map on every history: `at` and `remove` change
   the lookups of the tree as `sput` and `sdel` change the map. *)
From ZV Require Import Base.Bytes Base.Res Base.WinnowFacts C24.Ops C24.Model C24.Spec C24.Facts.

(* ---- the flat map *)
Lemma key_eqb_true p k e : key_eqb p k e = true <-> fst e = (p, k).
Proof.
  destruct e as [[p' k'] v]; unfold key_eqb; cbn. rewrite andb_true_iff, path_eqb_eq, kind_eqb_eq.
  split; [intros [-> ->]; reflexivity | intros H; inversion H; auto].
Qed.

Lemma sget_sdel s p k q k' : sget (sdel s p k) q k' = if path_eqb q p && kind_eqb k' k then None else sget s q k'.
Proof.
  unfold sdel. destruct (path_eqb q p && kind_eqb k' k) eqn:E.
  - apply (key_eqb_true q k' (p, k, 0%N)) in E. injection E as Hq Hk'. subst q k'.
    induction s as [|e s IH]; cbn; [reflexivity|].
    destruct (key_eqb p k e) eqn:E; cbn; [|rewrite E]; exact IH.
  - induction s as [|e s IH]; cbn; [reflexivity|].
    destruct (key_eqb p k e) eqn:E1; cbn; rewrite IH; [|reflexivity].
    destruct (key_eqb q k' e) eqn:E2; [|reflexivity].
    apply key_eqb_true in E1, E2. rewrite E1 in E2. injection E2 as -> ->.
    rewrite path_eqb_refl, kind_eqb_refl in E. discriminate.
Qed.

Lemma sget_sput s p k id q k' :
  sget (sput s p k id) q k' = if path_eqb q p && kind_eqb k' k then Some id else sget s q k'.
Proof.
  unfold sput; cbn. unfold key_eqb at 1; cbn. rewrite sget_sdel.
  destruct (path_eqb q p && kind_eqb k' k); reflexivity.
Qed.

Lemma bare_spec s p : bare s p = true <-> forall k, sget s p k = None.
Proof.
  unfold bare, all_kinds; cbn. split.
  - intros H k.
    destruct (sget s p K1) eqn:E1; [discriminate|].
    destruct (sget s p K2) eqn:E2; [discriminate|].
    destruct (sget s p K3) eqn:E3; [discriminate|].
    destruct (sget s p KM) eqn:E4; [discriminate|].
    destruct k; assumption.
  - intros H. rewrite (H K1), (H K2), (H K3), (H KM). reflexivity.
Qed.

(* ---- node-level facts *)
Lemma add_arc_children k id n : children (fst (add_arc_interface k id n)) = children n.
Proof. destruct n as [p ch ifs]; cbn. destruct (find_iface k ifs); reflexivity. Qed.

Lemma add_arc_spec k id n :
  match find_iface k (ifaces n) with
  | Some _ => add_arc_interface k id n = (n, false)
  | None => snd (add_arc_interface k id n) = true /\
            forall k', find_iface k' (ifaces (fst (add_arc_interface k id n))) =
                       if iface_eqb k' k then Some id else find_iface k' (ifaces n)
  end.
Proof.
  destruct n as [p ch ifs]; cbn. destruct (find_iface k ifs) eqn:E; [reflexivity|].
  cbn. split; [reflexivity|]. intros k'. reflexivity.
Qed.

Lemma remove_iface_children k n : children (fst (remove_interface k n)) = children n.
Proof. destruct n as [p ch ifs]; cbn. destruct (find_iface k ifs); reflexivity. Qed.

Lemma remove_iface_spec k n :
  match find_iface k (ifaces n) with
  | None => remove_interface k n = (n, false)
  | Some _ => snd (remove_interface k n) = true /\
              forall k', find_iface k' (ifaces (fst (remove_interface k n))) =
                         if iface_eqb k' k then None else find_iface k' (ifaces n)
  end.
Proof.
  destruct n as [p ch ifs]; cbn. destruct (find_iface k ifs) eqn:E; [|reflexivity].
  cbn. split; [reflexivity|]. intros k'. apply find_del_iface.
Qed.

Lemma remove_node_spec last n :
  ifaces (fst (remove_node last n)) = ifaces n /\
  forall j, find_child j (children (fst (remove_node last n))) =
            if lbeq j last then None else find_child j (children n).
Proof.
  destruct n as [p ch ifs]; cbn. destruct (find_child last ch) eqn:E; cbn.
  - split; [reflexivity|]. intros j. apply find_del_child.
  - split; [reflexivity|]. intros j. destruct (lbeq j last) eqn:Ej; [|reflexivity].
    apply lbeq_eq in Ej; subst j. exact E.
Qed.

Lemma find_iface_in k l v : find_iface k l = Some v -> In (k, v) l.
Proof.
  induction l as [|[k' v'] l IH]; cbn; [discriminate|].
  destruct (iface_eqb k k') eqn:E.
  - apply iface_eqb_eq in E; subst. intros H; inversion H; subst. left; reflexivity.
  - intros H; right; apply IH; exact H.
Qed.

Lemma in_find_iface k v l : In (k, v) l -> exists v', find_iface k l = Some v'.
Proof.
  induction l as [|[k' v'] l IH]; cbn; [contradiction|].
  intros [H | H].
  - inversion H; subst. rewrite iface_eqb_refl. eexists; reflexivity.
  - destruct (iface_eqb k k'); [eexists; reflexivity | apply IH; exact H].
Qed.

(* Node::is_empty (since fix 71f8bd70): no key outside the three names Node::new registers *)
Lemma is_empty_spec n : is_empty n = true <-> forall k, std3 k = false -> find_iface k (ifaces n) = None.
Proof.
  unfold is_empty. rewrite negb_true_iff. split.
  - intros H k Hk. destruct (find_iface k (ifaces n)) eqn:E; [|reflexivity].
    apply find_iface_in in E.
    assert (existsb (fun e => negb (std3 (fst e))) (ifaces n) = true).
    { apply existsb_exists. exists (k, n0). split; [exact E | cbn; rewrite Hk; reflexivity]. }
    congruence.
  - intros H. destruct (existsb (fun e => negb (std3 (fst e))) (ifaces n)) eqn:E; [|reflexivity].
    apply existsb_exists in E as [[k v] [Hin Hk]]. cbn in Hk. apply negb_true_iff in Hk.
    destruct (in_find_iface _ _ _ Hin) as [v' Hv]. rewrite (H k Hk) in Hv. discriminate.
Qed.

(* the test of ObjectServer::remove: nothing a history can register is at or below the node *)
Lemma destroyable_lookup n q k : destroyable n = true -> std3 k = false -> ulookup n q k = None.
Proof.
  unfold destroyable, has_children. intros H Hk. apply andb_true_iff in H as [He Hc].
  destruct q as [|i q]; [apply is_empty_spec; assumption|].
  rewrite ulookup_cons. destruct (children n); [reflexivity | discriminate].
Qed.

(* deleting the child [last] of the node at pp: everything at or below pp/last is gone, the rest stays *)
Lemma with_node_drop pp last n np mgr n' r :
  with_node n pp false np mgr (fun par _ => let '(par', _) := remove_node last par in (par', tt)) = Some (n', r) ->
  forall q k, std3 k = false -> ulookup n' q k = if prefix (pp ++ [last]) q then None else ulookup n q k.
Proof.
  intros Hw q k Hk. destruct (with_node_full _ _ _ _ _ _ _ _ Hw) as (c & Hc & _ & Hget & Hframe).
  cbn beta in Hget. destruct (remove_node_spec last c) as [Hif Hch].
  destruct (remove_node last c) as [c' b]. cbn [fst] in *.
  destruct (prefix pp q) eqn:Epq.
  - apply prefix_app in Epq as [x ->]. rewrite prefix_app_l, ulookup_app, Hget, <- (Hc x k Hk).
    destruct x as [|j x]; [unfold ulookup; cbn; rewrite Hif; reflexivity|].
    rewrite !ulookup_cons, Hch. cbn. rewrite (lbeq_sym last j), andb_true_r. destruct (lbeq j last); reflexivity.
  - rewrite (Hframe q k Epq Hk).
    destruct (prefix (pp ++ [last]) q) eqn:E; [|reflexivity].
    apply prefix_app_weaken in E. congruence.
Qed.

(* ---- `at` and `remove` in full: result, signals, and the lookups of the new tree, for an
   interface k other than the three of Node::new *)
Lemma at_full t p k id : std3 k = false ->
  exists t',
    match ulookup t p k with
    | Some _ =>
        at_ t p k id = (t', Ok false, []) /\
        forall q k', std3 k' = false -> ulookup t' q k' = ulookup t q k'
    | None =>
        (exists n', get_child t' p = Some n' /\
           at_ t p k id =
             (t', Ok true,
              if iface_eqb k OM then map (fun e => SAdded p (fst e) (snd e)) (get_managed_objects n')
              else match mgr_of t p None with Some m0 => [SAdded m0 p [(k, props_of k id)]] | None => [] end)) /\
        forall q k', std3 k' = false ->
          ulookup t' q k' = if path_eqb q p && iface_eqb k' k then Some id else ulookup t q k'
    end.
Proof.
  intros Hk. unfold at_.
  destruct (with_node _ _ _ _ _ _) as [[t' [[added mgr] n']]|] eqn:Hw; [|destruct (with_node_create _ _ _ _ _ Hw)].
  apply with_node_update in Hw as (c & Hc & Hr & Hget & Hup);
    [|intros c m; rewrite <- (add_arc_children k id c); destruct (add_arc_interface k id c); reflexivity].
  cbn beta in *. pose proof (add_arc_spec k id c) as Hs. rewrite (Hc k Hk) in Hs.
  destruct (add_arc_interface k id c) as [c' b]. cbn [fst snd] in *. injection Hr as -> -> ->.
  exists t'. destruct (ulookup t p k).
  - injection Hs as -> ->. split; [reflexivity|]. intros q k' Hk'. rewrite (Hup q k' Hk').
    destruct (path_eqb q p) eqn:E; [|reflexivity]. apply path_eqb_eq in E; subst q. apply Hc; exact Hk'.
  - destruct Hs as [-> Hs]. split.
    + exists c'. split; [exact Hget|]. destruct (iface_eqb k OM); [reflexivity|].
      destruct (mgr_of t p None); [|reflexivity].
      unfold get_properties. rewrite Hs, iface_eqb_refl. reflexivity.
    + intros q k' Hk'. rewrite (Hup q k' Hk').
      destruct (path_eqb q p) eqn:E; [|reflexivity]. apply path_eqb_eq in E; subst q.
      rewrite Hs. destruct (iface_eqb k' k); [reflexivity | apply Hc; exact Hk'].
Qed.

(* whether or not the node is destroyed afterwards, the lookups change at (p, k) only: a destroyed
   node had nothing else registered at it and nothing below it *)
Lemma remove_full t p k : std3 k = false ->
  exists t',
    match ulookup t p k with
    | None =>
        remove t p k = (t', Err InterfaceNotFound, []) /\
        forall q k', std3 k' = false -> ulookup t' q k' = ulookup t q k'
    | Some _ =>
        (exists b,
           remove t p k = (t', Ok b, match mgr_of t p None with Some m0 => [SRemoved m0 p [k]] | None => [] end) /\
           (b = true -> forall k', std3 k' = false -> ulookup t' p k' = None)) /\
        forall q k', std3 k' = false ->
          ulookup t' q k' = if path_eqb q p && iface_eqb k' k then None else ulookup t q k'
    end.
Proof.
  intros Hk. unfold remove.
  destruct (with_node _ _ _ _ _ _) as [[t1 [[removed mgr] destroy]]|] eqn:Hw.
  2:{ apply with_node_none in Hw. exists t. unfold ulookup. rewrite Hw. split; reflexivity. }
  apply with_node_update in Hw as (c & Hc & Hr & Hget & Hup);
    [|intros c m; rewrite <- (remove_iface_children k c); destruct (remove_interface k c); reflexivity].
  cbn beta in *. pose proof (remove_iface_spec k c) as Hs. rewrite (Hc k Hk) in Hs.
  destruct (remove_interface k c) as [c' b]. cbn [fst snd] in *. injection Hr as -> -> ->.
  destruct (ulookup t p k).
  2:{ injection Hs as -> ->. exists t1. split; [reflexivity|]. intros q k' Hk'. rewrite (Hup q k' Hk').
      destruct (path_eqb q p) eqn:E; [|reflexivity]. apply path_eqb_eq in E; subst q. apply Hc; exact Hk'. }
  destruct Hs as [-> Hs]. cbn [negb].
  assert (Hup1 : forall q k', std3 k' = false ->
            ulookup t1 q k' = if path_eqb q p && iface_eqb k' k then None else ulookup t q k').
  { intros q k' Hk'. rewrite (Hup q k' Hk').
    destruct (path_eqb q p) eqn:E; [|reflexivity]. apply path_eqb_eq in E; subst q.
    rewrite Hs. destruct (iface_eqb k' k); [reflexivity | apply Hc; exact Hk']. }
  destruct (destroyable c') eqn:Ed;
    [|exists t1; split; [exists false; split; [reflexivity | discriminate] | exact Hup1]].
  destruct (rev p) as [|last rparent] eqn:Erev;
    [exists t1; split; [exists false; split; [reflexivity | discriminate] | exact Hup1]|].
  assert (Hp : p = rev rparent ++ [last]) by (rewrite <- (rev_involutive p), Erev; reflexivity).
  destruct (with_node t1 _ _ _ _ _) as [[t2 u]|] eqn:Hd.
  2:{ apply with_node_none in Hd. rewrite Hp, get_child_app, Hd in Hget. discriminate. }
  assert (Hgone : forall q k', std3 k' = false -> ulookup t2 q k' = ulookup t1 q k').
  { intros q k' Hk'. rewrite (with_node_drop _ _ _ _ _ _ _ Hd q k' Hk'), <- Hp.
    destruct (prefix p q) eqn:E; [|reflexivity].
    apply prefix_app in E as [x ->]. rewrite ulookup_app, Hget. symmetry. apply destroyable_lookup; assumption. }
  exists t2. split.
  - exists true. split; [reflexivity|]. intros _ k' Hk'.
    rewrite (Hgone p k' Hk'), <- (app_nil_r p), ulookup_app, Hget. apply destroyable_lookup; assumption.
  - intros q k' Hk'. rewrite (Hgone q k' Hk'). apply Hup1; exact Hk'.
Qed.

(* ---- the abstraction and the invariant *)
Definition Inv (t : node) (s : smap) : Prop := forall p k, ulookup t p (ik k) = sget s p k.

Lemma Inv_init : Inv root0 [].
Proof. intros p k. apply ulookup_new, ik_not_std3. Qed.

Lemma at_refines t s p k id :
  Inv t s ->
  Inv (fst (fst (at_ t p (ik k) id))) (fst (spec_step s (At p k id))) /\
  res_prop (At p k id) (snd (fst (at_ t p (ik k) id))) = snd (spec_step s (At p k id)).
Proof.
  intros HI. destruct (at_full t p (ik k) id (ik_not_std3 k)) as [t' H].
  rewrite (HI p k) in H. cbn [spec_step]. destruct (sget s p k).
  - destruct H as [-> Hsame]. split; [|reflexivity].
    intros q k'. cbn [fst]. rewrite (Hsame q _ (ik_not_std3 k')). apply HI.
  - destruct H as [[n' [_ ->]] Hup]. split; [|reflexivity].
    intros q k'. cbn [fst]. rewrite (Hup q _ (ik_not_std3 k')), sget_sput, ik_eqb, (HI q k'). reflexivity.
Qed.

Lemma remove_refines t s p k :
  Inv t s ->
  Inv (fst (fst (remove t p (ik k)))) (fst (spec_step s (Rm p k))) /\
  res_prop (Rm p k) (snd (fst (remove t p (ik k)))) = snd (spec_step s (Rm p k)) /\
  (* beyond the property: a node reported destroyed had nothing left registered at p *)
  (snd (fst (remove t p (ik k))) = Ok true -> bare (sdel s p k) p = true).
Proof.
  intros HI. destruct (remove_full t p (ik k) (ik_not_std3 k)) as [t' H].
  rewrite (HI p k) in H. cbn [spec_step]. destruct (sget s p k).
  - destruct H as [[b [-> Hflag]] Hup]. cbn [fst snd].
    assert (HI' : Inv t' (sdel s p k)).
    { intros q k'. rewrite (Hup q _ (ik_not_std3 k')), sget_sdel, ik_eqb, (HI q k'). reflexivity. }
    split; [exact HI'|]. split; [reflexivity|].
    intros Hb. injection Hb as ->. apply bare_spec. intros k'. rewrite <- HI'.
    apply Hflag; [reflexivity | apply ik_not_std3].
  - destruct H as [-> Hsame]. split; [|split; [reflexivity | discriminate]].
    intros q k'. cbn [fst]. rewrite (Hsame q _ (ik_not_std3 k')). apply HI.
Qed.

(* ---- histories *)
Lemma step_refines t s o :
  Inv t s ->
  Inv (fst (fst (mstep t o))) (fst (spec_step s o)) /\
  res_prop o (snd (fst (mstep t o))) = snd (spec_step s o).
Proof.
  intros HI. destruct o as [p k id | p k]; cbn [mstep].
  - apply at_refines; exact HI.
  - destruct (remove_refines t s p k HI) as [H1 [H2 _]]. split; assumption.
Qed.

Lemma run_refines : forall h t s,
  Inv t s ->
  Inv (fst (mrun t h)) (fst (spec_run s h)) /\ snd (mrun t h) = snd (spec_run s h).
Proof.
  induction h as [|o h IH]; intros t s HI; cbn [mrun spec_run].
  - split; [exact HI | reflexivity].
  - destruct (step_refines t s o HI) as [HI1 Hr1].
    destruct (mstep t o) as [[t1 x] sg]. destruct (spec_step s o) as [s1 y]. cbn [fst snd] in *.
    destruct (IH t1 s1 HI1) as [HI2 Hr2].
    destruct (mrun t1 h) as [t2 xs]. destruct (spec_run s1 h) as [s2 ys]. cbn [fst snd] in *.
    split; [exact HI2 | congruence].
Qed.

Lemma spec_no_panic : forall h s, ~ In RPanic (snd (spec_run s h)).
Proof.
  induction h as [|o h IH]; intros s; cbn [spec_run]; [intros []|].
  destruct (spec_step s o) as [s1 y] eqn:E1. specialize (IH s1). destruct (spec_run s1 h) as [s2 ys]. cbn [snd] in *.
  intros [H | H]; [|exact (IH H)].
  destruct o as [p k id | p k]; cbn in E1.
  - destruct (sget s p k); inversion E1; subst; discriminate.
  - destruct (sget s p k); inversion E1; subst; discriminate.
Qed.

(* what the three observers of the model see, in terms of ulookup *)
Lemma lookup_ulookup t p k : ok_opt (lookup t p k) = ulookup t p k.
Proof. unfold lookup, ulookup. destruct (get_child t p); [|reflexivity]. destruct (find_iface k (ifaces n)); reflexivity. Qed.
Lemma call_ulookup t p k : ok_opt (call t p k) = ulookup t p k.
Proof. unfold call, ulookup. destruct (get_child t p); [|reflexivity]. destruct (find_iface k (ifaces n)); reflexivity. Qed.
Lemma seen_at_ulookup t p k : seen_at t p k = is_some (ulookup t p k).
Proof. unfold seen_at, introspect, ulookup. destruct (get_child t p); reflexivity. Qed.
Lemma seen_nested_ulookup t p k : seen_nested t p k = is_some (ulookup t p k).
Proof. unfold seen_nested, introspect, ulookup. cbn. destruct (get_child t p); reflexivity. Qed.

(* ---- the theorem, at full strength *)
(* after a history: every (path, interface) pair is looked up, called and introspected exactly as
   the flat map says; the results of all operations are those of the flat map; nothing panicked *)
Definition agrees (h : list op) : Prop :=
  (forall p k, ok_opt (lookup (model_state h) p (ik k)) = sget (spec_state h) p k) /\
  (forall p k, ok_opt (call (model_state h) p (ik k)) = sget (spec_state h) p k) /\
  (forall p k, seen_at (model_state h) p (ik k) = is_some (sget (spec_state h) p k)) /\
  (forall p k, seen_nested (model_state h) p (ik k) = is_some (sget (spec_state h) p k)) /\
  model_results h = spec_results h /\
  ~ In RPanic (model_results h).

Theorem refines : forall h, agrees h.
Proof.
  intros h. destruct (run_refines h root0 [] Inv_init) as [HI Hr].
  unfold agrees, model_state, spec_state, model_results, spec_results.
  repeat split.
  - intros p k. rewrite lookup_ulookup. apply HI.
  - intros p k. rewrite call_ulookup. apply HI.
  - intros p k. rewrite seen_at_ulookup, HI. reflexivity.
  - intros p k. rewrite seen_nested_ulookup, HI. reflexivity.
  - exact Hr.
  - rewrite Hr. apply spec_no_panic.
Qed.

(* beyond the property text: a removal that reports the object destroyed left nothing at all
   registered at the path *)
Theorem remove_flag : forall h p k,
  snd (fst (remove (model_state h) p (ik k))) = Ok true -> bare (sdel (spec_state h) p k) p = true.
Proof.
  intros h p k Hb. destruct (run_refines h root0 [] Inv_init) as [HI _].
  destruct (remove_refines _ _ p k HI) as [_ [_ Hflag]]. apply Hflag. exact Hb.
Qed.

(* ---- examples *)
Definition sa : seg := B "a".
Definition sb : seg := B "b".

(* the three histories that used to break the server are ordinary histories now
   (fixes f5fe3276 and 71f8bd70): no panic at "/", I2 stays at /a/b, the manager stays at /a *)
Definition h_root : list op := [At [] K1 1; Rm [] K1].
Definition h_subtree : list op := [At [sa] K1 1; At [sa; sb] K2 2; Rm [sa] K1].
Definition h_manager : list op := [At [sa] K1 1; At [sa] KM 2; Rm [sa] K1].

Lemma repaired_ok :
  model_results h_root = [RBool true; RDone] /\
  ok_opt (lookup (model_state h_subtree) [sa; sb] (ik K2)) = Some 2%N /\
  ok_opt (lookup (model_state h_manager) [sa] (ik KM)) = Some 2%N /\
  ok_opt (call (model_state h_manager) [sa] (ik KM)) = Some 2%N /\
  seen_at (model_state h_manager) [sa] (ik KM) = true /\
  snd (fst (remove (model_state h_manager) [sa] (ik KM))) = Ok true.
Proof. repeat split; vm_compute; reflexivity. Qed.

(* a history that registers, nests, refuses a duplicate, fails a removal, removes a leaf, adds and
   removes a manager, and removes at the root while another interface stays there *)
Definition h_clean : list op :=
  [At [sa] K1 1; At [sa; sb] K2 2; At [sa] K1 3; Rm [sa; sb] K3; Rm [sa; sb] K2; At [] K3 6; At [] K1 7;
   Rm [] K3; At [sa] KM 9; Rm [sa] KM; At [sa; sb] K1 11; Rm [sa; sb] K1].

Lemma h_clean_ok :
  model_results h_clean = [RBool true; RBool true; RBool false; RErr; RDone; RBool true; RBool true;
                           RDone; RBool true; RDone; RBool true; RDone] /\
  sget (spec_state h_clean) [sa] K1 = Some 1%N /\ sget (spec_state h_clean) [] K1 = Some 7%N /\
  sget (spec_state h_clean) [sa; sb] K1 = None.
Proof. repeat split; vm_compute; reflexivity. Qed.
