(* C34/Proofs.v — the reader returns d on every infoset that represents d; the writer's infoset represents d;
   hence the round trip, on infosets and (tokenizer by contract) on text. *)
From ZV Require Import Base.Bytes Base.Res Base.WinnowFacts C34.Model C34.Spec C34.Escape.

Local Arguments children : simpl never.
Local Arguments parse_sig : simpl never.
Local Arguments parse_name : simpl never.

(* an infoset with every attribute value and text re-coded (escape on the way out) *)
Fixpoint enc_tree (enc : bytes -> bytes) (t : xml) : xml :=
  match t with
  | Text s => Text (enc s)
  | Elem n attrs kids => Elem n (map (fun kv => (fst kv, enc (snd kv))) attrs) (map (enc_tree enc) kids)
  end.

Definition is_el (k : bytes) (t : xml) : Prop := match t with Elem n _ _ => n = k | Text _ => False end.

Lemma is_el_enc enc k t : is_el k t -> is_el k (enc_tree enc t).
Proof. destruct t; cbn; auto. Qed.

Lemma filter_all k l : Forall (is_el k) l -> lbeq (local_name k) k = true -> filter (elem_named k) l = l.
Proof.
  intros H Hk. induction H as [|t l Ht _ IH]; [reflexivity|]. destruct t as [n a c|s]; [|destruct Ht].
  cbn in Ht. subst n. cbn [filter elem_named]. now rewrite Hk, IH.
Qed.

Lemma filter_none k k' l : Forall (is_el k') l -> lbeq (local_name k') k = false -> filter (elem_named k) l = [].
Proof.
  intros H Hk. induction H as [|t l Ht _ IH]; [reflexivity|]. destruct t as [n a c|s]; [|destruct Ht].
  cbn in Ht. subst n. cbn [filter elem_named]. now rewrite Hk, IH.
Qed.

Lemma same_names_all k l : Forall (is_el k) l -> same_names l = true.
Proof.
  intro H. destruct H as [|t l Ht Hl]; [reflexivity|]. destruct t as [n a c|s]; [|destruct Ht]. cbn in Ht. subst n.
  cbn [same_names]. apply forallb_forall. intros x Hx. rewrite Forall_forall in Hl. specialize (Hl x Hx).
  destruct x as [m ? ?|?]; [|reflexivity]. cbn in Hl. subst m. apply lbeq_refl.
Qed.

(* ---------------------------------------------------------------- induction over nested nodes / infosets *)
Section NodeInd.
  Variable sigT : Type.
  Variable P : node sigT -> Prop.
  Hypothesis Hnode : forall name ifs ns, Forall P ns -> P (Node sigT name ifs ns).
  Fixpoint node_ind' (n : node sigT) : P n :=
    match n with
    | Node _ name ifs ns =>
        Hnode name ifs ns ((fix go (l : list (node sigT)) : Forall P l :=
                              match l with [] => Forall_nil P | x :: r => Forall_cons x (node_ind' x) (go r) end) ns)
    end.
End NodeInd.

Section XmlInd.
  Variable P : xml -> Prop.
  Hypothesis Htext : forall s, P (Text s).
  Hypothesis Helem : forall n a kids, Forall P kids -> P (Elem n a kids).
  Fixpoint xml_ind' (t : xml) : P t :=
    match t with
    | Text s => Htext s
    | Elem n a kids =>
        Helem n a kids ((fix go (l : list xml) : Forall P l :=
                           match l with [] => Forall_nil P | x :: r => Forall_cons x (xml_ind' x) (go r) end) kids)
    end.
End XmlInd.

Section Reader.
  Variable sigT : Type.
  Variable sig_parse : bytes -> option sigT.
  Variable sig_show : sigT -> bytes.
  Variable valid_member valid_interface valid_property : bytes -> bool.
  Variables (enc : bytes -> bytes) (dec : bytes -> res xerr bytes).
  Hypothesis dec_enc : forall s, dec (enc s) = Ok s.

  Notation of_ann' := (of_ann dec).
  Notation of_arg' := (of_arg sigT sig_parse dec).
  Notation of_method' := (of_method sigT sig_parse valid_member dec).
  Notation of_signal' := (of_signal sigT sig_parse valid_member dec).
  Notation of_prop' := (of_prop sigT sig_parse valid_property dec).
  Notation of_iface' := (of_iface sigT sig_parse valid_member valid_interface valid_property dec).
  Notation of_node' := (of_node sigT sig_parse valid_member valid_interface valid_property dec).
  Notation E := (enc_tree enc).

  Lemma map_res_ok {A C} (f : A -> res xerr C) l ds :
    Forall2 (fun t d => f t = Ok d) l ds -> map_res f l = Ok ds.
  Proof. induction 1 as [|t d l ds Ht _ IH]; cbn; [reflexivity|]. now rewrite Ht, IH. Qed.

  (* the children of one kind inside a list of groups pre ++ l ++ post *)
  Lemma children_group {C} k (f : xml -> res xerr C) pre l post ds :
    lbeq (local_name k) k = true ->
    filter (elem_named k) pre = [] -> filter (elem_named k) post = [] ->
    Forall (is_el k) l -> Forall2 (fun t d => f t = Ok d) l ds ->
    children k f (pre ++ l ++ post) = Ok ds.
  Proof.
    intros Hk Hpre Hpost Hl Hf. unfold children. rewrite !filter_app, Hpre, Hpost, app_nil_r. cbn [app].
    rewrite (filter_all k l Hl Hk), (same_names_all k l Hl). now apply map_res_ok.
  Qed.

  Lemma forall2_el {C} (R : xml -> C -> Prop) k l ds :
    Forall2 R l ds -> (forall t d, R t d -> is_el k t) -> Forall (is_el k) (map E l).
  Proof. intros H Hk. induction H; cbn; constructor; eauto using is_el_enc. Qed.

  (* the same, for a group of encoded elements that represent the documents ds and are read by f *)
  Lemma children_enc {C} (R : xml -> C -> Prop) k (f : xml -> res xerr C) pre l post ds :
    lbeq (local_name k) k = true ->
    (forall t d, R t d -> is_el k t) ->
    (forall t d, In d ds -> R t d -> f (E t) = Ok d) ->
    filter (elem_named k) pre = [] -> filter (elem_named k) post = [] ->
    Forall2 R l ds -> children k f (pre ++ map E l ++ post) = Ok ds.
  Proof.
    intros Hk Hel Hf Hpre Hpost H. apply children_group; [exact Hk | exact Hpre | exact Hpost | |].
    - apply (forall2_el R k l ds H Hel).
    - induction H as [|t d l ds Ht _ IH]; cbn; constructor.
      + apply Hf; [left; reflexivity | exact Ht].
      + apply IH. intros t' d' Hd'. apply Hf. right; exact Hd'.
  Qed.

  Lemma filter_none_map k k' {C} (R : xml -> C -> Prop) l ds :
    Forall2 R l ds -> (forall t d, R t d -> is_el k' t) -> lbeq (local_name k') k = false ->
    filter (elem_named k) (map E l) = [].
  Proof. intros H Hel Hk. apply (filter_none k k'); [apply (forall2_el R k' l ds H Hel)|exact Hk]. Qed.

  Lemma RAnn_el t a : RAnn t a -> is_el (B "annotation") t.            Proof. destruct 1; reflexivity. Qed.
  Lemma RArg_el t a : RArg sigT sig_show t a -> is_el (B "arg") t.      Proof. destruct 1; reflexivity. Qed.
  Lemma RMethod_el t a : RMethod sigT sig_show t a -> is_el (B "method") t.   Proof. destruct 1; reflexivity. Qed.
  Lemma RSignal_el t a : RSignal sigT sig_show t a -> is_el (B "signal") t.   Proof. destruct 1; reflexivity. Qed.
  Lemma RProp_el t a : RProp sigT sig_show t a -> is_el (B "property") t.     Proof. destruct 1; reflexivity. Qed.
  Lemma RIface_el t a : RIface sigT sig_show t a -> is_el (B "interface") t.  Proof. destruct 1; reflexivity. Qed.
  Lemma RNode_el k t a : RNode sigT sig_show k t a -> is_el k t.              Proof. destruct 1; reflexivity. Qed.

  Lemma rd_ann t a : RAnn t a -> of_ann' (E t) = Ok a.
  Proof.
    destruct 1 as [[n v]]. cbn. unfold check_attrs, req_attr, get_attr. cbn. now rewrite !dec_enc.
  Qed.

  Lemma anns_ok pre kn anns :
    filter (elem_named (B "annotation")) pre = [] -> Forall2 RAnn kn anns ->
    children (B "annotation") of_ann' (pre ++ map E kn ++ []) = Ok anns.
  Proof.
    intros Hpre. apply (children_enc RAnn); [reflexivity | exact RAnn_el | | exact Hpre | reflexivity].
    intros t d _. apply rd_ann.
  Qed.

  Lemma rd_arg t a : wf_arg sigT sig_show sig_parse a -> RArg sigT sig_show t a -> of_arg' (E t) = Ok a.
  Proof.
    intros Hwf H. destruct H as [[n ty d anns] kn Hk]. cbn [ar_name ar_ty ar_dir ar_anns] in *.
    unfold wf_arg, sig_ok in Hwf. cbn [ar_ty] in Hwf.
    pose proof (anns_ok [] kn anns eq_refl Hk) as Ha. rewrite app_nil_r in Ha. cbn in Ha.
    destruct n as [n|], d as [[|]|]; cbn; unfold check_attrs, req_attr, get_attr; cbn; rewrite ?dec_enc; cbn;
      unfold parse_sig; rewrite Hwf; cbn; rewrite Ha; reflexivity.
  Qed.

  (* the children of a method or of a signal: arguments, then annotations *)
  Lemma args_anns_ok ka kn args anns :
    Forall (wf_arg sigT sig_show sig_parse) args ->
    Forall2 (RArg sigT sig_show) ka args -> Forall2 RAnn kn anns ->
    children (B "arg") of_arg' (map E (ka ++ kn)) = Ok args /\
    children (B "annotation") of_ann' (map E (ka ++ kn)) = Ok anns.
  Proof.
    intros Hwf Ha Hk. rewrite map_app, <- (app_nil_r (map E kn)). split.
    - apply (children_enc (RArg sigT sig_show) (B "arg") of_arg' [] ka); [reflexivity | exact RArg_el | | reflexivity | | exact Ha].
      + intros t d Hd. apply rd_arg. rewrite Forall_forall in Hwf. apply Hwf; exact Hd.
      + rewrite app_nil_r. apply (filter_none_map (B "arg") (B "annotation") RAnn kn anns Hk RAnn_el eq_refl).
    - apply anns_ok; [|exact Hk]. apply (filter_none_map (B "annotation") (B "arg") _ ka args Ha RArg_el eq_refl).
  Qed.

  Lemma rd_method t m : wf_method sigT sig_show sig_parse valid_member m -> RMethod sigT sig_show t m -> of_method' (E t) = Ok m.
  Proof.
    intros [Hn Hargs] H. destruct H as [[n args anns] ka kn Ha Hk]. cbn [m_name m_args m_anns] in *.
    destruct (args_anns_ok ka kn args anns Hargs Ha Hk) as [Hy Hx]. cbn in Hy, Hx.
    cbn. unfold check_attrs, req_attr, get_attr. cbn. rewrite dec_enc. cbn. unfold parse_name. rewrite Hn. cbn.
    rewrite Hy. cbn. rewrite Hx. reflexivity.
  Qed.

  Lemma rd_signal t m : wf_signal sigT sig_show sig_parse valid_member m -> RSignal sigT sig_show t m -> of_signal' (E t) = Ok m.
  Proof.
    intros [Hn Hargs] H. destruct H as [[n args anns] ka kn Ha Hk]. cbn [s_name s_args s_anns] in *.
    destruct (args_anns_ok ka kn args anns Hargs Ha Hk) as [Hy Hx]. cbn in Hy, Hx.
    cbn. unfold check_attrs, req_attr, get_attr. cbn. rewrite dec_enc. cbn. unfold parse_name. rewrite Hn. cbn.
    rewrite Hy. cbn. rewrite Hx. reflexivity.
  Qed.

  Lemma rd_prop t p : wf_prop sigT sig_show sig_parse valid_property p -> RProp sigT sig_show t p -> of_prop' (E t) = Ok p.
  Proof.
    intros [Hn Hs] H. destruct H as [[n ty acc anns] kn Hk]. cbn [p_name p_ty p_access p_anns] in *.
    unfold sig_ok in Hs.
    pose proof (anns_ok [] kn anns eq_refl Hk) as Ha. rewrite app_nil_r in Ha. cbn in Ha.
    cbn. unfold check_attrs, req_attr, get_attr. cbn. rewrite !dec_enc. cbn. unfold parse_name. rewrite Hn. cbn.
    unfold parse_sig. rewrite Hs. cbn. destruct acc; cbn; rewrite Ha; reflexivity.
  Qed.

  Lemma rd_iface t i : wf_iface sigT sig_show sig_parse valid_member valid_interface valid_property i ->
    RIface sigT sig_show t i -> of_iface' (E t) = Ok i.
  Proof.
    intros (Hn & Hm & Hp & Hs) H. destruct H as [[n ms ps ss anns] km kp ks kn Rm Rp Rs Rn].
    cbn [i_name i_methods i_props i_signals i_anns] in *. rewrite Forall_forall in Hm, Hp, Hs.
    (* no group holds children of another kind *)
    pose proof (fun k => filter_none_map k _ _ km ms Rm RMethod_el) as Fm.
    pose proof (fun k => filter_none_map k _ _ kp ps Rp RProp_el) as Fp.
    pose proof (fun k => filter_none_map k _ _ ks ss Rs RSignal_el) as Fs.
    pose proof (fun k => filter_none_map k _ _ kn anns Rn RAnn_el) as Fn.
    cbn [enc_tree]. rewrite !map_app, <- (app_nil_r (map E kn)). set (K := map E km ++ _).
    assert (H1 : children (B "method") of_method' K = Ok ms).
    { apply (children_enc (RMethod sigT sig_show) (B "method") of_method' [] km);
        [reflexivity | exact RMethod_el | | reflexivity | | exact Rm].
      - intros t d Hd. apply rd_method, Hm, Hd.
      - rewrite !filter_app, Fp, Fs, Fn by reflexivity. reflexivity. }
    assert (H2 : children (B "property") of_prop' K = Ok ps).
    { apply (children_enc (RProp sigT sig_show) (B "property") of_prop' (map E km) kp);
        [reflexivity | exact RProp_el | | apply Fm; reflexivity | | exact Rp].
      - intros t d Hd. apply rd_prop, Hp, Hd.
      - rewrite !filter_app, Fs, Fn by reflexivity. reflexivity. }
    assert (H3 : children (B "signal") of_signal' K = Ok ss).
    { unfold K. rewrite app_assoc.
      apply (children_enc (RSignal sigT sig_show) (B "signal") of_signal' _ ks);
        [reflexivity | exact RSignal_el | | | | exact Rs].
      - intros t d Hd. apply rd_signal, Hs, Hd.
      - rewrite filter_app, Fm, Fp by reflexivity. reflexivity.
      - rewrite filter_app, Fn by reflexivity. reflexivity. }
    assert (H4 : children (B "annotation") of_ann' K = Ok anns).
    { unfold K. rewrite app_assoc, app_assoc. apply anns_ok; [|exact Rn].
      rewrite !filter_app, Fm, Fp, Fs by reflexivity. reflexivity. }
    clearbody K. cbn in H1, H2, H3, H4.
    cbn. unfold check_attrs, req_attr, get_attr. cbn. rewrite dec_enc. cbn. unfold parse_name. rewrite Hn. cbn.
    rewrite H1. cbn. rewrite H2. cbn. rewrite H3. cbn. rewrite H4. reflexivity.
  Qed.

  (* the nested-node loop of of_node is map_res over the `node` children *)
  Lemma node_loop kids :
    (fix go (l : list xml) : res xerr (list (node sigT)) :=
       match l with
       | [] => Ok []
       | k :: r => if elem_named (B "node") k
                   then let* x := of_node' k in let* xs := go r in Ok (x :: xs)
                   else go r
       end) kids = map_res of_node' (filter (elem_named (B "node")) kids).
  Proof.
    induction kids as [|k r IH]; [reflexivity|]. cbn [filter]. destruct (elem_named (B "node") k); [|exact IH].
    cbn [map_res]. now rewrite IH.
  Qed.

  Lemma of_node_unfold n attrs kids :
    of_node' (Elem n attrs kids) =
    (let* _ := check_attrs attrs in
     let* nm := get_attr dec (B "name") attrs in
     let* ifs := children (B "interface") of_iface' kids in
     let* ns := children (B "node") of_node' kids in
     Ok (Node sigT nm ifs ns)).
  Proof.
    cbn [of_node]. destruct (check_attrs attrs); cbn [bind]; try reflexivity.
    destruct (get_attr dec (B "name") attrs); cbn [bind]; try reflexivity.
    destruct (children (B "interface") of_iface' kids); cbn [bind]; try reflexivity.
    unfold children at 1. destruct (same_names (filter (elem_named (B "node")) kids)); cbn [bind]; [|reflexivity].
    now rewrite node_loop.
  Qed.

  Notation wf := (wf_node sigT sig_show sig_parse valid_member valid_interface valid_property).

  Lemma wf_all (ns : list (node sigT)) :
    (fix all (l : list (node sigT)) : Prop := match l with [] => True | x :: r => wf x /\ all r end) ns <-> Forall (fun x => wf x) ns.
  Proof.
    induction ns as [|x r IH]; [split; [constructor|exact (fun _ => I)]|]. split.
    - intros [H1 H2]. constructor; [exact H1|now apply IH].
    - intro H. inversion H; subst. split; [assumption|now apply IH].
  Qed.

  (* ---- the reader returns d on whatever represents d ---- *)
  Theorem reader_correct d : forall tag t, wf d -> RNode sigT sig_show tag t d -> of_node' (E t) = Ok d.
  Proof.
    induction d as [name ifs ns IH] using node_ind'. intros tag t Hwf Hr.
    cbn [wf_node] in Hwf. destruct Hwf as [Hifs Hns]. apply wf_all in Hns. rewrite Forall_forall in IH, Hifs, Hns.
    inversion Hr as [tag' name' ifs' ns' ki kn Ri Rn]; subst. cbn [enc_tree]. rewrite of_node_unfold.
    rewrite map_app, <- (app_nil_r (map E kn)).
    assert (H1 : children (B "interface") of_iface' (map E ki ++ map E kn ++ []) = Ok ifs).
    { apply (children_enc (RIface sigT sig_show) (B "interface") of_iface' [] ki);
        [reflexivity | exact RIface_el | | reflexivity | | exact Ri].
      - intros x i Hi. apply rd_iface, Hifs, Hi.
      - rewrite app_nil_r. apply (filter_none_map (B "interface") (B "node") _ kn ns Rn (RNode_el (B "node")) eq_refl). }
    assert (H2 : children (B "node") of_node' (map E ki ++ map E kn ++ []) = Ok ns).
    { apply (children_enc (RNode sigT sig_show (B "node")) (B "node") of_node' _ kn);
        [reflexivity | exact (RNode_el (B "node")) | | | reflexivity | exact Rn].
      - intros x d Hd. apply (IH d Hd), Hns, Hd.
      - apply (filter_none_map (B "node") (B "interface") _ ki ifs Ri RIface_el eq_refl). }
    rewrite H1, H2. destruct name as [v|]; cbn; unfold check_attrs, get_attr; cbn; rewrite ?dec_enc; reflexivity.
  Qed.
End Reader.

Lemma enc_tree_id t : enc_tree (fun x => x) t = t.
Proof.
  induction t as [s|n a kids IH] using xml_ind'; cbn; [reflexivity|]. f_equal.
  - induction a as [|[k v] a IHa]; cbn; [reflexivity|]. now rewrite IHa.
  - induction IH as [|x l Hx _ IHl]; cbn; [reflexivity|]. now rewrite Hx, IHl.
Qed.

Section RoundTrip.
  Variable sigT : Type.
  Variable sig_parse : bytes -> option sigT.
  Variable sig_show : sigT -> bytes.
  Variable valid_member valid_interface valid_property : bytes -> bool.

  Notation wf := (wf_node sigT sig_show sig_parse valid_member valid_interface valid_property).
  Notation R := (RNode sigT sig_show).
  Notation rd dec := (of_node sigT sig_parse valid_member valid_interface valid_property dec).
  Notation wr := (to_tree sigT sig_show).

  (* ---- the writer's infoset represents d ---- *)
  Lemma forall2_map {A} (Rl : xml -> A -> Prop) (f : A -> xml) l :
    (forall x, In x l -> Rl (f x) x) -> Forall2 Rl (map f l) l.
  Proof. induction l as [|x l IH]; intro H; cbn; constructor; [apply H; now left|apply IH; intros y Hy; apply H; now right]. Qed.

  Lemma wr_anns anns : Forall2 RAnn (map t_ann anns) anns.
  Proof. apply forall2_map. intros a _. constructor. Qed.

  (* the writer's attr_if_some, dir_text, access_text and the format's opt_attr, dir_word, access_word
     are the same functions written twice: the constructors apply as they are *)
  Lemma wr_arg a : RArg sigT sig_show (t_arg sigT sig_show a) a.
  Proof. destruct a as [n ty d anns]. exact (RArg_i sigT sig_show (mkArg sigT n ty d anns) _ (wr_anns anns)). Qed.

  Lemma wr_args args : Forall2 (RArg sigT sig_show) (map (t_arg sigT sig_show) args) args.
  Proof. apply forall2_map. intros a _. apply wr_arg. Qed.

  Lemma wr_method m : RMethod sigT sig_show (t_method sigT sig_show m) m.
  Proof.
    destruct m as [n args anns]. exact (RMethod_i sigT sig_show (mkMethod sigT n args anns) _ _ (wr_args args) (wr_anns anns)).
  Qed.

  Lemma wr_signal m : RSignal sigT sig_show (t_signal sigT sig_show m) m.
  Proof.
    destruct m as [n args anns]. exact (RSignal_i sigT sig_show (mkSignal sigT n args anns) _ _ (wr_args args) (wr_anns anns)).
  Qed.

  Lemma wr_prop p : RProp sigT sig_show (t_prop sigT sig_show p) p.
  Proof. destruct p as [n ty acc anns]. exact (RProp_i sigT sig_show (mkProp sigT n ty acc anns) _ (wr_anns anns)). Qed.

  Lemma wr_iface i : RIface sigT sig_show (t_iface sigT sig_show i) i.
  Proof.
    destruct i as [n ms ps ss anns]. apply (RIface_i sigT sig_show (mkIface sigT n ms ps ss anns)).
    - apply forall2_map. intros; apply wr_method.
    - apply forall2_map. intros; apply wr_prop.
    - apply forall2_map. intros; apply wr_signal.
    - apply wr_anns.
  Qed.

  Theorem writer_conforms d : forall tag, R tag (t_node sigT sig_show tag d) d.
  Proof.
    induction d as [name ifs ns IH] using node_ind'. intro tag. rewrite Forall_forall in IH.
    apply (RNode_i sigT sig_show tag name ifs ns); apply forall2_map.
    - intros; apply wr_iface.
    - intros x Hin. apply IH, Hin.
  Qed.

  (* ---- the round trip on infosets ---- *)
  Theorem roundtrip d : wf d -> rd (fun v => Ok v) (wr d) = Ok d.
  Proof.
    intro Hwf. rewrite <- (enc_tree_id (wr d)).
    apply (reader_correct sigT sig_parse sig_show valid_member valid_interface valid_property
             (fun x => x) (fun v => Ok v) (fun s => eq_refl) d (B "Node") (wr d) Hwf).
    apply writer_conforms.
  Qed.
End RoundTrip.

(* ---------------------------------------------------------------- text level: the tokenizer by contract *)
(* the raw printer: what quick-xml's writer emits for an infoset whose attribute values are already escaped *)
Definition print_attr_raw (kv : bytes * bytes) : bytes := B " " ++ fst kv ++ B "=""" ++ snd kv ++ B """".
Fixpoint print_raw (t : xml) : bytes :=
  match t with
  | Text s => s
  | Elem n attrs kids =>
      B "<" ++ n ++ concat (map print_attr_raw attrs) ++
      match kids with
      | [] => B "/>"
      | _ => B ">" ++ concat (map print_raw kids) ++ B "</" ++ n ++ B ">"
      end
  end.

Lemma print_is_raw t : print t = print_raw (enc_tree escape t).
Proof.
  induction t as [s|n a kids IH] using xml_ind'; cbn [print print_raw enc_tree]; [reflexivity|].
  assert (Ha : concat (map print_attr a) = concat (map print_attr_raw (map (fun kv => (fst kv, escape (snd kv))) a))).
  { induction a as [|[k v] a IHa]; cbn; [reflexivity|]. now rewrite IHa. }
  assert (Hk : concat (map print kids) = concat (map print_raw (map (enc_tree escape) kids))).
  { induction IH as [|x l Hx _ IHl]; cbn; [reflexivity|]. now rewrite Hx, IHl. }
  rewrite Ha. destruct kids as [|k0 kids]; [reflexivity|]. cbn [map] in *. now rewrite Hk.
Qed.

(* trees the tokenizer is assumed to read back: alphanumeric names, attribute values free of the double
   quote and of '<', no text nodes *)
Definition name_ok (n : bytes) : bool := match n with [] => false | _ => forallb is_alphanum n end.
Definition value_ok (v : bytes) : bool := forallb (fun c => negb (beq c quote) && negb (beq c "<"%byte)) v.
Fixpoint printable (t : xml) : bool :=
  match t with
  | Text _ => false
  | Elem n attrs kids =>
      name_ok n && forallb (fun kv => name_ok (fst kv) && value_ok (snd kv)) attrs &&
      (fix all (l : list xml) : bool := match l with [] => true | x :: r => printable x && all r end) kids
  end.

Lemma printable_all l :
  (fix all (l : list xml) : bool := match l with [] => true | x :: r => printable x && all r end) l = forallb printable l.
Proof. induction l as [|x r IH]; [reflexivity|]. cbn. now rewrite IH. Qed.

Lemma printable_elem n attrs kids :
  printable (Elem n attrs kids) =
  name_ok n && forallb (fun kv => name_ok (fst kv) && value_ok (snd kv)) attrs && forallb printable kids.
Proof. cbn [printable]. now rewrite printable_all. Qed.

Section Text.
  Variable sigT : Type.
  Variable sig_parse : bytes -> option sigT.
  Variable sig_show : sigT -> bytes.
  Variable valid_member valid_interface valid_property : bytes -> bool.

  Notation wf := (wf_node sigT sig_show sig_parse valid_member valid_interface valid_property).
  Notation rd dec := (of_node sigT sig_parse valid_member valid_interface valid_property dec).
  Notation wr := (to_tree sigT sig_show).
  Notation X := (enc_tree escape).

  Lemma value_ok_escape v : value_ok (escape v) = true.
  Proof. apply escape_clean. Qed.

  Lemma forallb_map_printable {A} (f : A -> xml) l : (forall x, printable (X (f x)) = true) -> forallb printable (map X (map f l)) = true.
  Proof. intro H. induction l as [|x l IH]; cbn; [reflexivity|]. now rewrite H, IH. Qed.

  Lemma pr_anns anns : forallb printable (map X (map t_ann anns)) = true.
  Proof.
    apply forallb_map_printable. intros a. unfold t_ann. cbn [enc_tree map fst snd].
    rewrite printable_elem. cbn. now rewrite !value_ok_escape.
  Qed.
  Lemma pr_args args : forallb printable (map X (map (t_arg sigT sig_show) args)) = true.
  Proof.
    apply forallb_map_printable. intros a. unfold t_arg. cbn [enc_tree]. rewrite printable_elem, pr_anns, andb_true_r.
    destruct (ar_name sigT a), (ar_dir sigT a); cbn; now rewrite !value_ok_escape.
  Qed.
  Lemma pr_method m : printable (X (t_method sigT sig_show m)) = true.
  Proof.
    unfold t_method. cbn [enc_tree map fst snd]. rewrite printable_elem. cbn [forallb fst snd]. rewrite !value_ok_escape.
    rewrite !map_app, forallb_app, pr_args, pr_anns. reflexivity.
  Qed.
  Lemma pr_signal m : printable (X (t_signal sigT sig_show m)) = true.
  Proof.
    unfold t_signal. cbn [enc_tree map fst snd]. rewrite printable_elem. cbn [forallb fst snd]. rewrite !value_ok_escape.
    rewrite !map_app, forallb_app, pr_args, pr_anns. reflexivity.
  Qed.
  Lemma pr_prop p : printable (X (t_prop sigT sig_show p)) = true.
  Proof.
    unfold t_prop. cbn [enc_tree map fst snd]. rewrite printable_elem. cbn [forallb fst snd]. rewrite !value_ok_escape, pr_anns.
    reflexivity.
  Qed.
  Lemma pr_iface i : printable (X (t_iface sigT sig_show i)) = true.
  Proof.
    unfold t_iface. cbn [enc_tree map fst snd]. rewrite printable_elem. cbn [forallb fst snd]. rewrite !value_ok_escape.
    rewrite !map_app, !forallb_app, (forallb_map_printable _ _ pr_method), (forallb_map_printable _ _ pr_prop),
      (forallb_map_printable _ _ pr_signal), pr_anns. reflexivity.
  Qed.
  Lemma pr_node d : forall tag, name_ok tag = true -> printable (X (t_node sigT sig_show tag d)) = true.
  Proof.
    induction d as [name ifs ns IH] using node_ind'. intros tag Ht. cbn [t_node enc_tree].
    rewrite printable_elem, Ht.
    assert (Hn : forallb printable (map X (map (t_node sigT sig_show (B "node")) ns)) = true).
    { induction IH as [|x l Hx _ IHl]; cbn [map forallb]; [reflexivity|]. now rewrite (Hx (B "node") eq_refl), IHl. }
    rewrite !map_app, forallb_app, (forallb_map_printable _ _ pr_iface), Hn.
    destruct name; cbn; now rewrite ?value_ok_escape.
  Qed.

  (* quick-xml's tokenizer, by contract: it reads back what the raw printer wrote for a printable tree,
     attribute values still escaped (the deserializer unescapes them on access) *)
  Variable tokenize : bytes -> option xml.
  Hypothesis tokenize_print : forall r, printable r = true -> tokenize (print_raw r) = Some r.

  (* Node::try_from(&str) / from_reader: tokenize, then the derive's reader with unescape on access *)
  Definition from_str (text : bytes) : res xerr (node sigT) :=
    match tokenize text with Some r => rd unescape r | None => Err EXml end.

  Theorem text_roundtrip d : wf d -> from_str (to_writer sigT sig_show d) = Ok d.
  Proof.
    intro Hwf. unfold from_str, to_writer, to_tree. rewrite print_is_raw.
    rewrite (tokenize_print _ (pr_node d (B "Node") eq_refl)).
    apply (reader_correct sigT sig_parse sig_show valid_member valid_interface valid_property escape unescape
             unescape_escape d (B "Node") (wr d) Hwf).
    apply writer_conforms.
  Qed.
End Text.

(* ---------------------------------------------------------------- every document the reader returns is well formed *)
Section Parsed.
  Variable sigT : Type.
  Variable sig_parse : bytes -> option sigT.
  Variable sig_show : sigT -> bytes.
  Variable valid_member valid_interface valid_property : bytes -> bool.
  Variable dec : bytes -> res xerr bytes.
  (* C06: a parsed signature re-reads from its own text *)
  Hypothesis sig_reparse : forall b s, sig_parse b = Some s -> sig_parse (sig_show s) = Some s.

  Notation wf := (wf_node sigT sig_show sig_parse valid_member valid_interface valid_property).
  Notation rd := (of_node sigT sig_parse valid_member valid_interface valid_property dec).

  Ltac binv :=
    repeat match goal with
           | H : bind ?x _ = Ok _ |- _ =>
               let E := fresh "E" in destruct x eqn:E; cbn [bind] in H; [|discriminate H|discriminate H]
           end.

  Lemma map_res_inv {A C} (f : A -> res xerr C) l : forall ds, map_res f l = Ok ds -> Forall2 (fun t d => f t = Ok d) l ds.
  Proof.
    induction l as [|x l IH]; intros ds H; cbn in H.
    - injection H as <-. constructor.
    - binv. injection H as <-. constructor; [assumption|now apply IH].
  Qed.

  Lemma forall2_forall {A C} (f : A -> res xerr C) (W : C -> Prop) l ds :
    Forall2 (fun t d => f t = Ok d) l ds -> (forall t d, In t l -> f t = Ok d -> W d) -> Forall W ds.
  Proof.
    induction 1 as [|t d l ds Ht _ IH]; intro H; constructor.
    - apply (H t d); [now left|exact Ht].
    - apply IH. intros t' d' Hin. apply H. now right.
  Qed.

  Lemma children_wf {C} k (f : xml -> res xerr C) (W : C -> Prop) kids ds :
    children k f kids = Ok ds -> (forall t d, In t kids -> f t = Ok d -> W d) -> Forall W ds.
  Proof.
    unfold children. destruct (same_names _); [|discriminate]. intros H Hw. apply map_res_inv in H.
    apply (forall2_forall _ _ _ _ H). intros t d Hin. apply Hw. apply filter_In in Hin. tauto.
  Qed.

  Lemma parse_sig_ok v s : parse_sig sigT sig_parse v = Ok s -> sig_ok sigT sig_show sig_parse s.
  Proof. unfold parse_sig, sig_ok. destruct (sig_parse v) eqn:E; [|discriminate]. intro H. injection H as <-. eauto. Qed.

  Lemma parse_name_ok valid v n : parse_name valid v = Ok n -> valid n = true.
  Proof. unfold parse_name. destruct (valid v) eqn:E; [|discriminate]. intro H. now injection H as <-. Qed.

  Lemma arg_wf t a : of_arg sigT sig_parse dec t = Ok a -> wf_arg sigT sig_show sig_parse a.
  Proof.
    unfold of_arg. destruct t as [n attrs kids|]; [|discriminate]. intro H. binv. injection H as <-.
    unfold wf_arg. cbn. eapply parse_sig_ok; eassumption.
  Qed.

  Lemma args_wf kids args : children (B "arg") (of_arg sigT sig_parse dec) kids = Ok args ->
    Forall (wf_arg sigT sig_show sig_parse) args.
  Proof. intro H. apply (children_wf _ _ _ _ _ H). intros t d _. apply arg_wf. Qed.

  Lemma method_wf t m : of_method sigT sig_parse valid_member dec t = Ok m -> wf_method sigT sig_show sig_parse valid_member m.
  Proof.
    unfold of_method. destruct t as [n attrs kids|]; [|discriminate]. intro H. binv. injection H as <-.
    split; cbn; [eapply parse_name_ok; eassumption|eapply args_wf; eassumption].
  Qed.

  Lemma signal_wf t m : of_signal sigT sig_parse valid_member dec t = Ok m -> wf_signal sigT sig_show sig_parse valid_member m.
  Proof.
    unfold of_signal. destruct t as [n attrs kids|]; [|discriminate]. intro H. binv. injection H as <-.
    split; cbn; [eapply parse_name_ok; eassumption|eapply args_wf; eassumption].
  Qed.

  Lemma prop_wf t p : of_prop sigT sig_parse valid_property dec t = Ok p -> wf_prop sigT sig_show sig_parse valid_property p.
  Proof.
    unfold of_prop. destruct t as [n attrs kids|]; [|discriminate]. intro H. binv. injection H as <-.
    split; cbn; [eapply parse_name_ok; eassumption|eapply parse_sig_ok; eassumption].
  Qed.

  Lemma iface_wf t i : of_iface sigT sig_parse valid_member valid_interface valid_property dec t = Ok i ->
    wf_iface sigT sig_show sig_parse valid_member valid_interface valid_property i.
  Proof.
    unfold of_iface. destruct t as [n attrs kids|]; [|discriminate]. intro H. binv. injection H as <-.
    repeat split; cbn.
    - eapply parse_name_ok; eassumption.
    - eapply children_wf; [eassumption|]. intros t d _. apply method_wf.
    - eapply children_wf; [eassumption|]. intros t d _. apply prop_wf.
    - eapply children_wf; [eassumption|]. intros t d _. apply signal_wf.
  Qed.

  Theorem parsed_wf t : forall d, rd t = Ok d -> wf d.
  Proof.
    induction t as [s|n attrs kids IH] using xml_ind'; intros d H; [discriminate|].
    rewrite of_node_unfold in H. binv. injection H as <-. cbn [wf_node]. rewrite Forall_forall in IH. split.
    - eapply children_wf; [eassumption|]. intros t d _. apply iface_wf.
    - apply wf_all. eapply children_wf; [eassumption|]. intros t d Hin. apply IH, Hin.
  Qed.
End Parsed.

(* whatever the reader accepts survives writing and re-reading *)
Corollary reread_of_parsed sigT sig_parse sig_show vm vi vp :
  (forall b s, sig_parse b = Some s -> sig_parse (sig_show s) = Some s) ->
  forall t (d : node sigT),
    of_node sigT sig_parse vm vi vp (fun v => Ok v) t = Ok d ->
    of_node sigT sig_parse vm vi vp (fun v => Ok v) (to_tree sigT sig_show d) = Ok d.
Proof. intros Hs t d H. apply roundtrip. exact (parsed_wf sigT sig_parse sig_show vm vi vp _ Hs t d H). Qed.
