(* C34/Escape.v — quick-xml's attribute escaping and the reader's unescaping: unescape (escape s) = Ok s
   for every byte string, the scan never runs out of fuel, escaped text is free of quotes and '<'. *)
From ZV Require Import Base.Bytes Base.Res Base.WinnowFacts C34.Model.

Definition amp : byte := "&"%byte.
Definition semi : byte := ";"%byte.
Definition quote : byte := """"%byte.

Lemma escape_byte_cases c :
  (escape_byte c = [c] /\ beq c amp = false /\ beq c quote = false /\ beq c "<"%byte = false) \/
  c = "<"%byte \/ c = ">"%byte \/ c = amp \/ c = quote.
Proof. destruct c; try (left; repeat split; reflexivity); auto 10. Qed.

(* an ordinary byte in front does not disturb the scan *)
Lemma unescape_cons f c E : beq c amp = false ->
  unescape_fuel (S f) (c :: E) =
  match unescape_fuel (S f) E with Ok t => Ok (c :: t) | Err e => Err e | Panic p => Panic p end.
Proof.
  intro Hc. cbn [unescape_fuel skip_to_amp]. fold amp. rewrite Hc.
  destruct (skip_to_amp E) as [p [r|]]; [|reflexivity].
  destruct (next_amp_semi r) as [[[ent d] rest]|]; [|reflexivity].
  destruct (beq d ";"%byte); [|reflexivity].
  match goal with |- context [match ?x with Some v => _ | None => Err EXml end] => destruct x end; [|reflexivity].
  destruct (unescape_fuel f rest); reflexivity.
Qed.

Lemma unescape_escape_fuel s : forall f, length (escape s) <= f -> unescape_fuel (S f) (escape s) = Ok s.
Proof.
  induction s as [|c s IH]; intros f Hf; [reflexivity|].
  cbn [escape] in *. rewrite app_length in Hf.
  destruct (escape_byte_cases c) as [[He [Hc _]] | [-> | [-> | [-> | ->]]]].
  { rewrite He in *. cbn [app] in *. rewrite (unescape_cons f c _ Hc), IH by (cbn in Hf; lia). reflexivity. }
  (* an entity: the scan resolves it and resumes behind the ';' with one unit of fuel less *)
  all: cbn in Hf; cbn; destruct f as [|f]; [lia|]; rewrite IH by lia; reflexivity.
Qed.

Theorem unescape_escape s : unescape (escape s) = Ok s.
Proof. unfold unescape. apply unescape_escape_fuel. lia. Qed.

(* ---- the fuel is never exhausted ---- *)
Lemma skip_to_amp_len l : forall p r, skip_to_amp l = (p, Some r) -> length r < length l.
Proof.
  induction l as [|c l IH]; intros p r H; cbn in H; [discriminate|].
  destruct (beq c "&"%byte).
  - injection H as _ <-. cbn. lia.
  - destruct (skip_to_amp l) as [p' q'] eqn:E. injection H as _ ->. specialize (IH _ _ eq_refl). cbn. lia.
Qed.

Lemma next_amp_semi_len l : forall e d r, next_amp_semi l = Some (e, d, r) -> length r < length l.
Proof.
  induction l as [|c l IH]; intros e d r H; cbn in H; [discriminate|].
  destruct (beq c "&"%byte || beq c ";"%byte).
  - injection H as _ _ <-. cbn. lia.
  - destruct (next_amp_semi l) as [[[e' d'] r']|] eqn:E; [|discriminate]. injection H as _ _ <-.
    specialize (IH _ _ _ eq_refl). cbn. lia.
Qed.

Lemma unescape_fuel_total f : forall raw p, length raw < f -> unescape_fuel f raw <> Panic p.
Proof.
  induction f as [|f IH]; intros raw p Hf; [lia|]. cbn [unescape_fuel].
  destruct (skip_to_amp raw) as [pre [r|]] eqn:E1; [|discriminate].
  destruct (next_amp_semi r) as [[[ent d] rest]|] eqn:E2; [|discriminate].
  destruct (beq d ";"%byte); [|discriminate].
  match goal with |- context [match ?x with Some v => _ | None => Err EXml end] => destruct x end; [|discriminate].
  apply skip_to_amp_len in E1. apply next_amp_semi_len in E2.
  pose proof (IH rest p) as Hr. destruct (unescape_fuel f rest); cbn; try discriminate.
  intro H. injection H as ->. apply Hr; [lia|reflexivity].
Qed.

Theorem unescape_total raw p : unescape raw <> Panic p.
Proof. apply unescape_fuel_total. lia. Qed.

(* ---- escaped text contains neither a double quote nor '<' (so it can sit between double quotes) ---- *)
Lemma escape_clean s : forallb (fun c => negb (beq c quote) && negb (beq c "<"%byte)) (escape s) = true.
Proof.
  induction s as [|c s IH]; [reflexivity|]. cbn [escape]. rewrite forallb_app, IH, andb_true_r.
  destruct (escape_byte_cases c) as [[He [_ [Hq Hl]]] | [-> | [-> | [-> | ->]]]]; try reflexivity.
  rewrite He. cbn. rewrite Hq, Hl. reflexivity.
Qed.

Example unescape_escape_ex :
  escape (B "1 < 2 & ""q"" 's' >") = B "1 &lt; 2 &amp; &quot;q&quot; 's' &gt;" /\
  unescape (B "&#65;&#x1F600;&apos;&lt;") = Ok (B "A" ++ [xf0; x9f; x98; x80] ++ B "'<") /\
  unescape (B "&bogus;") = Err EXml /\ unescape (B "a&amp") = Err EXml /\ unescape (B "&#0;") = Err EXml.
Proof. repeat split; vm_compute; reflexivity. Qed.
