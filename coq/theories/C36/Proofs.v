(* C36/Proofs.v — the name bookkeeping follows the bus: invariant between the model's state and the bus transcript. *)
From Coq Require Import List NArith Bool.
From ZV Require Import Base.Bytes Base.Res Base.WinnowFacts C21.Model C36.Model C36.Spec.
Import ListNotations.
Open Scope N_scope.

(* ------------------------------------------------------------------ what the monitors' rules let through *)
Lemma monitor_rule_ok acq n :
  monitor_rule acq n =
  Ok {| r_type := Some Signal; r_sender := Some (BUnique driver); r_interface := Some driver;
        r_member := Some (member_of acq); r_path := None; r_destination := None;
        r_args := [(0, n)]; r_arg_paths := []; r_arg0ns := None |}.
Proof. destruct acq; reflexivity. Qed.

Lemma monitor_rules_ok n : exists r1 r2, monitor_rule true n = Ok r1 /\ monitor_rule false n = Ok r2.
Proof. eexists; eexists; split; apply monitor_rule_ok. Qed.

Lemma member_eq a b : lbeq (member_of a) (member_of b) = Bool.eqb a b.
Proof. destruct a, b; reflexivity. Qed.

Lemma delivered_spec acq n s :
  delivered acq n s = genuine s && Bool.eqb acq (s_acquired s) && lbeq n (s_name s).
Proof.
  unfold delivered. rewrite monitor_rule_ok.
  unfold matches_b, chk_type, chk_sender, chk_interface, chk_member, chk_destination, chk_path, chk_arg0ns, chk_args,
    sig_msg, genuine; cbn [r_type r_sender r_interface r_member r_path r_destination r_args r_arg_paths r_arg0ns
    m_type m_sender m_interface m_member m_path m_destination m_body mtype_eqb is_nil andb body_fields forallb
    chk_arg fst snd N.to_nat nth_error].
  rewrite member_eq, lbeq_refl.
  destruct (s_sender s) as [x|]; cbn [opt_beq].
  - rewrite (lbeq_sym driver x). destruct (lbeq x driver), (Bool.eqb acq (s_acquired s)), (lbeq n (s_name s)); reflexivity.
  - reflexivity.
Qed.

Lemma delivered_exclusive n s : delivered true n s = true -> delivered false n s = true -> False.
Proof.
  rewrite !delivered_spec. destruct (s_acquired s), (genuine s), (lbeq n (s_name s)); cbn; congruence.
Qed.

Lemma signal_inert st s n : genuine s && lbeq n (s_name s) = false -> on_signal st s n = st n.
Proof.
  intros G. unfold on_signal. rewrite !delivered_spec.
  destruct (genuine s), (lbeq n (s_name s)); try discriminate G; cbn [andb]; rewrite ?andb_false_r;
    destruct (st n) as [[m|a k]|]; rewrite ?andb_false_r; reflexivity.
Qed.

(* ------------------------------------------------------------------ the bus's own state and the verdict *)
Lemma bus_state_snoc tr e n : bus_state (tr ++ [e]) n = bus_step (bus_state tr n) e n.
Proof. unfold bus_state. rewrite fold_left_app. reflexivity. Qed.

Lemma says_step b e n :
  b_v (bus_step b e n) = match says e n with Some v => v | None => b_v b end.
Proof.
  destruct e as [m f [c|]|m c|s]; cbn [bus_step says].
  - destruct (lbeq n m); [|reflexivity]. destruct (decode_rq c) as [[| | |]|]; reflexivity.
  - reflexivity.
  - destruct (lbeq n m); reflexivity.
  - destruct (genuine s && lbeq n (s_name s)); [destruct (s_acquired s)|]; reflexivity.
Qed.

Lemma verdict_is_bus_state tr n : verdict_of tr n = b_v (bus_state tr n).
Proof.
  unfold verdict_of, bus_state.
  change VNone with (b_v bnone) at 1. generalize bnone.
  induction tr as [|e tr IH]; intro b; cbn [fold_left]; [reflexivity|].
  rewrite <- says_step. apply IH.
Qed.

Lemma verdict_snoc tr e n :
  verdict_of (tr ++ [e]) n = match says e n with Some v => v | None => verdict_of tr n end.
Proof. unfold verdict_of. rewrite fold_left_app. reflexivity. Qed.

(* ------------------------------------------------------------------ the invariant *)
Definition agree1 (x : option nstat) (b : bstate) : Prop :=
  match x with
  | None => b_v b = VNone
  | Some (Owner m) => b = {| b_v := VOwner; b_allow := m |}
  | Some (Queued a k) => k = 0%nat /\ b = {| b_v := VQueued; b_allow := a |}
  end.
Definition agree (st : names) (tr : list bus_event) : Prop := forall n, agree1 (st n) (bus_state tr n).

Lemma agree_view st tr : agree st tr -> forall n, view st n = verdict_of tr n.
Proof.
  intros A n. rewrite verdict_is_bus_state. specialize (A n). unfold view, agree1 in *.
  destruct (st n) as [[m|a k]|].
  - rewrite A. reflexivity.
  - destruct A as [_ A]. rewrite A. reflexivity.
  - symmetry. exact A.
Qed.

Lemma agree_init : agree no_names [].
Proof. intro n. reflexivity. Qed.

(* an event changes the bus's state of its own name only: the invariant is re-established at that name *)
Lemma bus_step_other b e m : lbeq m (event_name e) = false -> bus_step b e m = b.
Proof. intros E. destruct e as [n f [c|]|n c|s]; cbn [bus_step event_name] in *; rewrite ?E, ?andb_false_r; reflexivity. Qed.

Lemma agree_event st st' tr e :
  agree st tr -> (forall m, lbeq m (event_name e) = false -> st' m = st m) ->
  agree1 (st' (event_name e)) (bus_step (bus_state tr (event_name e)) e (event_name e)) ->
  agree st' (tr ++ [e]).
Proof.
  intros A O X m. rewrite bus_state_snoc. destruct (lbeq m (event_name e)) eqn:E.
  - apply lbeq_eq in E. subst m. exact X.
  - rewrite bus_step_other, O by exact E. apply A.
Qed.

Lemma upd_same st n x : upd st n x n = x.
Proof. unfold upd. now rewrite lbeq_refl. Qed.
Lemma upd_other st n x m : lbeq m n = false -> upd st n x m = st m.
Proof. intros E. unfold upd. now rewrite E. Qed.

Lemma agree_signal st tr s :
  agree st tr -> deviates (bus_state tr (s_name s)) (BSig s) = None ->
  agree (on_signal st s) (tr ++ [BSig s]).
Proof.
  intros A D. apply (agree_event st _ tr (BSig s) A); cbn [event_name bus_step].
  { intros m E. apply signal_inert. now rewrite E, andb_false_r. }
  specialize (A (s_name s)). rewrite lbeq_refl, andb_true_r. destruct (genuine s) eqn:G.
  2:{ rewrite signal_inert by (now rewrite G). exact A. }
  unfold on_signal. rewrite !delivered_spec, G, lbeq_refl. cbn [andb].
  unfold deviates in D. rewrite G in D. unfold agree1 in *.
  destruct (st (s_name s)) as [[m|a k]|].
  - rewrite A in *. cbn [b_v b_allow] in *. destruct (s_acquired s); cbn [Bool.eqb andb].
    + rewrite andb_false_r. reflexivity.
    + destruct m; cbn [andb]; [reflexivity|discriminate].
  - destruct A as [K A]. rewrite A in *. subst k. cbn [b_v b_allow] in *.
    destruct (s_acquired s); cbn [Bool.eqb andb]; [destruct a; reflexivity|discriminate].
  - rewrite A in D. destruct (s_acquired s); [discriminate|reflexivity].
Qed.

Lemma known_from_app tr a b :
  known_from tr (a ++ b) = None <-> known_from tr a = None /\ known_from (tr ++ a) b = None.
Proof.
  revert tr. induction a as [|e a IH]; intro tr; cbn [app known_from].
  - rewrite app_nil_r. tauto.
  - destruct (deviates (bus_state tr (event_name e)) e).
    + split; [discriminate|]. intros [H _]. discriminate.
    + rewrite IH. rewrite <- app_assoc. reflexivity.
Qed.

Lemma agree_signals post : forall st tr,
  agree st tr -> known_from tr (map BSig post) = None ->
  agree (fold_left on_signal post st) (tr ++ map BSig post).
Proof.
  induction post as [|s post IH]; intros st tr A K; cbn [map fold_left].
  - rewrite app_nil_r. exact A.
  - cbn [map known_from event_name] in K.
    destruct (deviates (bus_state tr (s_name s)) (BSig s)) eqn:D; [discriminate|].
    change (tr ++ BSig s :: map BSig post) with (tr ++ [BSig s] ++ map BSig post). rewrite app_assoc.
    apply IH; [|exact K]. apply agree_signal; assumption.
Qed.

(* a request the bus is asked about: whatever the answer, the entry of n becomes what the answer says *)
Lemma request_agree st tr n flags ans :
  agree st tr -> st n = None -> agree (ro_state (request st n flags ans)) (tr ++ [BRequest n flags ans]).
Proof.
  intros A S. apply (agree_event st _ tr _ A); cbn [event_name bus_step]; unfold request; rewrite S, !monitor_rule_ok.
  - intros m E. destruct ans as [c|]; [destruct (decode_rq c) as [[| | |]|]|]; cbn [ro_state]; now rewrite ?upd_other.
  - specialize (A n). rewrite S in A. cbn [agree1] in A. rewrite lbeq_refl.
    destruct ans as [c|]; [destruct (decode_rq c) as [[| | |]|]|]; cbn [ro_state]; rewrite ?upd_same, ?S; cbn; auto.
Qed.

Lemma request_spec st tr n flags ans :
  agree st tr ->
  let o := request st n flags ans in
  match verdict_of tr n with
  | VOwner => ro_asked o = None /\ ro_result o = RR RAlready /\ ro_state o = st
  | VQueued => ro_asked o = None /\ ro_result o = RR RInQueue /\ ro_state o = st
  | VNone => ro_asked o = Some flags /\ ro_result o = relay ans /\ agree (ro_state o) (tr ++ [BRequest n flags ans])
  end.
Proof.
  intros A o. rewrite <- (agree_view st tr A n). unfold view. subst o.
  destruct (st n) as [[m|a k]|] eqn:S.
  1, 2: unfold request; rewrite S; auto.
  split; [|split; [|now apply request_agree]]; unfold request; rewrite S, !monitor_rule_ok;
    (destruct ans as [c|]; [cbn [relay]; destruct (decode_rq c) as [[| | |]|]|]); reflexivity.
Qed.

Lemma release_spec st tr n code :
  agree st tr -> decode_rl code <> None ->
  let o := release st n code in
  if held (verdict_of tr n)
  then lo_asked o = true /\ lo_result o = RelOk (released code) /\ agree (lo_state o) (tr ++ [BRelease n code])
  else lo_asked o = false /\ lo_result o = RelOk false /\ lo_state o = st.
Proof.
  intros A Dc o. rewrite <- (agree_view st tr A n). unfold view. subst o. unfold release.
  assert (R : agree (upd st n None) (tr ++ [BRelease n code])).
  { apply (agree_event st _ tr _ A); cbn [event_name bus_step]; [intros m E; now apply upd_other|].
    now rewrite lbeq_refl, upd_same. }
  assert (Q : match decode_rl code with Some LReleased => RelOk true | Some _ => RelOk false | None => RelBadReply end
              = RelOk (released code)).
  { unfold released. destruct (decode_rl code) as [[| |]|]; try reflexivity. contradiction Dc; reflexivity. }
  destruct (st n) as [[m|a k]|]; cbn [held lo_asked lo_result lo_state]; auto.
Qed.

(* ------------------------------------------------------------------ whole histories *)
(* codes the scripted bus may answer ReleaseName with *)
Definition release_code_ok (s : step) : Prop :=
  match s with SRelease _ code => decode_rl code <> None | _ => True end.

Lemma exec_agree st tr s :
  agree st tr -> release_code_ok s ->
  let '(st1, res, bus) := exec st s in
  known_from tr (step_events s bus) = None ->
  agree st1 (tr ++ step_events s bus) /\ step_ok tr s {| o_res := res; o_bus := bus; o_views := [] |} = true.
Proof.
  intros A RC. destruct s as [n flags ans post|n code|g]; cbn [exec].
  - pose proof (request_spec st tr n flags ans A) as R. cbv zeta in R.
    cbn [step_ok o_bus o_res].
    destruct (verdict_of tr n) eqn:V; destruct R as (Ra & Rr & Rs); rewrite Ra, Rr; cbn [step_events].
    1, 2: rewrite Rs; intros _; rewrite app_nil_r; auto.
    intros K. change (BRequest n flags ans :: map BSig post) with ([BRequest n flags ans] ++ map BSig post) in *.
    apply known_from_app in K. destruct K as [_ K]. rewrite app_assoc.
    split; [apply agree_signals; assumption|].
    rewrite lbeq_refl. cbn [andb]. destruct (relay ans) as [[| | |]| | | |]; reflexivity.
  - pose proof (release_spec st tr n code A RC) as R. cbv zeta in R.
    cbn [step_ok o_bus o_res].
    destruct (held (verdict_of tr n)) eqn:V; destruct R as (Ra & Rr & Rs); rewrite Ra, Rr; cbn [step_events]; intros _.
    + split; [exact Rs|]. rewrite lbeq_refl. cbn [andb]. apply eqb_reflx.
    + rewrite Rs, app_nil_r. auto.
  - cbn [step_events known_from event_name step_ok o_bus o_res].
    destruct (deviates (bus_state tr (s_name g)) (BSig g)) eqn:D; [discriminate|]. intros _.
    split; [apply agree_signal; assumption|reflexivity].
Qed.

Lemma views_ok_map st tr : agree st tr -> forall probes, views_ok tr probes (map (view st) probes) = true.
Proof.
  intros A. induction probes as [|n ps IH]; cbn [map views_ok]; [reflexivity|].
  rewrite (agree_view st tr A n), IH. destruct (verdict_of tr n); reflexivity.
Qed.

Lemma step_ok_views tr s res bus vs :
  step_ok tr s {| o_res := res; o_bus := bus; o_views := vs |} = step_ok tr s {| o_res := res; o_bus := bus; o_views := [] |}.
Proof. destruct s; reflexivity. Qed.

Lemma run_agree probes : forall h st tr,
  agree st tr -> Forall release_code_ok h -> known_from tr (transcript_from st h) = None ->
  agree (snd (run_from probes st h)) (tr ++ transcript_from st h) /\ conforms probes tr h (fst (run_from probes st h)) = true.
Proof.
  induction h as [|s h IH]; intros st tr A RC K; cbn [transcript_from run_from].
  - rewrite app_nil_r. cbn. auto.
  - inversion RC as [|? ? RC1 RC2]; subst.
    pose proof (exec_agree st tr s A RC1) as E.
    cbn [transcript_from] in K.
    destruct (exec st s) as [[st1 res] bus] eqn:X.
    apply known_from_app in K. destruct K as [K1 K2].
    destruct (E K1) as [A1 S1].
    destruct (IH st1 (tr ++ step_events s bus) A1 RC2 K2) as [A2 C2].
    destruct (run_from probes st1 h) as [os stf] eqn:Y. cbn [fst snd] in *.
    split; [rewrite app_assoc; exact A2|].
    cbn [conforms o_bus o_views]. rewrite step_ok_views, S1, C2, (views_ok_map st1 _ A1). reflexivity.
Qed.

(* ------------------------------------------------------------------ the theorems *)
Definition well_scripted (h : list step) : Prop := Forall release_code_ok h.

Lemma final_agree h : well_scripted h -> known (transcript h) = None -> agree (final h) (transcript h).
Proof. intros W K. apply (run_agree [] h no_names [] agree_init W K). Qed.

Theorem status_partial h :
  well_scripted h -> known (transcript h) = None ->
  forall n, view (final h) n = verdict_of (transcript h) n.
Proof. intros W K. apply agree_view. now apply final_agree. Qed.

Theorem conforms_partial probes h :
  well_scripted h -> known (transcript h) = None ->
  conforms probes [] h (run probes h) = true.
Proof. intros W K. apply (run_agree probes h no_names [] agree_init W K). Qed.

Lemma observed_is_transcript probes : forall h st,
  observed_transcript h (fst (run_from probes st h)) = transcript_from st h.
Proof.
  induction h as [|s h IH]; intro st; cbn [run_from transcript_from observed_transcript]; [reflexivity|].
  destruct (exec st s) as [[st1 res] bus]. specialize (IH st1).
  destruct (run_from probes st1 h) as [os stf]. cbn [fst] in *. cbn [observed_transcript o_bus]. rewrite IH. reflexivity.
Qed.

Theorem request_partial h n flags ans :
  well_scripted h -> known (transcript h) = None ->
  let o := request (final h) n flags ans in
  match verdict_of (transcript h) n with
  | VOwner => ro_asked o = None /\ ro_result o = RR RAlready
  | VQueued => ro_asked o = None /\ ro_result o = RR RInQueue
  | VNone => ro_asked o = Some flags /\ ro_result o = relay ans
  end.
Proof.
  intros W K. pose proof (request_spec _ _ n flags ans (final_agree h W K)) as R. cbv zeta in *.
  destruct (verdict_of (transcript h) n); destruct R as (R1 & R2 & _); split; assumption.
Qed.

Theorem release_partial h n code :
  well_scripted h -> known (transcript h) = None -> decode_rl code <> None ->
  let o := release (final h) n code in
  lo_asked o = held (verdict_of (transcript h) n) /\
  lo_result o = RelOk (held (verdict_of (transcript h) n) && released code).
Proof.
  intros W K Dc. pose proof (release_spec _ _ n code (final_agree h W K) Dc) as R. cbv zeta in *.
  destruct (held (verdict_of (transcript h) n)); cbn [andb]; destruct R as (R1 & R2 & _); split; assumption.
Qed.

(* a bus that answers Released whenever it had granted or queued the name: success iff held or queued *)
Corollary release_coherent h n code :
  well_scripted h -> known (transcript h) = None -> decode_rl code <> None ->
  (held (verdict_of (transcript h) n) = true -> released code = true) ->
  lo_result (release (final h) n code) = RelOk (held (verdict_of (transcript h) n)).
Proof.
  intros W K Dc Co. destruct (release_partial h n code W K Dc) as [_ R]. cbv zeta in R. rewrite R.
  destruct (held (verdict_of (transcript h) n)); cbn [andb]; [|reflexivity].
  rewrite (Co eq_refl). reflexivity.
Qed.

Theorem forged_change_nothing st s :
  s_sender s <> Some driver -> forall n, on_signal st s n = st n.
Proof.
  intros G n. apply signal_inert. unfold genuine. destruct (s_sender s) as [x|]; [|reflexivity].
  rewrite (proj2 (lbeq_false x driver)); [reflexivity|]. intro E. apply G. rewrite E. reflexivity.
Qed.

(* the `.unwrap()`s on the rule builder in request_name_with_flags never fire *)
Theorem request_never_panics st n flags ans : ro_result (request st n flags ans) <> RPanic.
Proof.
  unfold request. destruct (st n) as [[m|a k]|]; try discriminate.
  rewrite !monitor_rule_ok. destruct ans as [c|]; [|discriminate].
  destruct (decode_rq c) as [[| | |]|]; discriminate.
Qed.

(* ------------------------------------------------------------------ the full statement and its refutation *)
Definition full_statement : Prop :=
  forall h, well_scripted h -> forall n, view (final h) n = verdict_of (transcript h) n.

Definition nA : name := B "org.zbus.A".
Definition gsig (acq : bool) (n : name) : sigmsg := {| s_sender := Some driver; s_acquired := acq; s_name := n |}.
Definition fsig (acq : bool) (n : name) : sigmsg := {| s_sender := Some (B ":1.66"); s_acquired := acq; s_name := n |}.

(* owner without allow-replacement, then the bus takes the name away: the connection still says "already owner" *)
Definition w_lost : list step := [SRequest nA 0 (AnsCode 1) []; SSignal (gsig false nA)].
(* replaced (allow-replacement), later given the name back: the connection does not notice *)
Definition w_acquired : list step := [SRequest nA 1 (AnsCode 1) []; SSignal (gsig false nA); SSignal (gsig true nA)].
(* queued with allow-replacement, a NameLost while queued is buffered and kills the later acquisition *)
Definition w_stale : list step := [SRequest nA 1 (AnsCode 2) []; SSignal (gsig false nA); SSignal (gsig true nA)].

Lemma lost_unmonitored_refuted :
  well_scripted w_lost /\ known (transcript w_lost) = Some KLostUnmonitored /\
  view (final w_lost) nA = VOwner /\ verdict_of (transcript w_lost) nA = VNone.
Proof. split; [repeat constructor|]. vm_compute. auto. Qed.

Lemma acquired_unmonitored_refuted :
  well_scripted w_acquired /\ known (transcript w_acquired) = Some KAcquiredUnmonitored /\
  view (final w_acquired) nA = VNone /\ verdict_of (transcript w_acquired) nA = VOwner.
Proof. split; [repeat constructor|]. vm_compute. auto. Qed.

Lemma stale_lost_refuted :
  well_scripted w_stale /\ known (transcript w_stale) = Some KLostUnmonitored /\
  view (final w_stale) nA = VNone /\ verdict_of (transcript w_stale) nA = VOwner.
Proof. split; [repeat constructor|]. vm_compute. auto. Qed.

Lemma full_refuted : ~ full_statement.
Proof.
  intro F. destruct lost_unmonitored_refuted as (W & _ & V1 & V2).
  specialize (F w_lost W nA). rewrite V1, V2 in F. discriminate.
Qed.

(* the same NameLost, about a name held with a lost-monitor: forged -> nothing, genuine -> the name is gone *)
Example forged_vs_genuine :
  let st := upd no_names nA (Some (Owner true)) in
  on_signal st (fsig false nA) nA = Some (Owner true) /\
  on_signal st {| s_sender := None; s_acquired := false; s_name := nA |} nA = Some (Owner true) /\
  on_signal st (gsig false nA) nA = None.
Proof. vm_compute. auto. Qed.

(* ------------------------------------------------------------------ non-vacuity: a history with every kind of step,
   both names, forged signals, replacement and re-acquisition from the queue, outside the known classes *)
Definition nB : name := B "org.zbus.B".
Definition ex_history : list step :=
  [ SRequest nA 1 (AnsCode 1) [];            (* owner, replaceable *)
    SSignal (fsig false nA);                 (* forged NameLost *)
    SRequest nB 4 (AnsCode 3) [];            (* Exists *)
    SRequest nB 0 (AnsCode 2) [gsig true nB];(* queued, acquired right behind the reply *)
    SRequest nA 7 (AnsCode 2) [];            (* answered from memory *)
    SSignal (gsig false nA);                 (* replaced *)
    SRelease nA 1;                           (* not held any more: no bus traffic *)
    SRequest nA 1 AnsError [];
    SRequest nA 1 (AnsCode 2) [];
    SSignal (fsig true nA);
    SSignal (gsig true nA);
    SRelease nB 1 ].

Example ex_history_ok :
  well_scripted ex_history /\ known (transcript ex_history) = None /\
  view (final ex_history) nA = VOwner /\ view (final ex_history) nB = VNone /\
  List.length (transcript ex_history) = 11%nat.
Proof. split; [repeat constructor; discriminate|]. vm_compute. auto. Qed.
