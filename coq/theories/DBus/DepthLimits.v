(* DBus/DepthLimits.v — the numbers in the counter check of the serializer/deserializer model ([dcheck], DBus/Ser.v) and
   in the specification's nesting rule ([depth_ok], DBus/Spec.v) are the constants of zvariant/src/container_depths.rs
   as re-read by tools/gen_depth_consts.py (DBus/GeneratedDepth.v). *)
From ZV Require Import Base.Bytes Base.Res Base.Sig DBus.Val DBus.Spec DBus.Ser DBus.SerFacts DBus.GeneratedDepth.
Local Open Scope N_scope.

Lemma limits_are_spec :
  (max_struct_depth, max_array_depth, max_total_depth) = (32, 32, 64) ->
  (forall d : depths,
     dcheck d = Ok d <->
     (d_struct d <= max_struct_depth /\ d_array d <= max_array_depth /\
      d_struct d + d_array d + d_variant d + d_maybe d <= max_total_depth)) /\
  (forall d : depths, dcheck d = Ok d \/ exists k, dcheck d = Err (EDepth k)) /\
  (forall ds da dv x,
     depth_ok ds da dv (VVariant x) = (ds + da + dv + 1 <=? max_total_depth) && depth_ok ds da (dv + 1) x) /\
  (forall ds da dv el l,
     depth_ok ds da dv (VArray el l)
     = (da + 1 <=? max_array_depth) && (ds + da + dv + 1 <=? max_total_depth) && forallb (depth_ok ds (da + 1) dv) l) /\
  (forall ds da dv ks vs l,
     depth_ok ds da dv (VDict ks vs l)
     = (da + 1 <=? max_array_depth) && (ds + da + dv + 1 <=? max_total_depth)
       && forallb (fun p => depth_ok ds (da + 1) dv (fst p) && depth_ok ds (da + 1) dv (snd p)) l) /\
  (forall ds da dv l,
     depth_ok ds da dv (VStruct l)
     = (ds + 1 <=? max_struct_depth) && (ds + da + dv + 1 <=? max_total_depth) && forallb (depth_ok (ds + 1) da dv) l).
Proof.
  intros H.
  assert (Hs : max_struct_depth = 32) by exact (f_equal (fun t => fst (fst t)) H).
  assert (Ha : max_array_depth = 32) by exact (f_equal (fun t => snd (fst t)) H).
  assert (Ht : max_total_depth = 64) by exact (f_equal snd H).
  rewrite Hs, Ha, Ht.
  split; [intros d; apply dcheck_ok_iff|].
  split; [intros d; destruct (dcheck_err d _ eq_refl) as [E|[k E]]; [left|right; exists k]; exact E|].
  repeat split.
Qed.
