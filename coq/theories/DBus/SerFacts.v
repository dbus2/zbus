(* DBus/SerFacts.v — bookkeeping lemmas for the serializer proof: list/length arithmetic, the back-patch,
   decidable equality of signatures, standalone versions of the local fixpoints of [marshal] and [ser]. *)
From ZV Require Import Base.Bytes Base.BytesFacts Base.Res Base.Sig Base.SigParse Base.SigParseFacts DBus.Val DBus.Spec DBus.Ser.
From Coq Require Import Lia.

(* ---------- lengths ---------- *)
Lemma len_zeros n : len (zeros n) = n.
Proof. unfold len, zeros. rewrite repeat_length. lia. Qed.
Lemma le_bytes_length n x : length (le_bytes n x) = n.
Proof. revert x. induction n; intros x; cbn; [reflexivity|]. now rewrite IHn. Qed.
Lemma len_enc e n x : len (enc e n x) = N.of_nat n.
Proof. unfold len. destruct e; cbn; rewrite ?rev_length, le_bytes_length; reflexivity. Qed.
Lemma length_enc e n x : length (enc e n x) = n.
Proof. destruct e; cbn; rewrite ?rev_length, le_bytes_length; reflexivity. Qed.

(* the back-patch of the array length *)
Lemma patch_mid (a b c b' : bytes) : length b' = length b ->
  patch (a ++ b ++ c) (len a) b' = a ++ b' ++ c.
Proof.
  intros H. unfold patch. rewrite takeN_app. f_equal. f_equal.
  replace (len a + len b')%N with (len (a ++ b)) by (rewrite len_app; unfold len; rewrite H; reflexivity).
  rewrite app_assoc. apply dropN_app.
Qed.

Lemma le_bytes_mod n x : le_bytes n (x mod 2 ^ (8 * N.of_nat n)) = le_bytes n x.
Proof.
  revert x. induction n as [|n IH]; intros x; [reflexivity|].
  cbn [le_bytes]. replace (8 * N.of_nat (S n))%N with (8 + 8 * N.of_nat n)%N by lia.
  rewrite N.pow_add_r. change (2 ^ 8)%N with 256%N.
  set (M := (2 ^ (8 * N.of_nat n))%N). assert (HM : M <> 0%N) by (apply N.pow_nonzero; lia).
  rewrite (N.mod_mul_r x 256 M) by lia.
  f_equal.
  - f_equal. rewrite (N.mul_comm 256). rewrite N.mod_add by lia. apply N.mod_mod. lia.
  - rewrite <- (IH (x / 256)%N). f_equal. fold M. rewrite (N.mul_comm 256). rewrite N.div_add by lia.
    rewrite N.div_small by (apply N.mod_lt; lia). reflexivity.
Qed.
Lemma enc_mod32 e x : enc e 4 (x mod 2 ^ 32) = enc e 4 x.
Proof. unfold enc. change (2 ^ 32)%N with (2 ^ (8 * N.of_nat 4))%N. now rewrite le_bytes_mod. Qed.

Lemma padn_1 p : padn p 1 = 0%N.
Proof. unfold padn. rewrite N.mod_1_r. reflexivity. Qed.
Lemma pad_1 p : pad p 1 = [].
Proof. unfold pad. now rewrite padn_1. Qed.

(* ---------- the counter check ---------- *)
Lemma dcheck_ok_iff d :
  dcheck d = Ok d <-> (d_struct d <= 32 /\ d_array d <= 32 /\ d_struct d + d_array d + d_variant d + d_maybe d <= 64)%N.
Proof.
  unfold dcheck.
  destruct (N.ltb_spec 32 (d_struct d)); [split; [discriminate|lia]|].
  destruct (N.ltb_spec 32 (d_array d)); [split; [discriminate|lia]|].
  destruct (N.ltb_spec 64 (d_struct d + d_array d + d_variant d + d_maybe d)); [split; [discriminate|lia]|].
  split; [lia|reflexivity].
Qed.

Lemma dcheck_err d r : dcheck d = r -> r = Ok d \/ exists k, r = Err (EDepth k).
Proof.
  unfold dcheck. intros <-.
  destruct (32 <? d_struct d)%N; [right; eauto|]. destruct (32 <? d_array d)%N; [right; eauto|].
  destruct (64 <? _)%N; [right; eauto|]. left; reflexivity.
Qed.

(* ---------- signatures ---------- *)
Lemma sig_eqb_eq : forall a b, sig_eqb a b = true -> a = b.
Proof.
  induction a using sig_ind'; intros b Hab; destruct b; cbn in Hab; try discriminate; try reflexivity.
  - f_equal. now apply IHa.
  - apply andb_true_iff in Hab as [H1 H2]. f_equal; [now apply IHa1|now apply IHa2].
  - f_equal. revert fs0 Hab. induction H as [|x l Hx Hl IH]; intros [|y l'] Hab; try discriminate; [reflexivity|].
    apply andb_true_iff in Hab as [H1 H2]. f_equal; [now apply Hx|now apply IH].
  - f_equal. now apply IHa.
Qed.

Lemma sig_eqb_refl : forall s, sig_eqb s s = true.
Proof.
  induction s using sig_ind'; cbn [sig_eqb]; try reflexivity; try assumption.
  - now rewrite IHs1, IHs2.
  - induction H as [|x l Hx Hl IH]; [reflexivity|]. now rewrite Hx, IH.
Qed.

Lemma basic_printable g : is_basic g = true -> printable g = true.
Proof. destruct g; cbn; congruence. Qed.
Lemma single_printable : forall g, single_ok g = true -> printable g = true.
Proof.
  induction g using sig_ind'; cbn; intros Hs; try discriminate; try reflexivity.
  - auto.
  - apply andb_true_iff in Hs as [H1 H2]. rewrite (basic_printable _ H1). cbn. auto.
  - apply andb_true_iff in Hs as [H1 H2]. rewrite H1. cbn.
    apply forallb_forall. intros x Hin. rewrite Forall_forall in H. rewrite forallb_forall in H2. auto.
Qed.

(* ---------- standalone versions of marshal's local fixpoints ---------- *)
Section M.
  Variables (e : endian) (fm : fdmode).
  Fixpoint mseq (l : list dval) (p k : N) : bytes :=
    match l with
    | [] => []
    | x :: r => let b := marshal e fm x p k in b ++ mseq r (p + len b)%N (k + nfds x)%N
    end.
  Fixpoint mentries (l : list (dval * dval)) (p k : N) : bytes :=
    match l with
    | [] => []
    | (key, x) :: r =>
        let b0 := pad p 8 in
        let b1 := marshal e fm key (p + len b0)%N k in
        let b2 := marshal e fm x (p + len b0 + len b1)%N (k + nfds key)%N in
        b0 ++ b1 ++ b2 ++ mentries r (p + len b0 + len b1 + len b2)%N (k + nfds key + nfds x)%N
    end.
  Lemma marshal_array el l pos k :
    marshal e fm (VArray el l) pos k =
    let p0 := pad pos 4 in
    let p1 := pad (pos + len p0 + 4) (align_dbus el) in
    let body := mseq l (pos + len p0 + 4 + len p1)%N k in
    p0 ++ enc e 4 (len body) ++ p1 ++ body.
  Proof. reflexivity. Qed.
  Lemma marshal_dict ks vs l pos k :
    marshal e fm (VDict ks vs l) pos k =
    let p0 := pad pos 4 in
    let p1 := pad (pos + len p0 + 4) 8 in
    let body := mentries l (pos + len p0 + 4 + len p1)%N k in
    p0 ++ enc e 4 (len body) ++ p1 ++ body.
  Proof. reflexivity. Qed.
  Lemma marshal_struct l pos k :
    marshal e fm (VStruct l) pos k = let p0 := pad pos 8 in p0 ++ mseq l (pos + len p0)%N k.
  Proof. reflexivity. Qed.
End M.

(* ---------- standalone versions of ser's local fixpoints ---------- *)
Fixpoint ser_elems (l : list sval) (st : sstate) : res cerr sstate :=
  match l with [] => Ok st | y :: r => let* st1 := ser y st in ser_elems r st1 end.
Fixpoint ser_fields (l : list sval) (idx : nat) (st : sstate) : res cerr sstate :=
  match l with
  | [] => Ok st
  | y :: r => let* (g, idx') := field_sig st idx in
              let* sub := ser y (sub_of st g) in
              ser_fields r idx' (back_from st sub)
  end.
Fixpoint ser_nfields (l : list (bytes * sval)) (idx : nat) (st : sstate) : res cerr sstate :=
  match l with
  | [] => Ok st
  | (_, y) :: r => let* (g, idx') := field_sig st idx in
                   let* sub := ser y (sub_of st g) in
                   ser_nfields r idx' (back_from st sub)
  end.
Fixpoint ser_entries (l : list (sval * sval)) (ks vs : sig) (st : sstate) : res cerr sstate :=
  match l with
  | [] => Ok st
  | (k, y) :: r => let st := padded st 8 in
                   let* st := ser k st in
                   let* st := ser y (set_sig st vs) in
                   ser_entries r ks vs (set_sig st ks)
  end.

Lemma ser_seq l st :
  ser (XSeq l) st = let* (st, start, fp, asig) := seq_begin st in
                    let* st := ser_elems l st in seq_end st start fp asig.
Proof. reflexivity. Qed.
Lemma ser_tuple l st :
  ser (XTuple l) st =
  let* (st, k) := struct_begin st in
  match k with
  | KStruct saved => let* st := ser_fields l 0%nat st in Ok (set_dep st saved)
  | KSeq start fp asig => let* st := ser_elems l st in seq_end st start fp asig
  | KMap _ _ _ _ _ => Panic PUnreachable
  end.
Proof. cbn [ser]. destruct (struct_begin st) as [[st' k]| |]; [|reflexivity|reflexivity]. cbn [bind]. destruct k; try reflexivity. destruct l; reflexivity. Qed.
Fixpoint ser_nelems (l : list (bytes * sval)) (st : sstate) : res cerr sstate :=
  match l with [] => Ok st | (_, y) :: r => let* st1 := ser y st in ser_nelems r st1 end.
Fixpoint ser_nentries (l : list (bytes * sval)) (ks vs : sig) (st : sstate) : res cerr sstate :=
  match l with
  | [] => Ok st
  | (k, y) :: r => let st := padded st 8 in
                   let* st := ser_str st k in
                   let* st := ser y (set_sig st vs) in
                   ser_nentries r ks vs (set_sig st ks)
  end.
Lemma ser_struct_named l st :
  ser (XStruct l) st =
  let* (st, k) := struct_begin st in
  match k with
  | KStruct saved => let* st := ser_nfields l 0%nat st in Ok (set_dep st saved)
  | KSeq start fp asig => let* st := ser_nelems l st in seq_end st start fp asig
  | KMap start fp asig ks vs => let* st := ser_nentries l ks vs st in seq_end st start fp asig
  end.
Proof. reflexivity. Qed.
Lemma ser_map l st ks vs : s_sig st = SDict ks vs ->
  ser (XMap l) st = let* (st, start, fp, asig) := seq_begin st in
                    let* st := ser_entries l ks vs st in seq_end st start fp asig.
Proof. intros Hs. cbn [ser]. rewrite Hs. reflexivity. Qed.
