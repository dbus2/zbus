(* DBus/DeSoundTop.v — C03 at the entry points used by the harness and by DBus/Run.v:
   [de_sound] in plain take/drop form, soundness of Data::deserialize::<Value> ([de_value_top]) and of
   deserialize_for_dynamic_signature ([de_struct_top]) with the identity descriptor table [seqN nf],
   the partial theorem (signatures inside the value within the D-Bus grammar), the refutation of the full
   statement (two witnesses), and the correctness of the decision procedure [spec_de] of DBus/Run.v
   (given the completeness theorem of C02 as a Section hypothesis). *)
From ZV Require Import Base.Bytes Base.BytesFacts Base.Res Base.Sig Base.SigParse Base.Utf8 Base.WinnowFacts
                       DBus.Val DBus.Spec DBus.Ser DBus.De DBus.SerFacts DBus.SerProofs DBus.DeNoPanic DBus.DeFacts
                       DBus.DeCompleteFacts DBus.DeSoundBase DBus.DeSoundDefs DBus.DeSound DBus.Run.
From Coq Require Import Lia.
Local Open Scope N_scope.

(* ---------- the identity descriptor table ---------- *)
Lemma length_seqN n : length (seqN n) = N.to_nat n.
Proof. unfold seqN. now rewrite map_length, seq_length. Qed.
Lemma nthN_seqN_some n i : i < n -> nthN (seqN n) i = Some i.
Proof.
  intros H. unfold nthN. rewrite length_seqN. destruct (N.ltb_spec i (N.of_nat (N.to_nat n))) as [_|Hc]; [|lia].
  unfold seqN. rewrite nth_error_map. rewrite (nth_error_nth' _ 0%nat) by (rewrite seq_length; lia).
  rewrite seq_nth by lia. cbn [option_map]. f_equal. lia.
Qed.
Lemma nthN_seqN n i h : nthN (seqN n) i = Some h -> h = i /\ i < n.
Proof.
  intros H. assert (Hi : i < n) by (apply nthN_lt in H; rewrite length_seqN in H; lia).
  rewrite (nthN_seqN_some n i Hi) in H. split; [congruence|exact Hi].
Qed.
Lemma fds_id_seqN n : fds_id (seqN n).
Proof. intros i h H. now destruct (nthN_seqN n i h H). Qed.

Lemma fdsOK_seqN n v : fdsOK (seqN n) v -> Forall (fun h => h < n) (fds_of v).
Proof. unfold fdsOK. apply Forall_impl. intros h H. now destruct (nthN_seqN n h h H). Qed.

(* ---------- C03, lenient form, for every start state ---------- *)
Theorem de_sound : forall fuel st v st' nf,
  sig_ne (t_sig st) = true -> t_fds st = seqN nf -> de_any fuel st = Ok (v, st') ->
  (t_cfg st' = t_cfg st /\ t_e st' = t_e st /\ t_pos0 st' = t_pos0 st /\ t_bytes st' = t_bytes st /\
   t_sig st' = t_sig st /\ t_fds st' = t_fds st /\ t_dep st' = t_dep st) /\
  t_pos st <= t_pos st' /\ t_pos st' <= blen st /\
  vsig v = t_sig st /\ wfL v = true /\
  depth_ok (d_struct (t_dep st)) (d_array (t_dep st)) (d_variant (t_dep st)) v = true /\
  Forall (fun h => h < nf) (fds_of v) /\
  takeN (t_pos st' - t_pos st) (dropN (t_pos st) (t_bytes st)) = marshal (t_e st) ByHandle v (tabs st) 0.
Proof.
  intros fuel st v st' nf Hne Hfd E.
  assert (Hid : fds_id (t_fds st)) by (rewrite Hfd; apply fds_id_seqN).
  destruct (de_any_sound fuel st v st' Hne Hid E) as (p' & -> & L & B0 & S & W & O & K & M).
  split; [repeat split|]. repeat split; try assumption.
  - apply fdsOK_seqN. now rewrite <- Hfd.
  - exact (M 0).
Qed.

(* ---------- what "valid encoding at the start of b" means ---------- *)
Definition valid_enc (e : endian) (pos nf : N) (b : bytes) (v : dval) (n : N) : Prop :=
  wf v = true /\ within_limits v = true /\ Forall (fun h => h < nf) (fds_of v) /\
  n <= len b /\ takeN n b = marshal_rx e pos v.
(* the same with the decoder's notion of well-formedness *)
Definition valid_encL (e : endian) (pos nf : N) (b : bytes) (v : dval) (n : N) : Prop :=
  wfL v = true /\ within_limits v = true /\ Forall (fun h => h < nf) (fds_of v) /\
  n <= len b /\ takeN n b = marshal_rx e pos v.

Lemma valid_encL_strict e pos nf b v n : valid_encL e pos nf b v n -> sigs_strict v = true -> valid_enc e pos nf b v n.
Proof. intros (W & R) Hs. split; [now apply wfL_strict_wf|exact R]. Qed.

Lemma init_sound c e pos g b nf v st' :
  sig_ne g = true -> de_any de_fuel (init_dstate c e pos g b (seqN nf)) = Ok (v, st') ->
  vsig v = g /\ valid_encL e pos nf b v (t_pos st').
Proof.
  intros Hne E.
  destruct (de_sound de_fuel (init_dstate c e pos g b (seqN nf)) v st' nf Hne eq_refl E) as (_ & L & B0 & S & W & O & K & M).
  unfold tabs, blen, init_dstate, depths0 in *. cbn [t_pos t_bytes t_e t_sig t_dep t_pos0 d_struct d_array d_variant] in *.
  rewrite N.sub_0_r, N.add_0_r in M. unfold dropN in M. cbn [N.to_nat skipn] in M.
  split; [exact S|]. repeat split; assumption.
Qed.

(* Data::deserialize::<Value>() *)
Theorem de_value_top_sound c e pos b nf x n :
  de_value_top c e pos b (seqN nf) = Ok (x, n) -> valid_encL e pos nf b (VVariant x) n.
Proof.
  unfold de_value_top. destruct (de_any de_fuel _) as [[v st']| |] eqn:E; cbn [bind]; try discriminate.
  destruct (init_sound c e pos SVariant b nf v st' eq_refl E) as [Hs Hv].
  destruct v; try discriminate. intros H; inversion H; subst. exact Hv.
Qed.

(* Data::deserialize_for_dynamic_signature::<Structure>(g) *)
Definition wrap_sig (g : sig) : sig := match g with SStruct _ => g | _ => SStruct [g] end.
Lemma wrap_sig_ne g : sig_ne g = true -> sig_ne (wrap_sig g) = true.
Proof. destruct g; cbn; intros H; rewrite ?H; reflexivity. Qed.

Theorem de_struct_top_sound c e pos g b nf v n : sig_ne g = true ->
  de_struct_top c e pos g b (seqN nf) = Ok (v, n) -> vsig v = wrap_sig g /\ valid_encL e pos nf b v n.
Proof.
  intros Hne. unfold de_struct_top. fold (wrap_sig g).
  destruct (de_any de_fuel _) as [[v' st']| |] eqn:E; cbn [bind]; try discriminate.
  intros H; inversion H; subst. exact (init_sound c e pos (wrap_sig g) b nf v st' (wrap_sig_ne g Hne) E).
Qed.

(* the signatures the line protocol can name have non-empty structs *)
Lemma sig_of_tok_ne gv t g : sig_of_tok gv t = Some g -> sig_ne g = true.
Proof.
  unfold sig_of_tok. destruct (lbeq t (B "-")); [intros H; inversion H; reflexivity|].
  intros H. now destruct (parse_sig_inv gv t g H).
Qed.

(* ---------- the partial theorems: outside the known class the full statement holds ---------- *)
Theorem value_sound_strict c e pos b nf x n :
  de_value_top c e pos b (seqN nf) = Ok (x, n) -> sig_lenient (VVariant x) = false ->
  valid_enc e pos nf b (VVariant x) n /\ sigs_nest_ok (VVariant x) = true.
Proof.
  intros E Hl. unfold sig_lenient in Hl. apply orb_false_iff in Hl as [H1 H2].
  apply negb_false_iff in H1. apply negb_false_iff in H2. split; [|exact H2].
  apply valid_encL_strict; [eapply de_value_top_sound; eauto|exact H1].
Qed.
Theorem struct_sound_strict c e pos g b nf v n : sig_ne g = true ->
  de_struct_top c e pos g b (seqN nf) = Ok (v, n) -> sig_lenient v = false ->
  vsig v = wrap_sig g /\ valid_enc e pos nf b v n /\ sigs_nest_ok v = true.
Proof.
  intros Hne E Hl. unfold sig_lenient in Hl. apply orb_false_iff in Hl as [H1 H2].
  apply negb_false_iff in H1. apply negb_false_iff in H2.
  destruct (de_struct_top_sound c e pos g b nf v n Hne E) as [Hs Hv].
  split; [exact Hs|]. split; [|exact H2]. now apply valid_encL_strict.
Qed.

(* ---------- the full statement is false of the faithful model ---------- *)
Definition hexb (s : string) : bytes := match bytes_of_hex (B s) with Some b => b | None => [] end.
Definition cfg0 : cfg := {| c_gv := false; c_oaa := false |}.

(* (a) a variant of type a{vs} (dict with a non-basic key type) holding the empty dict *)
Definition wit_key : bytes := hexb "05617b76737d00000000000000000000".
(* (b) a variant whose signature nests 33 arrays, holding the empty array *)
Definition wit_nest : bytes :=
  hexb "22616161616161616161616161616161616161616161616161616161616161616161790000000000".

Lemma wit_key_accepted :
  de_value_top cfg0 LE 0 wit_key (seqN 0) = Ok (VDict SVariant SStr [], 16) /\
  wf (VVariant (VDict SVariant SStr [])) = false /\ sigs_strict (VVariant (VDict SVariant SStr [])) = false.
Proof. vm_compute. repeat split. Qed.

Lemma wit_nest_accepted :
  exists x, de_value_top cfg0 LE 0 wit_nest (seqN 0) = Ok (x, 40) /\
            sigs_nest_ok (VVariant x) = false /\ sig_lenient (VVariant x) = true.
Proof. eexists. vm_compute. repeat split. Qed.

Theorem sigs_refuted :
  (exists c e pos nf b x n, c_gv c = false /\ de_value_top c e pos b (seqN nf) = Ok (x, n) /\
                            wf (VVariant x) = false /\ sigs_strict (VVariant x) = false) /\
  (exists c e pos nf b x n, c_gv c = false /\ de_value_top c e pos b (seqN nf) = Ok (x, n) /\
                            sigs_nest_ok (VVariant x) = false).
Proof.
  split.
  - exists cfg0, LE, 0, 0, wit_key, (VDict SVariant SStr []), 16. split; [reflexivity|]. exact wit_key_accepted.
  - destruct wit_nest_accepted as (x & H1 & H2 & _). exists cfg0, LE, 0, 0, wit_nest, x, 40. split; [reflexivity|]. split; assumption.
Qed.

(* ---------- the decision procedure of DBus/Run.v ---------- *)
Definition valid_encb (e : endian) (pos : N) (top : dval -> dval) (b : bytes) (r : res cerr (dval * N)) : bool :=
  match r with
  | Ok (v, n) => wf (top v) && within_limits (top v) && lbeq (marshal_rx e pos (top v)) (takeN n b) && (n <=? len b)
  | _ => false
  end.

(* the same decision with one more decidable demand on the decoded value (e.g. [sigs_nest_ok]) *)
Definition valid_encb_x (extra : dval -> bool) (e : endian) (pos : N) (top : dval -> dval) (b : bytes)
                        (r : res cerr (dval * N)) : bool :=
  match r with Ok (v, n) => extra (top v) && valid_encb e pos top b (Ok (v, n)) | _ => false end.

Lemma spec_de_valid_encb e pos top b r :
  spec_de e pos top b r = if valid_encb e pos top b r then B "OK" else B "ERR".
Proof. destruct r as [[v n]| |]; reflexivity. Qed.
Lemma spec_de_ok e pos top b r : spec_de e pos top b r = B "OK" <-> valid_encb e pos top b r = true.
Proof. rewrite spec_de_valid_encb. destruct (valid_encb e pos top b r); split; intros H; try reflexivity; discriminate. Qed.

Lemma valid_encb_true e pos top b v n :
  valid_encb e pos top b (Ok (v, n)) = true <->
  wf (top v) = true /\ within_limits (top v) = true /\ n <= len b /\ takeN n b = marshal_rx e pos (top v).
Proof.
  cbn [valid_encb]. rewrite !andb_true_iff, N.leb_le, lbeq_eq. split.
  - intros (((H1 & H2) & H3) & H4). auto.
  - intros (H1 & H2 & H3 & H4). auto.
Qed.

Lemma take_drop (b : bytes) n : b = takeN n b ++ dropN n b.
Proof. unfold takeN, dropN. symmetry. apply firstn_skipn. Qed.

Section Decision.
  (* completeness of the decoder model (property C02, DBus/DeComplete.v), in the form of its top-level corollaries *)
  Hypothesis Hcomplete_v : forall c e pos (b : bytes) (fds : list N) x rest,
    wf (VVariant x) = true -> within_limits (VVariant x) = true ->
    len (marshal_rx e pos (VVariant x)) < 2 ^ 32 -> N.of_nat (length fds) <= 2 ^ 32 ->
    Forall (fun h => nthN fds h = Some h) (fds_of (VVariant x)) ->
    b = marshal_rx e pos (VVariant x) ++ rest ->
    de_value_top c e pos b fds = Ok (x, len (marshal_rx e pos (VVariant x))).
  Hypothesis Hcomplete_s : forall c e pos (b : bytes) (fds : list N) l rest,
    wf (VStruct l) = true -> within_limits (VStruct l) = true ->
    len (marshal_rx e pos (VStruct l)) < 2 ^ 32 -> N.of_nat (length fds) <= 2 ^ 32 ->
    Forall (fun h => nthN fds h = Some h) (fds_of (VStruct l)) ->
    b = marshal_rx e pos (VStruct l) ++ rest ->
    de_struct_top c e pos (vsig (VStruct l)) b fds = Ok (VStruct l, len (marshal_rx e pos (VStruct l))).

  Lemma complete_side e pos nf b v n : nf <= 2 ^ 32 -> len b < 2 ^ 32 -> valid_enc e pos nf b v n ->
    len (marshal_rx e pos v) = n /\ len (marshal_rx e pos v) < 2 ^ 32 /\ N.of_nat (length (seqN nf)) <= 2 ^ 32 /\
    Forall (fun h => nthN (seqN nf) h = Some h) (fds_of v) /\ b = marshal_rx e pos v ++ dropN n b.
  Proof.
    intros Hnf Hb (W & L & K & Hn & Hm).
    assert (Hl : len (marshal_rx e pos v) = n) by (rewrite <- Hm; now apply len_takeN).
    split; [exact Hl|]. split; [lia|]. split; [rewrite length_seqN; lia|]. split.
    - eapply Forall_impl; [|exact K]. intros h Hh. now apply nthN_seqN_some.
    - rewrite <- Hm. apply take_drop.
  Qed.

  (* decode-then-check, with one more demand [extra] on the decoded value, decides "b starts with a valid encoding
     of a variant that meets the demand" *)
  Theorem valid_encb_x_value_correct extra c e pos nf b : nf <= 2 ^ 32 -> len b < 2 ^ 32 ->
    (valid_encb_x extra e pos VVariant b (de_value_top c e pos b (seqN nf)) = true <->
     exists x n, valid_enc e pos nf b (VVariant x) n /\ extra (VVariant x) = true).
  Proof.
    intros Hnf Hb. split.
    - destruct (de_value_top c e pos b (seqN nf)) as [[x n]| |] eqn:E; try discriminate.
      cbn [valid_encb_x]. intros H. apply andb_true_iff in H as [Hx H].
      apply valid_encb_true in H as (H1 & H2 & H3 & H4). exists x, n.
      destruct (de_value_top_sound _ _ _ _ _ _ _ E) as (_ & _ & K & _). repeat split; assumption.
    - intros (x & n & Hv & Hx). destruct (complete_side _ _ _ _ _ _ Hnf Hb Hv) as (Hl & Hl2 & Hf & Hk & Hbb).
      destruct Hv as (W & L & K & Hn & Hm).
      rewrite (Hcomplete_v c e pos b (seqN nf) x (dropN n b) W L Hl2 Hf Hk Hbb). rewrite Hl.
      cbn [valid_encb_x]. rewrite Hx. cbn [andb]. apply valid_encb_true. repeat split; assumption.
  Qed.
  (* the same for a message body of signature (fs) *)
  Theorem valid_encb_x_struct_correct extra c e pos nf fs b : nf <= 2 ^ 32 -> len b < 2 ^ 32 -> sig_ne (SStruct fs) = true ->
    (valid_encb_x extra e pos (fun v => v) b (de_struct_top c e pos (SStruct fs) b (seqN nf)) = true <->
     exists v n, vsig v = SStruct fs /\ valid_enc e pos nf b v n /\ extra v = true).
  Proof.
    intros Hnf Hb Hne. split.
    - destruct (de_struct_top c e pos (SStruct fs) b (seqN nf)) as [[v n]| |] eqn:E; try discriminate.
      cbn [valid_encb_x]. intros H. apply andb_true_iff in H as [Hx H].
      apply valid_encb_true in H as (H1 & H2 & H3 & H4). exists v, n.
      destruct (de_struct_top_sound _ _ _ _ _ _ _ _ Hne E) as (Hs & _ & _ & K & _). cbn [wrap_sig] in Hs.
      split; [exact Hs|]. repeat split; assumption.
    - intros (v & n & Hs & Hv & Hx). destruct v; try discriminate Hs.
      destruct (complete_side _ _ _ _ _ _ Hnf Hb Hv) as (Hl & Hl2 & Hf & Hk & Hbb).
      destruct Hv as (W & L & K & Hn & Hm). rewrite <- Hs.
      rewrite (Hcomplete_s c e pos b (seqN nf) l (dropN n b) W L Hl2 Hf Hk Hbb). rewrite Hl.
      cbn [valid_encb_x]. rewrite Hx. cbn [andb]. apply valid_encb_true. repeat split; assumption.
  Qed.

  (* without a further demand *)
  Lemma valid_encb_x_true e pos top b r : valid_encb_x (fun _ => true) e pos top b r = valid_encb e pos top b r.
  Proof. destruct r as [[v n]| |]; reflexivity. Qed.
  Theorem valid_encb_value_correct c e pos nf b : nf <= 2 ^ 32 -> len b < 2 ^ 32 ->
    (valid_encb e pos VVariant b (de_value_top c e pos b (seqN nf)) = true <->
     exists x n, valid_enc e pos nf b (VVariant x) n).
  Proof.
    intros Hnf Hb. rewrite <- valid_encb_x_true, (valid_encb_x_value_correct _ c e pos nf b Hnf Hb).
    split; [intros (x & n & H & _)|intros (x & n & H)]; exists x, n; auto.
  Qed.
  Theorem valid_encb_struct_correct c e pos nf fs b : nf <= 2 ^ 32 -> len b < 2 ^ 32 -> sig_ne (SStruct fs) = true ->
    (valid_encb e pos (fun v => v) b (de_struct_top c e pos (SStruct fs) b (seqN nf)) = true <->
     exists v n, vsig v = SStruct fs /\ valid_enc e pos nf b v n).
  Proof.
    intros Hnf Hb Hne. rewrite <- valid_encb_x_true, (valid_encb_x_struct_correct _ c e pos nf fs b Hnf Hb Hne).
    split; [intros (v & n & Hs & H & _)|intros (v & n & Hs & H)]; exists v, n; auto.
  Qed.

  (* consequence: bytes accepted with an ill-formed value are not a valid encoding of anything *)
  Corollary accepted_invalid c e pos nf b x n : nf <= 2 ^ 32 -> len b < 2 ^ 32 ->
    de_value_top c e pos b (seqN nf) = Ok (x, n) -> wf (VVariant x) = false ->
    ~ exists x' n', valid_enc e pos nf b (VVariant x') n'.
  Proof.
    intros Hnf Hb E Hw Hex. apply (valid_encb_value_correct c e pos nf b Hnf Hb) in Hex.
    rewrite E in Hex. apply valid_encb_true in Hex as (H1 & _). congruence.
  Qed.

  (* the verdict column printed by DBus/Run.v *)
  Corollary spec_de_value_correct c e pos nf b : nf <= 2 ^ 32 -> len b < 2 ^ 32 ->
    (spec_de e pos VVariant b (de_value_top c e pos b (seqN nf)) = B "OK" <->
     exists x n, valid_enc e pos nf b (VVariant x) n).
  Proof. intros Hnf Hb. rewrite spec_de_ok. now apply valid_encb_value_correct. Qed.
  Corollary spec_de_struct_correct c e pos nf fs b : nf <= 2 ^ 32 -> len b < 2 ^ 32 -> sig_ne (SStruct fs) = true ->
    (spec_de e pos (fun v => v) b (de_struct_top c e pos (SStruct fs) b (seqN nf)) = B "OK" <->
     exists v n, vsig v = SStruct fs /\ valid_enc e pos nf b v n).
  Proof. intros Hnf Hb Hne. rewrite spec_de_ok. now apply valid_encb_struct_correct. Qed.
End Decision.

(* the full statement (every accepted input is a valid encoding whose signatures obey the grammar and the
   nesting limit) is refuted by either witness *)
Theorem full_refuted :
  ~ (forall c e pos nf b x n, c_gv c = false -> de_value_top c e pos b (seqN nf) = Ok (x, n) ->
       (wf (VVariant x) = true /\ within_limits (VVariant x) = true /\
        Forall (fun h => h < nf) (fds_of (VVariant x)) /\ n <= len b /\ takeN n b = marshal_rx e pos (VVariant x)) /\
       sigs_nest_ok (VVariant x) = true).
Proof.
  intros H. destruct wit_key_accepted as (E & W & _).
  destruct (H cfg0 LE 0 0 wit_key _ _ eq_refl E) as ((W' & _) & _). congruence.
Qed.

(* ---------- non-vacuity: the hypotheses of the theorems are met by ordinary input ---------- *)
Example ex_decode :
  de_struct_top cfg0 BE 5 (vsig ex_value) (marshal_rx BE 5 ex_value ++ [x01; x02]) (seqN 4)
  = Ok (ex_value, len (marshal_rx BE 5 ex_value))
  /\ sig_ne (vsig ex_value) = true /\ sig_lenient ex_value = false.
Proof. vm_compute. repeat split. Qed.
Example ex_variant :
  de_value_top cfg0 LE 3 (marshal_rx LE 3 (VVariant ex_value)) (seqN 4) = Ok (ex_value, len (marshal_rx LE 3 (VVariant ex_value))).
Proof. vm_compute. reflexivity. Qed.
