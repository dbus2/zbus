(* DBus/DeSoundClosed.v — C03's decision theorems with the completeness premise discharged by C02
   (DBus/DeComplete.v: de_value_top_complete, de_struct_top_complete at fm := ByHandle).
   Kept apart from DBus/DeSoundTop.v and Properties/C03.v so that those do not depend on the C02 development. *)
From ZV Require Import Base.Bytes Base.Res Base.Sig Base.SigParse DBus.Val DBus.Spec DBus.Ser DBus.De DBus.Run
                       DBus.DeSoundDefs DBus.DeSound DBus.DeComplete DBus.DeSoundTop.
Local Open Scope N_scope.

(* the oracle column of DBus/Run.v says "OK" exactly when the buffer starts with a valid encoding of a variant *)
Theorem decision_value_closed : forall c e pos nf (b : bytes), nf <= 2 ^ 32 -> len b < 2 ^ 32 ->
  (spec_de e pos VVariant b (de_value_top c e pos b (seqN nf)) = B "OK" <->
   exists x n, wf (VVariant x) = true /\ within_limits (VVariant x) = true /\
               Forall (fun h => h < nf) (fds_of (VVariant x)) /\ n <= len b /\
               takeN n b = marshal_rx e pos (VVariant x)).
Proof.
  apply spec_de_value_correct.
  intros c e pos b fds x rest H1 H2 H3 H4 H5 Hb. subst b.
  exact (de_value_top_complete c e ByHandle pos x rest fds H1 H2 H3 H4 H5).
Qed.
Print Assumptions decision_value_closed.

(* ... of a message body of signature (fs) *)
Theorem decision_struct_closed : forall c e pos nf fs (b : bytes), nf <= 2 ^ 32 -> len b < 2 ^ 32 -> sig_ne (SStruct fs) = true ->
  (spec_de e pos (fun v => v) b (de_struct_top c e pos (SStruct fs) b (seqN nf)) = B "OK" <->
   exists v n, vsig v = SStruct fs /\
               (wf v = true /\ within_limits v = true /\ Forall (fun h => h < nf) (fds_of v) /\ n <= len b /\
                takeN n b = marshal_rx e pos v)).
Proof.
  apply spec_de_struct_correct.
  intros c e pos b fds l rest H1 H2 H3 H4 H5 Hb. subst b.
  exact (de_struct_top_complete c e ByHandle pos l rest fds H1 H2 H3 H4 H5).
Qed.
Print Assumptions decision_struct_closed.

(* the decoder model accepts a buffer iff it starts with a valid encoding, for values whose signatures are inside
   the grammar: acceptance with sig_lenient = false <-> valid encoding with sig_lenient = false *)
Theorem accept_iff_valid_strict : forall c e pos nf (b : bytes), nf <= 2 ^ 32 -> len b < 2 ^ 32 ->
  ((exists x n, de_value_top c e pos b (seqN nf) = Ok (x, n) /\ sig_lenient (VVariant x) = false) <->
   (exists x n, valid_enc e pos nf b (VVariant x) n /\ sig_lenient (VVariant x) = false)).
Proof.
  intros c e pos nf b Hnf Hb. split.
  - intros (x & n & E & Hl). exists x, n. split; [|exact Hl]. now destruct (value_sound_strict c e pos b nf x n E Hl).
  - intros (x & n & Hv & Hl). exists x, n. split; [|exact Hl].
    destruct (complete_side _ _ _ _ _ _ Hnf Hb Hv) as (Hlen & H3 & H4 & H5 & Hbb). destruct Hv as (W & L & _).
    pose proof (de_value_top_complete c e ByHandle pos x (dropN n b) (seqN nf) W L H3 H4 H5) as Hc.
    fold (marshal_rx e pos (VVariant x)) in Hc. now rewrite <- Hbb, Hlen in Hc.
Qed.
Print Assumptions accept_iff_valid_strict.
