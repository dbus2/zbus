(* DBus/DeComplete.v — completeness of the decoder model on valid encodings (C02):
   for every well-formed value v, decoding a buffer that holds the specification's marshalling of v at the
   cursor returns v and advances the cursor by exactly the marshalled length, whatever surrounds it. *)
From ZV Require Import Base.Bytes Base.BytesFacts Base.Res Base.Sig Base.SigParse Base.SigParseFacts Base.Utf8 Base.WinnowFacts
  DBus.Val DBus.Spec DBus.Ser DBus.SerFacts DBus.SerProofs DBus.De DBus.DeNoPanic DBus.DeFacts DBus.DeCompleteFacts.
From Coq Require Import Lia.
Local Open Scope N_scope.

(* the statement proved by induction on the value: decoding from cursor [p] of [st], whose absolute position
   is [a], where the buffer holds the marshalling of [v]; only the cursor moves *)
Definition dgood (v : dval) : Prop := forall fuel st fm k p a,
  a = t_pos0 st + p -> wf v = true -> t_sig st = vsig v -> fits (t_dep st) v ->
  len (marshal (t_e st) fm v a k) < 2 ^ 32 -> N.of_nat (length (t_fds st)) <= 2 ^ 32 ->
  at_ (t_bytes st) p (marshal (t_e st) fm v a k) -> fds_match fm (t_fds st) k v -> (vdepth v <= fuel)%nat ->
  de_any fuel (tset_pos st p) = Ok (v, tset_pos st (p + len (marshal (t_e st) fm v a k))).

Ltac fuel_S fuel Hf v := destruct fuel as [|fuel]; [pose proof (vdepth_pos v); lia|].

(* ---------- fixed-width leaves ---------- *)
(* each fixed-width type: a well-formed value of the type comes from a number of that width and is marshalled
   as that number *)
Lemma fixed_complete v m k : fixed_of (vsig v) = Some (m, k) -> wf v = true ->
  exists x, x < 2 ^ (8 * N.of_nat m) /\ k x = v /\
            forall e fm pos kk, marshal e fm v pos kk = pad pos (N.of_nat m) ++ enc e m x.
Proof.
  destruct v as [n| |z|n|z|n|z|n|n| | | | | | | | ]; intros [= <- <-] Hw; cbn [wf] in Hw.
  2, 4, 6: eexists; split; [apply twos_lt|]; split; [f_equal; apply untwos_twos_b; [reflexivity|exact Hw]|reflexivity].
  all: exists n; split; [now apply N.ltb_lt|]; split; try reflexivity.
  intros e fm pos kk. change (N.of_nat 1) with 1. rewrite pad_1. destruct e; cbn; unfold nb; now rewrite N.mod_mod.
Qed.

Lemma dgood_fixed v m k : fixed_of (vsig v) = Some (m, k) -> dgood v.
Proof.
  intros Ef fuel st fm kk p a -> Hw Hs _ _ _ Hat _ Hf. fuel_S fuel Hf v.
  rewrite (de_any_fixed fuel (tset_pos st p) m k) by (now rewrite <- Hs in Ef).
  destruct (fixed_complete v m k Ef Hw) as (x & Hx & <- & Hm). rewrite Hm in *.
  now rewrite (rd_fixed_at (tset_pos st p) m _ x eq_refl Hat Hx).
Qed.

Lemma dgood_bool b : dgood (VBool b).
Proof.
  intros fuel st fm k p a -> Hw Hs _ _ _ Hat _ Hf. fuel_S fuel Hf (VBool b). rewrite de_any_bool by exact Hs.
  cbn [marshal] in *. rewrite (rd_fixed_at (tset_pos st p) 4 4 _ eq_refl Hat) by (destruct b; reflexivity). cbn [bind].
  destruct b; reflexivity.
Qed.

Lemma dgood_fd h : dgood (VFd h).
Proof.
  intros fuel st fm k p a -> Hw Hs _ _ Hfl Hat Hfd Hf. fuel_S fuel Hf (VFd h). rewrite de_any_fd by exact Hs.
  cbn [marshal] in *. unfold fds_match in Hfd. cbn [fds_of] in Hfd.
  set (i := match fm with ByOccurrence => k | ByHandle => h end) in *.
  assert (Hi : nthN (t_fds st) i = Some h).
  { subst i. destruct fm; cbn [fdsm] in Hfd.
    - specialize (Hfd 0%nat h eq_refl). now rewrite N.add_0_r in Hfd.
    - now inversion Hfd. }
  pose proof (nthN_lt _ _ _ Hi) as Hlt.
  rewrite (rd_fixed_at (tset_pos st p) 4 4 i eq_refl Hat) by (change (2 ^ (8 * 4)) with (2 ^ 32); lia). cbn [bind].
  change (t_fds (adv (tset_pos st p) _)) with (t_fds st). now rewrite Hi.
Qed.

(* ---------- strings, object paths, signatures ---------- *)
Lemma dgood_str s : dgood (VStr s).
Proof.
  intros fuel st fm k p a -> Hw Hs _ _ _ Hat _ Hf. fuel_S fuel Hf (VStr s). rewrite de_any_str by exact Hs.
  cbn [wf] in Hw. unfold str_ok in Hw. apply andb_true_iff in Hw as [Hw Hl]. apply andb_true_iff in Hw as [Hn Hu].
  apply N.ltb_lt in Hl. now rewrite (de_str_4 (tset_pos st p) s (or_introl Hs) Hl Hn Hu Hat).
Qed.
Lemma dgood_path s : dgood (VPath s).
Proof.
  intros fuel st fm k p a -> Hw Hs _ _ _ Hat _ Hf. fuel_S fuel Hf (VPath s). rewrite de_any_path by exact Hs.
  cbn [wf] in Hw. apply andb_true_iff in Hw as [Hp Hl]. apply N.ltb_lt in Hl. pose proof (path_ascii s Hp) as Ha.
  rewrite (de_str_4 (tset_pos st p) s (or_intror Hs) Hl (ascii_nul_free s Ha) (ascii_utf8 s Ha) Hat). cbn [bind]. now rewrite Hp.
Qed.

Lemma len_concat_le_show fs : len (concat (map show fs)) <= len (show (SStruct fs)).
Proof. cbn [show]. rewrite !len_app. lia. Qed.

Lemma dgood_sigv g np : dgood (VSigv g np).
Proof.
  intros fuel st fm k p a -> Hw Hs _ _ _ Hat _ Hf. fuel_S fuel Hf (VSigv g np). rewrite de_any_sig by exact Hs.
  cbn [wf] in Hw. apply andb_true_iff in Hw as [Hok Hnp].
  destruct (sigval_parse (c_gv (t_cfg st)) g np Hok Hnp) as [Hps Hlb]. cbn [marshal] in *. cbv zeta in *.
  set (t := if np then show_noparens g else show g) in *.
  assert (Hl : len t <= 255) by (unfold sigval_ok in Hok; apply andb_true_iff in Hok as [_ Hl]; now apply N.leb_le in Hl).
  assert (Ha : ascii_nz t = true) by (subst t; destruct np; [apply ascii_show_noparens|apply ascii_show]).
  rewrite (de_str_1 (tset_pos st p) t (or_introl Hs) Hl Ha Hat). cbn [bind].
  change (t_cfg (adv (tset_pos st p) _)) with (t_cfg st). now rewrite Hps, Hlb.
Qed.

(* ---------- variants ---------- *)
Lemma single_not_unit g : single_ok g = true -> (match g with SUnit => true | _ => false end) = false.
Proof. destruct g; cbn; congruence. Qed.

Lemma dgood_variant x : dgood x -> dgood (VVariant x).
Proof.
  intros Hx fuel st fm k p a -> Hw Hs [Hd Hdep] Hlen Hfl Hat Hfd Hf. cbn [vdepth] in Hf.
  destruct fuel as [|f]; [lia|]. rewrite de_any_variant by exact Hs. cbv zeta.
  cbn [wf] in Hw. apply andb_true_iff in Hw as [Hw Hl255]. apply andb_true_iff in Hw as [Hw Hso].
  apply N.leb_le in Hl255.
  cbn [depth_ok] in Hdep. apply andb_true_iff in Hdep as [Ht Hdx]. apply N.leb_le in Ht.
  destruct (inc_variant_ok (t_dep st) Hd Ht) as (d' & Hinc & Hd' & E1 & E2 & E3).
  cbn [marshal] in *. cbv zeta in *.
  set (g := vsig x) in *. set (sg := show g) in *. set (hdr := nb (len sg) :: sg ++ [x00]) in *.
  assert (Hhdr : len hdr = 1 + len sg + 1) by (unfold hdr; rewrite len_cons, len_app; change (len [x00]) with 1; lia).
  rewrite len_app in Hlen.
  pose proof (at_app_l _ _ _ _ Hat) as Hh. pose proof (at_app_r _ _ _ _ Hat) as Hv.
  (* stage Signature *)
  change (tset_sig (tset_pos st p) SSig) with (tset_pos (tset_sig st SSig) p).
  rewrite (de_str_1 (tset_pos (tset_sig st SSig) p) sg (or_introl eq_refl) Hl255 (ascii_show g) Hh). cbn [bind].
  pose proof (parse_show (c_gv (t_cfg st)) g (single_printable g Hso)) as Hps. fold sg in Hps.
  cbn [tset_pos tset_sig adv t_cfg t_bytes t_pos t_dep]. rewrite Hps. cbn [bind].
  (* stage Value: length byte and signature slice are read again *)
  rewrite (at_nth _ _ _ (at_cons_l _ _ _ _ Hh)). rewrite bn_nb by lia.
  pose proof (at_bound _ _ _ Hh) as Hb. rewrite Hhdr in Hb. unfold blen. cbn [tset_pos t_bytes t_e t_pos0 t_fds].
  destruct (N.ltb_spec (len (t_bytes st)) (p + 1 + len sg)) as [|_]; [lia|].
  pose proof (at_app_l _ _ _ _ (at_cons_r _ _ _ _ Hh)) as Hsl. rewrite (at_slice _ _ _ Hsl). rewrite Hps.
  rewrite (single_not_unit g Hso). fold sg. rewrite N.eqb_refl. cbn [negb orb].
  destruct (N.ltb_spec (len (t_bytes st)) (p + 1 + len sg + 1)) as [|_]; [lia|].
  rewrite Hinc. cbn [bind].
  assert (Hfit : fits d' x) by (split; [exact Hd'|rewrite E1, E2, E3; exact Hdx]).
  assert (Ea : t_pos0 st + p + len hdr = t_pos0 st + (p + 1 + len sg + 1)) by lia.
  assert (Hl : len (marshal (t_e st) fm x (t_pos0 st + p + len hdr) k) < 2 ^ 32) by lia.
  assert (Hfx : (vdepth x <= f)%nat) by lia. rewrite Hhdr in Hv at 1.
  replace (p + (1 + len sg + 1)) with (p + 1 + len sg + 1) in Hv by lia.
  assert (G := Hx f (tset_dep (tset_sig st g) d') fm k (p + 1 + len sg + 1) _ Ea Hw eq_refl Hfit Hl Hfl Hv Hfd Hfx).
  change (tset_pos (tset_dep (tset_sig st g) d') (p + 1 + len sg + 1)) with
    {| t_cfg := t_cfg st; t_e := t_e st; t_pos0 := t_pos0 st; t_bytes := t_bytes st; t_pos := p + 1 + len sg + 1;
       t_sig := g; t_dep := d'; t_fds := t_fds st |} in G.
  rewrite G. cbn [bind]. do 2 f_equal.
  apply dstate_ext; try reflexivity; [|exact (eq_sym Hs)]. cbn [t_pos tset_pos tset_sig adv tset_dep t_e]. fold hdr. rewrite len_app. lia.
Qed.

(* ---------- structs ---------- *)
Lemma struct_loop_ok f fm st : forall l, Forall dgood l -> forall p a acc k, a = t_pos0 st + p ->
  forallb wf l = true -> dep_ok (t_dep st) ->
  forallb (depth_ok (d_struct (t_dep st)) (d_array (t_dep st)) (d_variant (t_dep st))) l = true ->
  len (mseq (t_e st) fm l a k) < 2 ^ 32 -> N.of_nat (length (t_fds st)) <= 2 ^ 32 ->
  at_ (t_bytes st) p (mseq (t_e st) fm l a k) ->
  fdsm fm (t_fds st) k (concat (map fds_of l)) -> (vdepths l <= f)%nat ->
  struct_loop (de_any f) (map vsig l) (tset_pos st p) acc
  = Ok (rev acc ++ l, tset_pos st (p + len (mseq (t_e st) fm l a k))).
Proof.
  induction 1 as [|x l Hx Hl IH]; intros p a acc k Ea Hw Hd Hdep Hlen Hfl Hat Hfd Hf.
  - cbn [map struct_loop mseq]. change (len []) with 0. now rewrite N.add_0_r, app_nil_r.
  - cbn [forallb] in Hw, Hdep. apply andb_true_iff in Hw as [Hwx Hw]. apply andb_true_iff in Hdep as [Hdx Hdep].
    cbn [map concat mseq vdepths] in *. cbv zeta in *. rewrite len_app in Hlen.
    apply fdsm_app in Hfd as [Hfx Hfr]. cbn [struct_loop].
    set (b := marshal (t_e st) fm x a k) in *.
    assert (Hlx : len b < 2 ^ 32) by lia. assert (Hfx' : (vdepth x <= f)%nat) by lia.
    change (tset_sig (tset_pos st p) (vsig x)) with (tset_pos (tset_sig st (vsig x)) p).
    rewrite (Hx f (tset_sig st (vsig x)) fm k p a Ea Hwx eq_refl (conj Hd Hdx) Hlx Hfl (at_app_l _ _ _ _ Hat) Hfx Hfx').
    cbn [bind tset_pos tset_sig t_pos t_e]. fold b. rewrite tset_pos_pos.
    rewrite (IH (p + len b) (a + len b) (x :: acc) (k + nfds x)) by (assumption || lia || exact (at_app_r _ _ _ _ Hat)).
    rewrite len_app, N.add_assoc. cbn [rev]. now rewrite <- app_assoc.
Qed.

Lemma dgood_struct l : Forall dgood l -> dgood (VStruct l).
Proof.
  intros HF fuel st fm k p a -> Hw Hs [Hd Hdep] Hlen Hfl Hat Hfd Hf. rewrite vdepth_struct in Hf.
  destruct fuel as [|f]; [lia|]. cbn [vsig] in Hs. rewrite (de_any_struct f (tset_pos st p) _ Hs).
  cbn [wf] in Hw. apply andb_true_iff in Hw as [Hne Hw].
  cbn [depth_ok] in Hdep. apply andb_true_iff in Hdep as [Hdep Hdl]. apply andb_true_iff in Hdep as [Ha Ht].
  apply N.leb_le in Ha, Ht.
  destruct (inc_struct_ok (t_dep st) Hd Ha Ht) as (d' & Hinc & Hd' & E1 & E2 & E3).
  destruct (inc_struct_inv _ _ Hinc) as (_ & _ & _ & Hdec & _).
  rewrite marshal_struct in *. cbv zeta in *. rewrite len_app, len_pad in Hlen. rewrite len_pad in Hat.
  rewrite (parse_padding_at (tset_pos st p) 8 (at_app_l _ _ _ _ Hat)). cbn [bind].
  set (q := padn (t_pos0 st + p) 8) in *.
  change (t_dep (adv (tset_pos st p) _)) with (t_dep st). rewrite Hinc. cbn [bind].
  pose proof (at_app_r _ _ _ _ Hat) as Hr. rewrite len_pad in Hr. fold q in Hr.
  unfold fds_match in Hfd. cbn [fds_of] in Hfd. rewrite <- E1, <- E2, <- E3 in Hdl.
  assert (Hlb : len (mseq (t_e st) fm l (t_pos0 st + p + q) k) < 2 ^ 32) by lia. assert (Hf' : (vdepths l <= f)%nat) by lia.
  change (tset_dep (adv (tset_pos st p) _) d') with (tset_pos (tset_dep st d') (p + q)).
  assert (Ea : t_pos0 st + p + q = t_pos0 st + (p + q)) by lia.
  rewrite (struct_loop_ok f fm (tset_dep st d') l HF (p + q) _ [] k Ea Hw Hd' Hdl Hlb Hfl Hr Hfd Hf').
  cbn [bind rev app]. do 2 f_equal. destruct l as [|x0 l0]; [discriminate Hne|]. cbn [map].
  apply dstate_ext; try reflexivity; [|exact Hdec]. cbn [t_pos tset_pos tset_dep t_e]. rewrite len_app, !len_pad. fold q. lia.
Qed.
(* ---------- arrays ---------- *)
Lemma arr_loop_ok f fm st : forall l, Forall dgood l -> forall p a acc kf k start n, a = t_pos0 st + p ->
  forallb (fun x => wf x && sig_eqb (vsig x) (t_sig st)) l = true -> dep_ok (t_dep st) ->
  forallb (depth_ok (d_struct (t_dep st)) (d_array (t_dep st)) (d_variant (t_dep st))) l = true ->
  len (mseq (t_e st) fm l a k) < 2 ^ 32 -> N.of_nat (length (t_fds st)) <= 2 ^ 32 ->
  at_ (t_bytes st) p (mseq (t_e st) fm l a k) ->
  fdsm fm (t_fds st) k (concat (map fds_of l)) -> (vdepths l <= f)%nat -> (length l < kf)%nat ->
  start + n = p + len (mseq (t_e st) fm l a k) ->
  arr_loop (de_any f) (align_dbus (t_sig st)) start n (t_sig st) kf (tset_pos st p) acc
  = Ok (rev acc ++ l, tset_pos st (p + len (mseq (t_e st) fm l a k))).
Proof.
  induction 1 as [|x l Hx Hl IH]; intros p a acc kf k start n Ea Hw Hd Hdep Hlen Hfl Hat Hfd Hf Hkf Hend;
    (destruct kf as [|kf]; [cbn in Hkf; lia|]); cbn [arr_loop]; change (t_pos (tset_pos st p)) with p.
  - cbn [mseq] in *. change (len []) with 0 in *. destruct (N.eqb_spec p (start + n)) as [_|Hne]; [|lia].
    now rewrite N.add_0_r, app_nil_r.
  - cbn [length] in Hkf. cbn [forallb] in Hw, Hdep. apply andb_true_iff in Hw as [Hwx Hw]. apply andb_true_iff in Hwx as [Hwx Hsx].
    apply andb_true_iff in Hdep as [Hdx Hdep].
    cbn [map concat mseq vdepths] in *. cbv zeta in *. rewrite len_app in Hlen, Hend.
    apply fdsm_app in Hfd as [Hfx Hfr].
    pose proof (marshal_nonempty (t_e st) fm x a k Hwx) as Hne.
    destruct (N.eqb_spec p (start + n)) as [Heq|_]; [lia|].
    (* the loop pads to the element alignment, then the element decoder pads again: a no-op *)
    pose proof (at_app_l _ _ _ _ Hat) as Hax. pose proof (at_app_r _ _ _ _ Hat) as Har.
    pose proof (marshal_realign_len (t_e st) fm x a k) as Hrl.
    rewrite (marshal_realign (t_e st) fm x a k), (sig_eqb_eq _ _ Hsx) in Hax. rewrite (sig_eqb_eq _ _ Hsx) in Hrl.
    set (pn := padn a (align_dbus (t_sig st))) in *. subst a.
    rewrite (parse_padding_at (tset_pos st p) _ (at_app_l _ _ _ _ Hax)). cbn [bind].
    change (adv (tset_pos st p) _) with (tset_pos st (p + pn)).
    apply at_app_r in Hax. rewrite len_pad in Hax. fold pn in Hax.
    set (b := marshal (t_e st) fm x (t_pos0 st + p) k) in *.
    assert (Hlx : len (marshal (t_e st) fm x (t_pos0 st + p + pn) k) < 2 ^ 32) by lia.
    assert (Hfx' : (vdepth x <= f)%nat) by lia.
    rewrite (Hx f st fm k (p + pn) (t_pos0 st + p + pn) ltac:(lia) Hwx (eq_sym (sig_eqb_eq _ _ Hsx)) (conj Hd Hdx) Hlx Hfl Hax Hfx Hfx').
    cbn [bind]. rewrite <- N.add_assoc, <- Hrl. change (t_pos (tset_pos st (p + len b))) with (p + len b).
    destruct (N.ltb_spec (start + n) (p + len b)) as [Hlt|_]; [lia|]. rewrite Hsx. cbn [negb].
    rewrite (IH (p + len b) (t_pos0 st + p + len b) (x :: acc) kf (k + nfds x) start n) by (assumption || lia).
    rewrite len_app, N.add_assoc. cbn [rev]. now rewrite <- app_assoc.
Qed.

Lemma dgood_array el l : Forall dgood l -> dgood (VArray el l).
Proof.
  intros HF fuel st fm k p a -> Hw Hs [Hd Hdep] Hlen Hfl Hat Hfd Hf. rewrite vdepth_array in Hf.
  destruct fuel as [|f]; [lia|]. cbn [vsig] in Hs. rewrite (de_any_array f (tset_pos st p) _ Hs).
  cbn [wf] in Hw. apply andb_true_iff in Hw as [Hel Hw].
  cbn [depth_ok] in Hdep. apply andb_true_iff in Hdep as [Hdep Hdl]. apply andb_true_iff in Hdep as [Ha Ht].
  apply N.leb_le in Ha, Ht.
  destruct (inc_array_ok (t_dep st) Hd Ha Ht) as (d' & Hinc & Hdec & Hd' & E1 & E2 & E3).
  rewrite marshal_array in *. cbv zeta in *. rewrite !len_pad in *. rewrite !len_app, !len_pad, len_enc in Hlen.
  set (p0 := padn (t_pos0 st + p) 4) in *. set (p1 := padn (t_pos0 st + p + p0 + 4) (align_dbus el)) in *.
  set (body := mseq (t_e st) fm l (t_pos0 st + p + p0 + 4 + p1) k) in *.
  destruct (seq_header_at (tset_pos st p) d' (len body) (align_dbus el) body ltac:(lia) Hat) as (R1 & R2 & R3 & Hb).
  rewrite R1. cbn [bind]. change (t_dep (adv (tset_pos st p) _)) with (t_dep st). rewrite Hinc. cbn [bind].
  rewrite R2. cbn [bind]. change (t_e (adv _ 4)) with (t_e st). rewrite dec_enc4 by lia.
  rewrite (single_align el Hel). cbn [bind]. rewrite R3. cbn [bind]. clear R1 R2 R3.
  simp_st. fold p0 p1 in Hb |- *. set (q := p + (p0 + 4 + p1)) in *.
  assert (Hkf : (length l < S (length (t_bytes st)))%nat).
  { pose proof (mseq_length (t_e st) fm l (t_pos0 st + p + p0 + 4 + p1) k (forallb_wf_sig _ _ Hw)) as Hm. fold body in Hm.
    pose proof (at_length _ _ _ Hb) as Hal. unfold len in Hm. lia. }
  unfold fds_match in Hfd. cbn [fds_of] in Hfd. rewrite <- E1, <- E2, <- E3 in Hdl.
  assert (Hlb : len body < 2 ^ 32) by lia. assert (Hf' : (vdepths l <= f)%nat) by lia.
  assert (Ea : t_pos0 st + p + p0 + 4 + p1 = t_pos0 st + q) by (unfold q; lia).
  change (tset_sig (tset_dep (adv (tset_pos st p) _) d') el) with (tset_pos (tset_sig (tset_dep st d') el) q).
  pose proof (arr_loop_ok f fm (tset_sig (tset_dep st d') el) l HF q _ [] _ k q (len body) Ea Hw Hd' Hdl Hlb Hfl Hb Hfd Hf' Hkf eq_refl) as G.
  cbn [tset_sig tset_dep t_sig t_e] in G. rewrite G.
  cbn [bind rev app]. do 2 f_equal.
  apply dstate_ext; try reflexivity; [|exact Hdec]. simp_st. rewrite !len_app, !len_pad, len_enc. fold p0 p1 body. lia.
Qed.

(* ---------- dicts ---------- *)
Lemma dict_loop_ok f fm st vs : forall l, Forall (fun q => dgood (fst q) /\ dgood (snd q)) l ->
  forall p a acc kf k start n, a = t_pos0 st + p ->
  forallb (fun q => wf (fst q) && wf (snd q) && sig_eqb (vsig (fst q)) (t_sig st) && sig_eqb (vsig (snd q)) vs) l = true ->
  dep_ok (t_dep st) ->
  forallb (fun q => depth_ok (d_struct (t_dep st)) (d_array (t_dep st)) (d_variant (t_dep st)) (fst q)
                    && depth_ok (d_struct (t_dep st)) (d_array (t_dep st)) (d_variant (t_dep st)) (snd q)) l = true ->
  len (mentries (t_e st) fm l a k) < 2 ^ 32 -> N.of_nat (length (t_fds st)) <= 2 ^ 32 ->
  at_ (t_bytes st) p (mentries (t_e st) fm l a k) ->
  fdsm fm (t_fds st) k (concat (map (fun q => fds_of (fst q) ++ fds_of (snd q)) l)) ->
  (vdepthp l <= f)%nat -> (length l < kf)%nat ->
  start + n = p + len (mentries (t_e st) fm l a k) ->
  dict_loop (de_any f) start n (t_sig st) vs kf (tset_pos st p) acc
  = Ok (rev acc ++ l, tset_pos st (p + len (mentries (t_e st) fm l a k))).
Proof.
  induction 1 as [|[key x] l [Hk Hx] Hl IH]; intros p a acc kf k start n Ea Hw Hd Hdep Hlen Hfl Hat Hfd Hf Hkf Hend;
    (destruct kf as [|kf]; [cbn in Hkf; lia|]); cbn [dict_loop]; change (t_pos (tset_pos st p)) with p.
  - cbn [mentries] in *. change (len []) with 0 in *. destruct (N.eqb_spec p (start + n)) as [_|Hne]; [|lia].
    now rewrite N.add_0_r, app_nil_r.
  - cbn [length] in Hkf. cbn [forallb fst snd] in Hw, Hdep. apply andb_true_iff in Hw as [Hw1 Hw].
    apply andb_true_iff in Hw1 as [Hw1 Hsx]. apply andb_true_iff in Hw1 as [Hw1 Hsk]. apply andb_true_iff in Hw1 as [Hwk Hwx].
    apply andb_true_iff in Hdep as [Hd1 Hdep]. apply andb_true_iff in Hd1 as [Hdk Hdx].
    cbn [map concat mentries vdepthp fst snd] in *. cbv zeta in *. rewrite !len_pad in *. rewrite !len_app, len_pad in Hlen, Hend.
    apply fdsm_app in Hfd as [Hfe Hfr]. apply fdsm_app in Hfe as [Hfk Hfx].
    rewrite app_length, Nat2N.inj_add in Hfr.
    replace (k + (N.of_nat (length (fds_of key)) + N.of_nat (length (fds_of x)))) with (k + nfds key + nfds x) in Hfr
      by (unfold nfds; lia).
    set (p0 := padn a 8) in *.
    set (b1 := marshal (t_e st) fm key (a + p0) k) in *.
    set (b2 := marshal (t_e st) fm x (a + p0 + len b1) (k + nfds key)) in *.
    pose proof (marshal_nonempty (t_e st) fm key (a + p0) k Hwk) as Hne. fold b1 in Hne.
    destruct (N.eqb_spec p (start + n)) as [Heq|_]; [lia|].
    pose proof (at_app_l _ _ _ _ Hat) as H0. apply at_app_r in Hat. rewrite len_pad in Hat. fold p0 in Hat.
    pose proof (at_app_l _ _ _ _ Hat) as H1. apply at_app_r in Hat.
    pose proof (at_app_l _ _ _ _ Hat) as H2. apply at_app_r in Hat.
    assert (Hl1 : len b1 < 2 ^ 32) by lia. assert (Hl2 : len b2 < 2 ^ 32) by lia.
    assert (Hf1 : (vdepth key <= f)%nat) by lia. assert (Hf2 : (vdepth x <= f)%nat) by lia.
    rewrite (parse_padding_at (tset_pos st p) 8) by (subst a; exact H0). cbn [bind].
    change (adv (tset_pos st p) (padn (tabs (tset_pos st p)) 8)) with (tset_pos st (p + padn (t_pos0 st + p) 8)).
    rewrite <- Ea. fold p0.
    (* key *)
    rewrite (Hk f st fm k (p + p0) (a + p0) ltac:(lia) Hwk (eq_sym (sig_eqb_eq _ _ Hsk)) (conj Hd Hdk) Hl1 Hfl H1 Hfk Hf1).
    cbn [bind]. fold b1. change (t_pos (tset_pos st (p + p0 + len b1))) with (p + p0 + len b1).
    destruct (N.ltb_spec (start + n) (p + p0 + len b1)) as [Hlt|_]; [lia|].
    (* value, decoded under [vs]; then the key signature is put back *)
    change (tset_sig (tset_pos st (p + p0 + len b1)) vs) with (tset_pos (tset_sig st vs) (p + p0 + len b1)).
    rewrite (Hx f (tset_sig st vs) fm (k + nfds key) (p + p0 + len b1) (a + p0 + len b1) ltac:(cbn [t_pos0 tset_sig]; lia)
               Hwx (eq_sym (sig_eqb_eq _ _ Hsx)) (conj Hd Hdx) Hl2 Hfl H2 Hfx Hf2).
    cbn [bind tset_sig t_e]. fold b2. change (t_pos (tset_pos (tset_sig st vs) (p + p0 + len b1 + len b2))) with (p + p0 + len b1 + len b2).
    destruct (N.ltb_spec (start + n) (p + p0 + len b1 + len b2)) as [Hlt|_]; [lia|].
    rewrite Hsk, Hsx. cbn [negb orb].
    change (tset_sig (tset_pos (tset_sig st vs) (p + p0 + len b1 + len b2)) (t_sig st)) with (tset_pos st (p + p0 + len b1 + len b2)).
    rewrite (IH (p + p0 + len b1 + len b2) (a + p0 + len b1 + len b2) ((key, x) :: acc) kf (k + nfds key + nfds x) start n)
      by (assumption || lia).
    rewrite !len_app, len_pad. fold p0. cbn [rev]. rewrite <- app_assoc. cbn [app]. do 2 f_equal. f_equal. lia.
Qed.

Lemma dgood_dict ks vs l : Forall (fun q => dgood (fst q) /\ dgood (snd q)) l -> dgood (VDict ks vs l).
Proof.
  intros HF fuel st fm k p a -> Hw Hs [Hd Hdep] Hlen Hfl Hat Hfd Hf. rewrite vdepth_dict in Hf.
  destruct fuel as [|f]; [lia|]. cbn [vsig] in Hs. rewrite (de_any_dict f (tset_pos st p) _ _ Hs).
  cbn [wf] in Hw. apply andb_true_iff in Hw as [Hw0 Hw].
  cbn [depth_ok] in Hdep. apply andb_true_iff in Hdep as [Hdep Hdl]. apply andb_true_iff in Hdep as [Ha Ht].
  apply N.leb_le in Ha, Ht.
  destruct (inc_array_ok (t_dep st) Hd Ha Ht) as (d' & Hinc & Hdec & Hd' & E1 & E2 & E3).
  rewrite marshal_dict in *. cbv zeta in *. rewrite !len_pad in *. rewrite !len_app, !len_pad, len_enc in Hlen.
  set (p0 := padn (t_pos0 st + p) 4) in *. set (p1 := padn (t_pos0 st + p + p0 + 4) 8) in *.
  set (body := mentries (t_e st) fm l (t_pos0 st + p + p0 + 4 + p1) k) in *.
  destruct (seq_header_at (tset_pos st p) d' (len body) 8 body ltac:(lia) Hat) as (R1 & R2 & R3 & Hb).
  rewrite R1. cbn [bind]. change (t_dep (adv (tset_pos st p) _)) with (t_dep st). rewrite Hinc. cbn [bind].
  rewrite R2. cbn [bind]. change (t_e (adv _ 4)) with (t_e st). rewrite dec_enc4 by lia. rewrite R3. cbn [bind]. clear R1 R2 R3.
  simp_st. fold p0 p1 in Hb |- *. set (q := p + (p0 + 4 + p1)) in *.
  assert (Hkf : (length l < S (length (t_bytes st)))%nat).
  { pose proof (mentries_length (t_e st) fm l (t_pos0 st + p + p0 + 4 + p1) k (forallb_wf_keys _ _ _ Hw)) as Hm. fold body in Hm.
    pose proof (at_length _ _ _ Hb) as Hal. unfold len in Hm. lia. }
  unfold fds_match in Hfd. cbn [fds_of] in Hfd. rewrite <- E1, <- E2, <- E3 in Hdl.
  assert (Hlb : len body < 2 ^ 32) by lia. assert (Hf' : (vdepthp l <= f)%nat) by lia.
  assert (Ea : t_pos0 st + p + p0 + 4 + p1 = t_pos0 st + q) by (unfold q; lia).
  change (tset_sig (tset_dep (adv (tset_pos st p) _) d') ks) with (tset_pos (tset_sig (tset_dep st d') ks) q).
  pose proof (dict_loop_ok f fm (tset_sig (tset_dep st d') ks) vs l HF q _ [] _ k q (len body) Ea Hw Hd' Hdl Hlb Hfl Hb Hfd Hf' Hkf eq_refl) as G.
  cbn [tset_sig tset_dep t_sig t_e] in G. rewrite G.
  cbn [bind rev app]. do 2 f_equal.
  apply dstate_ext; try reflexivity; [|exact Hdec]. simp_st. rewrite !len_app, !len_pad, len_enc. fold p0 p1 body. lia.
Qed.

(* ---------- the main theorem ---------- *)
Theorem de_complete_all : forall v, dgood v.
Proof.
  induction v using dval_ind'.
  - destruct (fixed_of (vsig v)) as [[m k]|] eqn:Ef; [exact (dgood_fixed v m k Ef)|].
    destruct v; try contradiction; try discriminate Ef;
      first [apply dgood_bool|apply dgood_str|apply dgood_sigv|apply dgood_path|apply dgood_fd].
  - now apply dgood_variant.
  - now apply dgood_array.
  - now apply dgood_dict.
  - now apply dgood_struct.
Qed.

Theorem de_complete : forall v fuel st fm k,
  wf v = true -> t_sig st = vsig v -> fits (t_dep st) v ->
  len (marshal (t_e st) fm v (tabs st) k) < 2 ^ 32 ->
  N.of_nat (length (t_fds st)) <= 2 ^ 32 ->
  at_ (t_bytes st) (t_pos st) (marshal (t_e st) fm v (tabs st) k) ->
  fds_match fm (t_fds st) k v -> (vdepth v <= fuel)%nat ->
  de_any fuel st = Ok (v, tset_pos st (t_pos st + len (marshal (t_e st) fm v (tabs st) k))).
Proof. intros v fuel st fm k. destruct st. exact (de_complete_all v fuel _ fm k _ _ eq_refl). Qed.

(* ---------- top-level entry points ---------- *)
Lemma fits0 v : within_limits v = true -> fits depths0 v.
Proof. intros H. exact (conj dep_ok0 H). Qed.

Lemma de_top_complete c e fm pos v rest fds :
  wf v = true -> within_limits v = true -> len (marshal e fm v pos 0) < 2 ^ 32 ->
  N.of_nat (length fds) <= 2 ^ 32 -> fds_match fm fds 0 v ->
  exists st', de_any de_fuel (init_dstate c e pos (vsig v) (marshal e fm v pos 0 ++ rest) fds) = Ok (v, st')
              /\ t_pos st' = len (marshal e fm v pos 0).
Proof.
  intros Hw Hl Hlen Hfl Hfd.
  set (st := init_dstate c e pos (vsig v) (marshal e fm v pos 0 ++ rest) fds).
  assert (Ht : tabs st = pos) by (unfold tabs, st, init_dstate; cbn [t_pos0 t_pos]; apply N.add_0_r).
  pose proof (de_complete v de_fuel st fm 0 Hw eq_refl (fits0 v Hl)) as G.
  change (t_e st) with e in G. change (t_fds st) with fds in G. rewrite Ht in G.
  change (t_bytes st) with (marshal e fm v pos 0 ++ rest) in G. change (t_pos st) with 0 in G.
  specialize (G Hlen Hfl (at_0 _ rest) Hfd (within_limits_fuel v Hl)).
  eexists. split; [exact G|]. cbn [t_pos tset_pos]. lia.
Qed.

(* Data::deserialize::<Value>() on the marshalling of VARIANT(v) followed by anything *)
Theorem de_value_top_complete c e fm pos v rest fds :
  wf (VVariant v) = true -> within_limits (VVariant v) = true -> len (marshal e fm (VVariant v) pos 0) < 2 ^ 32 ->
  N.of_nat (length fds) <= 2 ^ 32 -> fds_match fm fds 0 (VVariant v) ->
  de_value_top c e pos (marshal e fm (VVariant v) pos 0 ++ rest) fds = Ok (v, len (marshal e fm (VVariant v) pos 0)).
Proof.
  intros Hw Hl Hlen Hfl Hfd. unfold de_value_top.
  destruct (de_top_complete c e fm pos (VVariant v) rest fds Hw Hl Hlen Hfl Hfd) as (st' & G & Hp).
  cbn [vsig] in G. rewrite G. cbn [bind]. now rewrite Hp.
Qed.

(* Data::deserialize_for_dynamic_signature::<Structure>() on the marshalling of a struct (a message body) *)
Theorem de_struct_top_complete c e fm pos l rest fds :
  wf (VStruct l) = true -> within_limits (VStruct l) = true -> len (marshal e fm (VStruct l) pos 0) < 2 ^ 32 ->
  N.of_nat (length fds) <= 2 ^ 32 -> fds_match fm fds 0 (VStruct l) ->
  de_struct_top c e pos (vsig (VStruct l)) (marshal e fm (VStruct l) pos 0 ++ rest) fds
  = Ok (VStruct l, len (marshal e fm (VStruct l) pos 0)).
Proof.
  intros Hw Hl Hlen Hfl Hfd. unfold de_struct_top.
  destruct (de_top_complete c e fm pos (VStruct l) rest fds Hw Hl Hlen Hfl Hfd) as (st' & G & Hp).
  cbn [vsig] in *. rewrite G. cbn [bind]. now rewrite Hp.
Qed.
(* ... and with a signature that is a single non-struct type: the decoder wraps it in a one-field struct *)
Theorem de_struct_top_complete1 c e fm pos v rest fds :
  (match vsig v with SStruct _ => False | _ => True end) ->
  wf (VStruct [v]) = true -> within_limits (VStruct [v]) = true -> len (marshal e fm (VStruct [v]) pos 0) < 2 ^ 32 ->
  N.of_nat (length fds) <= 2 ^ 32 -> fds_match fm fds 0 (VStruct [v]) ->
  de_struct_top c e pos (vsig v) (marshal e fm (VStruct [v]) pos 0 ++ rest) fds
  = Ok (VStruct [v], len (marshal e fm (VStruct [v]) pos 0)).
Proof.
  intros Hns Hw Hl Hlen Hfl Hfd. unfold de_struct_top.
  destruct (de_top_complete c e fm pos (VStruct [v]) rest fds Hw Hl Hlen Hfl Hfd) as (st' & G & Hp).
  cbn [vsig map] in G.
  assert (E : (match vsig v with SStruct _ => vsig v | _ => SStruct [vsig v] end) = SStruct [vsig v]).
  { destruct (vsig v); try reflexivity. contradiction. }
  rewrite E, G. cbn [bind]. now rewrite Hp.
Qed.

(* ---------- round trip through the encoder model (with C01) ---------- *)
Lemma nthN_of_nat {A} (l : list A) i x : nth_error l i = Some x -> nthN l (N.of_nat i) = Some x.
Proof.
  intros H. unfold nthN. assert (Hi : (i < length l)%nat) by (apply nth_error_Some; congruence).
  destruct (N.ltb_spec (N.of_nat i) (N.of_nat (length l))); [|lia]. now rewrite Nat2N.id.
Qed.
Lemma fds_match_own v : fds_match ByOccurrence (fds_of v) 0 v.
Proof. unfold fds_match, fdsm. intros i h H. rewrite N.add_0_l. now apply nthN_of_nat. Qed.

Theorem roundtrip_value c c' e pos v rest :
  encodable e pos (VVariant v) ->
  exists b fds, ser_top c e pos SVariant (sval_of (VVariant v)) = Ok (b, fds) /\
                de_value_top c' e pos (b ++ rest) fds = Ok (v, len b).
Proof.
  intros Henc. pose proof (ser_top_exact c e pos (VVariant v) Henc) as Hser. cbn [vsig] in Hser.
  destruct Henc as (Hw & _ & Hl & Hlen & Hn).
  exists (marshal_top e pos (VVariant v)), (fds_of (VVariant v)). split; [exact Hser|].
  unfold marshal_top in *. apply de_value_top_complete; try assumption.
  - unfold nfds in Hn. lia.
  - apply fds_match_own.
Qed.

Theorem roundtrip_body c c' e pos l rest :
  encodable e pos (VStruct l) ->
  exists b fds, ser_top c e pos (vsig (VStruct l)) (sval_of (VStruct l)) = Ok (b, fds) /\
                de_struct_top c' e pos (vsig (VStruct l)) (b ++ rest) fds = Ok (VStruct l, len b).
Proof.
  intros Henc. pose proof (ser_top_exact c e pos (VStruct l) Henc) as Hser.
  destruct Henc as (Hw & _ & Hl & Hlen & Hn).
  exists (marshal_top e pos (VStruct l)), (fds_of (VStruct l)). split; [exact Hser|].
  unfold marshal_top in *. apply de_struct_top_complete; try assumption.
  - unfold nfds in Hn. lia.
  - apply fds_match_own.
Qed.

(* non-vacuity: the nested example of SerProofs (dict of variants inside a struct, offset 5, big endian),
   as a message body and wrapped in a variant *)
Example ex_variant_encodable : encodable BE 5 (VVariant ex_value).
Proof. unfold encodable. repeat split; vm_compute; reflexivity. Qed.
Example ex_body_decodes :
  de_struct_top {| c_gv := false; c_oaa := false |} BE 5 (vsig ex_value)
    (marshal_top BE 5 ex_value ++ [x01; x02; x03]) (fds_of ex_value)
  = Ok (ex_value, len (marshal_top BE 5 ex_value)).
Proof. vm_compute. reflexivity. Qed.
Example ex_variant_decodes :
  de_value_top {| c_gv := false; c_oaa := false |} BE 5
    (marshal_top BE 5 (VVariant ex_value) ++ [x01; x02; x03]) (fds_of ex_value)
  = Ok (ex_value, len (marshal_top BE 5 (VVariant ex_value))).
Proof. vm_compute. reflexivity. Qed.
