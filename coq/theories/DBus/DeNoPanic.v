(* DBus/DeNoPanic.v — groundwork for C04 (the decoder model does not panic: [de_any_Q] in DBus/DeFacts.v).
   Every slice, index and unreachable! of the decode path is an explicit outcome of DBus/De.v.  Here: what the
   signature parser can return ([parse_inv]; without the gvariant feature `m` does not parse, so it never yields a
   maybe type, on which Signature::alignment(Format::DBus) panics), deserialize_str in two stages, and the predicate
   [Q] (no panic; a success moves only the cursor and the depth counters) for the readers of leaves. *)
From ZV Require Import Base.Bytes Base.Res Base.Sig Base.SigParse Base.Utf8 Base.WinnowFacts DBus.Val DBus.Spec DBus.Ser DBus.De.
Local Open Scope N_scope.

Fixpoint maybe_free (s : sig) : bool :=
  match s with
  | SMaybe _ => false
  | SArray c => maybe_free c
  | SDict k v => maybe_free k && maybe_free v
  | SStruct fs => forallb maybe_free fs
  | _ => true
  end.

Lemma simple_of_leaf c s : simple_of c = Some s ->
  show s = [c] /\ match s with SArray _ | SDict _ _ | SStruct _ | SMaybe _ => False | _ => True end.
Proof. destruct c; intros [= <-]; split; (reflexivity || exact I). Qed.

(* the parser consumes exactly the text that [show] prints for its result; the result is built from one-letter
   types, h, arrays, dict entries, non-empty structs and, with the gvariant feature only, maybes, so it has
   every property [P] that these rules preserve *)
Lemma parse_inv gv (P : sig -> bool) :
  (forall s, match s with SArray _ | SDict _ _ | SStruct _ | SMaybe _ => False | _ => True end -> P s = true) ->
  (forall c, P c = true -> P (SArray c) = true) ->
  (forall k v, P k = true -> P v = true -> P (SDict k v) = true) ->
  (forall x l, forallb P (x :: l) = true -> P (SStruct (x :: l)) = true) ->
  (gv = true -> forall c, P c = true -> P (SMaybe c) = true) ->
  forall fuel,
  (forall inp s r, parse_one fuel gv inp = Some (s, r) -> inp = show s ++ r /\ P s = true) /\
  (forall inp l r, parse_many fuel gv inp = (l, r) -> inp = concat (map show l) ++ r /\ forallb P l = true).
Proof.
  intros Pleaf Parr Pdict Pstruct Pmaybe. induction fuel as [|f [IH1 IHm]]; split.
  - intros inp s r H. discriminate H.
  - intros inp l r [= <- <-]. split; reflexivity.
  - intros inp s r H. cbn [parse_one] in H. destruct inp as [|c t]; [discriminate|].
    destruct (simple_of c) eqn:Es.
    { injection H as <- <-. destruct (simple_of_leaf _ _ Es) as [Hs L]. rewrite Hs. split; [reflexivity|exact (Pleaf _ L)]. }
    destruct (beq c "a") eqn:Ea.
    + apply beq_eq in Ea. subst c. destruct t as [|c' r1]; [discriminate|]. destruct (beq c' "{") eqn:Eb.
      * apply beq_eq in Eb. subst c'.
        destruct (parse_one f gv r1) as [[k r2]|] eqn:Ek; [|discriminate].
        destruct (parse_one f gv r2) as [[v [|c4 r4]]|] eqn:Ev; try discriminate.
        destruct (beq c4 "}") eqn:Ec; [|discriminate]. apply beq_eq in Ec. subst c4. injection H as <- <-.
        destruct (IH1 _ _ _ Ek) as [-> Hk]. destruct (IH1 _ _ _ Ev) as [-> Hv]. split; [|exact (Pdict _ _ Hk Hv)].
        cbn [show]. change (B "a{") with ["a"%byte; "{"%byte]. change (B "}") with ["}"%byte].
        cbn [app]. now rewrite <- !app_assoc.
      * destruct (parse_one f gv (c' :: r1)) as [[c0 r']|] eqn:E0; [|discriminate]. injection H as <- <-.
        destruct (IH1 _ _ _ E0) as [-> H0]. split; [reflexivity|exact (Parr _ H0)].
    + destruct (beq c "(") eqn:Ep.
      * apply beq_eq in Ep. subst c.
        destruct (parse_many f gv t) as [[|x l] [|c4 r']] eqn:Em; try discriminate.
        destruct (beq c4 ")") eqn:Ec; [|discriminate]. apply beq_eq in Ec. subst c4. injection H as <- <-.
        destruct (IHm _ _ _ Em) as [-> Hm]. split; [|exact (Pstruct _ _ Hm)].
        cbn [show]. change (B "(") with ["("%byte]. change (B ")") with [")"%byte]. cbn [app]. now rewrite <- !app_assoc.
      * destruct (beq c "m") eqn:Emy.
        { apply beq_eq in Emy. subst c. destruct gv; [|discriminate].
          destruct (parse_one f true t) as [[c0 r']|] eqn:E0; [|discriminate]. injection H as <- <-.
          destruct (IH1 _ _ _ E0) as [-> H0]. split; [reflexivity|exact (Pmaybe eq_refl _ H0)]. }
        destruct (beq c "h") eqn:Eh; [|discriminate]. apply beq_eq in Eh. subst c. injection H as <- <-.
        split; [reflexivity|exact (Pleaf SFd I)].
  - intros inp l r H. cbn [parse_many] in H. destruct (parse_one f gv inp) as [[s r1]|] eqn:E1.
    + destruct (parse_many f gv r1) as [l' r'] eqn:Em. injection H as <- <-.
      destruct (IH1 _ _ _ E1) as [-> H1]. destruct (IHm _ _ _ Em) as [-> Hm].
      cbn [map concat forallb]. rewrite H1, Hm. split; [|reflexivity]. now rewrite <- app_assoc.
    + injection H as <- <-. split; reflexivity.
Qed.

Lemma parse_sig_maybe_free s g : parse_sig false s = Some g -> maybe_free g = true.
Proof.
  unfold parse_sig. destruct s as [|c t]; [intros [= <-]; reflexivity|].
  destruct (parse_many (sig_fuel (c :: t)) false (c :: t)) as [l r] eqn:Em.
  assert (Hl : forallb maybe_free l = true).
  { refine (proj2 (proj2 (parse_inv false maybe_free _ _ _ _ _ _) _ _ _ Em)); cbn [maybe_free]; auto; try discriminate.
    - intros s L. destruct s; try reflexivity; contradiction.
    - intros k v -> ->. reflexivity. }
  destruct l as [|x [|y l]]; [discriminate| |]; destruct r; try discriminate; intros [= <-]; [|exact Hl].
  cbn in Hl. now rewrite andb_true_r in Hl.
Qed.

(* ---------- deserialize_str in two stages: the length prefix, then the text and its terminator ---------- *)
Definition str_len (st : dstate) : res cerr (N * dstate) :=
  match t_sig st with
  | SSig | SVariant => let* (b, st) := next_slice st 1 in Ok (dec LE b, st)
  | SStr | SObjPath => rd_fixed st 4
  | _ => Err ESigMismatch
  end.
Definition str_body (n : N) (st : dstate) : res cerr (bytes * dstate) :=
  let* (s, st) := next_slice st n in
  if negb (nul_free s) then Err EValue
  else
    let* (t, st) := next_slice st 1 in
    if negb (forallb (fun c => (bn c =? 0)%N) t) then Err EValue
    else if utf8_valid s then Ok (s, st) else Err EUtf8.
Lemma de_str_stages st : de_str st = let* (n, st) := str_len st in str_body n st.
Proof. reflexivity. Qed.

Definition safe {A} (P : A -> Prop) (r : res cerr A) : Prop :=
  match r with Ok a => P a | Err _ => True | Panic _ => False end.
Lemma safe_bind {A B} (P : A -> Prop) (P' : B -> Prop) r (k : A -> res cerr B) :
  safe P r -> (forall a, P a -> safe P' (k a)) -> safe P' (bind r k).
Proof. destruct r; cbn [safe bind]; auto. Qed.
Lemma safe_np {A} (P : A -> Prop) r : safe P r -> is_panic r = false.
Proof. destruct r; [reflexivity|reflexivity|contradiction]. Qed.

(* ---------- frame: only the cursor and the depth counters move ---------- *)
Definition frame (a b : dstate) : Prop :=
  t_cfg b = t_cfg a /\ t_e b = t_e a /\ t_pos0 b = t_pos0 a /\ t_bytes b = t_bytes a /\ t_sig b = t_sig a /\ t_fds b = t_fds a.
Lemma frame_refl a : frame a a. Proof. repeat split. Qed.
Lemma frame_trans a b c : frame a b -> frame b c -> frame a c.
Proof. unfold frame. intuition congruence. Qed.
Lemma frame_pos a p : frame a (tset_pos a p). Proof. repeat split. Qed.
Lemma frame_dep a d : frame a (tset_dep a d). Proof. repeat split. Qed.
(* a run under another signature, after which the signature is put back *)
Lemma frame_resig a g b : frame (tset_sig a g) b -> frame a (tset_sig b (t_sig a)).
Proof. intros (H1 & H2 & H3 & H4 & _ & H6). repeat split; assumption. Qed.

(* the outcome is not a panic, and a success leaves the frame intact *)
Definition Q {A} (st : dstate) (r : res cerr (A * dstate)) : Prop := safe (fun p => frame st (snd p)) r.
Definition Q1 (st : dstate) (r : res cerr dstate) : Prop := safe (frame st) r.

Lemma Q_trans {A} st s1 (r : res cerr (A * dstate)) : frame st s1 -> Q s1 r -> Q st r.
Proof. intros F. destruct r as [[a s2]| |]; cbn; [apply (frame_trans _ _ _ F)|auto|auto]. Qed.

Lemma parse_padding_Q st al : Q1 st (parse_padding st al).
Proof.
  unfold parse_padding. destruct (padn (tabs st) al =? 0); [apply frame_refl|].
  destruct (blen st <? t_pos st + padn (tabs st) al); [exact I|].
  destruct (forallb _ _); [apply frame_pos|exact I].
Qed.
Lemma next_slice_Q st n : Q st (next_slice st n).
Proof. unfold next_slice. destruct (blen st <? t_pos st + n); [exact I|apply frame_pos]. Qed.
Lemma rd_fixed_Q st n : Q st (rd_fixed st n).
Proof.
  unfold rd_fixed. eapply safe_bind; [apply parse_padding_Q|]. intros s1 F1.
  apply (Q_trans _ s1 _ F1). eapply safe_bind; [apply next_slice_Q|]. intros [b s2] F2. exact F2.
Qed.
Lemma str_len_Q st : Q st (str_len st).
Proof.
  unfold str_len. destruct (t_sig st); try exact I; try apply rd_fixed_Q;
    (eapply safe_bind; [apply next_slice_Q|]; intros [b s1] F; exact F).
Qed.
Lemma str_body_Q n st : Q st (str_body n st).
Proof.
  unfold str_body. eapply safe_bind; [apply next_slice_Q|]. intros [s s1] F1. cbv beta iota.
  destruct (negb (nul_free s)); [exact I|]. apply (Q_trans _ s1 _ F1).
  eapply safe_bind; [apply next_slice_Q|]. intros [t s2] F2. cbv beta iota.
  destruct (negb _); [exact I|]. destruct (utf8_valid s); [exact F2|exact I].
Qed.
Lemma de_str_Q st : Q st (de_str st).
Proof.
  rewrite de_str_stages. eapply safe_bind; [apply str_len_Q|]. intros [n s1] F1.
  exact (Q_trans _ s1 _ F1 (str_body_Q n s1)).
Qed.

Lemma rd_fixed_np st n : is_panic (rd_fixed st n) = false.
Proof. exact (safe_np _ _ (rd_fixed_Q st n)). Qed.

Lemma de_str_np st : is_panic (de_str st) = false.
Proof. exact (safe_np _ _ (de_str_Q st)). Qed.
