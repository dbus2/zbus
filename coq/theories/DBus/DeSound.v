(* DBus/DeSound.v — C03, soundness of the D-Bus decoder model (DBus/De.v): for every fuel, buffer, cursor,
   offset, byte order, depth counters and signature (all structs non-empty), whatever [de_any] accepts is a
   value of that signature, well-formed as far as the decoder checks ([wfL]), within the nesting limits, and
   the bytes it consumed are exactly the specification's marshalling ([Spec.marshal], descriptors by handle) of
   that value at that position.  Only the cursor moves.  No dependency on DBus/Run.v. *)
From ZV Require Import Base.Bytes Base.BytesFacts Base.Res Base.Sig Base.SigParse Base.Utf8 Base.WinnowFacts
                       DBus.Val DBus.Spec DBus.Ser DBus.De DBus.SerFacts DBus.SerProofs DBus.DeNoPanic DBus.DeFacts
                       DBus.DeCompleteFacts DBus.DeSoundBase DBus.DeSoundDefs.
From Coq Require Import Lia.
Local Open Scope N_scope.

(* the descriptor table handed to the decoder maps index i to handle i (what the harness and Run.v use) *)
Definition fds_id (l : list N) : Prop := forall i h, nthN l i = Some h -> h = i.

Definition dOK (d : depths) (v : dval) : Prop := depth_ok (d_struct d) (d_array d) (d_variant d) v = true.

Definition fdsOK (fds : list N) (v : dval) : Prop := Forall (fun h => nthN fds h = Some h) (fds_of v).

(* what reading [v] between the cursors [p] and [p'] of [st] means; a successful decode moves the cursor and
   nothing else, so the state after it is [tset_pos st p'] *)
Definition SndAt (st : dstate) (p : N) (v : dval) (p' : N) : Prop :=
  p <= p' /\ p' <= blen st /\ vsig v = t_sig st /\ wfL v = true /\ dOK (t_dep st) v /\ fdsOK (t_fds st) v /\
  forall kk, seg (t_bytes st) p p' = marshal (t_e st) ByHandle v (t_pos0 st + p) kk.
Definition Snd (st : dstate) (v : dval) (st' : dstate) : Prop :=
  exists p', st' = tset_pos st p' /\ SndAt st (t_pos st) v p'.
Lemma Snd_intro st v p' : t_pos st <= p' -> p' <= blen st -> vsig v = t_sig st -> wfL v = true ->
  dOK (t_dep st) v -> fdsOK (t_fds st) v ->
  (forall kk, seg (t_bytes st) (t_pos st) p' = marshal (t_e st) ByHandle v (tabs st) kk) -> Snd st v (tset_pos st p').
Proof. intros. exists p'. repeat split; assumption. Qed.

Lemma show_struct fs : show (SStruct fs) = B "(" ++ concat (map show fs) ++ B ")".
Proof. reflexivity. Qed.

Lemma marshal_variant e fm x pos k :
  marshal e fm (VVariant x) pos k =
  (nb (len (show (vsig x))) :: show (vsig x) ++ [x00])
  ++ marshal e fm x (pos + len (nb (len (show (vsig x))) :: show (vsig x) ++ [x00])) k.
Proof. reflexivity. Qed.

(* ---------- the element loops, run from cursor [p] of a state [st] that stays fixed ---------- *)
Section LoopsSound.
  Variable de : dstate -> res cerr (dval * dstate).
  Hypothesis Hde : forall st v st', sig_ne (t_sig st) = true -> fds_id (t_fds st) ->
                                    de st = Ok (v, st') -> Snd st v st'.

  Lemma Hde_at st p v st' : sig_ne (t_sig st) = true -> fds_id (t_fds st) -> de (tset_pos st p) = Ok (v, st') ->
    exists p', st' = tset_pos st p' /\ SndAt st p v p'.
  Proof. exact (Hde (tset_pos st p) v st'). Qed.

  Lemma arr_loop_sound st start n : sig_ne (t_sig st) = true -> fds_id (t_fds st) ->
    forall k p acc l st', p <= blen st ->
    arr_loop de (align_dbus (t_sig st)) start n (t_sig st) k (tset_pos st p) acc = Ok (l, st') ->
    exists l2, l = rev acc ++ l2 /\ st' = tset_pos st (start + n) /\ p <= start + n /\ start + n <= blen st /\
      wfL (VArray (t_sig st) l2) = true /\ fdsOK (t_fds st) (VArray (t_sig st) l2) /\
      forallb (depth_ok (d_struct (t_dep st)) (d_array (t_dep st)) (d_variant (t_dep st))) l2 = true /\
      forall kk, seg (t_bytes st) p (start + n) = mseq (t_e st) ByHandle l2 (t_pos0 st + p) kk.
  Proof.
    intros Hne Hfd. induction k as [|k IH]; intros p acc l st' Hbd; [discriminate|]. cbn [arr_loop].
    change (t_pos (tset_pos st p)) with p. destruct (N.eqb_spec p (start + n)) as [<-|Epos].
    - intros [= <- <-]. exists []. rewrite app_nil_r, seg_nil. repeat split; try lia. constructor.
    - destruct (parse_padding (tset_pos st p) _) as [s1| |] eqn:E1; cbn [bind]; try discriminate.
      destruct (parse_padding_ok _ _ _ E1) as (-> & Hp & _). simp_st.
      set (p1 := p + padn (t_pos0 st + p) (align_dbus (t_sig st))) in *.
      destruct (de (tset_pos st p1)) as [[v s2]| |] eqn:E2; cbn [bind]; try discriminate.
      destruct (Hde_at st p1 v s2 Hne Hfd E2) as (p2 & -> & L2 & B2 & S2 & W2 & O2 & K2 & M2).
      change (t_pos (tset_pos st p2)) with p2.
      destruct (N.ltb_spec (start + n) p2) as [Hov|Hov]; [discriminate|].
      destruct (sig_eqb (vsig v) (t_sig st)) eqn:Ev; cbn [negb]; [|discriminate].
      intros H. destruct (IH p2 (v :: acc) l st' B2 H) as (l2 & -> & -> & L3 & B3 & Wa & Ka & Oa & M3).
      exists (v :: l2). cbn [rev]. rewrite <- app_assoc.
      split; [reflexivity|]. split; [reflexivity|]. split; [lia|]. split; [exact B3|].
      split; [cbn [wfL forallb]; now rewrite W2, Ev|]. split; [exact (proj2 (Forall_app _ _ _) (conj K2 Ka))|].
      split; [cbn [forallb]; now rewrite O2|].
      (* the loop pads to the element alignment; the element's own marshalling starts with that padding *)
      intros kk. rewrite (seg_cat _ _ p1), (seg_cat _ p1 p2) by lia.
      rewrite Hp, (M2 kk), (M3 (kk + nfds v)). cbn [mseq].
      rewrite (marshal_realign _ _ v (t_pos0 st + p)), S2, <- app_assoc.
      replace (t_pos0 st + p + padn (t_pos0 st + p) (align_dbus (t_sig st))) with (t_pos0 st + p1) by lia.
      do 3 f_equal. rewrite len_app, len_pad, <- (M2 kk), len_seg by exact B2. lia.
  Qed.

  Lemma dict_loop_sound st start n vs : sig_ne (t_sig st) = true -> sig_ne vs = true -> fds_id (t_fds st) ->
    forall k p acc l st', p <= blen st ->
    dict_loop de start n (t_sig st) vs k (tset_pos st p) acc = Ok (l, st') ->
    exists l2, l = rev acc ++ l2 /\ st' = tset_pos st (start + n) /\ p <= start + n /\ start + n <= blen st /\
      wfL (VDict (t_sig st) vs l2) = true /\ fdsOK (t_fds st) (VDict (t_sig st) vs l2) /\
      forallb (fun q => depth_ok (d_struct (t_dep st)) (d_array (t_dep st)) (d_variant (t_dep st)) (fst q)
                        && depth_ok (d_struct (t_dep st)) (d_array (t_dep st)) (d_variant (t_dep st)) (snd q)) l2 = true /\
      forall kk, seg (t_bytes st) p (start + n) = mentries (t_e st) ByHandle l2 (t_pos0 st + p) kk.
  Proof.
    intros Hnk Hnv Hfd. induction k as [|k IH]; intros p acc l st' Hbd; [discriminate|]. cbn [dict_loop].
    change (t_pos (tset_pos st p)) with p. destruct (N.eqb_spec p (start + n)) as [<-|Epos].
    - intros [= <- <-]. exists []. rewrite app_nil_r, seg_nil. repeat split; try lia. constructor.
    - destruct (parse_padding (tset_pos st p) 8) as [s1| |] eqn:E1; cbn [bind]; try discriminate.
      destruct (parse_padding_ok _ _ _ E1) as (-> & Hp & _). simp_st.
      set (p1 := p + padn (t_pos0 st + p) 8) in *.
      destruct (de (tset_pos st p1)) as [[kv s2]| |] eqn:E2; cbn [bind]; try discriminate.
      destruct (Hde_at st p1 kv s2 Hnk Hfd E2) as (p2 & -> & L2 & B2 & S2 & W2 & O2 & K2 & M2).
      change (t_pos (tset_pos st p2)) with p2.
      destruct (N.ltb_spec (start + n) p2) as [Hov|Hov]; [discriminate|].
      (* the value is decoded under [vs], then the key signature is put back: the state is [tset_pos st _] again *)
      destruct (de (tset_sig (tset_pos st p2) vs)) as [[vv s3]| |] eqn:E3; cbn [bind]; try discriminate.
      destruct (Hde_at (tset_sig st vs) p2 vv s3 Hnv Hfd E3) as (p3 & -> & L3 & B3 & S3 & W3 & O3 & K3 & M3).
      change (t_pos (tset_pos (tset_sig st vs) p3)) with p3.
      change (tset_sig (tset_pos (tset_sig st vs) p3) (t_sig st)) with (tset_pos st p3). simp_st.
      destruct (N.ltb_spec (start + n) p3) as [Hov3|Hov3]; [discriminate|].
      destruct (sig_eqb (vsig kv) (t_sig st)) eqn:Ek; cbn [negb orb]; [|discriminate].
      destruct (sig_eqb (vsig vv) vs) eqn:Ev; cbn [negb]; [|discriminate].
      intros H. destruct (IH p3 ((kv, vv) :: acc) l st' B3 H) as (l2 & -> & -> & L4 & B4 & Wa & Ka & Oa & M4).
      exists ((kv, vv) :: l2). cbn [rev]. rewrite <- app_assoc.
      split; [reflexivity|]. split; [reflexivity|]. split; [lia|]. split; [exact B4|].
      split; [cbn [wfL forallb fst snd]; now rewrite W2, W3, Ek, Ev|].
      split; [exact (proj2 (Forall_app _ _ _) (conj (proj2 (Forall_app _ _ _) (conj K2 K3)) Ka))|].
      split; [cbn [forallb fst snd]; now rewrite O2, O3|].
      intros kk. rewrite (seg_cat _ _ p1), (seg_cat _ p1 p2), (seg_cat _ p2 p3) by lia.
      rewrite Hp, (M2 kk), (M3 (kk + nfds kv)), (M4 (kk + nfds kv + nfds vv)). cbn [mentries]. simp_st.
      rewrite len_pad. replace (t_pos0 st + p + padn (t_pos0 st + p) 8) with (t_pos0 st + p1) by lia.
      do 2 f_equal. rewrite <- (M2 kk), len_seg by exact B2.
      replace (t_pos0 st + p1 + (p2 - p1)) with (t_pos0 st + p2) by lia.
      do 2 f_equal. rewrite <- (M3 (kk + nfds kv)), len_seg by exact B3. lia.
  Qed.

  Lemma struct_loop_sound st :
    forall gs p acc l st', forallb sig_ne gs = true -> fds_id (t_fds st) -> (p <= blen st \/ gs <> []) ->
    struct_loop de gs (tset_pos st p) acc = Ok (l, st') ->
    exists l2 p', l = rev acc ++ l2 /\ st' = tset_pos st p' /\ p <= p' /\ p' <= blen st /\ map vsig l2 = gs /\
      forallb wfL l2 = true /\ fdsOK (t_fds st) (VStruct l2) /\
      forallb (depth_ok (d_struct (t_dep st)) (d_array (t_dep st)) (d_variant (t_dep st))) l2 = true /\
      forall kk, seg (t_bytes st) p p' = mseq (t_e st) ByHandle l2 (t_pos0 st + p) kk.
  Proof.
    induction gs as [|g gs IH]; intros p acc l st' Hne Hfd Hbd; cbn [struct_loop].
    - intros [= <- <-]. exists [], p. rewrite app_nil_r, seg_nil. destruct Hbd as [Hbd|Hbd]; [|congruence].
      repeat split; try lia. constructor.
    - cbn [forallb] in Hne. apply andb_true_iff in Hne as [Hg Hne].
      destruct (de (tset_sig (tset_pos st p) g)) as [[v sub]| |] eqn:E2; cbn [bind]; try discriminate.
      destruct (Hde_at (tset_sig st g) p v sub Hg Hfd E2) as (p2 & -> & L2 & B2 & S2 & W2 & O2 & K2 & M2).
      change (tset_pos (tset_pos st p) (t_pos (tset_pos (tset_sig st g) p2))) with (tset_pos st p2). simp_st.
      intros H. destruct (IH p2 (v :: acc) l st' Hne Hfd (or_introl B2) H) as (l2 & p' & -> & -> & L3 & B3 & Mp & Wa & Ka & Oa & M3).
      exists (v :: l2), p'. cbn [rev map]. rewrite <- app_assoc, Mp.
      split; [reflexivity|]. split; [reflexivity|]. split; [lia|]. split; [exact B3|]. split; [now f_equal|].
      split; [cbn [forallb]; now rewrite W2|]. split; [exact (proj2 (Forall_app _ _ _) (conj K2 Ka))|].
      split; [cbn [forallb]; now rewrite O2|].
      intros kk. rewrite (seg_cat _ _ p2) by lia. rewrite (M2 kk), (M3 (kk + nfds v)). cbn [mseq]. simp_st.
      do 2 f_equal. rewrite <- (M2 kk), len_seg by exact B2. lia.
  Qed.
End LoopsSound.

(* ---------- leaves ---------- *)
(* a value whose marshalling is padding and one fixed-width number, read by rd_fixed *)
Lemma snd_rd_fixed st (m : nat) x st' v : rd_fixed st (N.of_nat m) = Ok (x, st') ->
  vsig v = t_sig st -> wfL v = true -> dOK (t_dep st) v -> fdsOK (t_fds st) v ->
  (forall kk, marshal (t_e st) ByHandle v (tabs st) kk = pad (tabs st) (N.of_nat m) ++ enc (t_e st) m x) ->
  Snd st v st'.
Proof.
  intros E Hv Hw Hd Hfds Hm. destruct (rd_fixed_ok st _ x st' m eq_refl E) as (-> & Hb & Hs & Hx). simp_st.
  apply Snd_intro; try assumption; [lia|]. intros kk. now rewrite Hs, Hm.
Qed.

Lemma enc1 e x : x < 256 -> enc e 1 x = [nb x].
Proof. intros H. destruct e; cbn; now rewrite N.mod_small. Qed.

(* each fixed-width type: the number read determines a well-formed value of the type, marshalled as that number *)
Lemma fixed_sound g m k x : fixed_of g = Some (m, k) -> x < 256 ^ N.of_nat m ->
  vsig (k x) = g /\ wfL (k x) = true /\ (forall d, dOK d (k x)) /\ fds_of (k x) = [] /\
  forall e pos kk, marshal e ByHandle (k x) pos kk = pad pos (N.of_nat m) ++ enc e m x.
Proof.
  destruct g; intros [= <- <-] Hx; repeat split; intros; cbn [wfL marshal]; rewrite ?twos_untwos by exact Hx;
    try reflexivity; try (now apply N.ltb_lt).
  - change (N.of_nat 1) with 1. now rewrite pad_1, enc1.
  - exact (untwos_range 16 x eq_refl Hx).
  - exact (untwos_range 32 x eq_refl Hx).
  - exact (untwos_range 64 x eq_refl Hx).
Qed.

Lemma snd_fixed f st m k v st' : fixed_of (t_sig st) = Some (m, k) -> de_any (S f) st = Ok (v, st') -> Snd st v st'.
Proof.
  intros Ef. rewrite (de_any_fixed f st m k Ef).
  destruct (rd_fixed st (N.of_nat m)) as [[x s1]| |] eqn:E; cbn [bind]; try discriminate. intros [= <- <-].
  destruct (rd_fixed_ok st _ x s1 m eq_refl E) as (_ & _ & _ & Hx).
  destruct (fixed_sound _ m k x Ef Hx) as (S & W & O & K & M).
  apply (snd_rd_fixed st m x); auto. unfold fdsOK. rewrite K. constructor.
Qed.

Lemma snd_bool f st v st' : t_sig st = SBool -> de_any (S f) st = Ok (v, st') -> Snd st v st'.
Proof.
  intros Hs. rewrite (de_any_bool f st Hs). destruct (rd_fixed st 4) as [[x s1]| |] eqn:E; cbn [bind]; try discriminate.
  destruct (N.eqb_spec x 1) as [->|_]; [|destruct (N.eqb_spec x 0) as [->|_]; [|discriminate]]; intros [= <- <-];
    apply (snd_rd_fixed st 4 _ _ _ E); try reflexivity; try constructor; now rewrite Hs.
Qed.

Lemma snd_fd f st v st' : t_sig st = SFd -> fds_id (t_fds st) -> de_any (S f) st = Ok (v, st') -> Snd st v st'.
Proof.
  intros Hs Hfd. rewrite (de_any_fd f st Hs). destruct (rd_fixed st 4) as [[x s1]| |] eqn:E; cbn [bind]; try discriminate.
  destruct (nthN (t_fds s1) x) as [h|] eqn:Eh; [|discriminate]. intros [= <- <-].
  destruct (rd_fixed_ok st 4 x s1 4%nat eq_refl E) as (Es & _). rewrite Es in Eh. simp_st.
  pose proof (Hfd x h Eh). subst h.
  apply (snd_rd_fixed st 4 _ _ _ E); try reflexivity; [now rewrite Hs|]. constructor; [exact Eh|constructor].
Qed.

Lemma snd_str f st v st' : t_sig st = SStr -> de_any (S f) st = Ok (v, st') -> Snd st v st'.
Proof.
  intros Hs. rewrite (de_any_str f st Hs). destruct (de_str st) as [[s s1]| |] eqn:E; cbn [bind]; try discriminate.
  intros [= <- <-]. destruct (de_str_4_ok st s s1 (or_introl Hs) E) as (p' & -> & L1 & B1 & S1 & W1).
  apply Snd_intro; try assumption; [now rewrite Hs|reflexivity|constructor|intros kk; now rewrite S1].
Qed.

Lemma snd_path f st v st' : t_sig st = SObjPath -> de_any (S f) st = Ok (v, st') -> Snd st v st'.
Proof.
  intros Hs. rewrite (de_any_path f st Hs). destruct (de_str st) as [[s s1]| |] eqn:E; cbn [bind]; try discriminate.
  destruct (path_ok s) eqn:Hp; [|discriminate].
  intros [= <- <-]. destruct (de_str_4_ok st s s1 (or_intror Hs) E) as (p' & -> & L1 & B1 & S1 & W1).
  apply Snd_intro; try assumption; [now rewrite Hs| |reflexivity|constructor|intros kk; now rewrite S1].
  cbn [wfL]. rewrite Hp. unfold str_ok in W1. now apply andb_true_iff in W1 as [_ W1].
Qed.

(* what the parser accepted is printed back by [show], or without the outer parentheses for several types *)
Lemma sig_text_parsed gv s g : parse_sig gv s = Some g ->
  sig_text g (negb (lbeq (show g) s)) = s /\
  (negb (negb (lbeq (show g) s)) || match g with SStruct (_ :: _ :: _) => true | _ => false end) = true.
Proof.
  intros Eg. destruct (parse_sig_inv _ _ _ Eg) as [_ Hshow]. destruct (lbeq (show g) s) eqn:El.
  - apply lbeq_eq in El. split; [exact El|reflexivity].
  - destruct Hshow as [->|(x & y & l & -> & ->)]; [now rewrite lbeq_refl in El|]. split; reflexivity.
Qed.

Lemma snd_sigv f st v st' : t_sig st = SSig -> de_any (S f) st = Ok (v, st') -> Snd st v st'.
Proof.
  intros Hs. rewrite (de_any_sig f st Hs). destruct (de_str st) as [[s s1]| |] eqn:E; cbn [bind]; try discriminate.
  destruct (parse_sig (c_gv (t_cfg s1)) s) as [g|] eqn:Eg; [|discriminate]. intros [= <- <-].
  destruct (de_str_1_ok st s s1 (or_introl Hs) E) as (-> & B1 & S1 & _ & L1).
  destruct (sig_text_parsed _ _ _ Eg) as [Ht1 Ht2].
  apply Snd_intro; try assumption; [lia|now rewrite Hs| |reflexivity|constructor|].
  - cbn [wfL]. rewrite Ht1, Ht2, andb_true_r. now apply N.leb_le.
  - intros kk. rewrite S1. cbn [marshal]. fold (sig_text g (negb (lbeq (show g) s))). now rewrite Ht1.
Qed.

(* ---------- containers, given soundness one level down ---------- *)
Section Step.
  Variable f : nat.
  Hypothesis IH : forall st v st', sig_ne (t_sig st) = true -> fds_id (t_fds st) ->
                                   de_any f st = Ok (v, st') -> Snd st v st'.

  Lemma snd_variant st v st' : t_sig st = SVariant -> fds_id (t_fds st) -> de_any (S f) st = Ok (v, st') -> Snd st v st'.
  Proof.
    intros Hs Hfd. rewrite (de_any_variant f st Hs). cbv zeta.
    destruct (de_str (tset_sig st SSig)) as [[s st1]| |] eqn:Eds; cbn [bind]; try discriminate.
    destruct (parse_sig (c_gv (t_cfg st)) s) as [g0|] eqn:Eg0; cbn [bind]; [|discriminate].
    destruct (nthN (t_bytes st) (t_pos st)) as [lb|] eqn:Elb; [|discriminate].
    destruct (N.ltb_spec (blen st) (t_pos st + 1 + bn lb)) as [Hb1|Hb1]; [discriminate|].
    destruct (parse_sig (c_gv (t_cfg st)) (takeN (bn lb) (dropN (t_pos st + 1) (t_bytes st)))) as [g|] eqn:Eg; [|discriminate].
    destruct (match g with SUnit => true | _ => false end) eqn:Eu; cbn [orb]; [discriminate|].
    destruct (N.eqb_spec (len (show g)) (bn lb)) as [Elen|Elen]; cbn [negb]; [|discriminate].
    destruct (N.ltb_spec (blen st) (t_pos st + 1 + bn lb + 1)) as [Hb2|Hb2]; [discriminate|].
    destruct (inc_variant (t_dep (tset_sig st1 SVariant))) as [d| |] eqn:Ei; cbn [bind]; try discriminate.
    destruct (de_any f _) as [[x inner']| |] eqn:Ein; cbn [bind]; try discriminate.
    intros [= <- <-].
    destruct (de_str_1_ok (tset_sig st SSig) s st1 (or_introl eq_refl) Eds) as (-> & B1 & S1 & S1' & L1). simp_st.
    (* the length byte and the signature text read again are those de_str has just read *)
    assert (Hbn : bn lb = len s).
    { rewrite (nthN_seg_head _ _ _ _ _ _ Elb S1). apply bn_nb. lia. }
    rewrite Hbn in *. rewrite <- seg_add, S1' in Eg.
    destruct (parse_sig_inv _ _ _ Eg) as [Hneg Hshow].
    assert (Hsg : s = show g).
    { destruct Hshow as [Hsh|(x0 & y0 & l0 & -> & Hsh)]; [exact Hsh|]. exfalso.
      rewrite show_struct, <- Hsh, !len_app in Elen.
      change (len (B "(")) with 1 in Elen. change (len (B ")")) with 1 in Elen. lia. }
    destruct (inc_variant_inv _ _ Ei) as (V1 & V2 & V3 & V4).
    set (p1 := t_pos st + 1 + len s + 1) in *.
    destruct (IH (tset_pos (tset_dep (tset_sig st g) d) p1) x inner' Hneg Hfd Ein)
      as (p2 & -> & L2 & B2 & S2 & W2 & O2 & K2 & M2). simp_st.
    replace (tset_pos (tset_sig _ SVariant) _) with (tset_pos st p2) by (apply dstate_ext; try reflexivity; [cbn [tset_pos t_pos]; lia|exact Hs]).
    apply Snd_intro; try assumption; [lia|now rewrite Hs| | |].
    - cbn [wfL]. rewrite W2, S2, <- Hsg. now apply N.leb_le.
    - unfold dOK in *. cbn [depth_ok]. rewrite V1, V2, V3 in O2. rewrite O2, andb_true_r. apply N.leb_le. lia.
    - intros kk. rewrite (seg_cat _ _ p1) by lia. rewrite S1, (M2 kk), marshal_variant, S2, <- Hsg. do 2 f_equal.
      rewrite len_cons, len_app. change (len [x00]) with 1. unfold tabs, p1. lia.
  Qed.

  (* the header shared by arrays and dicts: padding, length, padding to the element alignment; [body] is what
     the element loop goes on to consume *)
  Lemma seq_header st s1 d b s2 al s3 :
    parse_padding st 4 = Ok s1 -> next_slice (tset_dep s1 d) 4 = Ok (b, s2) -> parse_padding s2 al = Ok s3 ->
    exists q3, s3 = tset_pos (tset_dep st d) q3 /\ t_pos st <= q3 /\ q3 <= blen st /\
      t_pos0 st + q3 = tabs st + len (pad (tabs st) 4) + 4 + len (pad (tabs st + len (pad (tabs st) 4) + 4) al) /\
      forall body, seg (t_bytes st) q3 (q3 + dec (t_e s2) b) = body -> q3 + dec (t_e s2) b <= blen st ->
        seg (t_bytes st) (t_pos st) (q3 + dec (t_e s2) b) =
        pad (tabs st) 4 ++ enc (t_e st) 4 (len body) ++ pad (tabs st + len (pad (tabs st) 4) + 4) al ++ body.
  Proof.
    intros E1 E2 E3.
    destruct (parse_padding_ok _ _ _ E1) as (-> & Hp1 & _).
    destruct (next_slice_ok _ _ _ _ E2) as (-> & Hb2 & Hsb & Hlb).
    destruct (parse_padding_ok _ _ _ E3) as (-> & Hp3 & Hb3). simp_st. specialize (Hb3 Hb2).
    set (a := t_pos0 st + t_pos st) in *. set (q1 := t_pos st + padn a 4) in *.
    set (q3 := q1 + 4 + padn (t_pos0 st + (q1 + 4)) al) in *.
    rewrite !len_pad. replace (a + padn a 4 + 4) with (t_pos0 st + (q1 + 4)) by (unfold q1, a; lia).
    exists q3. split; [reflexivity|]. split; [lia|]. split; [exact Hb3|]. split; [lia|]. intros body Hbody Hend.
    rewrite (seg_cat _ _ q1), (seg_cat _ q1 (q1 + 4)), (seg_cat _ (q1 + 4) q3) by lia.
    rewrite Hp1, <- Hsb, Hp3, Hbody, <- Hbody, len_seg by exact Hend. do 2 f_equal.
    replace (q3 + dec (t_e st) b - q3) with (dec (t_e st) b) by lia.
    replace 4%nat with (length b) by lia. symmetry. apply enc_dec.
  Qed.

  Lemma snd_array st c v st' : t_sig st = SArray c -> sig_ne c = true -> fds_id (t_fds st) ->
    de_any (S f) st = Ok (v, st') -> Snd st v st'.
  Proof.
    intros Hs Hne Hfd. rewrite (de_any_array f st c Hs).
    destruct (parse_padding st 4) as [s1| |] eqn:E1; cbn [bind]; try discriminate.
    destruct (inc_array (t_dep s1)) as [d| |] eqn:Ei; cbn [bind]; try discriminate.
    destruct (next_slice (tset_dep s1 d) 4) as [[b s2]| |] eqn:E2; cbn [bind]; try discriminate.
    destruct (align_of c) as [al| |] eqn:Ea; cbn [bind]; try discriminate.
    destruct (parse_padding s2 al) as [s3| |] eqn:E3; cbn [bind]; try discriminate.
    assert (Hal : al = align_dbus c) by (destruct c; cbn in Ea; inversion Ea; reflexivity). subst al.
    destruct (seq_header _ _ _ _ _ _ _ E1 E2 E3) as (q3 & -> & L3 & B3 & T3 & Hm).
    replace (t_dep s1) with (t_dep st) in Ei by (now destruct (parse_padding_ok _ _ _ E1) as (-> & _)).
    destruct (inc_array_inv _ _ Ei) as (I1 & I2 & I3 & I4 & I5 & I6). simp_st.
    destruct (arr_loop _ _ _ _ _ _ _ _) as [[l s4]| |] eqn:E4; cbn [bind]; try discriminate. intros [= <- <-].
    apply (arr_loop_sound (de_any f) IH (tset_sig (tset_dep st d) c) _ _ Hne Hfd _ q3 [] l s4 B3) in E4.
    destruct E4 as (l2 & -> & -> & _ & B4 & Wa & Ka & Oa & M4). simp_st. cbn [rev app].
    replace (tset_sig _ (t_sig st)) with (tset_pos st (q3 + dec (t_e s2) b)) by (apply dstate_ext; try reflexivity; exact (eq_sym I4)).
    apply Snd_intro; [lia|exact B4|now rewrite Hs|exact Wa| |exact Ka|].
    - unfold dOK. cbn [depth_ok]. rewrite I1, I2, I3 in Oa. rewrite Oa, andb_true_r.
      apply andb_true_iff; split; apply N.leb_le; lia.
    - intros kk. rewrite (Hm _ (M4 kk) B4), T3. reflexivity.
  Qed.

  Lemma snd_dict st ks vs v st' : t_sig st = SDict ks vs -> sig_ne ks = true -> sig_ne vs = true -> fds_id (t_fds st) ->
    de_any (S f) st = Ok (v, st') -> Snd st v st'.
  Proof.
    intros Hs Hnk Hnv Hfd. rewrite (de_any_dict f st ks vs Hs).
    destruct (parse_padding st 4) as [s1| |] eqn:E1; cbn [bind]; try discriminate.
    destruct (inc_array (t_dep s1)) as [d| |] eqn:Ei; cbn [bind]; try discriminate.
    destruct (next_slice (tset_dep s1 d) 4) as [[b s2]| |] eqn:E2; cbn [bind]; try discriminate.
    destruct (parse_padding s2 8) as [s3| |] eqn:E3; cbn [bind]; try discriminate.
    destruct (seq_header _ _ _ _ _ _ _ E1 E2 E3) as (q3 & -> & L3 & B3 & T3 & Hm).
    replace (t_dep s1) with (t_dep st) in Ei by (now destruct (parse_padding_ok _ _ _ E1) as (-> & _)).
    destruct (inc_array_inv _ _ Ei) as (I1 & I2 & I3 & I4 & I5 & I6). simp_st.
    destruct (dict_loop _ _ _ _ _ _ _ _) as [[l s4]| |] eqn:E4; cbn [bind]; try discriminate. intros [= <- <-].
    apply (dict_loop_sound (de_any f) IH (tset_sig (tset_dep st d) ks) _ _ vs Hnk Hnv Hfd _ q3 [] l s4 B3) in E4.
    destruct E4 as (l2 & -> & -> & _ & B4 & Wa & Ka & Oa & M4). simp_st. cbn [rev app].
    replace (tset_sig _ (t_sig st)) with (tset_pos st (q3 + dec (t_e s2) b)) by (apply dstate_ext; try reflexivity; exact (eq_sym I4)).
    apply Snd_intro; [lia|exact B4|now rewrite Hs|exact Wa| |exact Ka|].
    - unfold dOK. cbn [depth_ok]. rewrite I1, I2, I3 in Oa. rewrite Oa, andb_true_r.
      apply andb_true_iff; split; apply N.leb_le; lia.
    - intros kk. rewrite (Hm _ (M4 kk) B4), T3. reflexivity.
  Qed.

  Lemma snd_struct st fs v st' : t_sig st = SStruct fs -> sig_ne (SStruct fs) = true -> fds_id (t_fds st) ->
    de_any (S f) st = Ok (v, st') -> Snd st v st'.
  Proof.
    intros Hs Hne Hfd. rewrite (de_any_struct f st fs Hs).
    destruct (parse_padding st 8) as [s1| |] eqn:E1; cbn [bind]; try discriminate.
    destruct (inc_struct (t_dep s1)) as [d| |] eqn:Ei; cbn [bind]; try discriminate.
    destruct (struct_loop _ _ _ _) as [[l s4]| |] eqn:E4; cbn [bind]; try discriminate.
    cbn [sig_ne] in Hne. apply andb_true_iff in Hne as [Hnn Hne].
    assert (Hfs : fs <> []) by (destruct fs; [discriminate|congruence]).
    replace (match fs with [] => s4 | _ :: _ => tset_dep s4 (dec_struct (t_dep s4)) end)
      with (tset_dep s4 (dec_struct (t_dep s4))) by (destruct fs; [congruence|reflexivity]).
    intros [= <- <-].
    destruct (parse_padding_ok _ _ _ E1) as (-> & Hp1 & _). simp_st.
    destruct (inc_struct_inv _ _ Ei) as (I1 & I2 & I3 & I4 & I5 & I6).
    apply (struct_loop_sound (de_any f) IH (tset_dep st d) fs _ [] l s4 Hne Hfd (or_intror Hfs)) in E4.
    destruct E4 as (l2 & p' & -> & -> & L4 & B4 & Mp & Wa & Ka & Oa & M4). simp_st. cbn [rev app].
    replace (tset_dep _ (dec_struct d)) with (tset_pos st p') by (apply dstate_ext; try reflexivity; exact (eq_sym I4)).
    apply Snd_intro; [lia|exact B4|cbn [vsig]; now rewrite Mp, Hs| | |exact Ka|].
    - cbn [wfL]. rewrite Wa, andb_true_r. destruct l2; [|reflexivity]. cbn in Mp. congruence.
    - unfold dOK. cbn [depth_ok]. rewrite I1, I2, I3 in Oa. rewrite Oa, andb_true_r.
      apply andb_true_iff; split; apply N.leb_le; lia.
    - intros kk. unfold tabs. rewrite (seg_cat _ _ (t_pos st + padn (t_pos0 st + t_pos st) 8)) by lia. rewrite Hp1, (M4 kk).
      rewrite marshal_struct. cbv zeta. rewrite len_pad. do 2 f_equal. lia.
  Qed.
End Step.

Theorem de_any_sound : forall fuel st v st',
  sig_ne (t_sig st) = true -> fds_id (t_fds st) -> de_any fuel st = Ok (v, st') -> Snd st v st'.
Proof.
  induction fuel as [|f IH]; intros st v st' Hne Hfd; [discriminate|].
  destruct (fixed_of (t_sig st)) as [[m k]|] eqn:Ef; [exact (snd_fixed f st m k v st' Ef)|].
  destruct (t_sig st) as [ | | | | | | | | | | | | | | |c|ks vs|fs|c'] eqn:Hs; try discriminate Ef.
  - (* unit *) cbn [de_any]. rewrite Hs. discriminate.
  - exact (snd_bool f st v st' Hs).
  - exact (snd_str f st v st' Hs).
  - exact (snd_sigv f st v st' Hs).
  - exact (snd_path f st v st' Hs).
  - exact (snd_variant f IH st v st' Hs Hfd).
  - exact (snd_fd f st v st' Hs Hfd).
  - exact (snd_array f IH st c v st' Hs Hne Hfd).
  - cbn [sig_ne] in Hne. apply andb_true_iff in Hne as [Hnk Hnv]. exact (snd_dict f IH st ks vs v st' Hs Hnk Hnv Hfd).
  - exact (snd_struct f IH st fs v st' Hs Hne Hfd).
  - (* maybe *) cbn [de_any]. rewrite Hs. discriminate.
Qed.
