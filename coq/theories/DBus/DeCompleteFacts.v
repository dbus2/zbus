(* DBus/DeCompleteFacts.v — building blocks for the completeness proof of the decoder model (C02):
   number codecs invert, ASCII strings pass the string checks, the signature parser reads back a
   concatenation of complete types, cursor arithmetic on decoder states, the primitive readers on a
   buffer that holds the expected bytes at the cursor, nesting depth of a value against the decoder's fuel,
   descriptor tables, inversion of the depth counters, and facts about [marshal]. *)
From ZV Require Import Base.Bytes Base.BytesFacts Base.Res Base.Sig Base.SigParse Base.SigParseFacts Base.Utf8 Base.WinnowFacts
  DBus.Val DBus.Spec DBus.Ser DBus.SerFacts DBus.SerProofs DBus.De DBus.DeNoPanic.
From Coq Require Import Lia.
Local Open Scope N_scope.

(* ---------- bytes and fixed-width numbers ---------- *)
Lemma le_val_le_bytes n : forall x, x < 2 ^ (8 * N.of_nat n) -> le_val (le_bytes n x) = x.
Proof.
  induction n as [|n IH]; intros x Hx.
  - cbn in *. lia.
  - cbn [le_bytes le_val].
    replace (8 * N.of_nat (S n)) with (8 + 8 * N.of_nat n) in Hx by lia.
    rewrite N.pow_add_r in Hx. change (2 ^ 8) with 256 in Hx.
    rewrite bn_nb by (apply N.mod_lt; lia).
    rewrite IH.
    + rewrite (N.div_mod x 256) at 3 by lia. lia.
    + apply N.div_lt_upper_bound; [lia|]. exact Hx.
Qed.

Lemma dec_enc e n x : x < 2 ^ (8 * N.of_nat n) -> dec e (enc e n x) = x.
Proof.
  intros H. destruct e; unfold dec, enc.
  - now apply le_val_le_bytes.
  - rewrite rev_involutive. now apply le_val_le_bytes.
Qed.
Lemma dec_enc4 e x : x < 2 ^ 32 -> dec e (enc e 4 x) = x.
Proof. intros H. apply dec_enc. exact H. Qed.

Lemma dec_LE_1 x : x < 256 -> dec LE [nb x] = x.
Proof. intros H. cbn [dec le_val]. rewrite bn_nb by assumption. lia. Qed.

Lemma twos_lt bits z : twos bits z < 2 ^ bits.
Proof.
  unfold twos. assert (H : (0 < 2 ^ Z.of_N bits)%Z) by (apply Z.pow_pos_nonneg; lia).
  pose proof (Z.mod_pos_bound z _ H) as Hb. apply N2Z.inj_lt. rewrite Z2N.id by lia.
  rewrite N2Z.inj_pow. exact (proj2 Hb).
Qed.

Lemma pow2_pred bits : 0 < bits -> (2 ^ Z.of_N bits = 2 * 2 ^ Z.of_N (bits - 1))%Z.
Proof. intros Hb. rewrite <- Z.pow_succ_r by lia. f_equal. lia. Qed.

Lemma untwos_twos bits z : 0 < bits ->
  (- 2 ^ Z.of_N (bits - 1) <= z < 2 ^ Z.of_N (bits - 1))%Z -> untwos bits (twos bits z) = z.
Proof.
  intros Hb Hz. unfold untwos, twos. rewrite (pow2_pred bits Hb).
  set (H := (2 ^ Z.of_N (bits - 1))%Z) in *.
  assert (HH : (0 < H)%Z) by (subst H; apply Z.pow_pos_nonneg; lia).
  assert (Hn : (2 ^ (bits - 1) = Z.to_N H)%N).
  { subst H. apply N2Z.inj. rewrite N2Z.inj_pow, Z2N.id by (apply Z.pow_nonneg; lia). reflexivity. }
  rewrite Hn.
  destruct (Z.ltb_spec z 0) as [Hneg|Hpos].
  - assert (Hm : (z mod (2 * H) = z + 2 * H)%Z).
    { symmetry. apply (Z.mod_unique_pos _ _ (-1)); lia. }
    rewrite Hm. destruct (N.ltb_spec (Z.to_N (z + 2 * H)) (Z.to_N H)); lia.
  - rewrite Z.mod_small by lia.
    destruct (N.ltb_spec (Z.to_N z) (Z.to_N H)); lia.
Qed.

Lemma untwos_twos_b bits z : 0 < bits ->
  ((- 2 ^ Z.of_N (bits - 1) <=? z)%Z && (z <? 2 ^ Z.of_N (bits - 1))%Z) = true -> untwos bits (twos bits z) = z.
Proof.
  intros Hb H. apply andb_true_iff in H as [H1 H2]. apply Z.leb_le in H1. apply Z.ltb_lt in H2. now apply untwos_twos.
Qed.

(* ---------- printable ASCII passes the string checks ---------- *)
Definition ascii1 (c : byte) : bool := (0 <? bn c) && (bn c <? 128).
Definition ascii_nz (s : bytes) : bool := forallb ascii1 s.

Lemma ascii_nul_free s : ascii_nz s = true -> nul_free s = true.
Proof.
  unfold ascii_nz, nul_free. induction s as [|c s IH]; [reflexivity|]. cbn [forallb].
  intros H. apply andb_true_iff in H as [Hc Hs]. rewrite (IH Hs), andb_true_r.
  unfold ascii1 in Hc. apply andb_true_iff in Hc as [H0 _]. apply N.ltb_lt in H0.
  destruct (N.eqb_spec (bn c) 0); [lia|reflexivity].
Qed.
Lemma ascii_utf8 s : ascii_nz s = true -> utf8_valid s = true.
Proof.
  unfold ascii_nz. induction s as [|c s IH]; [reflexivity|]. cbn [forallb utf8_valid].
  intros H. apply andb_true_iff in H as [Hc Hs].
  unfold ascii1 in Hc. apply andb_true_iff in Hc as [_ H1]. rewrite H1. now apply IH.
Qed.
Lemma ascii_app a b : ascii_nz (a ++ b) = ascii_nz a && ascii_nz b.
Proof. unfold ascii_nz. apply forallb_app. Qed.

Lemma ascii_show : forall g, ascii_nz (show g) = true.
Proof.
  induction g using sig_ind'; try reflexivity.
  - cbn [show]. rewrite ascii_app, IHg. reflexivity.
  - cbn [show]. rewrite !ascii_app, IHg1, IHg2. reflexivity.
  - cbn [show]. rewrite !ascii_app. cbn [andb].
    assert (Hc : ascii_nz (concat (map show fs)) = true).
    { induction H as [|x l Hx Hl IH]; [reflexivity|]. cbn [map concat]. now rewrite ascii_app, Hx, IH. }
    rewrite Hc. reflexivity.
  - cbn [show]. rewrite ascii_app, IHg. reflexivity.
Qed.
Lemma ascii_show_noparens g : ascii_nz (show_noparens g) = true.
Proof.
  destruct g; try apply ascii_show. unfold show_noparens.
  pose proof (ascii_show (SStruct fs)) as H. cbn [show] in H. rewrite !ascii_app in H.
  apply andb_true_iff in H as [_ H]. apply andb_true_iff in H as [H _]. exact H.
Qed.

(* object paths: '/', alphanumerics and '_' only *)
Lemma alnum_ascii c : is_alphanum c || beq c "_"%byte = true -> ascii1 c = true.
Proof.
  unfold is_alphanum, is_alpha, is_upper, is_lower, is_digit, in_range, ascii1. intros H.
  apply orb_true_iff in H as [H|H].
  - repeat (apply orb_true_iff in H as [H|H]); apply andb_true_iff in H as [H1 H2];
      apply N.leb_le in H1, H2; apply andb_true_iff; split; apply N.ltb_lt; lia.
  - apply beq_eq in H. subst c. reflexivity.
Qed.
Lemma ascii_join_slash (es : list bytes) : Forall (fun el => ascii_nz el = true) es ->
  ascii_nz (join ["/"%byte] es) = true.
Proof.
  induction 1 as [|x l Hx Hl IH]; [reflexivity|]. cbn [join]. destruct l as [|y l']; [exact Hx|].
  rewrite !ascii_app, Hx, IH. reflexivity.
Qed.
Lemma path_ascii s : path_ok s = true -> ascii_nz s = true.
Proof.
  destruct s as [|c r]; [discriminate|]. cbn [path_ok]. intros H. apply andb_true_iff in H as [Hc Hr].
  apply beq_eq in Hc. subst c. unfold ascii_nz. cbn [forallb]. change (ascii1 "/") with true. cbn [andb].
  destruct r as [|c' r']; [reflexivity|].
  fold (ascii_nz (c' :: r')). rewrite <- (join_split "/"%byte (c' :: r')). apply ascii_join_slash.
  apply Forall_forall. intros el Hin. rewrite forallb_forall in Hr. specialize (Hr el Hin).
  unfold path_elem_ok in Hr. destruct el as [|e0 el]; [discriminate|].
  unfold ascii_nz. apply forallb_forall. intros x Hx. rewrite forallb_forall in Hr. apply alnum_ascii. now apply Hr.
Qed.

Lemma forallb_zero_zeros n : forallb (fun c => bn c =? 0) (zeros n) = true.
Proof. unfold zeros. induction (N.to_nat n); [reflexivity|]. cbn [repeat forallb]. rewrite IHn0. reflexivity. Qed.

(* ---------- the signature parser on a concatenation of complete types ---------- *)
Lemma parse_show_many gv x y l : forallb printable (x :: y :: l) = true ->
  parse_sig gv (concat (map show (x :: y :: l))) = Some (SStruct (x :: y :: l)).
Proof.
  intros Hp. rewrite forallb_forall in Hp. set (s := concat (map show (x :: y :: l))).
  assert (Hb : (pfs (x :: y :: l) <= 2 * length s + 1)%nat).
  { apply (pfs_le false), Forall_forall. intros g Hg. split; [apply printable_any_gv|apply pf_bound]; auto. }
  assert (HF : Forall (reads_back gv) (x :: y :: l)).
  { apply Forall_forall. intros g Hg. apply parse_show_mutual. auto. }
  destruct (show_head x (Hp x (or_introl eq_refl))) as (ch & t & Hs & _).
  assert (Es : exists c0 t0, s = c0 :: t0) by (subst s; cbn [map concat]; rewrite Hs; cbn [app]; eauto).
  destruct Es as (c0 & t0 & Es). unfold parse_sig. rewrite Es, <- Es. unfold sig_fuel.
  pose proof (parse_many_shows gv _ HF (2 * length s + 2)%nat [] (or_introl eq_refl) ltac:(lia)) as Hm.
  fold s in Hm. rewrite app_nil_r in Hm. now rewrite Hm.
Qed.

Lemma single_all_printable fs : forallb single_ok fs = true -> forallb printable fs = true.
Proof.
  intros H. apply forallb_forall. intros x Hx. rewrite forallb_forall in H. apply single_printable. now apply H.
Qed.

(* what the decoder computes for a signature value written in either wire form *)
Lemma sigval_parse gv g np :
  sigval_ok g np = true -> (negb np || match g with SStruct (_ :: _ :: _) => true | _ => false end) = true ->
  let t := if np then show_noparens g else show g in
  parse_sig gv t = Some g /\ negb (lbeq (show g) t) = np.
Proof.
  intros Hok Hnp. unfold sigval_ok in Hok. apply andb_true_iff in Hok as [Hok _].
  destruct np; cbn [negb orb] in Hnp; cbv zeta.
  - destruct g as [ | | | | | | | | | | | | | | | | |fs| ]; try discriminate. destruct fs as [|x [|y l]]; try discriminate.
    apply andb_true_iff in Hok as [Hall _]. unfold show_noparens. split.
    + apply parse_show_many. now apply single_all_printable.
    + destruct (lbeq _ _) eqn:E; [|reflexivity]. exfalso. apply lbeq_eq in E. apply (f_equal (@length byte)) in E.
      cbn [show] in E. rewrite !app_length in E. change (length (B "(")) with 1%nat in E. change (length (B ")")) with 1%nat in E. lia.
  - rewrite lbeq_refl. split; [|reflexivity].
    destruct g; try (apply parse_show; apply single_printable; exact Hok); try reflexivity.
    apply andb_true_iff in Hok as [Hall Hne]. apply parse_show. cbn [printable].
    rewrite (single_all_printable _ Hall), andb_true_r. destruct fs; [discriminate Hne|reflexivity].
Qed.

(* ---------- decoder states: advancing the cursor ---------- *)
Definition adv (st : dstate) (n : N) : dstate := tset_pos st (t_pos st + n).

Lemma dstate_ext a b :
  t_cfg a = t_cfg b -> t_e a = t_e b -> t_pos0 a = t_pos0 b -> t_bytes a = t_bytes b -> t_pos a = t_pos b ->
  t_sig a = t_sig b -> t_dep a = t_dep b -> t_fds a = t_fds b -> a = b.
Proof. destruct a, b; cbn; intros; subst; reflexivity. Qed.

Lemma adv_0 st : adv st 0 = st.
Proof. apply dstate_ext; try reflexivity. cbn. apply N.add_0_r. Qed.
Lemma adv_adv st a b : adv (adv st a) b = adv st (a + b).
Proof. apply dstate_ext; try reflexivity. cbn. lia. Qed.
Lemma tabs_adv st n : tabs (adv st n) = tabs st + n.
Proof. unfold tabs. cbn. lia. Qed.
Lemma tset_sig_id st : tset_sig st (t_sig st) = st. Proof. destruct st; reflexivity. Qed.
Lemma tset_dep_id st : tset_dep st (t_dep st) = st. Proof. destruct st; reflexivity. Qed.
Lemma tset_sig_adv st g n : tset_sig (adv st n) g = adv (tset_sig st g) n. Proof. reflexivity. Qed.
Lemma tset_dep_adv st d n : tset_dep (adv st n) d = adv (tset_dep st d) n. Proof. reflexivity. Qed.
Lemma tset_sig_sig st g h : tset_sig (tset_sig st g) h = tset_sig st h. Proof. reflexivity. Qed.
Lemma tset_dep_dep st g h : tset_dep (tset_dep st g) h = tset_dep st h. Proof. reflexivity. Qed.
Lemma tset_sig_dep st g d : tset_sig (tset_dep st d) g = tset_dep (tset_sig st g) d. Proof. reflexivity. Qed.

Lemma tset_pos_pos st p q : tset_pos (tset_pos st p) q = tset_pos st q. Proof. reflexivity. Qed.

(* everywhere: [blen] and [tabs] unfolded, fields of updated states computed *)
Ltac simp_st :=
  rewrite ?tset_pos_pos in *; unfold blen, tabs in *;
  cbn [adv tset_pos tset_dep tset_sig t_cfg t_e t_pos0 t_bytes t_pos t_sig t_dep t_fds] in *.

(* ---------- "the buffer holds M at offset p" ---------- *)
Definition at_ (B : bytes) (p : N) (M : bytes) : Prop := exists pre rest, B = pre ++ M ++ rest /\ len pre = p.

Lemma at_app_l B p M1 M2 : at_ B p (M1 ++ M2) -> at_ B p M1.
Proof. intros (pre & rest & E & L). exists pre, (M2 ++ rest). rewrite <- app_assoc in E. auto. Qed.
Lemma at_app_r B p M1 M2 : at_ B p (M1 ++ M2) -> at_ B (p + len M1) M2.
Proof.
  intros (pre & rest & E & L). exists (pre ++ M1), rest. rewrite <- !app_assoc in *. split; [exact E|].
  rewrite len_app. lia.
Qed.
Lemma at_cons_l B p c M : at_ B p (c :: M) -> at_ B p [c].
Proof. intros H. apply (at_app_l B p [c] M). exact H. Qed.
Lemma at_cons_r B p c M : at_ B p (c :: M) -> at_ B (p + 1) M.
Proof. intros H. apply (at_app_r B p [c] M) in H. exact H. Qed.
Lemma at_bound B p M : at_ B p M -> p + len M <= len B.
Proof. intros (pre & rest & E & L). subst B. rewrite !len_app. lia. Qed.
Lemma at_length B p M : at_ B p M -> (length M <= length B)%nat.
Proof. intros (pre & rest & E & L). subst B. rewrite !app_length. lia. Qed.
Lemma at_slice B p M : at_ B p M -> takeN (len M) (dropN p B) = M.
Proof. intros (pre & rest & E & L). subst B p. rewrite dropN_app. apply takeN_app. Qed.
Lemma at_nth B p c : at_ B p [c] -> nthN B p = Some c.
Proof.
  intros (pre & rest & E & L). subst B p. unfold nthN, len. rewrite Nat2N.id.
  destruct (N.ltb_spec (N.of_nat (length pre)) (N.of_nat (length (pre ++ [c] ++ rest)))) as [_|H].
  - rewrite nth_error_app2 by lia. rewrite Nat.sub_diag. reflexivity.
  - rewrite !app_length in H. cbn [length] in H. lia.
Qed.
Lemma at_0 (b rest : bytes) : at_ (b ++ rest) 0 b.
Proof. exists [], rest. split; reflexivity. Qed.
Lemma at_nil B p : p <= len B -> at_ B p [].
Proof.
  intros H. exists (takeN p B), (dropN p B). cbn [app]. unfold takeN, dropN. rewrite firstn_skipn. split; [reflexivity|].
  unfold len in *. rewrite firstn_length. lia.
Qed.

(* ---------- the primitive readers ---------- *)
Lemma next_slice_at st M : at_ (t_bytes st) (t_pos st) M ->
  next_slice st (len M) = Ok (M, adv st (len M)).
Proof.
  intros H. unfold next_slice, blen. pose proof (at_bound _ _ _ H) as Hb.
  destruct (N.ltb_spec (len (t_bytes st)) (t_pos st + len M)); [lia|]. rewrite (at_slice _ _ _ H). reflexivity.
Qed.
Lemma next_slice_at' st M n : at_ (t_bytes st) (t_pos st) M -> n = len M ->
  next_slice st n = Ok (M, adv st n).
Proof. intros H ->. now apply next_slice_at. Qed.

Lemma len_pad p al : len (pad p al) = padn p al.
Proof. unfold pad. apply len_zeros. Qed.

Lemma parse_padding_at st al : at_ (t_bytes st) (t_pos st) (pad (tabs st) al) ->
  parse_padding st al = Ok (adv st (padn (tabs st) al)).
Proof.
  intros H. unfold parse_padding. destruct (N.eqb_spec (padn (tabs st) al) 0) as [E|E].
  - rewrite E, adv_0. reflexivity.
  - pose proof (at_bound _ _ _ H) as Hb. rewrite len_pad in Hb. unfold blen.
    destruct (N.ltb_spec (len (t_bytes st)) (t_pos st + padn (tabs st) al)); [lia|].
    pose proof (at_slice _ _ _ H) as Hs. rewrite len_pad in Hs. rewrite Hs. unfold pad.
    rewrite forallb_zero_zeros. reflexivity.
Qed.

Lemma rd_fixed_at st (m : nat) n x : n = N.of_nat m ->
  at_ (t_bytes st) (t_pos st) (pad (tabs st) n ++ enc (t_e st) m x) -> x < 2 ^ (8 * n) ->
  rd_fixed st n = Ok (x, adv st (len (pad (tabs st) n ++ enc (t_e st) m x))).
Proof.
  intros -> H Hx. unfold rd_fixed. rewrite (parse_padding_at st _ (at_app_l _ _ _ _ H)). cbn [bind].
  rewrite len_app, len_pad, len_enc. apply at_app_r in H. rewrite len_pad in H.
  rewrite (next_slice_at' (adv st _) _ (N.of_nat m) H) by (now rewrite len_enc). cbn [bind].
  rewrite adv_adv. change (t_e (adv st (padn (tabs st) (N.of_nat m) + N.of_nat m))) with (t_e st).
  rewrite dec_enc by assumption. reflexivity.
Qed.

(* the header of an array or dict at the cursor: padding, u32 length, padding to the element alignment, with the
   depth counters [d] installed after the first padding *)
Lemma seq_header_at st d n al body : n < 2 ^ 32 ->
  at_ (t_bytes st) (t_pos st) (pad (tabs st) 4 ++ enc (t_e st) 4 n ++ pad (tabs st + padn (tabs st) 4 + 4) al ++ body) ->
  let p0 := padn (tabs st) 4 in let p1 := padn (tabs st + p0 + 4) al in
  parse_padding st 4 = Ok (adv st p0) /\
  next_slice (tset_dep (adv st p0) d) 4 = Ok (enc (t_e st) 4 n, adv (tset_dep (adv st p0) d) 4) /\
  parse_padding (adv (tset_dep (adv st p0) d) 4) al = Ok (tset_dep (adv st (p0 + 4 + p1)) d) /\
  at_ (t_bytes st) (t_pos st + (p0 + 4 + p1)) body.
Proof.
  intros Hn H p0 p1.
  pose proof (at_app_l _ _ _ _ H) as H0. apply at_app_r in H. rewrite len_pad in H. fold p0 in H.
  pose proof (at_app_l _ _ _ _ H) as H1. apply at_app_r in H. rewrite len_enc in H.
  pose proof (at_app_l _ _ _ _ H) as H2. apply at_app_r in H. rewrite len_pad in H. fold p0 p1 in H.
  split; [exact (parse_padding_at st 4 H0)|]. split; [apply next_slice_at'; [exact H1|now rewrite len_enc]|].
  set (s := adv (tset_dep (adv st p0) d) 4).
  assert (T : tabs s = tabs st + p0 + 4) by (unfold tabs; cbn; lia).
  split; [|now replace (t_pos st + (p0 + 4 + p1)) with (t_pos st + p0 + N.of_nat 4 + p1) by lia].
  rewrite (parse_padding_at s al) by (rewrite T; exact H2). rewrite T. fold p1.
  apply f_equal, dstate_ext; try reflexivity. cbn. lia.
Qed.

Lemma str_body_at st s : nul_free s = true -> utf8_valid s = true -> at_ (t_bytes st) (t_pos st) (s ++ [x00]) ->
  str_body (len s) st = Ok (s, adv st (len s + 1)).
Proof.
  intros Hn Hu H. unfold str_body. rewrite (next_slice_at st s (at_app_l _ _ _ _ H)). cbn [bind]. rewrite Hn. cbn [negb].
  rewrite (next_slice_at' (adv st (len s)) [x00] 1 (at_app_r _ _ _ _ H)) by reflexivity. cbn [bind forallb].
  change (bn x00 =? 0) with true. cbn [andb negb]. rewrite Hu, adv_adv. reflexivity.
Qed.

(* strings with a u32 length prefix *)
Lemma de_str_4 st s : (t_sig st = SStr \/ t_sig st = SObjPath) -> len s < 2 ^ 32 -> nul_free s = true -> utf8_valid s = true ->
  at_ (t_bytes st) (t_pos st) (pad (tabs st) 4 ++ enc (t_e st) 4 (len s) ++ s ++ [x00]) ->
  de_str st = Ok (s, adv st (len (pad (tabs st) 4 ++ enc (t_e st) 4 (len s) ++ s ++ [x00]))).
Proof.
  intros Hs Hl Hn Hu H. rewrite de_str_stages.
  replace (str_len st) with (rd_fixed st 4) by (unfold str_len; now destruct Hs as [-> | ->]).
  rewrite app_assoc in H. rewrite (rd_fixed_at st 4 4 (len s) eq_refl (at_app_l _ _ _ _ H) Hl). cbn [bind].
  apply at_app_r in H. rewrite (str_body_at (adv st _) s Hn Hu H), adv_adv, app_assoc, (len_app _ (s ++ _)), (len_app s). reflexivity.
Qed.

(* signature strings: u8 length prefix *)
Lemma de_str_1 st s : (t_sig st = SSig \/ t_sig st = SVariant) -> len s <= 255 -> ascii_nz s = true ->
  at_ (t_bytes st) (t_pos st) (nb (len s) :: s ++ [x00]) ->
  de_str st = Ok (s, adv st (len (nb (len s) :: s ++ [x00]))).
Proof.
  intros Hs Hl Ha H. rewrite de_str_stages.
  replace (str_len st) with (let* (b, st0) := next_slice st 1 in Ok (dec LE b, st0))
    by (unfold str_len; now destruct Hs as [-> | ->]).
  rewrite (next_slice_at' st [nb (len s)] 1 (at_cons_l _ _ _ _ H)) by reflexivity. cbn [bind]. rewrite dec_LE_1 by lia.
  rewrite (str_body_at (adv st 1) s (ascii_nul_free s Ha) (ascii_utf8 s Ha) (at_cons_r _ _ _ _ H)), adv_adv.
  now rewrite len_cons, len_app.
Qed.

(* ---------- nesting depth of a value = recursion depth of the decoder (fuel) ---------- *)
Fixpoint vdepth (v : dval) : nat :=
  match v with
  | VVariant x => S (vdepth x)
  | VArray _ l => S ((fix go (l : list dval) : nat := match l with [] => O | x :: r => Nat.max (vdepth x) (go r) end) l)
  | VStruct l => S ((fix go (l : list dval) : nat := match l with [] => O | x :: r => Nat.max (vdepth x) (go r) end) l)
  | VDict _ _ l => S ((fix go (l : list (dval * dval)) : nat :=
                         match l with [] => O | p :: r => Nat.max (Nat.max (vdepth (fst p)) (vdepth (snd p))) (go r) end) l)
  | _ => 1%nat
  end.
Fixpoint vdepths (l : list dval) : nat := match l with [] => O | x :: r => Nat.max (vdepth x) (vdepths r) end.
Fixpoint vdepthp (l : list (dval * dval)) : nat :=
  match l with [] => O | p :: r => Nat.max (Nat.max (vdepth (fst p)) (vdepth (snd p))) (vdepthp r) end.
Lemma vdepth_array el l : vdepth (VArray el l) = S (vdepths l). Proof. reflexivity. Qed.
Lemma vdepth_struct l : vdepth (VStruct l) = S (vdepths l). Proof. reflexivity. Qed.
Lemma vdepth_dict ks vs l : vdepth (VDict ks vs l) = S (vdepthp l). Proof. reflexivity. Qed.
Lemma vdepth_pos v : (1 <= vdepth v)%nat. Proof. destruct v; cbn; lia. Qed.

Lemma vdepths_le l n : Forall (fun x => (vdepth x <= n)%nat) l -> (vdepths l <= n)%nat.
Proof. induction 1 as [|x l Hx _ IH]; cbn [vdepths]; [lia|]. now apply Nat.max_lub. Qed.
Lemma vdepthp_le l n : Forall (fun q => (vdepth (fst q) <= n)%nat /\ (vdepth (snd q) <= n)%nat) l -> (vdepthp l <= n)%nat.
Proof. induction 1 as [|q l [H1 H2] _ IH]; cbn [vdepthp]; [lia|]. now repeat apply Nat.max_lub. Qed.

(* a value within the specification's nesting limits needs at most 65 levels: every container uses up one of
   the [n] levels left *)
Lemma depth_ok_vdepth : forall v ds da dv, ds + da + dv <= 64 -> depth_ok ds da dv v = true ->
  (vdepth v + N.to_nat (ds + da + dv) <= 65)%nat.
Proof.
  assert (G : forall v ds da dv n, (N.to_nat (ds + da + dv) + n = 65)%nat -> (1 <= n)%nat ->
              depth_ok ds da dv v = true -> (vdepth v <= n)%nat).
  { induction v using dval_ind'; intros ds da dv n Hn H1 Hd.
    - destruct v; try contradiction; exact H1.
    - cbn [depth_ok] in Hd. apply andb_true_iff in Hd as [Ht Hx]. apply N.leb_le in Ht.
      destruct n as [|n]; [lia|]. apply le_n_S, (IHv ds da (dv + 1)); [lia|lia|exact Hx].
    - cbn [depth_ok] in Hd. apply andb_true_iff in Hd as [Hd Hl]. apply andb_true_iff in Hd as [_ Ht]. apply N.leb_le in Ht.
      rewrite vdepth_array. destruct n as [|n]; [lia|]. apply le_n_S, vdepths_le, Forall_forall. intros x Hx.
      rewrite Forall_forall in H. rewrite forallb_forall in Hl. apply (H x Hx ds (da + 1) dv); [lia|lia|exact (Hl x Hx)].
    - cbn [depth_ok] in Hd. apply andb_true_iff in Hd as [Hd Hl]. apply andb_true_iff in Hd as [_ Ht]. apply N.leb_le in Ht.
      rewrite vdepth_dict. destruct n as [|n]; [lia|]. apply le_n_S, vdepthp_le, Forall_forall. intros q Hq.
      rewrite Forall_forall in H. rewrite forallb_forall in Hl. destruct (H q Hq) as [G1 G2].
      specialize (Hl q Hq). apply andb_true_iff in Hl as [L1 L2].
      split; [apply (G1 ds (da + 1) dv)|apply (G2 ds (da + 1) dv)]; (lia || assumption).
    - cbn [depth_ok] in Hd. apply andb_true_iff in Hd as [Hd Hl]. apply andb_true_iff in Hd as [_ Ht]. apply N.leb_le in Ht.
      rewrite vdepth_struct. destruct n as [|n]; [lia|]. apply le_n_S, vdepths_le, Forall_forall. intros x Hx.
      rewrite Forall_forall in H. rewrite forallb_forall in Hl. apply (H x Hx (ds + 1) da dv); [lia|lia|exact (Hl x Hx)]. }
  intros v ds da dv H64 Hd. pose proof (G v ds da dv (65 - N.to_nat (ds + da + dv))%nat ltac:(lia) ltac:(lia) Hd). lia.
Qed.
Lemma within_limits_fuel v : within_limits v = true -> (vdepth v <= de_fuel)%nat.
Proof. intros H. pose proof (depth_ok_vdepth v 0 0 0 ltac:(lia) H). unfold de_fuel. lia. Qed.

(* ---------- descriptor indices on the wire vs. the decoder's descriptor table ---------- *)
Definition fdsm (fm : fdmode) (fds : list N) (k : N) (hs : list N) : Prop :=
  match fm with
  | ByHandle => Forall (fun h => nthN fds h = Some h) hs
  | ByOccurrence => forall i h, nth_error hs i = Some h -> nthN fds (k + N.of_nat i) = Some h
  end.
Definition fds_match (fm : fdmode) (fds : list N) (k : N) (v : dval) : Prop := fdsm fm fds k (fds_of v).

Lemma fdsm_app fm fds k a b : fdsm fm fds k (a ++ b) -> fdsm fm fds k a /\ fdsm fm fds (k + N.of_nat (length a)) b.
Proof.
  destruct fm; cbn [fdsm]; intros H.
  - split.
    + intros i h Hi. apply H. rewrite nth_error_app1; [exact Hi|]. apply nth_error_Some. congruence.
    + intros i h Hi. replace (k + N.of_nat (length a) + N.of_nat i) with (k + N.of_nat (length a + i)) by lia.
      apply H. rewrite nth_error_app2 by lia. replace (length a + i - length a)%nat with i by lia. exact Hi.
  - apply Forall_app in H. exact H.
Qed.
Lemma nthN_lt {A} (l : list A) i x : nthN l i = Some x -> i < N.of_nat (length l).
Proof. unfold nthN. destruct (N.ltb_spec i (N.of_nat (length l))); [auto|discriminate]. Qed.

(* ---------- depth counters: what a successful increment says ---------- *)
Lemma dcheck_inv d d' : dcheck d = Ok d' ->
  d' = d /\ d_struct d <= 32 /\ d_array d <= 32 /\ d_struct d + d_array d + d_variant d + d_maybe d <= 64.
Proof.
  unfold dcheck. destruct (N.ltb_spec 32 (d_struct d)); [discriminate|]. destruct (N.ltb_spec 32 (d_array d)); [discriminate|].
  destruct (N.ltb_spec 64 (d_struct d + d_array d + d_variant d + d_maybe d)); [discriminate|]. intros [= <-]. auto.
Qed.
Lemma inc_variant_inv d d' : inc_variant d = Ok d' ->
  d_struct d' = d_struct d /\ d_array d' = d_array d /\ d_variant d' = d_variant d + 1 /\
  d_struct d + d_array d + d_variant d + 1 <= 64.
Proof. intros H. apply dcheck_inv in H as (-> & _ & _ & H). cbn in *. repeat split. lia. Qed.
Lemma inc_array_inv d d' : inc_array d = Ok d' ->
  d_struct d' = d_struct d /\ d_array d' = d_array d + 1 /\ d_variant d' = d_variant d /\ dec_array d' = d /\
  d_array d + 1 <= 32 /\ d_struct d + d_array d + d_variant d + 1 <= 64.
Proof.
  intros H. apply dcheck_inv in H as (-> & _ & H1 & H2). cbn in *. repeat split; try lia.
  destruct d; unfold dec_array; cbn. f_equal. lia.
Qed.
Lemma inc_struct_inv d d' : inc_struct d = Ok d' ->
  d_struct d' = d_struct d + 1 /\ d_array d' = d_array d /\ d_variant d' = d_variant d /\ dec_struct d' = d /\
  d_struct d + 1 <= 32 /\ d_struct d + d_array d + d_variant d + 1 <= 64.
Proof.
  intros H. apply dcheck_inv in H as (-> & H1 & _ & H2). cbn in *. repeat split; try lia.
  destruct d; unfold dec_struct; cbn. f_equal. lia.
Qed.

(* ---------- facts about the specification's marshalling ---------- *)
Lemma padn_aligned p al : al <> 0 -> padn (p + padn p al) al = 0.
Proof.
  intros Hal. destruct (padn_spec p al Hal) as [_ H]. unfold padn at 1. rewrite H, N.sub_0_r. now apply N.mod_same.
Qed.
Lemma pad_aligned p al : al <> 0 -> pad (p + padn p al) al = [].
Proof. intros H. unfold pad. now rewrite padn_aligned. Qed.
Lemma align_dbus_nz g : align_dbus g <> 0.
Proof. destruct g; cbn; lia. Qed.

(* a value starts with the padding to its own alignment; the rest does not depend on where the padding began *)
Lemma marshal_realign e fm v pos k :
  marshal e fm v pos k
  = pad pos (align_dbus (vsig v)) ++ marshal e fm v (pos + padn pos (align_dbus (vsig v))) k.
Proof.
  assert (P4 : pad (pos + padn pos 4) 4 = []) by (apply pad_aligned; lia).
  assert (P2 : pad (pos + padn pos 2) 2 = []) by (apply pad_aligned; lia).
  assert (P8 : pad (pos + padn pos 8) 8 = []) by (apply pad_aligned; lia).
  destruct v; cbn [vsig align_dbus];
    try (cbn [marshal]; rewrite ?P2, ?P4, ?P8; reflexivity);
    try (rewrite pad_1, padn_1, N.add_0_r; reflexivity).
  - rewrite !marshal_array. cbv zeta. rewrite P4, !len_pad. change (len []) with 0. rewrite N.add_0_r.
    cbn [app]. reflexivity.
  - rewrite !marshal_dict. cbv zeta. rewrite P4, !len_pad. change (len []) with 0. rewrite N.add_0_r.
    cbn [app]. reflexivity.
  - rewrite !marshal_struct. cbv zeta. rewrite P8, !len_pad. change (len []) with 0. rewrite N.add_0_r.
    cbn [app]. reflexivity.
Qed.
Lemma marshal_realign_len e fm v pos k :
  len (marshal e fm v pos k)
  = padn pos (align_dbus (vsig v)) + len (marshal e fm v (pos + padn pos (align_dbus (vsig v))) k).
Proof. rewrite (marshal_realign e fm v pos k) at 1. now rewrite len_app, len_pad. Qed.

Lemma len_enc_pos e n x : (0 < n)%nat -> 1 <= len (enc e n x).
Proof. intros H. rewrite len_enc. lia. Qed.
Lemma marshal_nonempty e fm : forall v pos k, wf v = true -> 1 <= len (marshal e fm v pos k).
Proof.
  induction v using dval_ind'; intros pos kk Hw.
  - destruct v; try contradiction; cbn [marshal]; rewrite ?len_app, ?len_cons, ?len_app, ?len_enc; lia.
  - cbn [marshal]. rewrite len_app, len_cons. lia.
  - rewrite marshal_array. cbv zeta. rewrite !len_app, len_enc. lia.
  - rewrite marshal_dict. cbv zeta. rewrite !len_app, len_enc. lia.
  - rewrite marshal_struct. cbv zeta. rewrite len_app. cbn [wf] in Hw. apply andb_true_iff in Hw as [Hne Hw].
    destruct l as [|x l]; [discriminate|]. cbn [forallb] in Hw. apply andb_true_iff in Hw as [Hx _].
    inversion H as [|? ? Px _]; subst. cbn [mseq]. rewrite len_app. specialize (Px (pos + len (pad pos 8)) kk Hx). lia.
Qed.
Lemma forallb_wf_sig el l : forallb (fun x => wf x && sig_eqb (vsig x) el) l = true -> forallb wf l = true.
Proof.
  intros H. apply forallb_forall. intros x Hx. rewrite forallb_forall in H. specialize (H x Hx).
  now apply andb_true_iff in H as [H _].
Qed.
Lemma forallb_wf_keys ks vs l :
  forallb (fun p => wf (fst p) && wf (snd p) && sig_eqb (vsig (fst p)) ks && sig_eqb (vsig (snd p)) vs) l = true ->
  forallb (fun q : dval * dval => wf (fst q)) l = true.
Proof.
  intros H. apply forallb_forall. intros x Hx. rewrite forallb_forall in H. specialize (H x Hx).
  apply andb_true_iff in H as [H _]. apply andb_true_iff in H as [H _]. now apply andb_true_iff in H as [H _].
Qed.
Lemma mseq_length e fm : forall l p k, forallb wf l = true -> N.of_nat (length l) <= len (mseq e fm l p k).
Proof.
  induction l as [|x l IH]; intros p k Hw; [cbn; lia|]. cbn [forallb] in Hw. apply andb_true_iff in Hw as [Hx Hl].
  cbn [mseq length]. rewrite len_app. specialize (IH (p + len (marshal e fm x p k)) (k + nfds x) Hl).
  pose proof (marshal_nonempty e fm x p k Hx). lia.
Qed.
Lemma mentries_length e fm : forall l p k, forallb (fun q => wf (fst q)) l = true ->
  N.of_nat (length l) <= len (mentries e fm l p k).
Proof.
  induction l as [|[a b] l IH]; intros p k Hw; [cbn; lia|]. cbn [forallb fst] in Hw. apply andb_true_iff in Hw as [Hx Hl].
  cbn [mentries length]. rewrite !len_app.
  match goal with |- context [mentries e fm l ?p' ?k'] => specialize (IH p' k' Hl) end.
  pose proof (marshal_nonempty e fm a (p + len (pad p 8)) k Hx). lia.
Qed.
