(* DBus/SerProofs.v — the serializer model against the specification's marshalling: started anywhere in a message, it
   appends exactly [marshal] when the value stays within the nesting limits and fails with a depth error when it does
   not ([ser_step]); C01 and the serializer half of C07 are read off that. *)
From ZV Require Import Base.Bytes Base.BytesFacts Base.Res Base.Sig Base.SigParse Base.SigParseFacts DBus.Val DBus.Spec DBus.Ser DBus.SerFacts.
From Coq Require Import Lia.
Local Open Scope N_scope.

Definition nfd (st : sstate) : N := match s_fds st with FdsMode l => N.of_nat (length l) | NumMode n => n end.
Definition add_fds (f : fdlist) (hs : list N) : fdlist :=
  match f with FdsMode l => FdsMode (l ++ hs) | NumMode n => NumMode (n + N.of_nat (length hs)) end.
Definition grow (st : sstate) (b : bytes) (hs : list N) : sstate :=
  set_fds (set_out st (s_out st ++ b)) (add_fds (s_fds st) hs).
Definition after (st : sstate) (v : dval) : sstate :=
  grow st (marshal (s_e st) ByOccurrence v (abs_pos st) (nfd st)) (fds_of v).

Lemma add_fds_nil f : add_fds f [] = f.
Proof. destruct f; cbn; [now rewrite app_nil_r|f_equal; lia]. Qed.
Lemma add_fds_app f a b : add_fds (add_fds f a) b = add_fds f (a ++ b).
Proof. destruct f; cbn; [now rewrite app_assoc|rewrite app_length; f_equal; lia]. Qed.

Lemma sstate_ext a b :
  s_cfg a = s_cfg b -> s_e a = s_e b -> s_pos0 a = s_pos0 b -> s_out a = s_out b -> s_sig a = s_sig b ->
  s_vsign a = s_vsign b -> s_dep a = s_dep b -> s_fds a = s_fds b -> a = b.
Proof. destruct a, b; cbn; intros; subst; reflexivity. Qed.

Lemma grow_nil st : grow st [] [] = st.
Proof. destruct st. unfold grow. cbn. rewrite app_nil_r, add_fds_nil. reflexivity. Qed.
Lemma grow_grow st b1 h1 b2 h2 : grow (grow st b1 h1) b2 h2 = grow st (b1 ++ b2) (h1 ++ h2).
Proof. destruct st. unfold grow. cbn. rewrite app_assoc, add_fds_app. reflexivity. Qed.
Lemma wr_grow st b : wr st b = grow st b [].
Proof. destruct st. unfold wr, grow. cbn. now rewrite add_fds_nil. Qed.
Lemma add_padding_grow st al :
  add_padding st al = (grow st (pad (abs_pos st) al) [], len (pad (abs_pos st) al)).
Proof. unfold add_padding, pad. now rewrite len_zeros, wr_grow. Qed.
Lemma padded_grow st al : padded st al = grow st (pad (abs_pos st) al) [].
Proof. unfold padded. now rewrite add_padding_grow. Qed.
Lemma wr_u32_grow st x : wr_u32 st x = grow st (enc (s_e st) 4 x) [].
Proof. unfold wr_u32. rewrite enc_mod32. apply wr_grow. Qed.
Lemma add_fd_grow st h : add_fd st h = (grow st [] [h], nfd st).
Proof.
  destruct st as [? ? ? ? ? ? ? f]. unfold add_fd, grow, nfd. cbn. destruct f; cbn; rewrite app_nil_r; reflexivity.
Qed.
Lemma basic_after st al n x : basic st al n x = Ok (grow st (pad (abs_pos st) al ++ enc (s_e st) n x) []).
Proof. unfold basic. rewrite padded_grow, wr_grow, grow_grow. reflexivity. Qed.

Lemma abs_pos_grow st b h : abs_pos (grow st b h) = abs_pos st + len b.
Proof. unfold abs_pos, written, grow. cbn. rewrite len_app. lia. Qed.
Lemma written_grow st b h : written (grow st b h) = written st + len b.
Proof. unfold written, grow. cbn. now rewrite len_app. Qed.
Lemma nfd_grow st b h : nfd (grow st b h) = nfd st + N.of_nat (length h).
Proof. unfold nfd, grow. cbn. destruct (s_fds st); cbn; [rewrite app_length; lia|reflexivity]. Qed.
Lemma nfd_grow_nil st b : nfd (grow st b []) = nfd st.
Proof. rewrite nfd_grow. apply N.add_0_r. Qed.
Lemma sig_grow st b h : s_sig (grow st b h) = s_sig st. Proof. reflexivity. Qed.
Lemma vsign_grow st b h : s_vsign (grow st b h) = s_vsign st. Proof. reflexivity. Qed.
Lemma dep_grow st b h : s_dep (grow st b h) = s_dep st. Proof. reflexivity. Qed.
Lemma e_grow st b h : s_e (grow st b h) = s_e st. Proof. reflexivity. Qed.
Lemma cfg_grow st b h : s_cfg (grow st b h) = s_cfg st. Proof. reflexivity. Qed.
Lemma out_grow st b h : s_out (grow st b h) = s_out st ++ b. Proof. reflexivity. Qed.
Lemma fds_grow st b h : s_fds (grow st b h) = add_fds (s_fds st) h. Proof. reflexivity. Qed.

Lemma set_sig_grow st b h g : set_sig (grow st b h) g = grow (set_sig st g) b h. Proof. reflexivity. Qed.
Lemma set_dep_grow st b h d : set_dep (grow st b h) d = grow (set_dep st d) b h. Proof. reflexivity. Qed.
Lemma set_vsign_grow st b h g : set_vsign (grow st b h) g = grow (set_vsign st g) b h. Proof. reflexivity. Qed.
Lemma set_sig_id st : set_sig st (s_sig st) = st. Proof. destruct st; reflexivity. Qed.
Lemma set_dep_id st : set_dep st (s_dep st) = st. Proof. destruct st; reflexivity. Qed.
Lemma set_vsign_id st : set_vsign st (s_vsign st) = st. Proof. destruct st; reflexivity. Qed.
Lemma set_sig_twice st g g' : set_sig (set_sig st g) g' = set_sig st g'. Proof. reflexivity. Qed.
Lemma set_dep_twice st d d' : set_dep (set_dep st d) d' = set_dep st d'. Proof. reflexivity. Qed.

Lemma abs_pos_set_sig st g : abs_pos (set_sig st g) = abs_pos st. Proof. reflexivity. Qed.
Lemma abs_pos_set_dep st d : abs_pos (set_dep st d) = abs_pos st. Proof. reflexivity. Qed.
Lemma abs_pos_set_vsign st g : abs_pos (set_vsign st g) = abs_pos st. Proof. reflexivity. Qed.
Lemma nfd_set_sig st g : nfd (set_sig st g) = nfd st. Proof. reflexivity. Qed.
Lemma nfd_set_dep st d : nfd (set_dep st d) = nfd st. Proof. reflexivity. Qed.
Lemma nfd_set_vsign st g : nfd (set_vsign st g) = nfd st. Proof. reflexivity. Qed.

(* where a value would be marshalled from a state reached by growing and setting
   (autorewrite tries the rules last to first: [nfd_grow_nil] before [nfd_grow]) *)
#[export] Hint Rewrite abs_pos_grow nfd_grow nfd_grow_nil e_grow dep_grow abs_pos_set_sig abs_pos_set_dep abs_pos_set_vsign
  nfd_set_sig nfd_set_dep nfd_set_vsign : sst.

Lemma nfds_len v : nfds v = N.of_nat (length (fds_of v)). Proof. reflexivity. Qed.

(* a field runs in a sub-serializer; its bytes, descriptors and variant signature come back *)
Lemma back_grow st g w b h : back_from st (grow (set_vsign (set_sig st g) w) b h) = set_vsign (grow st b h) w.
Proof. reflexivity. Qed.
Lemma back_after st g x : s_vsign st = None ->
  back_from st (after (sub_of st g) x) = grow st (marshal (s_e st) ByOccurrence x (abs_pos st) (nfd st)) (fds_of x).
Proof. intros Hv. unfold after, sub_of. rewrite back_grow, set_vsign_grow, <- Hv, set_vsign_id. reflexivity. Qed.

(* ---------- depth bookkeeping ---------- *)
Definition dep_ok (d : depths) : Prop := d_struct d <= 32 /\ d_array d <= 32 /\ d_maybe d = 0.
Definition fits (d : depths) (v : dval) : Prop :=
  dep_ok d /\ depth_ok (d_struct d) (d_array d) (d_variant d) v = true.

Lemma inc_array_ok d : dep_ok d -> d_array d + 1 <= 32 -> d_struct d + d_array d + d_variant d + 1 <= 64 ->
  exists d', inc_array d = Ok d' /\ dec_array d' = d /\ dep_ok d' /\
             d_struct d' = d_struct d /\ d_array d' = d_array d + 1 /\ d_variant d' = d_variant d.
Proof.
  intros (H1 & H2 & H3) Ha Ht. eexists. split; [apply dcheck_ok_iff; cbn; lia|].
  unfold dec_array, dep_ok. destruct d; cbn in *. repeat split; try lia. f_equal. lia.
Qed.
Lemma inc_struct_ok d : dep_ok d -> d_struct d + 1 <= 32 -> d_struct d + d_array d + d_variant d + 1 <= 64 ->
  exists d', inc_struct d = Ok d' /\ dep_ok d' /\
             d_struct d' = d_struct d + 1 /\ d_array d' = d_array d /\ d_variant d' = d_variant d.
Proof.
  intros (H1 & H2 & H3) Ha Ht. eexists. split; [apply dcheck_ok_iff; cbn; lia|].
  unfold dep_ok. cbn. repeat split; lia.
Qed.
Lemma inc_variant_ok d : dep_ok d -> d_struct d + d_array d + d_variant d + 1 <= 64 ->
  exists d', inc_variant d = Ok d' /\ dep_ok d' /\
             d_struct d' = d_struct d /\ d_array d' = d_array d /\ d_variant d' = d_variant d + 1.
Proof.
  intros (H1 & H2 & H3) Ht. eexists. split; [apply dcheck_ok_iff; cbn; lia|].
  unfold dep_ok. cbn. repeat split; lia.
Qed.

Lemma inc_array_bad d : dep_ok d ->
  (d_array d + 1 <=? 32) && (d_struct d + d_array d + d_variant d + 1 <=? 64) = false ->
  exists k, inc_array d = Err (EDepth k).
Proof.
  intros (H1 & H2 & H3) H. destruct (dcheck_err _ _ (eq_refl (inc_array d))) as [E|E]; [|exact E].
  apply dcheck_ok_iff in E. cbn in E. apply andb_false_iff in H as [H|H]; apply N.leb_gt in H; lia.
Qed.
Lemma inc_struct_bad d : dep_ok d ->
  (d_struct d + 1 <=? 32) && (d_struct d + d_array d + d_variant d + 1 <=? 64) = false ->
  exists k, inc_struct d = Err (EDepth k).
Proof.
  intros (H1 & H2 & H3) H. destruct (dcheck_err _ _ (eq_refl (inc_struct d))) as [E|E]; [|exact E].
  apply dcheck_ok_iff in E. cbn in E. apply andb_false_iff in H as [H|H]; apply N.leb_gt in H; lia.
Qed.
Lemma inc_variant_bad d : dep_ok d ->
  (d_struct d + d_array d + d_variant d + 1 <=? 64) = false ->
  exists k, inc_variant d = Err (EDepth k).
Proof.
  intros (H1 & H2 & H3) H. destruct (dcheck_err _ _ (eq_refl (inc_variant d))) as [E|E]; [|exact E].
  apply dcheck_ok_iff in E. cbn in E. apply N.leb_gt in H. lia.
Qed.

(* ---------- the statement proved by induction on the value ---------- *)
Definition outcome {A} (ok : bool) (r : res cerr A) (a : A) : Prop :=
  if ok then r = Ok a else exists k, r = Err (EDepth k).

Lemma depth_err_bind {A B} (r : res cerr A) (f : A -> res cerr B) :
  (exists k, r = Err (EDepth k)) -> exists k, (let* x := r in f x) = Err (EDepth k).
Proof. intros [k ->]. now exists k. Qed.
Lemma outcome_bind {A B} a b (r : res cerr A) (f : A -> res cerr B) x y :
  outcome a r x -> outcome b (f x) y -> outcome (a && b) (let* x := r in f x) y.
Proof. destruct a; cbn; [intros ->; trivial|intros H _; now apply depth_err_bind]. Qed.
Lemma depth_err_seq {A B} a b (r : res cerr A) (f : A -> res cerr B) x :
  outcome a r x -> a && b = false -> (b = false -> exists k, f x = Err (EDepth k)) ->
  exists k, (let* y := r in f y) = Err (EDepth k).
Proof. destruct a; cbn; [intros -> Hb H; exact (H Hb)|intros H _ _; now apply depth_err_bind]. Qed.

Definition step (v : dval) : Prop :=
  forall st, wf v = true -> s_sig st = vsig v -> s_vsign st = None -> dep_ok (s_dep st) ->
             len (marshal (s_e st) ByOccurrence v (abs_pos st) (nfd st)) < 2 ^ 32 ->
             outcome (depth_ok (d_struct (s_dep st)) (d_array (s_dep st)) (d_variant (s_dep st)) v)
                     (ser (sval_of v) st) (after st v).

(* ---------- strings ---------- *)
Lemma ser_str_4 st s : (s_sig st = SStr \/ s_sig st = SObjPath) -> len s < 2 ^ 32 ->
  ser_str st s = Ok (grow st (pad (abs_pos st) 4 ++ enc (s_e st) 4 (len s) ++ s ++ [x00]) []).
Proof.
  intros Hs Hl. unfold ser_str.
  assert (Ha : align_of (s_sig st) = Ok 4) by (destruct Hs as [-> | ->]; reflexivity).
  rewrite Ha. cbn [bind]. rewrite padded_grow. rewrite !sig_grow.
  destruct (N.ltb_spec (len s) (2 ^ 32)) as [_|]; [|lia].
  destruct Hs as [Hs | Hs]; rewrite Hs; cbn [bind]; rewrite wr_u32_grow, !wr_grow, !grow_grow, e_grow; cbn [app];
    rewrite <- ?app_assoc; reflexivity.
Qed.
(* under SIGNATURE and VARIANT the length is one byte; under VARIANT the parsed signature is put aside for the value *)
Lemma ser_str_1 st s : s_sig st = SSig \/ s_sig st = SVariant -> len s <= 255 ->
  ser_str st s =
  let* w := match s_sig st with
            | SVariant => match parse_sig (c_gv (s_cfg st)) s with Some p => Ok (Some p) | None => Err ESigParse end
            | _ => Ok (s_vsign st)
            end in
  Ok (grow (set_vsign st w) (nb (len s) :: s ++ [x00]) []).
Proof.
  intros Hs Hl. unfold ser_str.
  assert (Ha : align_of (s_sig st) = Ok 1) by (destruct Hs as [-> | ->]; reflexivity).
  rewrite Ha. cbn [bind]. rewrite padded_grow, pad_1, grow_nil.
  destruct (N.leb_spec (len s) 255) as [_|]; [|lia].
  destruct Hs as [Hs | Hs]; rewrite Hs; [|destruct (parse_sig _ s)]; cbn [bind]; rewrite ?set_vsign_id, ?wr_grow, ?grow_grow;
    reflexivity.
Qed.
(* the encoder always writes a signature value with its outer parentheses *)
Fixpoint enc_form (v : dval) : bool :=
  match v with
  | VSigv _ np => negb np
  | VVariant x => enc_form x
  | VArray _ l | VStruct l => forallb enc_form l
  | VDict _ _ l => forallb (fun p => enc_form (fst p) && enc_form (snd p)) l
  | _ => true
  end.

(* ---------- values without containers ---------- *)
Lemma step_leaf v :
  (match v with VVariant _ | VArray _ _ | VDict _ _ _ | VStruct _ => False | _ => True end) -> enc_form v = true -> step v.
Proof.
  intros Hleaf He st Hw Hs _ _ _.
  destruct v; try contradiction; cbn [vsig] in Hs; unfold outcome, after; cbn [depth_ok sval_of ser marshal fds_of];
    rewrite ?Hs; try (rewrite basic_after; reflexivity).
  - rewrite basic_after, pad_1. cbn [app]. do 3 f_equal. destruct (s_e st); cbn; unfold nb; now rewrite N.mod_mod by lia.
  - cbn [wf] in Hw. unfold str_ok in Hw. apply andb_true_iff in Hw as [_ Hl]. apply N.ltb_lt in Hl.
    rewrite ser_str_4 by auto. reflexivity.
  - cbn [enc_form] in He. destruct np; [discriminate|]. cbn [wf] in Hw. apply andb_true_iff in Hw as [Hw _].
    unfold sigval_ok in Hw. apply andb_true_iff in Hw as [_ Hl]. apply N.leb_le in Hl.
    rewrite ser_str_1, Hs by auto. cbn [bind]. now rewrite set_vsign_id.
  - cbn [wf] in Hw. apply andb_true_iff in Hw as [_ Hl]. apply N.ltb_lt in Hl. rewrite ser_str_4 by auto. reflexivity.
  - rewrite padded_grow, add_fd_grow, wr_u32_grow, !grow_grow, nfd_grow, e_grow. cbn [length app].
    now rewrite N.add_0_r, N2Z.id.
Qed.

(* ---------- arrays: begin, elements, back-patched end ---------- *)

(* serialize_seq up to the depth check *)
Lemma seq_begin_eq st child al :
  ((s_sig st = SArray child /\ align_of child = Ok al) \/ (exists v, s_sig st = SDict child v /\ al = 8)) ->
  seq_begin st =
  (let* d := inc_array (s_dep st) in
   Ok (set_dep (set_sig (grow st (pad (abs_pos st) 4 ++ enc (s_e st) 4 0
                                  ++ pad (abs_pos st + len (pad (abs_pos st) 4) + 4) al) []) child) d,
       written st + len (pad (abs_pos st) 4) + 4 + len (pad (abs_pos st + len (pad (abs_pos st) 4) + 4) al),
       len (pad (abs_pos st + len (pad (abs_pos st) 4) + 4) al), s_sig st)).
Proof.
  intros Hsig. unfold seq_begin.
  rewrite padded_grow, wr_u32_grow, grow_grow, sig_grow, e_grow.
  replace (match s_sig st with
           | SArray c => let* a := align_of c in Ok (a, c)
           | SDict k _ => Ok (8, k)
           | _ => Err ESigMismatch
           end) with (Ok (E:=cerr) (al, child))
    by (destruct Hsig as [[-> ->]|(v & -> & ->)]; reflexivity).
  cbn [bind]. rewrite add_padding_grow, <- set_sig_grow, grow_grow.
  rewrite abs_pos_set_sig, abs_pos_grow, len_app, len_enc, N.add_assoc, <- app_assoc.
  change (s_dep (set_sig (grow ?s ?b ?h) child)) with (s_dep s).
  change (written (set_sig ?s child)) with (written s).
  rewrite written_grow, !len_app, len_enc, !N.add_assoc. reflexivity.
Qed.

(* SeqSerializer::end_seq on header ++ body: the length is patched into the header *)
Lemma seq_end_grow st g d p0 x p1 body hs asig : len body < 2 ^ 32 ->
  seq_end (set_dep (set_sig (grow st (p0 ++ enc (s_e st) 4 x ++ p1 ++ body) hs) g) d)
          (written st + len p0 + 4 + len p1) (len p1) asig
  = Ok (set_dep (set_sig (grow st (p0 ++ enc (s_e st) 4 (len body) ++ p1 ++ body) hs) asig) (dec_array d)).
Proof.
  intros Hlen. unfold seq_end.
  change (written (set_dep (set_sig ?s g) d)) with (written s).
  rewrite written_grow, !len_app, len_enc.
  replace (written st + (len p0 + (N.of_nat 4 + (len p1 + len body))) - (written st + len p0 + 4 + len p1))
    with (len body) by lia.
  destruct (N.ltb_spec (len body) (2 ^ 32)) as [_|]; [|lia]. cbn [negb].
  replace (written st + (len p0 + (N.of_nat 4 + (len p1 + len body))) - (len body + len p1 + 4))
    with (len (s_out st ++ p0)) by (rewrite len_app; unfold written; lia).
  f_equal. apply sstate_ext; try reflexivity.
  cbn [s_out s_e set_out set_dep set_sig grow set_fds].
  rewrite app_assoc, patch_mid by (now rewrite !length_enc). now rewrite <- app_assoc.
Qed.

(* begin + whatever writes the elements + end = pad4 ++ length ++ pad ++ body *)
Lemma seq_wrap st child al d' (f : sstate -> res cerr sstate) body hs :
  ((s_sig st = SArray child /\ align_of child = Ok al) \/ (exists v, s_sig st = SDict child v /\ al = 8)) ->
  inc_array (s_dep st) = Ok d' -> dec_array d' = s_dep st ->
  let p0 := pad (abs_pos st) 4 in
  let p1 := pad (abs_pos st + len p0 + 4) al in
  let st' := set_dep (set_sig (grow st (p0 ++ enc (s_e st) 4 0 ++ p1) []) child) d' in
  f st' = Ok (grow st' body hs) -> len body < 2 ^ 32 ->
  (let* (st1, start, fp, asig) := seq_begin st in let* st2 := f st1 in seq_end st2 start fp asig)
  = Ok (grow st (p0 ++ enc (s_e st) 4 (len body) ++ p1 ++ body) hs).
Proof.
  intros Hsig Hinc Hdec p0 p1 st' Hf Hlen.
  rewrite (seq_begin_eq st child al Hsig), Hinc. cbn [bind]. fold p0 p1 st'. rewrite Hf. cbn [bind].
  subst st'. rewrite <- set_dep_grow, <- set_sig_grow, grow_grow, <- !app_assoc. cbn [app].
  rewrite seq_end_grow, Hdec by assumption.
  now rewrite set_sig_grow, set_sig_id, set_dep_grow, set_dep_id.
Qed.

(* a whole array or dict, the element loop [f] a variable: one level deeper, [f] writes [body] or meets the depth error
   that [inner] = false stands for; the sequence itself fails exactly when its own level is beyond a limit *)
Lemma seq_wrap_outcome inner st child al (f : sstate -> res cerr sstate) body hs :
  ((s_sig st = SArray child /\ align_of child = Ok al) \/ (exists v, s_sig st = SDict child v /\ al = 8)) ->
  dep_ok (s_dep st) ->
  let p0 := pad (abs_pos st) 4 in
  let p1 := pad (abs_pos st + len p0 + 4) al in
  (forall d', dep_ok d' -> d_struct d' = d_struct (s_dep st) -> d_array d' = d_array (s_dep st) + 1 ->
     d_variant d' = d_variant (s_dep st) ->
     let st' := set_dep (set_sig (grow st (p0 ++ enc (s_e st) 4 0 ++ p1) []) child) d' in
     outcome inner (f st') (grow st' body hs)) ->
  len body < 2 ^ 32 ->
  outcome ((d_array (s_dep st) + 1 <=? 32) && (d_struct (s_dep st) + d_array (s_dep st) + d_variant (s_dep st) + 1 <=? 64) && inner)
          (let* (st1, start, fp, asig) := seq_begin st in let* st2 := f st1 in seq_end st2 start fp asig)
          (grow st (p0 ++ enc (s_e st) 4 (len body) ++ p1 ++ body) hs).
Proof.
  intros Hsig Hd p0 p1 Hf Hlen.
  destruct ((d_array (s_dep st) + 1 <=? 32) && (d_struct (s_dep st) + d_array (s_dep st) + d_variant (s_dep st) + 1 <=? 64)) eqn:Hlim.
  2:{ rewrite (seq_begin_eq st child _ Hsig). apply depth_err_bind, depth_err_bind, inc_array_bad; assumption. }
  apply andb_true_iff in Hlim as [Ha Ht]. apply N.leb_le in Ha, Ht.
  destruct (inc_array_ok (s_dep st) Hd Ha Ht) as (d' & Hinc & Hdec & Hd' & E1 & E2 & E3).
  specialize (Hf d' Hd' E1 E2 E3). cbn [andb]. destruct inner; [exact (seq_wrap st child al d' f body hs Hsig Hinc Hdec Hf Hlen)|].
  rewrite (seq_begin_eq st child al Hsig), Hinc. cbn [bind]. now apply depth_err_bind.
Qed.

Lemma elems_step l : Forall step l -> forall st el,
  forallb (fun x => wf x && sig_eqb (vsig x) el) l = true ->
  s_sig st = el -> s_vsign st = None -> dep_ok (s_dep st) ->
  len (mseq (s_e st) ByOccurrence l (abs_pos st) (nfd st)) < 2 ^ 32 ->
  outcome (forallb (depth_ok (d_struct (s_dep st)) (d_array (s_dep st)) (d_variant (s_dep st))) l)
          (ser_elems (map sval_of l) st)
          (grow st (mseq (s_e st) ByOccurrence l (abs_pos st) (nfd st)) (concat (map fds_of l))).
Proof.
  induction 1 as [|x l Hx Hl IH]; intros st el Hw Hs Hv Hd Hlen.
  - cbn. now rewrite grow_nil.
  - cbn [forallb] in Hw. apply andb_true_iff in Hw as [Hwx Hw]. apply andb_true_iff in Hwx as [Hwx Hsx].
    apply sig_eqb_eq in Hsx. cbn [map concat mseq forallb ser_elems] in *. rewrite len_app in Hlen.
    apply outcome_bind with (x := after st x); [apply Hx; solve [assumption|congruence|lia]|].
    specialize (IH (after st x) el Hw Hs Hv Hd). unfold after in IH. autorewrite with sst in IH. rewrite grow_grow in IH.
    apply IH. unfold nfds in Hlen. lia.
Qed.

Lemma single_align c : single_ok c = true -> align_of c = Ok (align_dbus c).
Proof. destruct c; cbn; congruence. Qed.

Lemma step_array el l : Forall step l -> step (VArray el l).
Proof.
  intros HF st Hw Hs Hv Hd Hlen. cbn [sval_of depth_ok]. rewrite ser_seq.
  cbn [wf] in Hw. apply andb_true_iff in Hw as [Hel Hw]. cbn [vsig] in Hs.
  unfold after. rewrite marshal_array in *. cbv zeta in *. rewrite !len_app in Hlen. cbn [fds_of].
  apply (seq_wrap_outcome _ st el (align_dbus el) (ser_elems (map sval_of l))); [auto using single_align|exact Hd| |lia].
  intros d' Hd' E1 E2 E3 st'. pose proof (elems_step l HF st' el Hw eq_refl Hv Hd') as He. subst st'.
  autorewrite with sst in He. cbn [s_dep set_dep s_e set_sig grow set_fds set_out] in He.
  rewrite E1, E2, E3, !len_app, len_enc, !N.add_assoc in He. apply He. change (N.of_nat 4) with 4. lia.
Qed.

(* ---------- structs ---------- *)
Lemma struct_begin_struct st fs : s_sig st = SStruct fs ->
  struct_begin st = let* d := inc_struct (s_dep st) in Ok (set_dep (grow st (pad (abs_pos st) 8) []) d, KStruct (s_dep st)).
Proof. intros Hs. unfold struct_begin. rewrite Hs. cbn [align_of align_dbus bind]. now rewrite padded_grow, sig_grow, Hs. Qed.

Lemma fields_step l : Forall step l -> forall st pre,
  s_sig st = SStruct (pre ++ map vsig l) -> s_vsign st = None -> forallb wf l = true -> dep_ok (s_dep st) ->
  len (mseq (s_e st) ByOccurrence l (abs_pos st) (nfd st)) < 2 ^ 32 ->
  outcome (forallb (depth_ok (d_struct (s_dep st)) (d_array (s_dep st)) (d_variant (s_dep st))) l)
          (ser_fields (map sval_of l) (length pre) st)
          (grow st (mseq (s_e st) ByOccurrence l (abs_pos st) (nfd st)) (concat (map fds_of l))).
Proof.
  induction 1 as [|x l Hx Hl IH]; intros st pre Hs Hv Hw Hd Hlen.
  - cbn. now rewrite grow_nil.
  - cbn [forallb] in Hw. apply andb_true_iff in Hw as [Hwx Hw].
    cbn [map concat mseq forallb ser_fields] in *. rewrite len_app in Hlen.
    unfold field_sig. rewrite Hs, nth_error_app2, Nat.sub_diag by lia. cbn [nth_error bind].
    apply outcome_bind with (x := after (sub_of st (vsig x)) x).
    { apply (Hx (sub_of st (vsig x)) Hwx eq_refl eq_refl Hd).
      change (len (marshal (s_e st) ByOccurrence x (abs_pos st) (nfd st)) < 2 ^ 32). lia. }
    rewrite back_after by assumption.
    specialize (IH (grow st (marshal (s_e st) ByOccurrence x (abs_pos st) (nfd st)) (fds_of x)) (pre ++ [vsig x])).
    rewrite app_length, Nat.add_1_r, <- app_assoc in IH. specialize (IH Hs Hv Hw Hd).
    autorewrite with sst in IH. rewrite grow_grow in IH. apply IH. unfold nfds in Hlen. lia.
Qed.

Lemma step_struct l : Forall step l -> step (VStruct l).
Proof.
  intros HF st Hw Hs Hv Hd Hlen. cbn [sval_of depth_ok]. rewrite ser_tuple.
  cbn [wf] in Hw. apply andb_true_iff in Hw as [_ Hw]. cbn [vsig] in Hs.
  rewrite (struct_begin_struct st _ Hs).
  destruct ((d_struct (s_dep st) + 1 <=? 32) && (d_struct (s_dep st) + d_array (s_dep st) + d_variant (s_dep st) + 1 <=? 64)) eqn:Hlim.
  2:{ apply depth_err_bind, depth_err_bind, inc_struct_bad; assumption. }
  apply andb_true_iff in Hlim as [Ha Ht]. apply N.leb_le in Ha, Ht.
  destruct (inc_struct_ok (s_dep st) Hd Ha Ht) as (d' & Hinc & Hd' & E1 & E2 & E3).
  rewrite Hinc. cbn [bind andb]. unfold after. rewrite marshal_struct in *. cbv zeta in *. rewrite len_app in Hlen.
  pose proof (fields_step l HF (set_dep (grow st (pad (abs_pos st) 8) []) d') [] Hs Hv Hw Hd') as G.
  autorewrite with sst in G. cbn [s_dep set_dep s_e grow set_fds set_out length] in G.
  rewrite E1, E2, E3 in G. specialize (G ltac:(lia)).
  destruct (forallb (depth_ok _ _ _) l); [|now apply depth_err_bind]. cbn [outcome] in *. rewrite G. cbn [bind].
  now rewrite <- set_dep_grow, set_dep_twice, grow_grow, set_dep_grow, set_dep_id.
Qed.

(* ---------- variants ---------- *)
Lemma struct_begin_variant st : s_sig st = SVariant ->
  struct_begin st = let* d := inc_variant (s_dep st) in Ok (set_dep st d, KStruct (s_dep st)).
Proof.
  intros Hs. unfold struct_begin. rewrite Hs. cbn [align_of align_dbus bind]. now rewrite padded_grow, pad_1, grow_nil, Hs.
Qed.

Lemma step_variant x : step x -> step (VVariant x).
Proof.
  intros Hx st Hw Hs Hv Hd Hlen. cbn [sval_of depth_ok]. rewrite ser_struct_named.
  cbn [wf] in Hw. apply andb_true_iff in Hw as [Hw Hl255]. apply andb_true_iff in Hw as [Hw Hso].
  apply N.leb_le in Hl255. cbn [vsig] in Hs. rewrite (struct_begin_variant st Hs).
  destruct (d_struct (s_dep st) + d_array (s_dep st) + d_variant (s_dep st) + 1 <=? 64) eqn:Ht.
  2:{ apply depth_err_bind, depth_err_bind, inc_variant_bad; assumption. }
  apply N.leb_le in Ht. destruct (inc_variant_ok (s_dep st) Hd Ht) as (d' & Hinc & Hd' & E1 & E2 & E3).
  rewrite Hinc. cbn [bind andb ser_nfields].
  (* first field: the signature string, under signature Variant *)
  unfold field_sig at 1. cbn [s_sig s_vsign set_dep]. rewrite Hs, Hv. cbn [bind ser].
  rewrite ser_str_1 by (auto || exact Hl255). cbn [s_sig s_cfg sub_of set_vsign set_sig set_dep].
  rewrite (parse_show _ _ (single_printable _ Hso)). cbn [bind].
  change (set_vsign (sub_of (set_dep st d') SVariant) (Some (vsig x)))
    with (set_vsign (set_sig (set_dep st d') SVariant) (Some (vsig x))).
  rewrite back_grow.
  (* second field: the value, under the signature put aside *)
  unfold field_sig. cbn [s_sig s_vsign set_vsign grow set_fds set_out set_dep]. rewrite Hs. cbn [bind].
  unfold after in *. cbn [marshal fds_of] in *. rewrite len_app in Hlen.
  set (hdr := nb (len (show (vsig x))) :: show (vsig x) ++ [x00]) in *.
  unfold sub_of. set (st2 := set_vsign _ None). pose proof (Hx st2 Hw eq_refl eq_refl Hd') as G. subst st2.
  unfold after in G. autorewrite with sst in G. cbn [s_dep set_dep s_e set_sig set_vsign grow set_fds set_out] in G.
  rewrite E1, E2, E3 in G. specialize (G ltac:(lia)).
  destruct (depth_ok _ _ _ x); [|apply depth_err_bind, depth_err_bind, G]. cbn [outcome] in *. rewrite G. cbn [bind].
  rewrite back_grow. f_equal. apply sstate_ext; try reflexivity; cbn [s_out s_vsign s_fds set_dep set_vsign grow set_fds set_out].
  - now rewrite <- app_assoc.
  - now rewrite Hv.
  - now rewrite add_fds_nil.
Qed.

(* ---------- dicts ---------- *)
Lemma entries_step l : Forall (fun p => step (fst p) /\ step (snd p)) l -> forall st ks vs,
  forallb (fun p => wf (fst p) && wf (snd p) && sig_eqb (vsig (fst p)) ks && sig_eqb (vsig (snd p)) vs) l = true ->
  s_sig st = ks -> s_vsign st = None -> dep_ok (s_dep st) ->
  len (mentries (s_e st) ByOccurrence l (abs_pos st) (nfd st)) < 2 ^ 32 ->
  outcome (forallb (fun p => depth_ok (d_struct (s_dep st)) (d_array (s_dep st)) (d_variant (s_dep st)) (fst p)
                             && depth_ok (d_struct (s_dep st)) (d_array (s_dep st)) (d_variant (s_dep st)) (snd p)) l)
          (ser_entries (map (fun p => (sval_of (fst p), sval_of (snd p))) l) ks vs st)
          (grow st (mentries (s_e st) ByOccurrence l (abs_pos st) (nfd st))
                (concat (map (fun p => fds_of (fst p) ++ fds_of (snd p)) l))).
Proof.
  induction 1 as [|[k x] l [Hk Hx] Hl IH]; intros st ks vs Hw Hs Hv Hd Hlen.
  - cbn. now rewrite grow_nil.
  - cbn [forallb fst snd] in Hw. apply andb_true_iff in Hw as [Hw1 Hw].
    apply andb_true_iff in Hw1 as [Hw1 Hsx]. apply andb_true_iff in Hw1 as [Hw1 Hsk]. apply andb_true_iff in Hw1 as [Hwk Hwx].
    apply sig_eqb_eq in Hsk, Hsx.
    cbn [map concat mentries fst snd forallb ser_entries] in *. rewrite !len_app in Hlen. unfold nfds in Hlen.
    rewrite padded_grow, <- andb_assoc.
    set (b0 := pad (abs_pos st) 8) in *.
    specialize (Hk (grow st b0 []) Hwk ltac:(cbn; congruence) Hv Hd). autorewrite with sst in Hk.
    apply (outcome_bind _ _ _ _ _ _ (Hk ltac:(lia))). unfold after. rewrite grow_grow. autorewrite with sst. cbn [app].
    set (b1 := marshal (s_e st) ByOccurrence k (abs_pos st + len b0) (nfd st)) in *.
    specialize (Hx (set_sig (grow st (b0 ++ b1) (fds_of k)) vs) Hwx ltac:(cbn; congruence) Hv Hd).
    autorewrite with sst in Hx. cbn [s_dep s_e set_sig grow set_fds set_out] in Hx. rewrite len_app, N.add_assoc in Hx.
    apply (outcome_bind _ _ _ _ _ _ (Hx ltac:(lia))). unfold after. autorewrite with sst.
    cbn [s_e set_sig grow set_fds set_out]. rewrite len_app, N.add_assoc.
    set (b2 := marshal (s_e st) ByOccurrence x (abs_pos st + len b0 + len b1) (nfd st + N.of_nat (length (fds_of k)))) in *.
    rewrite set_sig_grow, set_sig_twice, set_sig_grow, <- Hs, set_sig_id, grow_grow, Hs.
    specialize (IH (grow st ((b0 ++ b1) ++ b2) (fds_of k ++ fds_of x)) ks vs Hw Hs Hv Hd).
    autorewrite with sst in IH.
    rewrite grow_grow, !len_app, app_length, Nat2N.inj_add, !N.add_assoc, <- !app_assoc in IH. rewrite <- !app_assoc.
    apply IH. lia.
Qed.

Lemma step_dict ks vs l : Forall (fun p => step (fst p) /\ step (snd p)) l -> step (VDict ks vs l).
Proof.
  intros HF st Hw Hs Hv Hd Hlen. cbn [sval_of depth_ok]. cbn [vsig] in Hs. rewrite (ser_map _ st ks vs Hs).
  cbn [wf] in Hw. apply andb_true_iff in Hw as [_ Hw].
  unfold after. rewrite marshal_dict in *. cbv zeta in *. rewrite !len_app in Hlen. cbn [fds_of].
  apply (seq_wrap_outcome _ st ks 8 (ser_entries _ ks vs)); [eauto|exact Hd| |lia].
  intros d' Hd' E1 E2 E3 st'. pose proof (entries_step l HF st' ks vs Hw eq_refl Hv Hd') as He. subst st'.
  autorewrite with sst in He. cbn [s_dep set_dep s_e set_sig grow set_fds set_out] in He.
  rewrite E1, E2, E3, !len_app, len_enc, !N.add_assoc in He. apply He. change (N.of_nat 4) with 4. lia.
Qed.

(* ---------- induction over values ---------- *)
Section DvalInd.
  Variable P : dval -> Prop.
  Hypothesis Hleaf : forall v, (match v with VVariant _ | VArray _ _ | VDict _ _ _ | VStruct _ => False | _ => True end) -> P v.
  Hypothesis Hvar : forall x, P x -> P (VVariant x).
  Hypothesis Harr : forall e l, Forall P l -> P (VArray e l).
  Hypothesis Hdict : forall k v l, Forall (fun p => P (fst p) /\ P (snd p)) l -> P (VDict k v l).
  Hypothesis Hstruct : forall l, Forall P l -> P (VStruct l).
  Fixpoint dval_ind' (v : dval) : P v :=
    match v with
    | VVariant x => Hvar x (dval_ind' x)
    | VArray e l => Harr e l ((fix go (l : list dval) : Forall P l :=
                                 match l with [] => Forall_nil P | x :: r => Forall_cons x (dval_ind' x) (go r) end) l)
    | VDict k vs l => Hdict k vs l ((fix go (l : list (dval * dval)) : Forall (fun p => P (fst p) /\ P (snd p)) l :=
                                 match l with
                                 | [] => Forall_nil _
                                 | (a, b) :: r => Forall_cons (a, b) (conj (dval_ind' a) (dval_ind' b)) (go r)
                                 end) l)
    | VStruct l => Hstruct l ((fix go (l : list dval) : Forall P l :=
                                 match l with [] => Forall_nil P | x :: r => Forall_cons x (dval_ind' x) (go r) end) l)
    | v' => Hleaf v' I
    end.
End DvalInd.

Theorem ser_step : forall v, enc_form v = true -> step v.
Proof.
  induction v using dval_ind'; intros He.
  - now apply step_leaf.
  - apply step_variant. auto.
  - apply step_array. cbn [enc_form] in He. rewrite forallb_forall in He. rewrite Forall_forall in *. auto.
  - apply step_dict. cbn [enc_form] in He. rewrite forallb_forall in He. rewrite Forall_forall in *.
    intros p Hin. specialize (He p Hin). apply andb_true_iff in He as [H1 H2]. destruct (H p Hin). auto.
  - apply step_struct. cbn [enc_form] in He. rewrite forallb_forall in He. rewrite Forall_forall in *. auto.
Qed.

(* within the limits: exactly the specification's bytes (C01) *)
Definition good (v : dval) : Prop :=
  forall st, wf v = true -> s_sig st = vsig v -> s_vsign st = None -> fits (s_dep st) v ->
             nfd st + nfds v < 2 ^ 32 ->
             len (marshal (s_e st) ByOccurrence v (abs_pos st) (nfd st)) < 2 ^ 32 ->
             ser (sval_of v) st = Ok (after st v).

Theorem ser_good : forall v, enc_form v = true -> good v.
Proof. intros v He st Hw Hs Hv [Hd Hdep] _ Hl. pose proof (ser_step v He st Hw Hs Hv Hd Hl) as H. now rewrite Hdep in H. Qed.

(* ---------- top level: to_bytes_for_signature and serialized_size ---------- *)
Definition encodable (e : endian) (pos : N) (v : dval) : Prop :=
  wf v = true /\ enc_form v = true /\ within_limits v = true /\
  len (marshal_top e pos v) < 2 ^ 32 /\ nfds v < 2 ^ 32.

Lemma abs_pos_init c e pos g f : abs_pos (init_state c e pos g f) = pos.
Proof. unfold abs_pos, written, init_state. cbn [s_pos0 s_out]. rewrite len_nil. apply N.add_0_r. Qed.
Lemma dep_ok0 : dep_ok depths0.
Proof. unfold dep_ok. cbn. lia. Qed.

(* from the initial state, for the writing pass ([FdsMode []]) and the sizing pass ([NumMode 0]) alike *)
Lemma ser_init c e pos v f : nfd (init_state c e pos (vsig v) f) = 0 ->
  wf v = true -> enc_form v = true -> len (marshal_top e pos v) < 2 ^ 32 ->
  outcome (within_limits v) (ser (sval_of v) (init_state c e pos (vsig v) f))
          (grow (init_state c e pos (vsig v) f) (marshal_top e pos v) (fds_of v)).
Proof.
  intros Hf Hw He Hl. pose proof (ser_step v He (init_state c e pos (vsig v) f) Hw eq_refl eq_refl dep_ok0) as H.
  unfold after in H. rewrite abs_pos_init, Hf in H. exact (H Hl).
Qed.

Theorem ser_top_exact c e pos v : encodable e pos v ->
  ser_top c e pos (vsig v) (sval_of v) = Ok (marshal_top e pos v, fds_of v).
Proof.
  intros (Hw & He & Hl & Hs & _). unfold ser_top.
  pose proof (ser_init c e pos v (FdsMode []) eq_refl Hw He Hs) as H. rewrite Hl in H. now rewrite H.
Qed.

Theorem size_top_exact c e pos v : encodable e pos v ->
  size_top c e pos (vsig v) (sval_of v) = Ok (len (marshal_top e pos v), nfds v).
Proof.
  intros (Hw & He & Hl & Hs & _). unfold size_top.
  pose proof (ser_init c e pos v (NumMode 0) eq_refl Hw He Hs) as H. rewrite Hl in H. now rewrite H.
Qed.

Lemma padn_spec pos al : al <> 0 -> padn pos al < al /\ (pos + padn pos al) mod al = 0.
Proof.
  intros Hal. unfold padn. split; [apply N.mod_lt; assumption|].
  pose proof (N.mod_lt pos al Hal) as Hr. pose proof (N.div_mod pos al Hal) as Hdm.
  remember (pos mod al) as r eqn:Er. remember (pos / al) as q eqn:Eq.
  destruct (N.eq_dec r 0) as [E|E].
  - rewrite E, N.sub_0_r, N.mod_same, N.add_0_r by assumption. congruence.
  - rewrite (N.mod_small (al - r) al) by lia.
    replace (pos + (al - r)) with ((q + 1) * al)
      by (rewrite N.mul_add_distr_r, N.mul_1_l, (N.mul_comm q al); lia).
    apply N.mod_mul. assumption.
Qed.

(* non-vacuity: a nested value (dict of variants inside a struct, at an odd offset) is encodable *)
Example ex_value : dval :=
  VStruct [VU8 7; VDict SStr SVariant [(VStr (B "k"), VVariant (VArray SI16 [VI16 (-2); VI16 5])); (VStr (B "l"), VVariant (VFd 3))];
           VSigv (SArray SStr) false; VPath (B "/a/b")].
Example ex_encodable : encodable BE 5 ex_value.
Proof. unfold encodable. repeat split; vm_compute; reflexivity. Qed.
