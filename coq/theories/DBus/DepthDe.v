(* DBus/DepthDe.v — C07, deserializer half: decoding a valid encoding of a well-formed value that exceeds the nesting
   limits of the specification fails with a depth error.  The values before the first one that exceeds are decoded by
   the completeness theorem of the decoder (C02, DBus/DeComplete.v [de_complete]). *)
From ZV Require Import Base.Bytes Base.BytesFacts Base.Res Base.Sig Base.SigParse Base.SigParseFacts Base.Utf8
  DBus.Val DBus.Spec DBus.Ser DBus.SerFacts DBus.SerProofs DBus.De DBus.DeFacts DBus.DeCompleteFacts DBus.DeComplete DBus.DepthIff.
From Coq Require Import Lia.
Local Open Scope N_scope.

Lemma vdepths_in l x : In x l -> (vdepth x <= vdepths l)%nat.
Proof. induction l as [|y l IH]; [contradiction|]. intros [->|H]; cbn [vdepths]; [lia|]. specialize (IH H). lia. Qed.
Lemma vdepthp_in l p : In p l -> (vdepth (fst p) <= vdepthp l /\ vdepth (snd p) <= vdepthp l)%nat.
Proof. induction l as [|y l IH]; [contradiction|]. intros [->|H]; cbn [vdepthp]; [lia|]. specialize (IH H). lia. Qed.

(* ---------- how much fuel the failing run needs ----------
   either the nesting depth of the value, or — however deep the value is — what is left up to the 64 containers the
   counters allow (the decoder stops at the first container beyond a limit; [de_fuel] = 70 is enough at top level) *)
Definition tot (d : depths) : N := d_struct d + d_array d + d_variant d.
Definition fuel_ok (fuel : nat) (d : depths) (v : dval) : Prop :=
  (vdepth v <= fuel)%nat \/ (1 <= fuel /\ 65 <= fuel + N.to_nat (tot d))%nat.

Lemma fuel_ok_pos fuel d v : fuel_ok fuel d v -> (1 <= fuel)%nat.
Proof. intros [H|[H _]]; [pose proof (vdepth_pos v); lia|exact H]. Qed.
Lemma fuel_ok_good f d x : tot d <= 64 -> fuel_ok f d x ->
  depth_ok (d_struct d) (d_array d) (d_variant d) x = true -> (vdepth x <= f)%nat.
Proof.
  intros Ht [H|[_ H]] Hd; [exact H|]. pose proof (depth_ok_vdepth x _ _ _ Ht Hd) as Hx. unfold tot in *. lia.
Qed.
(* one container further in, with one unit of fuel less *)
Lemma fuel_ok_inner f d d' v x : (S (vdepth x) <= vdepth v)%nat -> tot d' = tot d + 1 -> tot d' <= 64 ->
  fuel_ok (S f) d v -> fuel_ok f d' x.
Proof. intros Hx E Ht [H|[_ H]]; [left|right]; lia. Qed.

(* the statement proved by induction on the value; [p] is the absolute position of the cursor *)
Definition dbad (v : dval) : Prop :=
  forall fuel st fm k p, tabs st = p ->
    wf v = true -> t_sig st = vsig v -> dep_ok (t_dep st) ->
    len (marshal (t_e st) fm v p k) < 2 ^ 32 -> N.of_nat (length (t_fds st)) <= 2 ^ 32 ->
    at_ (t_bytes st) (t_pos st) (marshal (t_e st) fm v p k) -> fds_match fm (t_fds st) k v ->
    fuel_ok fuel (t_dep st) v ->
    depth_ok (d_struct (t_dep st)) (d_array (t_dep st)) (d_variant (t_dep st)) v = false ->
    exists j, de_any fuel st = Err (EDepth j).

(* an element of a container: decoded by C02 when it is within the limits, refused by induction when it is not *)
Lemma elem_step x : dbad x -> forall fuel st fm k p, tabs st = p ->
  wf x = true -> t_sig st = vsig x -> dep_ok (t_dep st) -> tot (t_dep st) <= 64 ->
  len (marshal (t_e st) fm x p k) < 2 ^ 32 -> N.of_nat (length (t_fds st)) <= 2 ^ 32 ->
  at_ (t_bytes st) (t_pos st) (marshal (t_e st) fm x p k) -> fds_match fm (t_fds st) k x ->
  fuel_ok fuel (t_dep st) x ->
  outcome (depth_ok (d_struct (t_dep st)) (d_array (t_dep st)) (d_variant (t_dep st)) x)
          (de_any fuel st) (x, adv st (len (marshal (t_e st) fm x p k))).
Proof.
  intros Hb fuel st fm k p <- Hw Hs Hd Ht Hl Hfl Hat Hfd Hv.
  destruct (depth_ok _ _ _ x) eqn:Hdx.
  - apply de_complete; try assumption; [now split|]. exact (fuel_ok_good _ _ _ Ht Hv Hdx).
  - now apply (Hb fuel st fm k (tabs st)).
Qed.

Lemma dbad_leaf v : (match v with VVariant _ | VArray _ _ | VDict _ _ _ | VStruct _ => False | _ => True end) -> dbad v.
Proof. intros H fuel st fm k p _ _ _ _ _ _ _ _ _ Hd. destruct v; try contradiction; cbn in Hd; discriminate. Qed.

(* ---------- structs ---------- *)
Lemma struct_loop_bad f fm : forall l, Forall dbad l -> forall st k acc p, tabs st = p ->
  forallb wf l = true -> dep_ok (t_dep st) -> tot (t_dep st) <= 64 ->
  len (mseq (t_e st) fm l p k) < 2 ^ 32 -> N.of_nat (length (t_fds st)) <= 2 ^ 32 ->
  at_ (t_bytes st) (t_pos st) (mseq (t_e st) fm l p k) ->
  fdsm fm (t_fds st) k (concat (map fds_of l)) ->
  Forall (fuel_ok f (t_dep st)) l ->
  forallb (depth_ok (d_struct (t_dep st)) (d_array (t_dep st)) (d_variant (t_dep st))) l = false ->
  exists j, struct_loop (de_any f) (map vsig l) st acc = Err (EDepth j).
Proof.
  induction 1 as [|x l Hbx Hl IH]; intros st k acc p <- Hw Hd Htot Hlen Hfl Hat Hfd Hv Hdep.
  - discriminate.
  - cbn [forallb] in Hw, Hdep. apply andb_true_iff in Hw as [Hwx Hw]. apply Forall_cons_iff in Hv as [Hvx Hv].
    cbn [map concat mseq struct_loop] in *. rewrite len_app in Hlen.
    set (b := marshal (t_e st) fm x (tabs st) k) in *.
    apply fdsm_app in Hfd as [Hfx Hfr].
    pose proof (at_app_l _ _ _ _ Hat) as Hatx. apply at_app_r in Hat.
    refine (depth_err_seq _ _ _ _ _ (elem_step x Hbx f (tset_sig st (vsig x)) fm k (tabs st) eq_refl Hwx eq_refl Hd Htot
                                              ltac:(change (len b < 2 ^ 32); lia) Hfl Hatx Hfx Hvx) Hdep _).
    intros Hdep'. apply (IH (adv st (len b)) (k + nfds x) (x :: acc) _ (tabs_adv st (len b))); try assumption.
    cbn [t_e adv tset_pos]. lia.
Qed.

Lemma dbad_struct l : Forall dbad l -> dbad (VStruct l).
Proof.
  intros HF fuel st fm k p <- Hw Hs Hd Hlen Hfl Hat Hfd Hv Hdep.
  pose proof (fuel_ok_pos _ _ _ Hv) as Hf1. destruct fuel as [|f]; [lia|].
  cbn [vsig] in Hs. rewrite (de_any_struct f st _ Hs).
  cbn [wf] in Hw. apply andb_true_iff in Hw as [_ Hw].
  rewrite marshal_struct in Hlen, Hat. cbv zeta in Hlen, Hat. rewrite len_app, len_pad in Hlen. rewrite len_pad in Hat.
  rewrite (parse_padding_at st 8 (at_app_l _ _ _ _ Hat)). cbn [bind].
  apply at_app_r in Hat. rewrite len_pad in Hat.
  cbn [depth_ok] in Hdep. cbn [adv tset_pos t_dep].
  destruct ((d_struct (t_dep st) + 1 <=? 32) && (d_struct (t_dep st) + d_array (t_dep st) + d_variant (t_dep st) + 1 <=? 64)) eqn:Hlim.
  2:{ now apply depth_err_bind, inc_struct_bad. }
  apply andb_true_iff in Hlim as [Ha Ht]. apply N.leb_le in Ha, Ht.
  destruct (inc_struct_ok (t_dep st) Hd Ha Ht) as (d' & Hinc & Hd' & E1 & E2 & E3).
  rewrite Hinc. cbn [bind]. apply depth_err_bind.
  assert (Et : tot d' = tot (t_dep st) + 1) by (unfold tot; lia).
  assert (Ht' : tot d' <= 64) by (unfold tot in *; lia).
  apply (struct_loop_bad f fm l HF (tset_dep (adv st _) d') k [] _ (tabs_adv st _) Hw Hd');
    cbn [t_dep t_e tset_dep adv tset_pos]; try assumption.
  - lia.
  - apply Forall_forall. intros x Hx. exact (fuel_ok_inner f _ d' (VStruct l) x (le_n_S _ _ (vdepths_in l x Hx)) Et Ht' Hv).
  - now rewrite E1, E2, E3.
Qed.

(* ---------- arrays ---------- *)
Lemma arr_loop_bad f fm el : forall l, Forall dbad l -> forall st k fuelk acc start n p, tabs st = p ->
  forallb (fun x => wf x && sig_eqb (vsig x) el) l = true ->
  t_sig st = el -> dep_ok (t_dep st) -> tot (t_dep st) <= 64 ->
  len (mseq (t_e st) fm l p k) < 2 ^ 32 -> N.of_nat (length (t_fds st)) <= 2 ^ 32 ->
  at_ (t_bytes st) (t_pos st) (mseq (t_e st) fm l p k) ->
  t_pos st + len (mseq (t_e st) fm l p k) = start + n ->
  fdsm fm (t_fds st) k (concat (map fds_of l)) ->
  Forall (fuel_ok f (t_dep st)) l -> (length l < fuelk)%nat ->
  forallb (depth_ok (d_struct (t_dep st)) (d_array (t_dep st)) (d_variant (t_dep st))) l = false ->
  exists j, arr_loop (de_any f) (align_dbus el) start n el fuelk st acc = Err (EDepth j).
Proof.
  induction 1 as [|x l Hbx Hl IH]; intros st k fuelk acc start n p <- Hw Hs Hd Htot Hlen Hfl Hat Hend Hfd Hv Hfu Hdep.
  - discriminate.
  - cbn [forallb] in Hw, Hdep. apply andb_true_iff in Hw as [Hwx Hw]. apply andb_true_iff in Hwx as [Hwx Hsx].
    pose proof (sig_eqb_eq _ _ Hsx) as Hex. apply Forall_cons_iff in Hv as [Hvx Hv].
    cbn [map concat mseq length] in *.
    rewrite len_app in Hlen, Hend.
    (* the element starts with the padding the loop skips *)
    set (pd := padn (tabs st) (align_dbus el)). set (b' := marshal (t_e st) fm x (tabs st + pd) k).
    assert (Hb : marshal (t_e st) fm x (tabs st) k = pad (tabs st) (align_dbus el) ++ b')
      by (unfold b', pd; rewrite <- Hex; apply marshal_realign).
    assert (Hlb : len (marshal (t_e st) fm x (tabs st) k) = pd + len b') by (now rewrite Hb, len_app, len_pad).
    rewrite Hlb in *. rewrite Hb, <- app_assoc in Hat.
    apply fdsm_app in Hfd as [Hfx Hfr].
    pose proof (at_app_l _ _ _ _ Hat) as Hat0. apply at_app_r in Hat. rewrite len_pad in Hat. fold pd in Hat.
    pose proof (at_app_l _ _ _ _ Hat) as Hatx. apply at_app_r in Hat.
    pose proof (marshal_nonempty (t_e st) fm x (tabs st + pd) k Hwx) as Hne. fold b' in Hne.
    destruct fuelk as [|k']; [lia|]. cbn [arr_loop].
    destruct (N.eqb_spec (t_pos st) (start + n)) as [E|_]; [lia|].
    rewrite (parse_padding_at st _ Hat0). fold pd. cbn [bind].
    refine (depth_err_seq _ _ _ _ _ (elem_step x Hbx f (adv st pd) fm k _ (tabs_adv st pd) Hwx ltac:(cbn; congruence) Hd Htot
                                              ltac:(change (len b' < 2 ^ 32); lia) Hfl Hatx Hfx Hvx) Hdep _).
    intros Hdep'. change (t_e (adv st pd)) with (t_e st). fold b'. rewrite adv_adv. cbn [t_pos adv tset_pos].
    destruct (N.ltb_spec (start + n) (t_pos st + (pd + len b'))) as [|_]; [lia|].
    rewrite Hsx. cbn [negb].
    apply (IH (adv st (pd + len b')) (k + nfds x) k' (x :: acc) start n _ (tabs_adv st _));
      cbn [t_e t_dep t_fds t_bytes t_pos adv tset_pos]; try assumption; try lia.
    now rewrite N.add_assoc.
Qed.

Lemma dbad_array el l : Forall dbad l -> dbad (VArray el l).
Proof.
  intros HF fuel st fm k p <- Hw Hs Hd Hlen Hfl Hat Hfd Hv Hdep.
  pose proof (fuel_ok_pos _ _ _ Hv) as Hf1. destruct fuel as [|f]; [lia|].
  cbn [vsig] in Hs. rewrite (de_any_array f st _ Hs).
  cbn [wf] in Hw. apply andb_true_iff in Hw as [Hel Hw].
  rewrite marshal_array in Hlen, Hat. cbv zeta in Hlen, Hat. rewrite !len_pad in Hlen, Hat.
  rewrite !len_app, !len_pad, len_enc in Hlen. change (N.of_nat 4) with 4 in Hlen.
  set (p0 := padn (tabs st) 4) in *. set (p1 := padn (tabs st + p0 + 4) (align_dbus el)) in *.
  set (body := mseq (t_e st) fm l (tabs st + p0 + 4 + p1) k) in *.
  pose proof (fun d => seq_header_at st d (len body) (align_dbus el) body ltac:(lia) Hat) as Hh. cbv zeta in Hh. fold p0 p1 in Hh.
  rewrite (proj1 (Hh depths0)). cbn [bind]. change (t_dep (adv st p0)) with (t_dep st).
  cbn [depth_ok] in Hdep.
  destruct ((d_array (t_dep st) + 1 <=? 32) && (d_struct (t_dep st) + d_array (t_dep st) + d_variant (t_dep st) + 1 <=? 64)) eqn:Hlim.
  2:{ now apply depth_err_bind, inc_array_bad. }
  apply andb_true_iff in Hlim as [Ha Ht]. apply N.leb_le in Ha, Ht.
  destruct (inc_array_ok (t_dep st) Hd Ha Ht) as (d' & Hinc & Hdec & Hd' & E1 & E2 & E3).
  rewrite Hinc. cbn [bind]. destruct (Hh d') as (_ & R2 & R3 & Hb).
  rewrite R2. cbn [bind]. change (t_e (adv _ 4)) with (t_e st). rewrite dec_enc4 by lia.
  rewrite (single_align el Hel). cbn [bind]. rewrite R3. cbn [bind]. apply depth_err_bind.
  assert (T : tabs (adv st (p0 + 4 + p1)) = tabs st + p0 + 4 + p1) by (rewrite tabs_adv; lia).
  pose proof (mseq_length (t_e st) fm l (tabs st + p0 + 4 + p1) k (forallb_wf_sig _ _ Hw)) as Hml. fold body in Hml.
  pose proof (at_bound _ _ _ Hb) as Hbd. unfold len in Hbd at 2.
  assert (Et : tot d' = tot (t_dep st) + 1) by (unfold tot; lia).
  assert (Ht' : tot d' <= 64) by (unfold tot in *; lia).
  apply (arr_loop_bad f fm el l HF (tset_sig (tset_dep (adv st (p0 + 4 + p1)) d') el) k _ [] _ (len body) _ T Hw eq_refl Hd');
    cbn [t_e t_dep t_fds t_bytes t_pos adv tset_pos tset_sig tset_dep]; try assumption; try reflexivity.
  - fold body. lia.
  - apply Forall_forall. intros x Hx. exact (fuel_ok_inner f _ d' (VArray el l) x (le_n_S _ _ (vdepths_in l x Hx)) Et Ht' Hv).
  - lia.
  - now rewrite E1, E2, E3.
Qed.

(* ---------- dicts ---------- *)
Lemma dict_loop_bad f fm ks vs : forall l, Forall (fun p => dbad (fst p) /\ dbad (snd p)) l ->
  forall st k fuelk acc start n p, tabs st = p ->
  forallb (fun p => wf (fst p) && wf (snd p) && sig_eqb (vsig (fst p)) ks && sig_eqb (vsig (snd p)) vs) l = true ->
  t_sig st = ks -> dep_ok (t_dep st) -> tot (t_dep st) <= 64 ->
  len (mentries (t_e st) fm l p k) < 2 ^ 32 -> N.of_nat (length (t_fds st)) <= 2 ^ 32 ->
  at_ (t_bytes st) (t_pos st) (mentries (t_e st) fm l p k) ->
  t_pos st + len (mentries (t_e st) fm l p k) = start + n ->
  fdsm fm (t_fds st) k (concat (map (fun p => fds_of (fst p) ++ fds_of (snd p)) l)) ->
  Forall (fun p => fuel_ok f (t_dep st) (fst p) /\ fuel_ok f (t_dep st) (snd p)) l ->
  (length l < fuelk)%nat ->
  forallb (fun p => depth_ok (d_struct (t_dep st)) (d_array (t_dep st)) (d_variant (t_dep st)) (fst p)
                    && depth_ok (d_struct (t_dep st)) (d_array (t_dep st)) (d_variant (t_dep st)) (snd p)) l = false ->
  exists j, dict_loop (de_any f) start n ks vs fuelk st acc = Err (EDepth j).
Proof.
  induction 1 as [|[kx x] l [Hbk Hbx] Hl IH]; intros st k fuelk acc start n p <- Hw Hs Hd Htot Hlen Hfl Hat Hend Hfd Hv Hfu Hdep.
  - discriminate.
  - cbn [forallb fst snd] in Hw, Hdep. apply andb_true_iff in Hw as [Hw1 Hw].
    apply Forall_cons_iff in Hv as [[Hvk Hvx] Hv]. cbn [fst snd] in Hvk, Hvx.
    apply andb_true_iff in Hw1 as [Hw1 Hsx]. apply andb_true_iff in Hw1 as [Hw1 Hsk]. apply andb_true_iff in Hw1 as [Hwk Hwx].
    pose proof (sig_eqb_eq _ _ Hsk) as Hek. pose proof (sig_eqb_eq _ _ Hsx) as Hex.
    cbn [map concat mentries length fst snd] in *. rewrite !len_app, !len_pad in Hlen, Hend. rewrite !len_pad in Hat.
    set (p8 := padn (tabs st) 8) in *.
    set (b1 := marshal (t_e st) fm kx (tabs st + p8) k) in *.
    set (b2 := marshal (t_e st) fm x (tabs st + p8 + len b1) (k + nfds kx)) in *.
    apply fdsm_app in Hfd as [Hfe Hfr]. apply fdsm_app in Hfe as [Hfk Hfx].
    rewrite app_length, Nat2N.inj_add, N.add_assoc in Hfr.
    pose proof (at_app_l _ _ _ _ Hat) as Hat0. apply at_app_r in Hat. rewrite len_pad in Hat. fold p8 in Hat.
    pose proof (at_app_l _ _ _ _ Hat) as Hat1. apply at_app_r in Hat.
    pose proof (at_app_l _ _ _ _ Hat) as Hat2. apply at_app_r in Hat.
    pose proof (marshal_nonempty (t_e st) fm kx (tabs st + p8) k Hwk) as Hne. fold b1 in Hne.
    destruct fuelk as [|k']; [lia|]. cbn [dict_loop].
    destruct (N.eqb_spec (t_pos st) (start + n)) as [E|_]; [lia|].
    rewrite (parse_padding_at st 8 Hat0). fold p8. cbn [bind]. rewrite <- andb_assoc in Hdep.
    refine (depth_err_seq _ _ _ _ _ (elem_step kx Hbk f (adv st p8) fm k _ (tabs_adv st p8) Hwk ltac:(cbn; congruence) Hd Htot
                                              ltac:(change (len b1 < 2 ^ 32); lia) Hfl Hat1 Hfk Hvk) Hdep _).
    clear Hdep. intros Hdep. change (t_e (adv st p8)) with (t_e st). fold b1. rewrite adv_adv. cbn [t_pos adv tset_pos].
    destruct (N.ltb_spec (start + n) (t_pos st + (p8 + len b1))) as [|_]; [lia|].
    set (s2 := tset_sig (adv st (p8 + len b1)) vs).
    assert (T2 : tabs (adv st (p8 + len b1)) = tabs st + p8 + len b1) by (rewrite tabs_adv; lia).
    refine (depth_err_seq _ _ _ _ _ (elem_step x Hbx f s2 fm (k + nfds kx) _ T2 Hwx ltac:(cbn; congruence) Hd Htot
                                              ltac:(change (len b2 < 2 ^ 32); lia) Hfl _ Hfx Hvx) Hdep _).
    { subst s2. cbn [t_bytes t_pos tset_sig adv tset_pos]. rewrite N.add_assoc. exact Hat2. }
    clear Hdep. intros Hdep. change (t_e s2) with (t_e st). fold b2. subst s2. rewrite tset_sig_adv, adv_adv.
    cbn [t_pos tset_sig adv tset_pos]. destruct (N.ltb_spec (start + n) (t_pos st + (p8 + len b1 + len b2))) as [|_]; [lia|].
    rewrite Hsk, Hsx. cbn [negb orb].
    assert (T3 : tabs (adv st (p8 + len b1 + len b2)) = tabs st + p8 + len b1 + len b2) by (rewrite tabs_adv; lia).
    apply (IH (adv (tset_sig st ks) (p8 + len b1 + len b2)) (k + nfds kx + nfds x) k' ((kx, x) :: acc) start n _ T3);
      cbn [t_e t_dep t_fds t_bytes t_pos t_sig adv tset_pos tset_sig]; try assumption; try reflexivity; try lia.
    now rewrite !N.add_assoc.
Qed.

Lemma dbad_dict ks vs l : Forall (fun p => dbad (fst p) /\ dbad (snd p)) l -> dbad (VDict ks vs l).
Proof.
  intros HF fuel st fm k p <- Hw Hs Hd Hlen Hfl Hat Hfd Hv Hdep.
  pose proof (fuel_ok_pos _ _ _ Hv) as Hf1. destruct fuel as [|f]; [lia|].
  cbn [vsig] in Hs. rewrite (de_any_dict f st _ _ Hs).
  cbn [wf] in Hw. apply andb_true_iff in Hw as [_ Hw].
  rewrite marshal_dict in Hlen, Hat. cbv zeta in Hlen, Hat. rewrite !len_pad in Hlen, Hat.
  rewrite !len_app, !len_pad, len_enc in Hlen. change (N.of_nat 4) with 4 in Hlen.
  set (p0 := padn (tabs st) 4) in *. set (p1 := padn (tabs st + p0 + 4) 8) in *.
  set (body := mentries (t_e st) fm l (tabs st + p0 + 4 + p1) k) in *.
  pose proof (fun d => seq_header_at st d (len body) 8 body ltac:(lia) Hat) as Hh. cbv zeta in Hh. fold p0 p1 in Hh.
  rewrite (proj1 (Hh depths0)). cbn [bind]. change (t_dep (adv st p0)) with (t_dep st).
  cbn [depth_ok] in Hdep.
  destruct ((d_array (t_dep st) + 1 <=? 32) && (d_struct (t_dep st) + d_array (t_dep st) + d_variant (t_dep st) + 1 <=? 64)) eqn:Hlim.
  2:{ now apply depth_err_bind, inc_array_bad. }
  apply andb_true_iff in Hlim as [Ha Ht]. apply N.leb_le in Ha, Ht.
  destruct (inc_array_ok (t_dep st) Hd Ha Ht) as (d' & Hinc & Hdec & Hd' & E1 & E2 & E3).
  rewrite Hinc. cbn [bind]. destruct (Hh d') as (_ & R2 & R3 & Hb).
  rewrite R2. cbn [bind]. change (t_e (adv _ 4)) with (t_e st). rewrite dec_enc4 by lia.
  rewrite R3. cbn [bind]. apply depth_err_bind.
  assert (T : tabs (adv st (p0 + 4 + p1)) = tabs st + p0 + 4 + p1) by (rewrite tabs_adv; lia).
  pose proof (mentries_length (t_e st) fm l (tabs st + p0 + 4 + p1) k (forallb_wf_keys _ _ _ Hw)) as Hml. fold body in Hml.
  pose proof (at_bound _ _ _ Hb) as Hbd. unfold len in Hbd at 2.
  assert (Et : tot d' = tot (t_dep st) + 1) by (unfold tot; lia).
  assert (Ht' : tot d' <= 64) by (unfold tot in *; lia).
  apply (dict_loop_bad f fm ks vs l HF (tset_sig (tset_dep (adv st (p0 + 4 + p1)) d') ks) k _ [] _ (len body) _ T Hw eq_refl Hd');
    cbn [t_e t_dep t_fds t_bytes t_pos adv tset_pos tset_sig tset_dep]; try assumption; try reflexivity.
  - fold body. lia.
  - apply Forall_forall. intros q Hq. destruct (vdepthp_in l q Hq).
    split; apply (fuel_ok_inner f (t_dep st) d' (VDict ks vs l)); try assumption; rewrite vdepth_dict; lia.
  - lia.
  - now rewrite E1, E2, E3.
Qed.

(* ---------- variants ---------- *)
Lemma dbad_variant x : dbad x -> dbad (VVariant x).
Proof.
  intros Hbx fuel st fm k p <- Hw Hs Hd Hlen Hfl Hat Hfd Hv Hdep.
  pose proof (fuel_ok_pos _ _ _ Hv) as Hf1. destruct fuel as [|f]; [lia|].
  cbn [vsig] in Hs. rewrite (de_any_variant f st Hs). cbv zeta.
  cbn [wf] in Hw. apply andb_true_iff in Hw as [Hw Hl255]. apply andb_true_iff in Hw as [Hw Hso]. apply N.leb_le in Hl255.
  cbn [marshal] in Hlen, Hat.
  remember (vsig x) as g eqn:Eg. set (sg := show g) in *.
  set (hdr := nb (len sg) :: sg ++ [x00]) in *.
  rewrite len_app in Hlen.
  assert (Hlh : len hdr = 1 + len sg + 1) by (unfold hdr; rewrite len_cons, len_app; change (len [x00]) with 1; lia).
  pose proof (at_app_l _ _ _ _ Hat) as Hh. apply at_app_r in Hat.
  pose proof (at_bound _ _ _ Hh) as Hbd. rewrite Hlh in Hbd.
  (* stage Signature *)
  rewrite (de_str_1 (tset_sig st SSig) sg (or_introl eq_refl) Hl255 (ascii_show g) Hh). cbn [bind].
  pose proof (parse_show (c_gv (t_cfg st)) g (single_printable g Hso)) as Hps. fold sg in Hps.
  rewrite Hps. cbn [bind].
  (* stage Value: the length byte and the signature slice are read again *)
  rewrite (at_nth _ _ _ (at_cons_l _ _ _ _ Hh)).
  rewrite (bn_nb (len sg)) by lia.
  unfold blen.
  destruct (N.ltb_spec (len (t_bytes st)) (t_pos st + 1 + len sg)) as [|_]; [lia|].
  pose proof (at_app_l _ _ _ _ (at_cons_r _ _ _ _ Hh)) as Hsl.
  rewrite (at_slice _ _ _ Hsl). rewrite Hps.
  assert (Hgu : (match g with SUnit => true | _ => false end) = false) by (destruct g; try reflexivity; discriminate Hso).
  rewrite Hgu. fold sg. rewrite N.eqb_refl. cbn [negb orb].
  destruct (N.ltb_spec (len (t_bytes st)) (t_pos st + 1 + len sg + 1)) as [|_]; [lia|].
  match goal with |- context [inc_variant ?d] => change d with (t_dep st) end.
  cbn [depth_ok] in Hdep.
  destruct (d_struct (t_dep st) + d_array (t_dep st) + d_variant (t_dep st) + 1 <=? 64) eqn:Ht.
  2:{ now apply depth_err_bind, inc_variant_bad. }
  apply N.leb_le in Ht.
  destruct (inc_variant_ok (t_dep st) Hd Ht) as (d' & Hinc & Hd' & E1 & E2 & E3).
  rewrite Hinc. cbn [bind]. apply depth_err_bind.
  assert (Et : tot d' = tot (t_dep st) + 1) by (unfold tot; lia).
  apply (Hbx f _ fm k (tabs st + len hdr)); cbn [t_e t_dep t_fds t_bytes t_pos]; try assumption.
  - unfold tabs. cbn [t_pos0 t_pos]. lia.
  - lia.
  - now replace (t_pos st + 1 + len sg + 1) with (t_pos st + len hdr) by lia.
  - apply (fuel_ok_inner f (t_dep st) d' (VVariant x)); [cbn [vdepth]; lia|exact Et|unfold tot in *; lia|exact Hv].
  - now rewrite E1, E2, E3.
Qed.

(* ---------- all values ---------- *)
Theorem de_bad : forall v, dbad v.
Proof.
  induction v using dval_ind'.
  - now apply dbad_leaf.
  - now apply dbad_variant.
  - now apply dbad_array.
  - now apply dbad_dict.
  - now apply dbad_struct.
Qed.

Theorem de_exceeds v fuel st fm k :
  wf v = true -> t_sig st = vsig v -> dep_ok (t_dep st) ->
  len (marshal (t_e st) fm v (tabs st) k) < 2 ^ 32 -> N.of_nat (length (t_fds st)) <= 2 ^ 32 ->
  at_ (t_bytes st) (t_pos st) (marshal (t_e st) fm v (tabs st) k) -> fds_match fm (t_fds st) k v ->
  fuel_ok fuel (t_dep st) v ->
  depth_ok (d_struct (t_dep st)) (d_array (t_dep st)) (d_variant (t_dep st)) v = false ->
  exists j, de_any fuel st = Err (EDepth j).
Proof. exact (de_bad v fuel st fm k (tabs st) eq_refl). Qed.

(* exactly, and the counters come back *)
Theorem de_iff v fuel st fm k :
  wf v = true -> t_sig st = vsig v -> dep_ok (t_dep st) ->
  len (marshal (t_e st) fm v (tabs st) k) < 2 ^ 32 -> N.of_nat (length (t_fds st)) <= 2 ^ 32 ->
  at_ (t_bytes st) (t_pos st) (marshal (t_e st) fm v (tabs st) k) -> fds_match fm (t_fds st) k v ->
  (vdepth v <= fuel)%nat ->
  ((exists r, de_any fuel st = Ok r) <-> depth_ok (d_struct (t_dep st)) (d_array (t_dep st)) (d_variant (t_dep st)) v = true) /\
  ((exists j, de_any fuel st = Err (EDepth j)) <-> depth_ok (d_struct (t_dep st)) (d_array (t_dep st)) (d_variant (t_dep st)) v = false) /\
  (forall v' st', de_any fuel st = Ok (v', st') -> v' = v /\ t_dep st' = t_dep st).
Proof.
  intros Hw Hs Hd Hl Hfl Hat Hfd Hv.
  destruct (depth_ok (d_struct (t_dep st)) (d_array (t_dep st)) (d_variant (t_dep st)) v) eqn:Hdep.
  - pose proof (de_complete v fuel st fm k Hw Hs (conj Hd Hdep) Hl Hfl Hat Hfd Hv) as Hok.
    split; [|split].
    + split; [reflexivity|]. intros _. eexists. exact Hok.
    + split; [|discriminate]. intros [j Hj]. rewrite Hok in Hj. discriminate.
    + intros v' st' H. rewrite Hok in H. injection H as <- <-. split; reflexivity.
  - destruct (de_exceeds v fuel st fm k Hw Hs Hd Hl Hfl Hat Hfd (or_introl Hv) Hdep) as [j Hj].
    split; [|split].
    + split; [|discriminate]. intros [r Hr]. rewrite Hj in Hr. discriminate.
    + split; [reflexivity|]. intros _. eauto.
    + intros v' st' H. rewrite Hj in H. discriminate.
Qed.

(* ---------- the entry points, with the decoder's own fuel ---------- *)
Lemma de_any_top_exceeds c e pos fm v rest fds :
  wf v = true -> len (marshal e fm v pos 0) < 2 ^ 32 -> N.of_nat (length fds) <= 2 ^ 32 -> fds_match fm fds 0 v ->
  within_limits v = false ->
  exists j, de_any de_fuel (init_dstate c e pos (vsig v) (marshal e fm v pos 0 ++ rest) fds) = Err (EDepth j).
Proof.
  intros Hw Hl Hfl Hfd Hlim.
  apply (de_bad v de_fuel (init_dstate c e pos (vsig v) (marshal e fm v pos 0 ++ rest) fds) fm 0 pos); try assumption.
  - apply N.add_0_r.
  - reflexivity.
  - exact dep_ok0.
  - apply at_0.
  - right. unfold de_fuel, tot. cbn. lia.
Qed.

(* Data::deserialize::<Value>() on a valid encoding of a variant whose content exceeds the limits *)
Theorem de_value_top_exceeds c e pos fm x rest fds :
  wf (VVariant x) = true -> len (marshal e fm (VVariant x) pos 0) < 2 ^ 32 -> N.of_nat (length fds) <= 2 ^ 32 ->
  fds_match fm fds 0 (VVariant x) -> within_limits (VVariant x) = false ->
  exists j, de_value_top c e pos (marshal e fm (VVariant x) pos 0 ++ rest) fds = Err (EDepth j).
Proof. intros Hw Hl Hfl Hfd Hlim. now apply depth_err_bind, (de_any_top_exceeds c e pos fm (VVariant x)). Qed.

(* Data::deserialize_for_dynamic_signature::<Structure>() on a valid message body *)
Theorem de_struct_top_exceeds c e pos fm l rest fds :
  wf (VStruct l) = true -> len (marshal e fm (VStruct l) pos 0) < 2 ^ 32 -> N.of_nat (length fds) <= 2 ^ 32 ->
  fds_match fm fds 0 (VStruct l) -> within_limits (VStruct l) = false ->
  exists j, de_struct_top c e pos (vsig (VStruct l)) (marshal e fm (VStruct l) pos 0 ++ rest) fds = Err (EDepth j).
Proof. intros Hw Hl Hfl Hfd Hlim. now apply depth_err_bind, (de_any_top_exceeds c e pos fm (VStruct l)). Qed.

(* the entry point, exactly: a valid encoding is decoded iff the value is within the limits *)
Theorem de_value_top_iff c e pos fm x rest fds :
  wf (VVariant x) = true -> len (marshal e fm (VVariant x) pos 0) < 2 ^ 32 -> N.of_nat (length fds) <= 2 ^ 32 ->
  fds_match fm fds 0 (VVariant x) ->
  ((exists r, de_value_top c e pos (marshal e fm (VVariant x) pos 0 ++ rest) fds = Ok r) <-> within_limits (VVariant x) = true) /\
  ((exists j, de_value_top c e pos (marshal e fm (VVariant x) pos 0 ++ rest) fds = Err (EDepth j)) <-> within_limits (VVariant x) = false).
Proof.
  intros Hw Hl Hfl Hfd.
  destruct (within_limits (VVariant x)) eqn:Hlim.
  - pose proof (de_value_top_complete c e fm pos x rest fds Hw Hlim Hl Hfl Hfd) as Hok.
    split; split; try reflexivity; try discriminate.
    + intros _. eexists. exact Hok.
    + intros [j Hj]. rewrite Hok in Hj. discriminate.
  - destruct (de_value_top_exceeds c e pos fm x rest fds Hw Hl Hfl Hfd Hlim) as [j Hj].
    split; split; try reflexivity; try discriminate.
    + intros [r Hr]. rewrite Hj in Hr. discriminate.
    + intros _. eauto.
Qed.

(* ---------- non-vacuity (computed) ---------- *)
Example de_tower32 : exists n,
  de_value_top {| c_gv := false; c_oaa := false |} LE 3 (marshal_rx LE 3 (VVariant (atower 32))) [] = Ok (atower 32, n).
Proof. eexists. vm_compute. reflexivity. Qed.
Example de_tower33 :
  wf (VVariant (atower 33)) = true /\ within_limits (VVariant (atower 33)) = false /\
  de_value_top {| c_gv := false; c_oaa := false |} LE 3 (marshal_rx LE 3 (VVariant (atower 33))) [] = Err (EDepth DArray).
Proof. repeat split; vm_compute; reflexivity. Qed.
(* a value far deeper than the decoder's fuel still gets the depth error, not fuel exhaustion *)
Example de_tower100 :
  de_value_top {| c_gv := false; c_oaa := false |} BE 0 (marshal_rx BE 0 (VVariant (atower 100))) [] = Err (EDepth DArray).
Proof. vm_compute. reflexivity. Qed.
