(* DBus/Run.v — line driver for the codec properties (C01, C02, C03, C04, C07).
   ser <cfg> <L|B> <pos> dyn|body|typed:<name> <value tokens...>
   de  <cfg> <L|B> <pos> <nfds> v <hex>            |  de <cfg> <L|B> <pos> <nfds> s <sig> <hex>
   <cfg> is two characters: g|- (gvariant compiled in) and o|- (option-as-array). *)
From ZV Require Import Base.Bytes Base.Res Base.Sig Base.SigParse Base.Utf8 DBus.Val DBus.Spec DBus.Ser DBus.De DBus.DeSoundDefs.

Definition cfg_of (t : bytes) : cfg :=
  match t with
  | a :: b :: _ => {| c_gv := beq a "g"%byte; c_oaa := beq b "o"%byte |}
  | _ => {| c_gv := false; c_oaa := false |}
  end.
Definition endian_of (t : bytes) : endian := if lbeq t (B "B") then BE else LE.

Definition err_tok (e : cerr) : bytes := match e with EDepth _ => B "ERR:D" | _ => B "ERR" end.
Definition colon : bytes := B ":".

Definition ser_obs (r : res cerr (bytes * list N)) (z : res cerr (N * N)) : bytes :=
  match r, z with
  | Ok (b, fds), Ok (n, k) => B "OK:" ++ hext b ++ colon ++ dec_of_N n ++ colon ++ dec_of_N (N.of_nat (length fds)) ++ colon ++ dec_of_N k
  | Panic _, _ | _, Panic _ => B "PANIC"
  | Err e, _ => err_tok e
  | _, Err e => err_tok e
  end.


Definition run_ser (c : cfg) (e : endian) (pos : N) (mode : bytes) (ts : list bytes) : outp :=
  match val_of_tokens ts with
  | None => bad_case
  | Some v =>
      let '(g, x, top) :=
        if lbeq mode (B "dyn") then (SVariant, sval_of (VVariant v), VVariant v)
        else (vsig v, sval_of v, v) in
      let m := ser_obs (ser_top c e pos g x) (size_top c e pos g x) in
      let s := if wf top && negb (within_limits top) then B "ERR:D"
               else if wf top then
                 let b := marshal_top e pos top in
                 B "OK:" ++ hext b ++ colon ++ dec_of_N (len b) ++ colon ++ dec_of_N (nfds top) ++ colon ++ dec_of_N (nfds top)
               else dash in
      {| o_model := m; o_spec := s; o_class := dash |}
  end.

(* re-encoding a decoded value: same bytes as consumed? *)
Definition reenc (c : cfg) (e : endian) (pos : N) (g : sig) (v : dval) (consumed : bytes) : bytes :=
  match ser_top c e pos g (sval_of v) with
  | Ok (b, _) => B "Rok"
  | Err _ => B "Rerr"
  | Panic _ => B "Rpanic"
  end.

Definition seqN (n : N) : list N := map N.of_nat (seq 0 (N.to_nat n)).

Definition de_obs (c : cfg) (e : endian) (pos : N) (g : sig) (b : bytes) (r : res cerr (dval * N)) : bytes :=
  match r with
  | Ok (v, n) => let cv := canon v in
                 B "OK:" ++ dec_of_N n ++ colon ++ val_text cv ++ colon ++ reenc c e pos g cv (takeN n b)
  | Err e => err_tok e
  | Panic _ => B "PANIC"
  end.

(* specification verdict: the bytes start with a valid encoding iff the (lenient) model decoder returns a
   wire value that is well-formed and whose marshalling is exactly the consumed prefix (DBus/DeSoundTop.v: spec_de_value_correct, spec_de_struct_correct) *)
Definition spec_de (e : endian) (pos : N) (top : dval -> dval) (b : bytes) (r : res cerr (dval * N)) : bytes :=
  match r with
  | Ok (v, n) => if wf (top v) && within_limits (top v) && lbeq (marshal_rx e pos (top v)) (takeN n b) && (n <=? len b)%N
                 then B "OK" else B "ERR"
  | _ => B "ERR"
  end.

(* the only Panic of the decoder model: a GVariant maybe type reaching Signature::alignment(Format::DBus)
   (unreachable!), possible only when the gvariant feature is compiled in *)
Definition panic_class {A} (r : res cerr A) : bytes :=
  match r with Panic _ => B "maybe_dbus_align" | _ => dash end.

(* known-deviation class of a decode case: a decoded value carrying a signature the D-Bus grammar forbids
   (non-basic dict key, nesting above 32 in a signature) — zvariant's signature parser accepts those *)
Definition de_class (top : dval -> dval) (r : res cerr (dval * N)) : bytes :=
  match r with
  | Ok (v, _) => if sig_lenient (top v) then B "sig_grammar_lenient" else dash
  | Panic _ => B "maybe_dbus_align"
  | Err _ => dash
  end.

Definition run_de (c : cfg) (e : endian) (pos : N) (nf : N) (rest : list bytes) : outp :=
  match rest with
  | [m; h] =>
      if lbeq m (B "v") then
        match hexs h with
        | Some b => let r := de_value_top c e pos b (seqN nf) in
                    {| o_model := de_obs c e pos SVariant b (match r with Ok (v, n) => Ok (VVariant v, n) | Err x => Err x | Panic p => Panic p end);
                       o_spec := spec_de e pos VVariant b r; o_class := de_class VVariant r |}
        | None => bad_case
        end
      else bad_case
  | [m; g; h] =>
      if lbeq m (B "s") then
        match sig_of_tok (c_gv c) g, hexs h with
        | Some gs, Some b => let r := de_struct_top c e pos gs b (seqN nf) in
                             let g' := match gs with SStruct _ => gs | _ => SStruct [gs] end in
                             {| o_model := de_obs c e pos g' b r; o_spec := spec_de e pos (fun v => v) b r; o_class := de_class (fun v => v) r |}
        | _, _ => {| o_model := B "ERR"; o_spec := B "ERR"; o_class := dash |}   (* signature does not parse *)
        end
      else bad_case
  | _ => bad_case
  end.

(* rt: encode, decode what was produced, compare with the original (Value equality on canonical forms) *)
Definition run_rt (c : cfg) (e : endian) (pos : N) (mode : bytes) (ts : list bytes) : outp :=
  match val_of_tokens ts with
  | None => bad_case
  | Some v =>
      let dyn := lbeq mode (B "dyn") in
      let '(g, x, top) := if dyn then (SVariant, sval_of (VVariant v), VVariant v) else (vsig v, sval_of v, v) in
      let m :=
        match ser_top c e pos g x with
        | Ok (b, fds) =>
            let r := if dyn then match de_value_top c e pos b fds with Ok (y, n) => Ok (VVariant y, n) | Err z => Err z | Panic p => Panic p end
                     else de_struct_top c e pos g b fds in
            match r with
            | Ok (y, n) => B "OK:" ++ dec_of_N (len b) ++ colon ++ dec_of_N n ++ colon ++ bool_tok (lbeq (val_text (canon y)) (val_text (canon top)))
            | Err z => B "DE" ++ err_tok z
            | Panic _ => B "PANIC"
            end
        | Err z => err_tok z
        | Panic _ => B "PANIC"
        end in
      let s := if wf top && negb (within_limits top) then B "ERR:D"
               else if wf top then let n := len (marshal_top e pos top) in B "OK:" ++ dec_of_N n ++ colon ++ dec_of_N n ++ colon ++ B "T"
               else dash in
      {| o_model := m; o_spec := s; o_class := dash |}
  end.

Definition run_case (line : bytes) : outp :=
  match words line with
  | cmd :: ct :: et :: pt :: rest =>
      match N_of_dec pt with
      | None => bad_case
      | Some pos =>
          if lbeq cmd (B "ser") then
            match rest with mode :: ts => run_ser (cfg_of ct) (endian_of et) pos mode ts | [] => bad_case end
          else if lbeq cmd (B "rt") then
            match rest with mode :: ts => run_rt (cfg_of ct) (endian_of et) pos mode ts | [] => bad_case end
          else if lbeq cmd (B "de") then
            match rest with
            | nf :: r => match N_of_dec nf with Some k => run_de (cfg_of ct) (endian_of et) pos k r | None => bad_case end
            | [] => bad_case
            end
          else bad_case
      end
  | _ => bad_case
  end.

Definition run (line : bytes) : bytes := render (run_case line).
