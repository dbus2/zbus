(* DBus/DepthIff.v — C07, serializer half, read off DBus/SerProofs.v [ser_step]: beyond the nesting limits of the
   specification the serializer model fails with a depth error, and whenever it succeeds the depth counters are what
   they were. *)
From ZV Require Import Base.Bytes Base.Res Base.Sig Base.SigParse Base.SigParseFacts DBus.Val DBus.Spec DBus.Ser DBus.SerFacts DBus.SerProofs.
Local Open Scope N_scope.

(* ---------- the dichotomy at any point of a message ---------- *)
Theorem ser_dichotomy v st :
  enc_form v = true -> wf v = true -> s_sig st = vsig v -> s_vsign st = None -> dep_ok (s_dep st) ->
  nfd st + nfds v < 2 ^ 32 ->
  len (marshal (s_e st) ByOccurrence v (abs_pos st) (nfd st)) < 2 ^ 32 ->
  if depth_ok (d_struct (s_dep st)) (d_array (s_dep st)) (d_variant (s_dep st)) v
  then ser (sval_of v) st = Ok (after st v)
  else exists k, ser (sval_of v) st = Err (EDepth k).
Proof. intros He Hw Hs Hv Hd _ Hl. exact (ser_step v He st Hw Hs Hv Hd Hl). Qed.

Theorem ser_ok_inv v st st' :
  enc_form v = true -> wf v = true -> s_sig st = vsig v -> s_vsign st = None -> dep_ok (s_dep st) ->
  nfd st + nfds v < 2 ^ 32 ->
  len (marshal (s_e st) ByOccurrence v (abs_pos st) (nfd st)) < 2 ^ 32 ->
  ser (sval_of v) st = Ok st' ->
  depth_ok (d_struct (s_dep st)) (d_array (s_dep st)) (d_variant (s_dep st)) v = true /\ st' = after st v.
Proof.
  intros He Hw Hs Hv Hd Hn Hl Hok. pose proof (ser_dichotomy v st He Hw Hs Hv Hd Hn Hl) as H.
  destruct (depth_ok _ _ _ v).
  - rewrite H in Hok. injection Hok as <-. split; reflexivity.
  - destruct H as [k Hk]. rewrite Hk in Hok. discriminate.
Qed.

Theorem ser_counters_restored v st st' :
  enc_form v = true -> wf v = true -> s_sig st = vsig v -> s_vsign st = None -> dep_ok (s_dep st) ->
  nfd st + nfds v < 2 ^ 32 ->
  len (marshal (s_e st) ByOccurrence v (abs_pos st) (nfd st)) < 2 ^ 32 ->
  ser (sval_of v) st = Ok st' -> s_dep st' = s_dep st.
Proof.
  intros He Hw Hs Hv Hd Hn Hl Hok. destruct (ser_ok_inv v st st' He Hw Hs Hv Hd Hn Hl Hok) as [_ ->]. reflexivity.
Qed.

(* ---------- top level ---------- *)
(* [encodable] of SerProofs.v without the nesting limits *)
Definition encodable_any_depth (e : endian) (pos : N) (v : dval) : Prop :=
  wf v = true /\ enc_form v = true /\ len (marshal_top e pos v) < 2 ^ 32 /\ nfds v < 2 ^ 32.

Theorem ser_top_within c e pos v : encodable_any_depth e pos v -> within_limits v = true ->
  ser_top c e pos (vsig v) (sval_of v) = Ok (marshal_top e pos v, fds_of v).
Proof. intros (Hw & He & Hs & Hn) Hl. apply ser_top_exact. repeat split; assumption. Qed.

Theorem ser_top_exceeds c e pos v : encodable_any_depth e pos v -> within_limits v = false ->
  exists k, ser_top c e pos (vsig v) (sval_of v) = Err (EDepth k).
Proof.
  intros (Hw & He & Hs & _) Hl. pose proof (ser_init c e pos v (FdsMode []) eq_refl Hw He Hs) as H. rewrite Hl in H.
  now apply depth_err_bind.
Qed.

Theorem ser_top_ok_iff c e pos v : encodable_any_depth e pos v ->
  ((exists b f, ser_top c e pos (vsig v) (sval_of v) = Ok (b, f)) <-> within_limits v = true).
Proof.
  intros H. split.
  - intros (b & f & Hok). destruct (within_limits v) eqn:Hl; [reflexivity|].
    destruct (ser_top_exceeds c e pos v H Hl) as [k Hk]. rewrite Hk in Hok. discriminate.
  - intros Hl. eexists _, _. apply ser_top_within; assumption.
Qed.

Theorem ser_top_err_iff c e pos v : encodable_any_depth e pos v ->
  ((exists k, ser_top c e pos (vsig v) (sval_of v) = Err (EDepth k)) <-> within_limits v = false).
Proof.
  intros H. split.
  - intros (k & Hk). destruct (within_limits v) eqn:Hl; [|reflexivity].
    rewrite (ser_top_within c e pos v H Hl) in Hk. discriminate.
  - apply ser_top_exceeds. exact H.
Qed.

Theorem size_top_exceeds c e pos v : encodable_any_depth e pos v -> within_limits v = false ->
  exists k, size_top c e pos (vsig v) (sval_of v) = Err (EDepth k).
Proof.
  intros (Hw & He & Hs & _) Hl. pose proof (ser_init c e pos v (NumMode 0) eq_refl Hw He Hs) as H. rewrite Hl in H.
  now apply depth_err_bind.
Qed.

(* ---------- non-vacuity: towers of arrays ---------- *)
Fixpoint atower_sig (n : nat) : sig := match n with O => SU8 | S k => SArray (atower_sig k) end.
Fixpoint atower (n : nat) : dval := match n with O => VU8 7 | S k => VArray (atower_sig k) [atower k] end.

Example tower32_within : within_limits (atower 32) = true /\ encodable_any_depth LE 3 (atower 32).
Proof. split; [vm_compute; reflexivity|]. unfold encodable_any_depth. repeat split; vm_compute; reflexivity. Qed.
Example tower33_exceeds : within_limits (atower 33) = false /\ encodable_any_depth LE 3 (atower 33).
Proof. split; [vm_compute; reflexivity|]. unfold encodable_any_depth. repeat split; vm_compute; reflexivity. Qed.
Example tower33_err : ser_top {| c_gv := false; c_oaa := false |} LE 3 (vsig (atower 33)) (sval_of (atower 33)) = Err (EDepth DArray).
Proof. vm_compute. reflexivity. Qed.
Example tower32_ok : exists b, ser_top {| c_gv := false; c_oaa := false |} LE 3 (vsig (atower 32)) (sval_of (atower 32)) = Ok (b, []).
Proof. eexists. vm_compute. reflexivity. Qed.
