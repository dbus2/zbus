(* DBus/DeSoundDefs.v — C03 (soundness of the D-Bus decoder model): the definitions the statements need.
     wfL         : well-formedness of a value as far as the decoder enforces it = Spec.wf minus the grammar
                   clauses on the signatures that occur in the value;
     sigs_strict : exactly those grammar clauses (decidable);     wf_split : wf v = wfL v && sigs_strict v;
     sigs_nest_ok: the specification's limit on the nesting of a *signature* (32 array codes, 32 parentheses),
                   which neither Spec.wf nor the decoder looks at;
     sig_lenient : the known-deviation class of C03 (decidable; for the third output column of DBus/Run.v);
     parse_sig_inv : what zvariant's signature parser accepts is printed back by [show] (parse -> show direction).
   No dependency on DBus/Run.v (Run.v may import this file). *)
From ZV Require Import Base.Bytes Base.BytesFacts Base.Res Base.Sig Base.SigParse Base.Utf8 Base.WinnowFacts
                       DBus.Val DBus.Spec DBus.Ser DBus.SerFacts DBus.SerProofs DBus.DeNoPanic.
From Coq Require Import Lia.
Local Open Scope N_scope.

(* ---------- signatures all of whose structs have a field ---------- *)
Fixpoint sig_ne (s : sig) : bool :=
  match s with
  | SArray c | SMaybe c => sig_ne c
  | SDict k v => sig_ne k && sig_ne v
  | SStruct fs => (match fs with [] => false | _ => true end) && forallb sig_ne fs
  | _ => true
  end.

(* what the parser accepts is printed back by [show] (top level: possibly without the outer parentheses), and has
   no empty struct *)
Lemma parse_sig_inv gv s g : parse_sig gv s = Some g ->
  sig_ne g = true /\
  (s = show g \/ exists x y l, g = SStruct (x :: y :: l) /\ s = concat (map show (x :: y :: l))).
Proof.
  unfold parse_sig. destruct s as [|c t]; [intros H; inversion H; split; [reflexivity|left; reflexivity]|].
  destruct (parse_many (sig_fuel (c :: t)) gv (c :: t)) as [l r] eqn:Em.
  assert (Hl : c :: t = concat (map show l) ++ r /\ forallb sig_ne l = true).
  { refine (proj2 (parse_inv gv sig_ne _ _ _ _ _ _) _ _ _ Em); cbn [sig_ne]; auto.
    - intros s L. destruct s; try reflexivity; contradiction.
    - intros k v -> ->. reflexivity. }
  destruct Hl as [Hl1 Hl2].
  destruct l as [|x [|y l]]; [discriminate| |]; destruct r; try discriminate; intros H; inversion H; subst g;
    rewrite app_nil_r in Hl1.
  - cbn [forallb] in Hl2. rewrite andb_true_r in Hl2. split; [exact Hl2|]. left. rewrite Hl1. cbn. apply app_nil_r.
  - split; [exact Hl2|]. right. exists x, y, l. split; [reflexivity|exact Hl1].
Qed.

(* ---------- well-formedness as far as the decoder enforces it ---------- *)
Definition sig_text (s : sig) (np : bool) : bytes := if np then show_noparens s else show s.

Fixpoint wfL (v : dval) : bool :=
  match v with
  | VU8 n => (n <? 256)%N
  | VBool _ => true
  | VI16 z => (-32768 <=? z)%Z && (z <? 32768)%Z
  | VU16 n => (n <? 65536)%N
  | VI32 z => (-2147483648 <=? z)%Z && (z <? 2147483648)%Z
  | VU32 n => (n <? 4294967296)%N
  | VI64 z => (-9223372036854775808 <=? z)%Z && (z <? 9223372036854775808)%Z
  | VU64 n => (n <? 18446744073709551616)%N
  | VF64 b => (b <? 18446744073709551616)%N
  | VStr s => str_ok s
  | VPath s => path_ok s && (len s <? 2 ^ 32)%N
  | VSigv s np => (len (sig_text s np) <=? 255)%N
                  && (negb np || match s with SStruct (_ :: _ :: _) => true | _ => false end)
  | VFd _ => true
  | VVariant x => wfL x && (len (show (vsig x)) <=? 255)%N
  | VArray el l => forallb (fun x => wfL x && sig_eqb (vsig x) el) l
  | VDict k vs l => forallb (fun p => wfL (fst p) && wfL (snd p) && sig_eqb (vsig (fst p)) k
                                      && sig_eqb (vsig (snd p)) vs) l
  | VStruct l => (match l with [] => false | _ => true end) && forallb wfL l
  end.

(* every signature occurring in the value (element, key and value types, the type of a variant's payload,
   SIGNATURE-typed values) satisfies the grammar clauses of Spec.wf *)
Fixpoint sigs_strict (v : dval) : bool :=
  match v with
  | VSigv s np => sigval_ok s np
  | VVariant x => sigs_strict x && single_ok (vsig x)
  | VArray el l => single_ok el && forallb sigs_strict l
  | VDict k vs l => is_basic k && single_ok vs && forallb (fun p => sigs_strict (fst p) && sigs_strict (snd p)) l
  | VStruct l => forallb sigs_strict l
  | _ => true
  end.

Lemma len_sig_text s np : len (sig_text s np) <= len (show s).
Proof.
  destruct np; cbn [sig_text]; [|lia]. destruct s; cbn [show_noparens]; try lia.
  cbn [show]. rewrite !len_app. lia.
Qed.

Lemma forallb_split {A} (F G H : A -> bool) l :
  Forall (fun x => F x = G x && H x) l -> forallb F l = forallb G l && forallb H l.
Proof.
  induction 1 as [|x l Hx Hl IH]; [reflexivity|]. cbn [forallb]. rewrite IH, Hx.
  destruct (G x), (H x); cbn [andb]; rewrite ?andb_false_r; reflexivity.
Qed.

Theorem wf_split : forall v, wf v = wfL v && sigs_strict v.
Proof.
  induction v using dval_ind'.
  - destruct v; try contradiction; cbn [wf wfL sigs_strict]; rewrite ?andb_true_r; try reflexivity.
    destruct (sigval_ok s np) eqn:Hs.
    + assert (Hl : (len (sig_text s np) <=? 255) = true).
      { unfold sigval_ok in Hs. apply andb_true_iff in Hs as [_ Hs]. exact Hs. }
      rewrite Hl. cbn [andb]. now rewrite andb_true_r.
    + now rewrite andb_false_r.
  - cbn [wf wfL sigs_strict]. rewrite IHv.
    destruct (wfL v), (sigs_strict v), (single_ok (vsig v)), (len (show (vsig v)) <=? 255); reflexivity.
  - cbn [wf wfL sigs_strict].
    rewrite (forallb_split _ (fun x => wfL x && sig_eqb (vsig x) e) sigs_strict l).
    + destruct (single_ok e), (forallb _ l), (forallb sigs_strict l); reflexivity.
    + eapply Forall_impl; [|exact H]. intros x ->. destruct (wfL x), (sigs_strict x), (sig_eqb (vsig x) e); reflexivity.
  - cbn [wf wfL sigs_strict].
    rewrite (forallb_split _ (fun p => wfL (fst p) && wfL (snd p) && sig_eqb (vsig (fst p)) k && sig_eqb (vsig (snd p)) v)
               (fun p => sigs_strict (fst p) && sigs_strict (snd p)) l).
    + destruct (is_basic k), (single_ok v), (forallb _ l), (forallb _ l); reflexivity.
    + eapply Forall_impl; [|exact H]. intros p [-> ->].
      destruct (wfL (fst p)), (sigs_strict (fst p)), (wfL (snd p)), (sigs_strict (snd p)); cbn [andb];
        rewrite ?andb_true_r, ?andb_false_r; reflexivity.
  - cbn [wf wfL sigs_strict]. rewrite (forallb_split wf wfL sigs_strict l H).
    destruct l; [reflexivity|]. cbn [andb]. reflexivity.
Qed.

Corollary wfL_strict_wf v : wfL v = true -> sigs_strict v = true -> wf v = true.
Proof. intros H1 H2. now rewrite wf_split, H1, H2. Qed.
Corollary wf_wfL v : wf v = true -> wfL v = true /\ sigs_strict v = true.
Proof. rewrite wf_split. intros H. now apply andb_true_iff in H. Qed.

(* ---------- the specification's limit on the nesting of a signature ----------
   "The maximum depth of container type nesting is 32 array type codes and 32 open parentheses."
   (dict entries are written a{..}: they cost one array code)  [da], [ds]: remaining budget. *)
Fixpoint nest_ok (da ds : nat) (s : sig) {struct s} : bool :=
  match s with
  | SArray c | SMaybe c => match da with O => false | S da' => nest_ok da' ds c end
  | SDict k v => match da with O => false | S da' => nest_ok da' ds k && nest_ok da' ds v end
  | SStruct fs => match ds with O => false | S ds' => forallb (nest_ok da ds') fs end
  | _ => true
  end.
Definition sig_nest_ok (s : sig) : bool := nest_ok 32 32 s.
Definition sigv_nest_ok (s : sig) (np : bool) : bool :=
  match np, s with
  | true, SStruct fs => forallb sig_nest_ok fs      (* several complete types, written without parentheses *)
  | _, _ => sig_nest_ok s
  end.
Fixpoint inner_nest_ok (v : dval) : bool :=
  match v with
  | VSigv s np => sigv_nest_ok s np
  | VVariant x => sig_nest_ok (vsig x) && inner_nest_ok x
  | VArray _ l | VStruct l => forallb inner_nest_ok l
  | VDict _ _ l => forallb (fun p => inner_nest_ok (fst p) && inner_nest_ok (snd p)) l
  | _ => true
  end.
Definition sigs_nest_ok (v : dval) : bool := sig_nest_ok (vsig v) && inner_nest_ok v.

(* the known-deviation class of C03: some signature inside the decoded value is outside the D-Bus grammar
   (non-basic dict key, unit/maybe/empty struct as a complete type, over-long or over-deep signature) *)
Definition sig_lenient (v : dval) : bool := negb (sigs_strict v) || negb (sigs_nest_ok v).
