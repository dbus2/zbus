(* DBus/DeSoundBase.v — bookkeeping for the soundness proof of the D-Bus decoder model (C03):
   segments of the input buffer, fixed-width integers read back (enc (dec b) = b), two's complement,
   and exact characterisations of the primitive readers of DBus/De.v (parse_padding, next_slice, rd_fixed,
   de_str).  No dependency on DBus/Run.v. *)
From ZV Require Import Base.Bytes Base.BytesFacts Base.Res Base.Sig Base.SigParse Base.Utf8 Base.WinnowFacts
                       DBus.Val DBus.Spec DBus.Ser DBus.De DBus.SerFacts DBus.SerProofs DBus.DeNoPanic DBus.DeCompleteFacts.
From Coq Require Import Lia.
Local Open Scope N_scope.

(* ---------- bytes ---------- *)
Lemma bn_zero c : (bn c =? 0) = true -> c = x00.
Proof. intros H. apply N.eqb_eq in H. rewrite <- (nb_bn c), H. reflexivity. Qed.

Lemma all_zero l : forallb (fun c => bn c =? 0) l = true -> l = repeat x00 (length l).
Proof.
  induction l as [|c r IH]; [reflexivity|]. cbn [forallb length repeat]. intros H.
  apply andb_true_iff in H as [H1 H2]. rewrite (bn_zero _ H1). f_equal. now apply IH.
Qed.

(* ---------- segments of the buffer ---------- *)
Definition seg (b : bytes) (p q : N) : bytes := takeN (q - p) (dropN p b).

Lemma seg_nil b p : seg b p p = [].
Proof. unfold seg, takeN. rewrite N.sub_diag. reflexivity. Qed.
Lemma seg_cat b p q r : p <= q -> q <= r -> seg b p r = seg b p q ++ seg b q r.
Proof.
  intros H1 H2. unfold seg, takeN, dropN.
  replace (N.to_nat (r - p)) with (N.to_nat (q - p) + N.to_nat (r - q))%nat by lia.
  rewrite firstn_add. f_equal. rewrite skipn_add. do 2 f_equal. lia.
Qed.
Lemma length_seg b p q : q <= len b -> length (seg b p q) = N.to_nat (q - p).
Proof. intros H. unfold seg, takeN, dropN, len in *. rewrite firstn_length, skipn_length. lia. Qed.
Lemma len_seg b p q : q <= len b -> len (seg b p q) = q - p.
Proof. intros H. unfold len at 1. rewrite length_seg by exact H. lia. Qed.
Lemma seg_add b p n : seg b p (p + n) = takeN n (dropN p b).
Proof. unfold seg. f_equal. lia. Qed.

Lemma nthN_dropN {A} (l : list A) i x : nthN l i = Some x -> exists r, dropN i l = x :: r.
Proof.
  unfold nthN, dropN. destruct (i <? N.of_nat (length l)); [|discriminate].
  generalize (N.to_nat i). clear i. intros n. revert l. induction n as [|n IH]; intros [|y l] H; cbn in H; try discriminate.
  - inversion H. cbn. eauto.
  - cbn. eauto.
Qed.
Lemma nthN_seg_head l i x q y r : nthN l i = Some x -> seg l i q = y :: r -> x = y.
Proof.
  intros H1 H2. destruct (nthN_dropN _ _ _ H1) as [t Ht]. unfold seg, takeN in H2. rewrite Ht in H2.
  destruct (N.to_nat (q - i)); [discriminate|]. cbn in H2. congruence.
Qed.

(* ---------- fixed-width integers ---------- *)
Lemma le_bytes_le_val l : le_bytes (length l) (le_val l) = l.
Proof.
  induction l as [|c r IH]; [reflexivity|]. cbn [length le_val le_bytes]. pose proof (bn_lt c) as Hc.
  replace ((bn c + 256 * le_val r) mod 256) with (bn c)
    by (rewrite (N.mul_comm 256), N.mod_add by lia; now rewrite N.mod_small).
  replace ((bn c + 256 * le_val r) / 256) with (le_val r)
    by (rewrite (N.mul_comm 256), N.div_add by lia; rewrite N.div_small by exact Hc; reflexivity).
  now rewrite IH, nb_bn.
Qed.
Lemma enc_dec e l : enc e (length l) (dec e l) = l.
Proof.
  destruct e; cbn [enc dec]; [apply le_bytes_le_val|].
  rewrite <- (rev_length l). rewrite le_bytes_le_val. apply rev_involutive.
Qed.
Lemma le_val_lt l : le_val l < 256 ^ N.of_nat (length l).
Proof.
  induction l as [|c r IH]; [cbn; lia|]. cbn [length le_val]. rewrite Nat2N.inj_succ, N.pow_succ_r'.
  pose proof (bn_lt c). lia.
Qed.
Lemma dec_lt e l : dec e l < 256 ^ N.of_nat (length l).
Proof. destruct e; cbn [dec]; [apply le_val_lt|]. rewrite <- (rev_length l). apply le_val_lt. Qed.

Lemma le_val_single c : le_val [c] = bn c.
Proof. cbn [le_val]. lia. Qed.

Lemma twos_untwos bits x : x < 2 ^ bits -> twos bits (untwos bits x) = x.
Proof.
  intros H. unfold twos, untwos. apply N2Z.inj_lt in H. rewrite N2Z.inj_pow in H.
  set (M := (2 ^ Z.of_N bits)%Z) in *. destruct (x <? 2 ^ (bits - 1)).
  - rewrite Z.mod_small by lia. apply N2Z.id.
  - replace (Z.of_N x - M)%Z with (Z.of_N x + -1 * M)%Z by lia.
    rewrite Z.mod_add, Z.mod_small by lia. apply N2Z.id.
Qed.
Lemma untwos_range bits x : 0 < bits -> x < 2 ^ bits ->
  ((- 2 ^ Z.of_N (bits - 1) <=? untwos bits x)%Z && (untwos bits x <? 2 ^ Z.of_N (bits - 1))%Z) = true.
Proof.
  intros Hb H. apply andb_true_iff. rewrite Z.leb_le, Z.ltb_lt. unfold untwos.
  apply N2Z.inj_lt in H. rewrite N2Z.inj_pow in H. change (Z.of_N 2) with 2%Z in H.
  rewrite (pow2_pred bits Hb) in *. destruct (N.ltb_spec x (2 ^ (bits - 1))) as [Hl|Hl].
  - lia.
  - apply N2Z.inj_le in Hl. rewrite N2Z.inj_pow in Hl. change (Z.of_N 2) with 2%Z in Hl. lia.
Qed.

Lemma align_dbus_nz g : align_dbus g <> 0.
Proof. exact (DeCompleteFacts.align_dbus_nz g). Qed.

(* ---------- the primitive readers ---------- *)
Lemma tset_pos_same st : tset_pos st (t_pos st) = st.
Proof. destruct st; reflexivity. Qed.

Lemma parse_padding_ok st al st' : parse_padding st al = Ok st' ->
  st' = tset_pos st (t_pos st + padn (tabs st) al) /\
  seg (t_bytes st) (t_pos st) (t_pos st') = pad (tabs st) al /\ (t_pos st <= blen st -> t_pos st' <= blen st).
Proof.
  unfold parse_padding. destruct (N.eqb_spec (padn (tabs st) al) 0) as [E|E].
  - intros [= <-]. rewrite E, N.add_0_r, tset_pos_same, seg_nil. unfold pad. rewrite E. auto.
  - destruct (N.ltb_spec (blen st) (t_pos st + padn (tabs st) al)) as [Hb|Hb]; [discriminate|].
    destruct (forallb _ _) eqn:Hz; [|discriminate]. intros [= <-]. split; [reflexivity|]. split; [|intros _; exact Hb].
    cbn [tset_pos t_pos]. rewrite seg_add. apply all_zero in Hz. rewrite Hz. unfold pad, zeros. f_equal.
    rewrite <- seg_add. rewrite length_seg by exact Hb. f_equal. lia.
Qed.

Lemma next_slice_ok st n b st' : next_slice st n = Ok (b, st') ->
  st' = tset_pos st (t_pos st + n) /\ t_pos st + n <= blen st /\
  b = seg (t_bytes st) (t_pos st) (t_pos st + n) /\ length b = N.to_nat n.
Proof.
  unfold next_slice. destruct (N.ltb_spec (blen st) (t_pos st + n)) as [Hb|Hb]; [discriminate|].
  intros H. inversion H; subst. rewrite <- seg_add. repeat split; try assumption.
  rewrite length_seg by exact Hb. lia.
Qed.

Lemma rd_fixed_ok st n x st' (k : nat) : N.of_nat k = n -> rd_fixed st n = Ok (x, st') ->
  st' = tset_pos st (t_pos st + padn (tabs st) n + n) /\ t_pos st' <= blen st /\
  seg (t_bytes st) (t_pos st) (t_pos st') = pad (tabs st) n ++ enc (t_e st) k x /\ x < 256 ^ n.
Proof.
  intros Hk. unfold rd_fixed. destruct (parse_padding st n) as [s1| |] eqn:E1; cbn [bind]; try discriminate.
  destruct (next_slice s1 n) as [[b s2]| |] eqn:E2; cbn [bind]; try discriminate.
  intros H. inversion H; subst x st'. clear H.
  destruct (parse_padding_ok _ _ _ E1) as (-> & Hp & _). cbn [tset_pos t_pos] in Hp.
  destruct (next_slice_ok _ _ _ _ E2) as (-> & Hb & Hs & Hl). cbn [tset_pos t_pos t_bytes t_e blen] in *.
  assert (Hk' : length b = k) by lia.
  split; [reflexivity|]. split; [exact Hb|]. split.
  - rewrite (seg_cat _ _ (t_pos st + padn (tabs st) n)) by lia. rewrite Hp, <- Hs. f_equal.
    rewrite <- Hk'. symmetry. apply enc_dec.
  - rewrite <- Hk, <- Hk'. apply dec_lt.
Qed.

Lemma str_body_ok n st s st' : str_body n st = Ok (s, st') ->
  st' = tset_pos st (t_pos st + n + 1) /\ t_pos st + n + 1 <= blen st /\ len s = n /\
  seg (t_bytes st) (t_pos st) (t_pos st + n) = s /\ seg (t_bytes st) (t_pos st + n) (t_pos st + n + 1) = [x00] /\
  nul_free s = true /\ utf8_valid s = true.
Proof.
  unfold str_body. destruct (next_slice st n) as [[s0 s2]| |] eqn:E2; cbn [bind]; try discriminate.
  destruct (nul_free s0) eqn:Hnf; cbn [negb]; [|discriminate].
  destruct (next_slice s2 1) as [[t s3]| |] eqn:E3; cbn [bind]; try discriminate.
  destruct (forallb (fun c => bn c =? 0) t) eqn:Hz; cbn [negb]; [|discriminate].
  destruct (utf8_valid s0) eqn:Hu; [|discriminate]. intros [= <- <-].
  destruct (next_slice_ok _ _ _ _ E2) as (-> & Hb2 & Hs2 & Hl2).
  destruct (next_slice_ok _ _ _ _ E3) as (-> & Hb3 & Hs3 & Hl3). cbn [tset_pos t_pos t_bytes blen] in *.
  apply all_zero in Hz. rewrite Hl3 in Hz.
  repeat split; try assumption; [unfold len; lia|now symmetry|now rewrite <- Hs3].
Qed.

(* strings with a 4-byte length (STRING, OBJECT_PATH) *)
Lemma de_str_4_ok st s st' : (t_sig st = SStr \/ t_sig st = SObjPath) -> de_str st = Ok (s, st') ->
  exists p', st' = tset_pos st p' /\ t_pos st <= p' /\ p' <= blen st /\
             seg (t_bytes st) (t_pos st) p' = pad (tabs st) 4 ++ enc (t_e st) 4 (len s) ++ s ++ [x00] /\
             str_ok s = true.
Proof.
  intros Hsig. rewrite de_str_stages.
  replace (str_len st) with (rd_fixed st 4) by (unfold str_len; now destruct Hsig as [-> | ->]).
  destruct (rd_fixed st 4) as [[n s1]| |] eqn:E1; cbn [bind]; try discriminate. intros E2.
  destruct (rd_fixed_ok st 4 n s1 4%nat eq_refl E1) as (-> & Hb1 & Hs1 & Hn).
  destruct (str_body_ok _ _ _ _ E2) as (-> & Hb & <- & Hs2 & Hs3 & Hnf & Hu). cbn [tset_pos t_pos t_bytes blen] in *.
  set (p1 := t_pos st + padn (tabs st) 4 + 4) in *.
  eexists. split; [reflexivity|]. split; [lia|]. split; [exact Hb|]. split.
  - rewrite (seg_cat _ _ p1), (seg_cat _ p1 (p1 + len s)) by lia. now rewrite Hs1, Hs2, Hs3, <- app_assoc.
  - unfold str_ok. rewrite Hnf, Hu. apply N.ltb_lt, Hn.
Qed.

(* strings with a 1-byte length (SIGNATURE, and the signature of a VARIANT) *)
Lemma de_str_1_ok st s st' : (t_sig st = SSig \/ t_sig st = SVariant) -> de_str st = Ok (s, st') ->
  st' = tset_pos st (t_pos st + 1 + len s + 1) /\ t_pos st + 1 + len s + 1 <= blen st /\
  seg (t_bytes st) (t_pos st) (t_pos st + 1 + len s + 1) = nb (len s) :: s ++ [x00] /\
  seg (t_bytes st) (t_pos st + 1) (t_pos st + 1 + len s) = s /\ len s <= 255.
Proof.
  intros Hsig. rewrite de_str_stages.
  replace (str_len st) with (let* (b, st0) := next_slice st 1 in Ok (dec LE b, st0))
    by (unfold str_len; now destruct Hsig as [-> | ->]).
  destruct (next_slice st 1) as [[b s1]| |] eqn:E1; cbn [bind]; try discriminate. intros E2.
  destruct (next_slice_ok _ _ _ _ E1) as (-> & Hb1 & Hs1 & Hl1).
  change (N.to_nat 1) with 1%nat in Hl1. destruct b as [|c [|? ?]]; try discriminate Hl1.
  cbn [dec] in E2. rewrite le_val_single in E2.
  destruct (str_body_ok _ _ _ _ E2) as (-> & Hb & Hlen & Hs2 & Hs3 & _). cbn [tset_pos t_pos t_bytes blen] in *.
  pose proof (bn_lt c). rewrite Hlen. repeat split; try assumption; [|lia].
  rewrite (seg_cat _ _ (t_pos st + 1)), (seg_cat _ (t_pos st + 1) (t_pos st + 1 + bn c)) by lia.
  now rewrite <- Hs1, Hs2, Hs3, nb_bn.
Qed.
