(* DBus/DeFacts.v — one-step unfoldings of the decoder per signature, the frame property (decoding changes
   only the cursor and the depth counters) and the no-panic theorem of C04 for the D-Bus format. *)
From ZV Require Import Base.Bytes Base.Res Base.Sig Base.SigParse Base.Utf8 DBus.Val DBus.Spec DBus.Ser DBus.De DBus.DeNoPanic.
From Coq Require Import Lia.
Local Open Scope N_scope.

(* ---------- one-step unfoldings of de_any ---------- *)
(* the fixed-width numeric types: width in bytes and how the number read becomes a value *)
Definition fixed_of (g : sig) : option (nat * (N -> dval)) :=
  match g with
  | SU8 => Some (1, VU8) | SU16 => Some (2, VU16) | SU32 => Some (4, VU32) | SU64 => Some (8, VU64) | SF64 => Some (8, VF64)
  | SI16 => Some (2, fun x => VI16 (untwos 16 x)) | SI32 => Some (4, fun x => VI32 (untwos 32 x))
  | SI64 => Some (8, fun x => VI64 (untwos 64 x))
  | _ => None
  end%nat.
Lemma de_any_fixed f st m k : fixed_of (t_sig st) = Some (m, k) ->
  de_any (S f) st = let* (x, st) := rd_fixed st (N.of_nat m) in Ok (k x, st).
Proof. cbn [de_any]. destruct (t_sig st); intros [= <- <-]; reflexivity. Qed.
Lemma de_any_bool f st : t_sig st = SBool -> de_any (S f) st =
  let* (x, st) := rd_fixed st 4 in
  if (x =? 1)%N then Ok (VBool true, st) else if (x =? 0)%N then Ok (VBool false, st) else Err EValue.
Proof. intros H. cbn [de_any]. rewrite H. reflexivity. Qed.
Lemma de_any_fd f st : t_sig st = SFd -> de_any (S f) st =
  let* (i, st) := rd_fixed st 4 in
  match nthN (t_fds st) i with Some h => Ok (VFd h, st) | None => Err EUnknownFd end.
Proof. intros H. cbn [de_any]. rewrite H. reflexivity. Qed.
Lemma de_any_str f st : t_sig st = SStr -> de_any (S f) st = let* (s, st) := de_str st in Ok (VStr s, st).
Proof. intros H. cbn [de_any]. rewrite H. reflexivity. Qed.
Lemma de_any_path f st : t_sig st = SObjPath -> de_any (S f) st =
  let* (s, st) := de_str st in if path_ok s then Ok (VPath s, st) else Err EValue.
Proof. intros H. cbn [de_any]. rewrite H. reflexivity. Qed.
Lemma de_any_sig f st : t_sig st = SSig -> de_any (S f) st =
  let* (s, st) := de_str st in
  match parse_sig (c_gv (t_cfg st)) s with Some g => Ok (VSigv g (negb (lbeq (show g) s)), st) | None => Err ESigParse end.
Proof. intros H. cbn [de_any]. rewrite H. reflexivity. Qed.
Lemma de_any_variant f st : t_sig st = SVariant -> de_any (S f) st =
  (let sig_start := t_pos st in
   let* (s, st1) := de_str (tset_sig st SSig) in
   let* _ := match parse_sig (c_gv (t_cfg st)) s with Some g => Ok g | None => Err ESigParse end in
   let st1 := tset_sig st1 SVariant in
   match nthN (t_bytes st) sig_start with
   | None => Panic PIndex
   | Some lb =>
       let sig_len := bn lb in
       let value_start := (sig_start + 1 + sig_len + 1)%N in
       if (blen st <? sig_start + 1 + sig_len)%N then Err EBounds else
       let slice := takeN sig_len (dropN (sig_start + 1) (t_bytes st)) in
       match parse_sig (c_gv (t_cfg st)) slice with
       | None => Err ESigParse
       | Some g =>
           if (match g with SUnit => true | _ => false end) || negb (len (show g) =? sig_len)%N then Err ESigMismatch else
           if (blen st <? value_start)%N then Err EBounds else
           let* d := inc_variant (t_dep st1) in
           let inner := {| t_cfg := t_cfg st; t_e := t_e st; t_pos0 := t_pos0 st; t_bytes := t_bytes st;
                           t_pos := value_start; t_sig := g; t_dep := d; t_fds := t_fds st |} in
           let* (v, inner') := de_any f inner in
           Ok (VVariant v, tset_pos st1 (t_pos st1 + (t_pos inner' - value_start)))
       end
   end).
Proof. intros H. cbn [de_any]. rewrite H. reflexivity. Qed.
Lemma de_any_array f st c : t_sig st = SArray c ->
  de_any (S f) st =
  (let* st := parse_padding st 4 in
   let* d := inc_array (t_dep st) in
   let st := tset_dep st d in
   let* (b, st) := next_slice st 4 in
   let n := dec (t_e st) b in
   let* al := align_of c in
   let* st := parse_padding st al in
   let asig := t_sig st in
   let st := tset_sig st c in
   let start := t_pos st in
   let* (l, st) := arr_loop (de_any f) al start n c (S (length (t_bytes st))) st [] in
   Ok (VArray c l, tset_sig (tset_dep st (dec_array (t_dep st))) asig)).
Proof. intros H. cbn [de_any]. rewrite H. reflexivity. Qed.

Lemma de_any_dict f st ks vs : t_sig st = SDict ks vs ->
  de_any (S f) st =
  (let* st := parse_padding st 4 in
   let* d := inc_array (t_dep st) in
   let st := tset_dep st d in
   let* (b, st) := next_slice st 4 in
   let n := dec (t_e st) b in
   let* st := parse_padding st 8 in
   let asig := t_sig st in
   let st := tset_sig st ks in
   let start := t_pos st in
   let* (l, st) := dict_loop (de_any f) start n ks vs (S (length (t_bytes st))) st [] in
   Ok (VDict ks vs l, tset_sig (tset_dep st (dec_array (t_dep st))) asig)).
Proof. intros H. cbn [de_any]. rewrite H. reflexivity. Qed.

Lemma de_any_struct f st fs : t_sig st = SStruct fs ->
  de_any (S f) st =
  (let* st := parse_padding st 8 in
   let* d := inc_struct (t_dep st) in
   let st := tset_dep st d in
   let* (l, st) := struct_loop (de_any f) fs st [] in
   Ok (VStruct l, match fs with [] => st | _ => tset_dep st (dec_struct (t_dep st)) end)).
Proof. intros H. cbn [de_any]. rewrite H. reflexivity. Qed.

(* ---------- the decoder never panics without the gvariant feature, and keeps the frame ---------- *)
Definition Pre (st : dstate) : Prop := c_gv (t_cfg st) = false /\ maybe_free (t_sig st) = true.

Lemma Pre_frame a b : Pre a -> frame a b -> Pre b.
Proof. intros [H1 H2] (F1 & _ & _ & _ & F5 & _). split; congruence. Qed.
Lemma Pre_sig a g : Pre a -> maybe_free g = true -> Pre (tset_sig a g).
Proof. intros [H1 _] Hg. split; assumption. Qed.

Section LoopsQ.
  Variable de : dstate -> res cerr (dval * dstate).
  Hypothesis Hde : forall st, Pre st -> Q st (de st).

  Lemma arr_loop_Q al start n c : forall k st acc, Pre st -> Q st (arr_loop de al start n c k st acc).
  Proof.
    induction k as [|k IH]; intros st acc HP; [exact I|]. cbn [arr_loop].
    destruct (t_pos st =? start + n); [apply frame_refl|].
    eapply safe_bind; [apply parse_padding_Q|]. intros s1 F1.
    apply (Q_trans _ s1 _ F1). eapply safe_bind; [apply Hde, (Pre_frame _ _ HP F1)|]. intros [v s2] F2. cbv beta iota.
    destruct (start + n <? t_pos s2); [exact I|]. destruct (negb (sig_eqb (vsig v) c)); [exact I|].
    apply (Q_trans _ s2 _ F2), IH, (Pre_frame _ _ HP (frame_trans _ _ _ F1 F2)).
  Qed.

  Lemma dict_loop_Q start n vs : maybe_free vs = true ->
    forall k st acc, Pre st -> Q st (dict_loop de start n (t_sig st) vs k st acc).
  Proof.
    intros Hvs. induction k as [|k IH]; intros st acc HP; [exact I|]. cbn [dict_loop].
    destruct (t_pos st =? start + n); [apply frame_refl|].
    eapply safe_bind; [apply parse_padding_Q|]. intros s1 F1.
    apply (Q_trans _ s1 _ F1). eapply safe_bind; [apply Hde, (Pre_frame _ _ HP F1)|]. intros [kv s2] F2. cbv beta iota.
    destruct (start + n <? t_pos s2); [exact I|].
    pose proof (Pre_frame _ _ HP (frame_trans _ _ _ F1 F2)) as P2.
    (* the value is decoded under [vs]; then the key signature, which is that of [st], is put back *)
    assert (E : t_sig st = t_sig s2) by (symmetry; apply (frame_trans _ _ _ F1 F2)). rewrite E.
    apply (Q_trans _ s2 _ F2). eapply safe_bind; [apply Hde, (Pre_sig _ _ P2 Hvs)|]. intros [vv s3] F3. cbv beta iota.
    apply frame_resig in F3.
    destruct (start + n <? t_pos s3); [exact I|]. destruct (_ || _); [exact I|].
    exact (Q_trans _ _ _ F3 (IH (tset_sig s3 (t_sig s2)) _ (Pre_frame _ _ P2 F3))).
  Qed.

  Lemma struct_loop_Q : forall gs st acc, c_gv (t_cfg st) = false -> forallb maybe_free gs = true ->
    Q st (struct_loop de gs st acc).
  Proof.
    induction gs as [|g gs IH]; intros st acc Hc Hm; [apply frame_refl|]. cbn [struct_loop].
    cbn [forallb] in Hm. apply andb_true_iff in Hm as [Hg Hm].
    eapply safe_bind; [apply (Hde (tset_sig st g)); split; assumption|]. intros [v sub] _. cbv beta iota.
    apply (Q_trans _ _ _ (frame_pos st (t_pos sub))), IH; assumption.
  Qed.
End LoopsQ.

Lemma de_str_in_bounds st s st' : t_sig st = SSig -> de_str st = Ok (s, st') -> t_pos st < blen st.
Proof.
  unfold de_str. intros Hs. rewrite Hs. unfold next_slice at 1.
  destruct (N.ltb_spec (blen st) (t_pos st + 1)); cbn [bind]; [discriminate|]. intros _. lia.
Qed.

Lemma nthN_some {A} (l : list A) i : i < N.of_nat (length l) -> exists x, nthN l i = Some x.
Proof.
  intros H. unfold nthN. destruct (N.ltb_spec i (N.of_nat (length l))); [|lia].
  destruct (nth_error l (N.to_nat i)) eqn:E; [eauto|]. apply nth_error_None in E. lia.
Qed.

Lemma dcheck_safe d : safe (fun _ => True) (dcheck d).
Proof. unfold dcheck. destruct (32 <? _); [exact I|]. destruct (32 <? _); [exact I|]. destruct (64 <? _); exact I. Qed.

Theorem de_any_Q : forall fuel st, Pre st -> Q st (de_any fuel st).
Proof.
  induction fuel as [|f IH]; intros st HP; [exact I|].
  destruct (fixed_of (t_sig st)) as [[m k]|] eqn:Ef.
  { rewrite (de_any_fixed f st m k Ef). eapply safe_bind; [apply rd_fixed_Q|]. intros [x s1] F. exact F. }
  destruct HP as [Hc Hm]. destruct (t_sig st) as [ | | | | | | | | | | | | | | |c|k v|fs|c'] eqn:Hs; try discriminate Ef.
  - (* unit *) cbn [de_any]. rewrite Hs. exact I.
  - rewrite (de_any_bool f st Hs). eapply safe_bind; [apply rd_fixed_Q|]. intros [x s1] F. cbv beta iota.
    destruct (x =? 1); [exact F|]. destruct (x =? 0); [exact F|exact I].
  - rewrite (de_any_str f st Hs). eapply safe_bind; [apply de_str_Q|]. intros [s s1] F. exact F.
  - rewrite (de_any_sig f st Hs). eapply safe_bind; [apply de_str_Q|]. intros [s s1] F. cbv beta iota.
    destruct (parse_sig _ s); [exact F|exact I].
  - rewrite (de_any_path f st Hs). eapply safe_bind; [apply de_str_Q|]. intros [s s1] F. cbv beta iota.
    destruct (path_ok s); [exact F|exact I].
  - (* variant: the length byte read again lies inside the buffer because de_str has just read it *)
    rewrite (de_any_variant f st Hs). cbv zeta.
    destruct (de_str (tset_sig st SSig)) as [[s s1]| |] eqn:Eds; try exact I.
    2:{ pose proof (de_str_Q (tset_sig st SSig)) as H. now rewrite Eds in H. }
    pose proof (de_str_Q (tset_sig st SSig)) as F1. rewrite Eds in F1. apply frame_resig in F1. cbn [snd tset_sig t_sig] in F1.
    rewrite Hs in F1. cbn [bind].
    destruct (parse_sig (c_gv (t_cfg st)) s) as [g0|]; cbn [bind]; [|exact I].
    pose proof (de_str_in_bounds (tset_sig st SSig) _ _ eq_refl Eds) as Hb.
    destruct (nthN_some (t_bytes st) (t_pos st) Hb) as [lb ->].
    destruct (blen st <? t_pos st + 1 + bn lb); [exact I|].
    destruct (parse_sig (c_gv (t_cfg st)) _) as [g|] eqn:Eg; [|exact I].
    destruct (_ || _); [exact I|]. destruct (blen st <? _); [exact I|].
    eapply safe_bind; [apply dcheck_safe|]. intros d _.
    rewrite Hc in Eg. apply parse_sig_maybe_free in Eg.
    eapply safe_bind; [apply IH; split; [exact Hc|exact Eg]|]. intros [x inner'] _.
    exact (frame_trans _ _ _ F1 (frame_pos _ _)).
  - rewrite (de_any_fd f st Hs). eapply safe_bind; [apply rd_fixed_Q|]. intros [x s1] F. cbv beta iota.
    destruct (nthN _ x); [exact F|exact I].
  - (* array *)
    rewrite (de_any_array f st c Hs). cbn [maybe_free] in Hm.
    eapply safe_bind; [apply parse_padding_Q|]. intros s1 F1.
    eapply safe_bind; [apply dcheck_safe|]. intros d _. cbv beta zeta.
    eapply safe_bind; [apply next_slice_Q|]. intros [b s2] F2. cbv beta iota zeta.
    assert (Ha : align_of c = Ok (align_dbus c)) by (destruct c; try reflexivity; discriminate Hm). rewrite Ha. cbn [bind].
    eapply safe_bind; [apply parse_padding_Q|]. intros s3 F3.
    assert (F : frame st s3) by exact (frame_trans _ _ _ F1 (frame_trans _ _ _ (frame_dep s1 d) (frame_trans _ _ _ F2 F3))).
    assert (P3 : Pre s3) by (apply (Pre_frame st), F; split; [exact Hc|now rewrite Hs]).
    eapply safe_bind; [apply (arr_loop_Q (de_any f) IH), (Pre_sig s3 c P3 Hm)|].
    intros [l s4] F4. apply frame_resig in F4.
    exact (frame_trans _ _ _ F (frame_trans _ _ _ F4 (frame_dep _ _))).
  - (* dict *)
    rewrite (de_any_dict f st k v Hs). cbn [maybe_free] in Hm. apply andb_true_iff in Hm as [Hk Hv].
    eapply safe_bind; [apply parse_padding_Q|]. intros s1 F1.
    eapply safe_bind; [apply dcheck_safe|]. intros d _. cbv beta zeta.
    eapply safe_bind; [apply next_slice_Q|]. intros [b s2] F2. cbv beta iota zeta.
    eapply safe_bind; [apply parse_padding_Q|]. intros s3 F3.
    assert (F : frame st s3) by exact (frame_trans _ _ _ F1 (frame_trans _ _ _ (frame_dep s1 d) (frame_trans _ _ _ F2 F3))).
    assert (P3 : Pre s3) by (apply (Pre_frame st), F; split; [exact Hc|now rewrite Hs; cbn [maybe_free]; rewrite Hk]).
    eapply safe_bind; [apply (dict_loop_Q (de_any f) IH _ _ v Hv _ (tset_sig s3 k)), (Pre_sig s3 k P3 Hk)|].
    intros [l s4] F4. apply frame_resig in F4.
    exact (frame_trans _ _ _ F (frame_trans _ _ _ F4 (frame_dep _ _))).
  - (* struct *)
    rewrite (de_any_struct f st fs Hs). cbn [maybe_free] in Hm.
    eapply safe_bind; [apply parse_padding_Q|]. intros s1 F1.
    eapply safe_bind; [apply dcheck_safe|]. intros d _. cbv beta zeta.
    eapply safe_bind; [apply (struct_loop_Q (de_any f) IH fs (tset_dep s1 d)); [cbn [tset_dep t_cfg]; rewrite (proj1 F1); exact Hc|exact Hm]|].
    intros [l s4] F4.
    apply (frame_trans _ _ _ F1), (frame_trans _ _ _ (frame_dep s1 d)), (frame_trans _ _ _ F4).
    destruct fs; [apply frame_refl|apply frame_dep].
  - (* maybe *) discriminate Hm.
Qed.

Corollary de_any_nopanic fuel st : c_gv (t_cfg st) = false -> maybe_free (t_sig st) = true ->
  is_panic (de_any fuel st) = false.
Proof.
  intros H1 H2. pose proof (de_any_Q fuel st (conj H1 H2)) as H. destruct (de_any fuel st) as [[? ?]| |]; [reflexivity|reflexivity|contradiction].
Qed.

Lemma de_value_top_nopanic c e pos b fds : c_gv c = false -> is_panic (de_value_top c e pos b fds) = false.
Proof.
  intros Hc. unfold de_value_top.
  pose proof (de_any_nopanic de_fuel (init_dstate c e pos SVariant b fds) Hc eq_refl) as H.
  destruct (de_any de_fuel _) as [[v st]| |]; cbn [bind] in *; try reflexivity; try discriminate.
  destruct v; reflexivity.
Qed.
Lemma de_struct_top_nopanic c e pos g b fds : c_gv c = false -> maybe_free g = true ->
  is_panic (de_struct_top c e pos g b fds) = false.
Proof.
  intros Hc Hg. unfold de_struct_top.
  assert (Hg' : maybe_free (match g with SStruct _ => g | _ => SStruct [g] end) = true).
  { destruct g; cbn in *; rewrite ?Hg; reflexivity. }
  pose proof (de_any_nopanic de_fuel (init_dstate c e pos _ b fds) Hc Hg') as H.
  destruct (de_any de_fuel _) as [[v st]| |]; cbn [bind] in *; try reflexivity; discriminate.
Qed.

(* the known class: with the gvariant feature compiled in, `amy` panics (alignment of a maybe in D-Bus format) *)
Lemma maybe_panics : exists c e pos g b fds, c_gv c = true /\ de_struct_top c e pos g b fds = Panic PUnreachable.
Proof.
  exists {| c_gv := true; c_oaa := false |}, LE, 0, (SArray (SMaybe SU8)), [x00; x00; x00; x00], [].
  split; [reflexivity|]. vm_compute. reflexivity.
Qed.
