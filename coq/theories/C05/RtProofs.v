(* C05/RtProofs.v — C02, GVariant half: the deserializer model reads back what the format prescribes (and, outside the
   known classes, what the serializer model writes): decode (encode v) = v, consuming exactly the encoding.
   All types (fixed-size types, strings, object paths, signatures, variants, maybes, arrays, tuples, dicts); values outside
   the known classes of C05, without descriptors; the type string of a variant's payload at most stack_limit bytes.
   One statement, [reads], is proved by induction over values: a container hands each child a sub-deserializer whose window
   ends exactly with the child, or, for a child of fixed size, anywhere after it ([read_window]); each loop of the decoder
   is followed one iteration at a time ([arr_step], [struct_step], [dict_step]). *)
From ZV Require Import Base.Bytes Base.BytesFacts Base.Res Base.Sig Base.SigParse Base.SigParseFacts Base.Utf8 DBus.Val DBus.Spec DBus.Ser DBus.De DBus.SerFacts
  C05.Val C05.Spec C05.Model C05.DeModel C05.Classes C05.Facts C05.SigFacts C05.SerProofs C05.DeProofs C05.RtFacts.
From ZV Require DBus.DeCompleteFacts DBus.SerProofs.
From Coq Require Import Lia.
Local Open Scope N_scope.

(* nesting height: the recursion fuel the decoder needs *)
Fixpoint gheight (v : gval) : nat :=
  match v with
  | GVariant x => S (gheight x)
  | GMaybe _ (Some x) => S (gheight x)
  | GArray _ l | GStruct l => S ((fix go (l : list gval) : nat := match l with [] => 0%nat | x :: r => Nat.max (gheight x) (go r) end) l)
  | GDict _ _ l => S ((fix go (l : list (gval * gval)) : nat :=
                         match l with [] => 0%nat | (k, x) :: r => Nat.max (Nat.max (gheight k) (gheight x)) (go r) end) l)
  | _ => 1%nat
  end.
Fixpoint gheights (l : list gval) : nat := match l with [] => 0%nat | x :: r => Nat.max (gheight x) (gheights r) end.
Fixpoint gheightp (l : list (gval * gval)) : nat :=
  match l with [] => 0%nat | (k, x) :: r => Nat.max (Nat.max (gheight k) (gheight x)) (gheightp r) end.
Lemma gheight_array el l : gheight (GArray el l) = S (gheights l).
Proof. reflexivity. Qed.
Lemma gheight_struct l : gheight (GStruct l) = S (gheights l).
Proof. reflexivity. Qed.
Lemma gheight_dict ks vs l : gheight (GDict ks vs l) = S (gheightp l).
Proof. reflexivity. Qed.
Lemma gheight_pos v : (1 <= gheight v)%nat.
Proof. destruct v as [| | | | | | | | | | | | | | | | |? []]; cbn [gheight]; lia. Qed.
Lemma gheights_in x l : In x l -> (gheight x <= gheights l)%nat.
Proof. induction l as [|y r IH]; [intros []|]. cbn [gheights]. intros [->|H]; [lia|]. specialize (IH H). lia. Qed.

Lemma enc_1 e n : n < 256 -> enc e 1 n = [nb n].
Proof. intros H. destruct e; cbn; unfold nb; rewrite N.mod_mod by lia; reflexivity. Qed.

Lemma frev_snoc {A} (acc : list A) x l : frev (x :: acc) ++ l = frev acc ++ x :: l.
Proof. rewrite !frev_rev. cbn [rev]. now rewrite <- app_assoc. Qed.
Lemma pad_after q al : al <> 0 -> pad (q + padn q al) al = [].
Proof. intros H. apply pad_aligned; [assumption|now apply padn_after]. Qed.

Section R.
  Variable e : endian.

  Definition big : N := 18446744073709551616.

  Definition node_rt (v : gval) : bool :=
    match v with
    | GVariant x => len (show (gsig x)) <=? stack_limit
    | _ => true
    end.
  Definition rtok (v : gval) : bool := all_nodes node_rt v.

  (* what the round trip assumes of a decoder state, and of a value to be read at nesting depths [d] *)
  Definition sok (st : dst) : Prop := r_e st = e /\ dep_ok (r_dep st) /\ r_len st < big.
  Definition vok (d : depths) (v : gval) : Prop := gwf v = true /\ pre e v = true /\ rtok v = true /\ gfits d v.

  (* [v] is read from a state whose remaining bytes begin with its padded encoding [px]; unless the type of [v] is of
     fixed size the window has to end where [px] ends *)
  Definition reads (v : gval) : Prop := forall fuel st px t,
    (gheight v <= fuel)%nat -> sok st -> vok (r_dep st) v -> r_sig st = gsig v ->
    px = pad (r_pos0 st + r_pos st) (galign (gsig v)) ++ gvb e v ->
    r_rest st = px ++ t -> r_pos st + len px <= r_len st ->
    (gis_fixed (gsig v) = true \/ r_pos st + len px = r_len st) ->
    exists st', gde fuel st = Ok (v, st') /\ r_pos st' = r_pos st + len px.

  (* the step every container takes for a child: a sub-deserializer over the bytes up to [hi] reads it *)
  Lemma read_window x : reads x -> forall fuel st hi d px t,
    (gheight x <= fuel)%nat -> sok st -> dep_ok d -> vok d x ->
    px = pad (r_pos0 st + r_pos st) (galign (gsig x)) ++ gvb e x ->
    r_rest st = px ++ t -> r_pos st + len px <= hi -> hi <= r_len st ->
    (gis_fixed (gsig x) = true \/ r_pos st + len px = hi) ->
    exists sub', gde fuel (window st hi (gsig x) d) = Ok (x, sub') /\ r_pos sub' = len px.
  Proof.
    intros Hx fuel st hi d px t Hfuel (He & _ & Hl) Hd Hv Hpx Hrest Hlo Hhi Hfx.
    destruct (Hx fuel (window st hi (gsig x) d) px t) as (sub' & Hdec & Hpos); cbn [window r_e r_dep r_len r_sig r_pos0 r_pos r_rest];
      rewrite ?N.add_0_r; try assumption; try reflexivity; try lia.
    - split; [exact He|split; [exact Hd|]]. cbn [window r_len]. unfold big in *. lia.
    - destruct Hfx; [now left|right; lia].
    - exists sub'. split; [assumption|]. rewrite Hpos. reflexivity.
  Qed.

  Lemma vok_just d cs x : dep_ok d -> vok d (GMaybe cs (Some x)) ->
    exists d', inc_maybe d = Ok d' /\ dep_ok d' /\ vok d' x /\ gsig x = cs.
  Proof.
    intros Hd (Hw & Hp & Hr & Hf).
    cbn [gwf] in Hw. apply andb_true_iff in Hw as [Hw Hsx]. apply andb_true_iff in Hw as [_ Hwx].
    unfold pre in Hp. cbn [all_nodes] in Hp. apply andb_true_iff in Hp as [_ Hpx].
    unfold rtok in Hr. cbn [all_nodes node_rt andb] in Hr.
    unfold gfits in Hf. cbn [gdepth_ok] in Hf. apply andb_true_iff in Hf as [Hf1 Hf2]. apply N.leb_le in Hf1.
    destruct (inc_maybe_good _ Hd Hf1) as (d' & Hinc & _ & Hd' & Hs' & Ha' & Ht').
    exists d'. split; [exact Hinc|]. split; [exact Hd'|]. split; [|now apply sig_eqb_eq].
    repeat split; try assumption. unfold gfits. now rewrite Hs', Ha', Ht'.
  Qed.
  Lemma vok_variant d x : dep_ok d -> vok d (GVariant x) ->
    exists d', inc_variant d = Ok d' /\ dep_ok d' /\ vok d' x /\
               gsingle_ok (gsig x) = true /\ len (show (gsig x)) <= stack_limit.
  Proof.
    intros Hd (Hw & Hp & Hr & Hf).
    cbn [gwf] in Hw. apply andb_true_iff in Hw as [Hwx Hsx].
    unfold pre in Hp. cbn [all_nodes] in Hp. apply andb_true_iff in Hp as [_ Hpx].
    unfold rtok in Hr. cbn [all_nodes node_rt] in Hr. apply andb_true_iff in Hr as [Hlim Hrx]. apply N.leb_le in Hlim.
    unfold gfits in Hf. cbn [gdepth_ok] in Hf. apply andb_true_iff in Hf as [Hf1 Hf2]. apply N.leb_le in Hf1.
    destruct (inc_variant_good _ Hd Hf1) as (d' & Hinc & Hd' & Hs' & Ha' & Ht').
    exists d'. split; [exact Hinc|]. split; [exact Hd'|]. split; [|now split].
    repeat split; try assumption. unfold gfits. now rewrite Hs', Ha', Ht'.
  Qed.
  Lemma vok_array d el l : dep_ok d -> vok d (GArray el l) ->
    exists d', inc_array d = Ok d' /\ dep_ok d' /\ Forall (fun x => vok d' x /\ gsig x = el) l.
  Proof.
    intros Hd (Hw & Hp & Hr & Hf).
    cbn [gwf] in Hw. apply andb_true_iff in Hw as [_ Hw].
    unfold pre in Hp. rewrite all_nodes_array in Hp. apply andb_true_iff in Hp as [_ Hp].
    unfold rtok in Hr. rewrite all_nodes_array in Hr. apply andb_true_iff in Hr as [_ Hr].
    unfold gfits in Hf. cbn [gdepth_ok] in Hf. apply andb_true_iff in Hf as [Hf Hfl]. apply andb_true_iff in Hf as [Hf1 Hf2].
    apply N.leb_le in Hf1, Hf2.
    destruct (inc_array_good _ Hd Hf1 Hf2) as (d' & Hinc & _ & Hd' & Hs' & Ha' & Ht').
    exists d'. split; [exact Hinc|]. split; [exact Hd'|].
    rewrite forallb_forall in Hw, Hp, Hr, Hfl. apply Forall_forall. intros x Hx.
    specialize (Hw x Hx). apply andb_true_iff in Hw as [Hwx Hsx]. split; [|now apply sig_eqb_eq].
    repeat split; [exact Hwx|exact (Hp x Hx)|exact (Hr x Hx)|]. unfold gfits. rewrite Hs', Ha', Ht'. exact (Hfl x Hx).
  Qed.
  Lemma vok_struct d l : dep_ok d -> vok d (GStruct l) ->
    exists d', inc_struct d = Ok d' /\ dep_ok d' /\ Forall (vok d') l /\ l <> [].
  Proof.
    intros Hd (Hw & Hp & Hr & Hf).
    cbn [gwf] in Hw. apply andb_true_iff in Hw as [Hne Hw].
    unfold pre in Hp. rewrite all_nodes_struct in Hp. apply andb_true_iff in Hp as [_ Hp].
    unfold rtok in Hr. rewrite all_nodes_struct in Hr. apply andb_true_iff in Hr as [_ Hr].
    unfold gfits in Hf. cbn [gdepth_ok] in Hf. apply andb_true_iff in Hf as [Hf Hfl]. apply andb_true_iff in Hf as [Hf1 Hf2].
    apply N.leb_le in Hf1, Hf2.
    destruct (inc_struct_good _ Hd Hf1 Hf2) as (d' & Hinc & Hd' & Hs' & Ha' & Ht').
    exists d'. split; [exact Hinc|]. split; [exact Hd'|]. split; [|now destruct l].
    rewrite forallb_forall in Hw, Hp, Hr, Hfl. apply Forall_forall. intros x Hx.
    repeat split; [exact (Hw x Hx)|exact (Hp x Hx)|exact (Hr x Hx)|]. unfold gfits. rewrite Hs', Ha', Ht'. exact (Hfl x Hx).
  Qed.
  Lemma vok_dict d ks vs l : dep_ok d -> vok d (GDict ks vs l) ->
    exists d', inc_array d = Ok d' /\ dep_ok d' /\
               Forall (fun p => (vok d' (fst p) /\ gsig (fst p) = ks) /\ (vok d' (snd p) /\ gsig (snd p) = vs)) l.
  Proof.
    intros Hd (Hw & Hp & Hr & Hf).
    cbn [gwf] in Hw. apply andb_true_iff in Hw as [_ Hw].
    unfold pre in Hp. rewrite all_nodes_dict in Hp. apply andb_true_iff in Hp as [_ Hp].
    unfold rtok in Hr. rewrite all_nodes_dict in Hr. apply andb_true_iff in Hr as [_ Hr].
    unfold gfits in Hf. cbn [gdepth_ok] in Hf. apply andb_true_iff in Hf as [Hf Hfl]. apply andb_true_iff in Hf as [Hf1 Hf2].
    apply N.leb_le in Hf1, Hf2.
    destruct (inc_array_good _ Hd Hf1 Hf2) as (d' & Hinc & _ & Hd' & Hs' & Ha' & Ht').
    exists d'. split; [exact Hinc|]. split; [exact Hd'|].
    rewrite forallb_forall in Hw, Hp, Hr, Hfl. apply Forall_forall. intros q Hq.
    specialize (Hw q Hq). specialize (Hp q Hq). specialize (Hr q Hq). specialize (Hfl q Hq).
    apply andb_true_iff in Hw as [Hw Hsv]. apply andb_true_iff in Hw as [Hw Hsk]. apply andb_true_iff in Hw as [Hwk Hwv].
    apply andb_true_iff in Hp as [Hpk Hpv]. apply andb_true_iff in Hr as [Hrk Hrv]. apply andb_true_iff in Hfl as [Hfk Hfv].
    unfold vok, gfits. rewrite Hs', Ha', Ht'. apply sig_eqb_eq in Hsk, Hsv. tauto.
  Qed.

  (* deserialize_basic!: the types read as one fixed-width number, with the width and what the visitor makes of it *)
  Definition num_sig (g : sig) : option (nat * (N -> gval)) :=
    match g with
    | SU8 => Some (1%nat, GU8) | SU16 => Some (2%nat, GU16) | SU32 => Some (4%nat, GU32) | SU64 => Some (8%nat, GU64)
    | SF64 => Some (8%nat, GF64)
    | SI16 => Some (2%nat, fun x => GI16 (untwos 16 x)) | SI32 => Some (4%nat, fun x => GI32 (untwos 32 x))
    | SI64 => Some (8%nat, fun x => GI64 (untwos 64 x))
    | _ => None
    end.
  Lemma gde_num f st n k : num_sig (r_sig st) = Some (n, k) ->
    gde (S f) st = let* (y, st') := grd_fixed st (N.of_nat n) in Ok (k y, st').
  Proof. destruct st as [? ? ? ? ? ? g ? ?]. cbn [r_sig]. destruct g; intros [= <- <-]; reflexivity. Qed.

  Lemma reads_num v n k x : num_sig (gsig v) = Some (n, k) ->
    (gwf v = true -> gvb e v = enc e n x /\ x < 2 ^ (8 * N.of_nat n) /\ k x = v) -> reads v.
  Proof.
    intros Hn Hv fuel st px t Hfuel (He & _) (Hw & _) Hs -> Hrest Hlen _.
    destruct fuel as [|f]; [pose proof (gheight_pos v); lia|].
    destruct (Hv Hw) as (Hb & Hx & Hk).
    assert (Hal : galign (gsig v) = N.of_nat n) by (destruct (gsig v); try discriminate; injection Hn as <- <-; reflexivity).
    rewrite Hal, Hb, <- He in *. rewrite <- app_assoc in Hrest. rewrite len_app, len_pad, len_enc in *.
    rewrite <- Hs in Hn. rewrite (gde_num f st n k Hn), (grd_fixed_run st n x t Hx Hrest) by lia. cbn [bind]. rewrite Hk.
    eexists. split; [reflexivity|]. cbn [adv r_pos]. lia.
  Qed.
  Lemma reads_uint v n k x : num_sig (gsig v) = Some (n, k) -> gwf v = (x <? 2 ^ (8 * N.of_nat n)) -> k x = v ->
    (x < 2 ^ (8 * N.of_nat n) -> gvb e v = enc e n x) -> reads v.
  Proof. intros Hn Hw Hk Hb. apply (reads_num v n k x Hn). rewrite Hw. intros H%N.ltb_lt. auto. Qed.
  Lemma reads_sint v n mk z : num_sig (gsig v) = Some (n, fun x => mk (untwos (8 * N.of_nat n) x)) ->
    gwf v = ((- 2 ^ Z.of_N (8 * N.of_nat n - 1) <=? z) && (z <? 2 ^ Z.of_N (8 * N.of_nat n - 1)))%Z -> mk z = v ->
    n <> 0%nat -> gvb e v = enc e n (twos (8 * N.of_nat n) z) -> reads v.
  Proof.
    intros Hn Hw Hk Hn0 Hb. apply (reads_num v n _ (twos (8 * N.of_nat n) z) Hn). rewrite Hw.
    intros H. apply andb_true_iff in H as [H1 H2]. apply Z.leb_le in H1. apply Z.ltb_lt in H2. split; [exact Hb|]. split; [apply DeCompleteFacts.twos_lt|].
    rewrite DeCompleteFacts.untwos_twos by lia. exact Hk.
  Qed.

  Lemma strip_nul_app s : strip_nul (s ++ [x00]) = s.
  Proof.
    unfold strip_nul. destruct (s ++ [x00]) eqn:Hl; [destruct s; discriminate|]. rewrite <- Hl.
    rewrite last_last. cbn. apply removelast_last.
  Qed.
  Lemma gde_strlike f st : r_sig st = SStr \/ r_sig st = SSig \/ r_sig st = SObjPath ->
    gde (S f) st = let* (s, st') := gde_str st in let* v := gstr_value (r_sig st) s in Ok (v, st').
  Proof. destruct st as [? ? ? ? ? ? g ? ?]. cbn [r_sig]. intros [-> | [-> | ->]]; reflexivity. Qed.
  (* deserialize_str on a window that is exactly [b] *)
  Lemma gde_str_run st b t : r_sig st = SStr \/ r_sig st = SSig \/ r_sig st = SObjPath ->
    r_rest st = b ++ t -> r_pos st + len b = r_len st ->
    nul_free (strip_nul b) = true -> utf8_valid (strip_nul b) = true ->
    gde_str st = Ok (strip_nul b, adv st (len b)).
  Proof.
    intros Hs Hr Hl Hn Hu. unfold gde_str. destruct (N.ltb_spec (r_len st) (r_pos st)); [lia|].
    replace (r_len st - r_pos st) with (len b) by lia. cbv zeta. rewrite Hr, takeN_app, Hn, Hu.
    destruct Hs as [-> | [-> | ->]]; reflexivity.
  Qed.
  Lemma reads_strlike v s : gsig v = SStr \/ gsig v = SSig \/ gsig v = SObjPath -> gvb e v = s ++ [x00] ->
    (gwf v = true -> pre e v = true -> nul_free s = true /\ utf8_valid s = true /\ gstr_value (gsig v) s = Ok v) -> reads v.
  Proof.
    intros Hg Hb Hv fuel st px t Hfuel _ (Hw & Hp & _) Hs -> Hrest _ [Hfx|Hlen].
    { destruct Hg as [H|[H|H]]; rewrite H in Hfx; discriminate. }
    destruct fuel as [|f]; [pose proof (gheight_pos v); lia|].
    destruct (Hv Hw Hp) as (Hn & Hu & Hval).
    assert (Hal : galign (gsig v) = 1) by (destruct Hg as [-> | [-> | ->]]; reflexivity).
    rewrite Hal, pad_1, Hb in *. cbn [app] in *. rewrite <- Hs in Hg.
    rewrite (gde_strlike f st Hg), (gde_str_run st _ t Hg Hrest Hlen) by now rewrite strip_nul_app.
    rewrite strip_nul_app. cbn [bind]. rewrite Hs, Hval. cbn [bind]. eexists. split; reflexivity.
  Qed.
  Lemma parse_sigval g : gsigval_ok g = true -> parse_sig true (show g) = Some g.
  Proof.
    unfold gsigval_ok. destruct g; try (intros H; now apply parse_show_gv); try reflexivity.
    intros H. apply andb_true_iff in H as [H1 H2]. apply parse_show_gv. cbn [gsingle_ok].
    destruct fs; [discriminate|]. cbn [andb]. exact H1.
  Qed.

  Lemma reads_nothing cs : reads (GMaybe cs None).
  Proof.
    intros fuel st px t Hfuel _ (Hw & Hp & _) Hs -> Hrest _ [Hfx|Hlen]; [discriminate|].
    destruct fuel as [|f]; [cbn in Hfuel; lia|].
    pose proof (pre_align e _ Hp Hw) as Hal. cbn [gsig galign gvb] in *. rewrite app_nil_r, len_pad in *.
    unfold gde. cbn [gde_gen]. rewrite Hs, Hal. rewrite (gparse_padding_run st (galign cs) t Hrest) by lia. cbn [bind]. cbv zeta.
    cbn [adv r_pos r_len]. rewrite Hlen, N.eqb_refl. eexists. split; [reflexivity|exact Hlen].
  Qed.

  Lemma reads_just cs x : reads x -> reads (GMaybe cs (Some x)).
  Proof.
    intros IH fuel st px t Hfuel Hst Hv Hs -> Hrest _ [Hfx|Hlen]; [discriminate|].
    destruct fuel as [|f]; [cbn in Hfuel; lia|]. cbn [gheight] in Hfuel.
    pose proof (pre_align e _ (proj1 (proj2 Hv)) (proj1 Hv)) as Hal.
    destruct (vok_just _ _ _ (proj1 (proj2 Hst)) Hv) as (d' & Hinc & Hd' & Hvx & Hsx).
    cbn [gsig galign gvb] in *.
    (* the child is followed by one zero byte iff its type is of variable size *)
    remember (if gis_fixed cs then [] else [x00]) as z eqn:Ez.
    assert (Hz : 1 <= len (gvb e x) + len z /\ len z <= 1).
    { rewrite Ez. destruct (gis_fixed cs) eqn:Hfx; [|cbn; lia].
      pose proof (fixed_nonempty e x (proj1 Hvx)) as H. rewrite Hsx in H. specialize (H Hfx). cbn. lia. }
    set (p := padn (r_pos0 st + r_pos st) (galign cs)) in *.
    rewrite <- !app_assoc in Hrest. rewrite !len_app, len_pad in Hlen |- *. fold p in Hlen |- *.
    unfold gde. cbn [gde_gen]. rewrite Hs, Hal.
    rewrite (gparse_padding_run st (galign cs) _ Hrest) by (fold p; lia). cbn [bind]. cbv zeta. fold p.
    apply rest_adv_pad in Hrest. fold p in Hrest. change fixed_sized with gis_fixed.
    cbn [adv r_pos r_len]. destruct (N.eqb_spec (r_pos st + p) (r_len st)); [lia|].
    assert (Hend : (if gis_fixed cs then Ok (r_len st) else if r_len st =? 0 then Panic PArith else Ok (r_len st - 1) : res cerr N)
                   = Ok (r_len st - len z)).
    { rewrite Ez. destruct (gis_fixed cs); [now rewrite N.sub_0_r|]. destruct (N.eqb_spec (r_len st) 0); [lia|reflexivity]. }
    rewrite Hend. cbn [bind].
    rewrite gsub_here by (cbn [adv r_pos r_len]; lia). cbn [bind]. change (r_dep (adv st p)) with (r_dep st). rewrite Hinc. cbn [bind].
    rewrite rset_dep_window.
    destruct (read_window x IH f (adv st p) (r_len st - len z) d' (gvb e x) (z ++ t)) as (sub' & Hdec & Hpos);
      try assumption; cbn [adv r_pos r_len r_pos0]; try lia.
    { rewrite Hsx, N.add_assoc. subst p. now rewrite pad_after by apply galign_nz. }
    rewrite Hsx in Hdec. unfold gde in Hdec. rewrite Hdec. cbn [bind]. rewrite Hpos.
    destruct (gis_fixed cs); subst z.
    - eexists. split; [reflexivity|]. cbn [adv r_pos]. change (len []) with 0 in *. lia.
    - change (len [x00]) with 1 in *. destruct (N.leb_spec (r_len st) (r_pos st + p + len (gvb e x))); [lia|].
      rewrite (rest_adv _ _ _ Hrest). cbn [app]. change (is_zero x00) with true. cbv iota.
      eexists. split; [reflexivity|]. cbn [adv r_pos]. lia.
  Qed.

  Lemma last_nul_app a : forall b i best, last_nul (a ++ b) i best = last_nul b (i + len a) (last_nul a i best).
  Proof.
    induction a as [|c a IH]; intros b i best; cbn [app last_nul]; [now rewrite len_nil, N.add_0_r|].
    rewrite IH, len_cons. f_equal. lia.
  Qed.
  Lemma last_nul_nf b : forall i best, nul_free b = true -> last_nul b i best = best.
  Proof.
    induction b as [|c b IH]; intros i best H; [reflexivity|]. cbn [last_nul]. unfold nul_free in H. cbn [forallb] in H.
    apply andb_true_iff in H as [H1 H2]. unfold is_zero. apply negb_true_iff in H1. rewrite H1. now apply IH.
  Qed.
  Lemma nul_free_removelast s : nul_free s = true -> nul_free (removelast s) = true.
  Proof.
    unfold nul_free. induction s as [|c [|c' s] IH]; intros H; try reflexivity.
    cbn [removelast]. cbn [forallb] in *. apply andb_true_iff in H as [H1 H2]. rewrite H1. cbn [andb]. now apply IH.
  Qed.
  (* the separator of a variant is the last nul before the final byte *)
  Lemma last_nul_variant (V S : bytes) : S <> [] -> nul_free S = true ->
    last_nul (removelast (V ++ [x00] ++ S)) 0 None = Some (len V).
  Proof.
    intros Hne Hnf. rewrite removelast_app by (destruct S; [congruence|discriminate]).
    rewrite last_nul_app, N.add_0_l.
    assert (Hrl : removelast ([x00] ++ S) = x00 :: removelast S) by (destruct S; [congruence|reflexivity]).
    rewrite Hrl. cbn [last_nul]. change (is_zero x00) with true. cbv iota.
    apply last_nul_nf. now apply nul_free_removelast.
  Qed.
  Lemma last_in {A} (l : list A) d : l <> [] -> In (last l d) l.
  Proof.
    induction l as [|c [|c' l'] IH]; intros H; [congruence|now left|]. right. apply IH. discriminate.
  Qed.
  Lemma strip_nul_ascii s : DeCompleteFacts.ascii_nz s = true -> strip_nul s = s.
  Proof.
    intros H. unfold strip_nul. destruct s as [|c s]; [reflexivity|].
    assert (Hl : is_zero (last (c :: s) x01) = false).
    { unfold DeCompleteFacts.ascii_nz in H. rewrite forallb_forall in H.
      specialize (H _ (last_in (c :: s) x01 ltac:(discriminate))).
      unfold DeCompleteFacts.ascii1 in H. apply andb_true_iff in H as [H _]. apply N.ltb_lt in H.
      unfold is_zero. destruct (N.eqb_spec (bn (last (c :: s) x01)) 0) as [Hz|Hz]; [rewrite Hz in H; discriminate H|reflexivity]. }
    now rewrite Hl.
  Qed.
  Lemma parse_sig_stack_ok g : gsingle_ok g = true -> len (show g) <= stack_limit -> parse_sig_stack (show g) = Ok g.
  Proof.
    intros Hg Hl. unfold parse_sig_stack. pose proof (sig_nest_le (show g) 0 0 0) as Hn.
    destruct (N.ltb_spec stack_limit (sig_nest (show g) 0 0 0)); [lia|]. now rewrite (parse_show_gv g Hg).
  Qed.

  Lemma reads_variant x : reads x -> reads (GVariant x).
  Proof.
    intros IH fuel st px t Hfuel Hst Hv Hs -> Hrest _ [Hfx|Hlen]; [discriminate|].
    destruct fuel as [|f]; [cbn in Hfuel; lia|]. cbn [gheight] in Hfuel.
    destruct (vok_variant _ _ (proj1 (proj2 Hst)) Hv) as (d' & Hinc & Hd' & Hvx & Hsx & Hlim).
    cbn [gsig galign gvb] in *.
    set (S := show (gsig x)) in *. set (V := gvb e x) in *. set (p := padn (r_pos0 st + r_pos st) 8) in *.
    pose proof (DeCompleteFacts.ascii_show (gsig x)) as Hascii. fold S in Hascii.
    assert (HSne : S <> []).
    { subst S. destruct (show_head_gv true (gsig x) (gsingle_printable _ Hsx)) as (ch & t0 & Hh & _). rewrite Hh. discriminate. }
    rewrite <- app_assoc in Hrest. rewrite !len_app, len_pad in Hlen |- *. change (len [x00]) with 1 in Hlen |- *. fold p in Hlen |- *.
    unfold gde. cbn [gde_gen]. rewrite Hs.
    rewrite (gparse_padding_run st 8 _ Hrest) by (fold p; lia). cbn [bind]. fold p.
    apply rest_adv_pad in Hrest. fold p in Hrest.
    assert (Hal : (r_pos0 (adv st p) + r_pos (adv st p)) mod 8 = 0).
    { cbn [adv r_pos0 r_pos]. rewrite N.add_assoc. apply padn_after. lia. }
    rewrite (gparse_padding_aligned _ 8) by (lia || exact Hal). cbn [bind].
    set (st1 := adv st p) in *.
    assert (Hp1 : r_pos st1 = r_pos st + p) by reflexivity. assert (Hl1 : r_len st1 = r_len st) by reflexivity.
    destruct (N.eqb_spec (r_len st1) 0); [lia|]. destruct (N.ltb_spec (r_len st1) (r_pos st1)); [lia|].
    (* the separator is the last nul before the final byte *)
    replace (r_len st1 - r_pos st1) with (len (V ++ [x00] ++ S)) by (rewrite !len_app; change (len [x00]) with 1; lia).
    rewrite Hrest, takeN_app, (last_nul_variant V S HSne) by now apply DeCompleteFacts.ascii_nul_free.
    (* stage Signature *)
    assert (Hsig : from_idx st1 (r_pos st1 + len V + 1) = S ++ t).
    { replace (r_pos st1 + len V + 1) with (r_pos st1 + len (V ++ [x00])) by (rewrite len_app; change (len [x00]) with 1; lia).
      apply from_idx_skip. rewrite Hrest. now rewrite <- !app_assoc. }
    rewrite gsub_at by lia. cbn [bind]. rewrite Hsig.
    rewrite (gde_str_run _ S t); cbn [r_sig r_rest r_pos r_len]; rewrite ?(strip_nul_ascii S Hascii); try tauto; try lia;
      [|now apply DeCompleteFacts.ascii_nul_free|now apply DeCompleteFacts.ascii_utf8].
    cbn [bind]. pose proof (parse_sig_stack_ok _ Hsx Hlim) as Hpss. fold S in Hpss. rewrite Hpss. cbn [bind].
    (* stage Value *)
    replace (r_len st1 - (r_pos st1 + len V + 1)) with (len S) by lia. rewrite takeN_app, Hpss. cbn [bind].
    rewrite gsub_here by lia. cbn [bind]. change (r_dep st1) with (r_dep st). rewrite Hinc. cbn [bind]. rewrite rset_dep_window.
    destruct (read_window x IH f st1 (r_pos st1 + len V) d' V ([x00] ++ S ++ t)) as (sub' & Hdec & Hpos);
      try assumption; try lia.
    { rewrite pad_aligned; [reflexivity|apply galign_nz|].
      apply (mod_trans _ 8); [lia|apply galign_nz|exact Hal|].
      apply pow2_div; [unfold pow2; tauto|apply galign_pow2|].
      destruct (galign_pow2 (gsig x)) as [Hq|[Hq|[Hq|Hq]]]; rewrite Hq; lia. }
    { rewrite Hrest. now rewrite <- !app_assoc. }
    unfold gde in Hdec. rewrite Hdec. cbn [bind]. eexists. split; [reflexivity|].
    cbn [adv r_pos]. rewrite !len_app. change (len [x00]) with 1. lia.
  Qed.

  Lemma for_encoded_framing n k : n + 8 * k <= 18446744073709551615 ->
    for_encoded_container (n + offset_width n k * k) = Ok (offset_width n k).
  Proof.
    intros H. unfold for_encoded_container. rewrite for_bare_cases. rewrite !N.mul_0_l, !N.add_0_r. unfold offset_width.
    destruct (N.leb_spec (n + k) 255).
    { destruct (N.leb_spec (n + 1 * k) 255); [reflexivity|lia]. }
    destruct (N.leb_spec (n + 2 * k) 65535).
    { destruct (N.leb_spec (n + 2 * k) 255); [lia|]. destruct (N.leb_spec (n + 2 * k) 65535); [reflexivity|lia]. }
    destruct (N.leb_spec (n + 4 * k) 4294967295).
    { destruct (N.leb_spec (n + 4 * k) 255); [lia|]. destruct (N.leb_spec (n + 4 * k) 65535); [lia|].
      destruct (N.leb_spec (n + 4 * k) 4294967295); [reflexivity|lia]. }
    destruct (N.leb_spec (n + 8 * k) 255); [lia|]. destruct (N.leb_spec (n + 8 * k) 65535); [lia|].
    destruct (N.leb_spec (n + 8 * k) 4294967295); [lia|].
    destruct (N.leb_spec (n + 8 * k) 18446744073709551615); [reflexivity|lia].
  Qed.

  (* with the chosen width every position inside the container fits an offset *)
  Lemma offset_fits n k o : n + 8 * k <= 18446744073709551615 -> o <= n + offset_width n k * k ->
    o < 2 ^ (8 * N.of_nat (N.to_nat (offset_width n k))).
  Proof.
    intros H Ho. rewrite N2Nat.id. unfold offset_width in *.
    destruct (N.leb_spec (n + k) 255); [change (2 ^ (8 * 1)) with 256; lia|].
    destruct (N.leb_spec (n + 2 * k) 65535); [change (2 ^ (8 * 2)) with 65536; lia|].
    destruct (N.leb_spec (n + 4 * k) 4294967295); [change (2 ^ (8 * 4)) with 4294967296; lia|].
    change (2 ^ (8 * 8)) with 18446744073709551616. lia.
  Qed.

  Lemma offs_enc_app w l1 l2 : offs_enc w (l1 ++ l2) = offs_enc w l1 ++ offs_enc w l2.
  Proof. unfold offs_enc. now rewrite map_app, concat_app. Qed.
  Lemma offs_enc_1 w o : offs_enc w [o] = le_bytes (N.to_nat w) o.
  Proof. apply app_nil_r. Qed.
  Lemma length_offs_enc w l : length (offs_enc w l) = (N.to_nat w * length l)%nat.
  Proof.
    unfold offs_enc. induction l as [|o l IH]; cbn [map concat length]; [lia|]. rewrite app_length, le_bytes_length, IH. lia.
  Qed.
  Lemma last_app1 {A} (l : list A) x d : last (l ++ [x]) d = x.
  Proof. apply last_last. Qed.
  Lemma length_gparts' l off : length (gparts e l off) = length l.
  Proof. apply length_gparts. Qed.

  (* the last [w] bytes before position [b] of the slice hold the offset [o] *)
  Lemma read_last_at st a b w o X t : 1 <= w -> a + w <= b ->
    o < 2 ^ (8 * N.of_nat (N.to_nat w)) ->
    r_rest st = X ++ le_bytes (N.to_nat w) o ++ t -> r_pos st + len X + w = b ->
    read_last st a b w = Ok o.
  Proof.
    intros Hw Hab Ho Hr Hb. unfold read_last.
    destruct (N.eqb_spec (b - a) 0); [lia|]. destruct (N.ltb_spec (b - a) w); [lia|].
    replace (b - w) with (r_pos st + len X) by lia. rewrite (from_idx_skip _ _ _ Hr).
    rewrite takeN_app_eq by (rewrite len_le_bytes; lia). now rewrite DeCompleteFacts.le_val_le_bytes.
  Qed.
  Lemma read_last_checked_at st a b w o X t : 1 <= w -> a + w <= b ->
    o < 2 ^ (8 * N.of_nat (N.to_nat w)) ->
    r_rest st = X ++ le_bytes (N.to_nat w) o ++ t -> r_pos st + len X + w = b ->
    read_last_checked st a b w = Ok o.
  Proof.
    intros Hw Hab Ho Hr Hb. unfold read_last_checked. destruct (N.ltb_spec (b - a) w); [lia|]. rewrite andb_false_r.
    now apply (read_last_at st a b w o X t).
  Qed.

  Lemma offs_loop_enc w os : 1 <= w -> forall l k acc,
    (length (offs_enc w l) < k)%nat -> Forall (fun o => o < 2 ^ (8 * N.of_nat (N.to_nat w)) /\ o <= os) l ->
    offs_loop w os k (offs_enc w l) acc = Ok (frev acc ++ l).
  Proof.
    intros Hw. induction l as [|o l IH]; intros k acc Hk HF; (destruct k as [|k]; [cbn in Hk; lia|]).
    - cbn [offs_enc map concat offs_loop]. now rewrite app_nil_r.
    - inversion HF as [|? ? [Ho1 Ho2] HF']; subst. change (offs_enc w (o :: l)) with (le_bytes (N.to_nat w) o ++ offs_enc w l) in *.
      assert (Hlb : len (le_bytes (N.to_nat w) o) = w) by (rewrite len_le_bytes; lia).
      cbn [offs_loop]. destruct (le_bytes (N.to_nat w) o ++ offs_enc w l) eqn:Hl.
      { exfalso. apply (f_equal (@length byte)) in Hl. rewrite app_length, le_bytes_length in Hl. cbn in Hl. lia. }
      rewrite <- Hl in *. cbv zeta. rewrite (takeN_app_eq w _ _ Hlb), (dropN_app_eq w _ _ Hlb), Hlb, N.ltb_irrefl.
      rewrite DeCompleteFacts.le_val_le_bytes by assumption.
      destruct (N.ltb_spec os o); [lia|].
      rewrite IH; [now rewrite frev_snoc|rewrite app_length, le_bytes_length in Hk; lia|assumption].
  Qed.

  Lemma ends_from_le ps : forall off, Forall (fun o => o <= off + len (concat ps)) (ends_from off ps).
  Proof.
    induction ps as [|b r IH]; intros off; [constructor|]. cbn [ends_from concat]. rewrite len_app. constructor; [lia|].
    eapply Forall_impl; [|apply IH]. cbn. intros o Ho. lia.
  Qed.

  (* from_encoded_array on a window that is exactly data ++ framing offsets *)
  Lemma from_encoded_run st (ps : list bytes) t :
    let data := concat ps in let ends := ends_from 0 ps in
    len data + 8 * N.of_nat (length ps) <= 18446744073709551615 ->
    r_rest st = data ++ framing (len data) ends ++ t -> r_pos st + len data + len (framing (len data) ends) = r_len st ->
    from_encoded_array st = Ok (ends, len (framing (len data) ends)).
  Proof.
    intros data ends Hsmall Ht Hb. rewrite from_encoded_array_eq. cbv zeta.
    set (n := len data) in *. set (k := N.of_nat (length ends)).
    assert (Hk : k = N.of_nat (length ps)) by (subst k ends; now rewrite length_ends_from).
    set (w := offset_width n k). assert (Hw1 : 1 <= w) by apply offset_width_pos.
    assert (HF : framing n ends = offs_enc w ends) by reflexivity.
    assert (HlenF : len (framing n ends) = w * k) by (rewrite HF; apply len_offs_enc).
    rewrite HlenF in Hb. replace (r_len st - r_pos st) with (n + w * k) by lia.
    unfold w at 1. rewrite (for_encoded_framing n k) by lia. fold w. cbn [bind].
    assert (Hends : Forall (fun o => o < 2 ^ (8 * N.of_nat (N.to_nat w)) /\ o <= n) ends).
    { pose proof (ends_from_le ps 0) as Hle. fold ends data in Hle. rewrite N.add_0_l in Hle. fold n in Hle.
      eapply Forall_impl; [|exact Hle]. cbn. intros o Ho. split; [|assumption]. apply offset_fits; [lia|]. fold w. lia. }
    destruct ps as [|p0 ps'].
    - (* no element: the empty window *)
      cbn in *. subst n k. cbn in *. unfold read_last. replace (r_len st - r_pos st) with 0 by lia. reflexivity.
    - (* the last offset is the length of the data *)
      assert (Hlast : last ends 0 = n) by (subst ends n data; rewrite last_end by discriminate; lia).
      assert (Hsp : ends = removelast ends ++ [n]) by (rewrite <- Hlast; apply app_removelast_last; subst ends; discriminate).
      set (ends' := removelast ends) in *.
      assert (HF2 : framing n ends = offs_enc w ends' ++ le_bytes (N.to_nat w) n) by (now rewrite HF, Hsp, offs_enc_app, offs_enc_1).
      assert (Hk1 : 1 <= k) by (rewrite Hk; cbn [length]; lia). assert (Hwk : w <= w * k) by nia.
      rewrite (read_last_at st (r_pos st) (r_len st) w n (data ++ offs_enc w ends') t); try assumption; try lia.
      2:{ rewrite Forall_forall in Hends. apply Hends. rewrite Hsp. apply in_or_app. right. now left. }
      2:{ rewrite Ht, HF2. now rewrite <- !app_assoc. }
      2:{ apply (f_equal len) in HF2. rewrite HlenF, len_app, len_le_bytes in HF2. rewrite len_app. fold n. lia. }
      cbn [bind]. destruct (N.ltb_spec (n + w * k) n); [lia|]. replace (n + w * k - n) with (w * k) by lia.
      rewrite (from_idx_skip st data _ Ht : from_idx st (r_pos st + n) = _), <- HlenF, takeN_app, HF.
      rewrite (offs_loop_enc w n Hw1 ends); [reflexivity|rewrite length_offs_enc; lia|assumption].
  Qed.

  (* the framing offsets after [n] bytes of elements, if the elements are not of fixed size *)
  Definition eframing (fx : bool) (n : N) (ends : list N) : bytes := if fx then [] else framing n ends.
  Definition garr_of (st : dst) (al : N) (child : sig) (vsig : option sig) (fk fx : bool) (ps : list bytes) : garr :=
    {| a_len := len (concat ps); a_start := r_pos st; a_al := al; a_child := child; a_vsig := vsig;
       a_offs := if fx then None else Some (ends_from 0 ps);
       a_offs_len := len (eframing fx (len (concat ps)) (ends_from 0 ps));
       a_kos := if fx then None else if fk then None else Some 1 |}.
  (* ArrayDeserializer::new on a window that is exactly the elements [ps] and, unless they are of fixed size, their
     framing offsets *)
  Lemma garr_make_run st al child vsig (fk fx : bool) (ps : list bytes) t :
    let data := concat ps in let F := eframing fx (len data) (ends_from 0 ps) in
    (fx = false -> len data + 8 * N.of_nat (length ps) <= 18446744073709551615) ->
    r_rest st = data ++ F ++ t -> r_pos st + len data + len F = r_len st ->
    garr_make st al child vsig fk fx = Ok (st, garr_of st al child vsig fk fx ps).
  Proof.
    intros data F Hsm Hrest Hlen. unfold garr_make, garr_of. cbv zeta. subst data F. destruct fx; unfold eframing in *.
    - change (len []) with 0 in Hlen. do 3 f_equal. lia.
    - rewrite (from_encoded_run st ps t (Hsm eq_refl) Hrest Hlen). cbn [bind].
      destruct (N.ltb_spec (r_len st - r_pos st) (len (framing (len (concat ps)) (ends_from 0 ps)))); [lia|]. do 3 f_equal. lia.
  Qed.

  (* one iteration of the loop reads one element *)
  Lemma arr_step x : reads x -> forall fuel k st a c offs offs' hi acc px t,
    (gheight x <= fuel)%nat -> sok st -> vok (r_dep st) x -> gsig x = c -> a_child a = c ->
    garr_done st a offs = false -> arr_end a offs = (hi, offs') ->
    px = pad (r_pos0 st + r_pos st) (galign c) ++ gvb e x -> r_rest st = px ++ t ->
    r_pos st + len px <= hi -> hi <= a_start a + a_len a -> a_start a + a_len a <= r_len st ->
    (gis_fixed c = true \/ r_pos st + len px = hi) ->
    arr_loop (gde fuel) a c (S k) offs st acc = arr_loop (gde fuel) a c k offs' (adv st (len px)) (x :: acc).
  Proof.
    intros Hx fuel k st a c offs offs' hi acc px t Hfuel Hst Hv <- Hch Hnd Hend Hpx Hrest Hlo Hhi Hb Hfx.
    cbn [arr_loop]. rewrite Hnd, Hend, gsub_here by lia. cbn [bind]. rewrite Hch.
    destruct (read_window x Hx fuel st hi (r_dep st) px t) as (sub' & Hdec & Hpos); try assumption; [apply Hst|lia|].
    rewrite Hdec. cbn [bind]. rewrite Hpos. cbn [adv r_pos].
    destruct (N.ltb_spec (a_start a + a_len a) (r_pos st + len px)); [lia|]. now rewrite sig_eqb_refl.
  Qed.

  Lemma arr_loop_rt c l : Forall reads l -> forall fuel (k : nat) st a acc off t,
    (length l < k)%nat -> (gheights l <= fuel)%nat -> sok st -> Forall (fun x => vok (r_dep st) x /\ gsig x = c) l ->
    a_child a = c -> r_pos st = a_start a + off -> (r_pos0 st + a_start a) mod galign c = 0 ->
    r_rest st = concat (gparts e l off) ++ t ->
    a_start a + a_len a = r_pos st + len (concat (gparts e l off)) ->
    a_start a + a_len a + a_offs_len a <= r_len st ->
    exists st', arr_loop (gde fuel) a c k (if gis_fixed c then None else Some (ends_from off (gparts e l off))) st acc
                = Ok (frev acc ++ l, st') /\ r_pos st' = a_start a + a_len a + a_offs_len a.
  Proof.
    induction 1 as [|x l Hx _ IH]; intros fuel k st a acc off t Hk Hfuel Hst Hl Hch Hpos Hal Hrest Hend Hbound;
      (destruct k as [|k]; [cbn in Hk; lia|]); cbn [gparts concat ends_from length gheights] in *.
    - rewrite len_nil in Hend. cbn [arr_loop].
      assert (Hdone : garr_done st a (if gis_fixed c then None else Some []) = true).
      { destruct (gis_fixed c); [apply N.eqb_eq; lia|reflexivity]. }
      rewrite Hdone. eexists. split; [now rewrite app_nil_r|]. cbn [garr_finish rset_dep adv r_pos]. lia.
    - apply Forall_cons_iff in Hl as [[Hvx Hsx] Hl].
      set (px := pad off (galign (gsig x)) ++ gvb e x) in *. rewrite <- app_assoc in Hrest. rewrite len_app in Hend.
      assert (Hpx : px = pad (r_pos0 st + r_pos st) (galign c) ++ gvb e x).
      { subst px. rewrite Hsx, Hpos, N.add_assoc, pad_shift by (apply galign_nz || assumption). reflexivity. }
      (* an element of fixed size has at least one byte, so the loop is not done *)
      assert (Hne : gis_fixed c = true -> 1 <= len px).
      { intros Hfx. pose proof (fixed_nonempty e x (proj1 Hvx)) as H. rewrite Hsx in H. specialize (H Hfx). subst px. rewrite len_app. lia. }
      rewrite (arr_step x Hx fuel k st a c _ (if gis_fixed c then None else Some (ends_from (off + len px) (gparts e l (off + len px))))
                 (if gis_fixed c then a_start a + a_len a else a_start a + (off + len px)) acc px
                 (concat (gparts e l (off + len px)) ++ t) ltac:(lia) Hst Hvx Hsx Hch);
        try assumption.
      + destruct (IH fuel k (adv st (len px)) a (x :: acc) (off + len px) t) as (st' & Hrun & Hp');
          try assumption; cbn [adv r_pos r_pos0 r_len r_dep]; try lia.
        * apply (rest_adv _ _ _ Hrest).
        * exists st'. rewrite Hrun, frev_snoc. split; [reflexivity|exact Hp'].
      + destruct (gis_fixed c); [apply N.eqb_neq; specialize (Hne eq_refl); lia|reflexivity].
      + now destruct (gis_fixed c).
      + destruct (gis_fixed c); lia.
      + destruct (gis_fixed c); lia.
      + lia.
      + destruct (gis_fixed c); [now left|right; lia].
  Qed.

  Lemma gparts_count_fixed l c : Forall (fun x => gwf x = true /\ gsig x = c) l -> gis_fixed c = true -> forall off,
    N.of_nat (length l) <= len (concat (gparts e l off)).
  Proof.
    induction 1 as [|x l [Hw Hs] _ IH]; intros Hfx off; [cbn; lia|]. cbn [gparts concat length]. rewrite !len_app.
    pose proof (fixed_nonempty e x Hw) as Hne. rewrite Hs in Hne. specialize (Hne Hfx).
    specialize (IH Hfx (off + len (pad off (galign (gsig x)) ++ gvb e x))). rewrite len_app in IH. lia.
  Qed.

  (* elements, then their framing offsets unless they are of fixed size *)
  Lemma gvb_array_app el l :
    gvb e (GArray el l) = concat (gparts e l 0) ++ eframing (gis_fixed el) (len (concat (gparts e l 0))) (ends_from 0 (gparts e l 0)).
  Proof. rewrite gvb_array. cbv zeta. unfold eframing. destruct (gis_fixed el); [now rewrite app_nil_r|reflexivity]. Qed.

  Lemma reads_array el l : Forall reads l -> reads (GArray el l).
  Proof.
    intros HF fuel st px t Hfuel Hst Hv Hs -> Hrest _ [Hfx0|Hlen]; [discriminate|].
    destruct fuel as [|f]; [cbn in Hfuel; lia|]. rewrite gheight_array in Hfuel.
    pose proof (pre_align e _ (proj1 (proj2 Hv)) (proj1 Hv)) as Hal.
    destruct (pre_node e _ (proj1 (proj2 Hv))) as (_ & _ & _ & Hsmall).
    destruct (vok_array _ _ _ (proj1 (proj2 Hst)) Hv) as (d' & Hinc & Hd' & Hl).
    cbn [gsig galign] in *. rewrite gvb_array_app in *.
    set (ps := gparts e l 0) in *. set (data := concat ps) in *.
    set (F := eframing (gis_fixed el) (len data) (ends_from 0 ps)) in *. rewrite len_app in Hsmall.
    (* every element accounts for at least one byte of the window: the loop counter suffices *)
    assert (Hcount : N.of_nat (length l) <= len data + len F).
    { subst F. unfold eframing. destruct (gis_fixed el) eqn:Hfx.
      - pose proof (gparts_count_fixed l el (Forall_impl _ (fun x H => conj (proj1 (proj1 H)) (proj2 H)) Hl) Hfx 0). fold ps data in H. lia.
      - rewrite len_framing, length_ends_from. subst ps. rewrite length_gparts.
        pose proof (offset_width_pos (len data) (N.of_nat (length l))). nia. }
    set (p := padn (r_pos0 st + r_pos st) (galign el)) in *.
    rewrite <- !app_assoc in Hrest. rewrite !len_app, len_pad in Hlen |- *. fold p in Hlen |- *.
    unfold gde. rewrite (gde_gen_array _ f st el Hs), Hs, Hal.
    rewrite (gparse_padding_run st (galign el) _ Hrest) by (fold p; lia). cbn [bind]. fold p.
    apply rest_adv_pad in Hrest. fold p in Hrest.
    assert (Hal2 : (r_pos0 st + (r_pos st + p)) mod galign el = 0) by (rewrite N.add_assoc; apply padn_after, galign_nz).
    (* ArrayDeserializer::new *)
    rewrite garr_new_eq. cbv zeta. change (r_dep (adv st p)) with (r_dep st). rewrite Hinc. cbn [bind].
    change (r_sig (adv st p)) with (r_sig st). rewrite Hs, Hal.
    rewrite gparse_padding_aligned by (apply galign_nz || exact Hal2). cbn [bind].
    cbn [rset_dep adv r_pos r_len r_sig]. destruct (N.ltb_spec (r_len st) (r_pos st + p)); [lia|]. rewrite Hs. cbn [bind].
    change fixed_sized with gis_fixed.
    rewrite (garr_make_run (rset_dep (adv st p) d') (galign el) el None false (gis_fixed el) ps t); try assumption.
    2:{ intros Hfx. fold data. subst F. unfold eframing in Hsmall. rewrite Hfx, len_framing, length_ends_from in Hsmall.
        pose proof (offset_width_pos (len data) (N.of_nat (length ps))). change (2 ^ 60) with 1152921504606846976 in Hsmall. nia. }
    2:{ cbn [rset_dep adv r_pos r_len]. fold data F. lia. }
    cbn [bind]. set (a := garr_of _ _ _ _ _ _ _).
    destruct (arr_loop_rt el l HF f (S (N.to_nat (r_len st))) (rset_dep (adv st p) d') a [] 0 (F ++ t)) as (st' & Hrun & Hp');
      try assumption; try reflexivity; cbn [rset_dep adv r_len r_pos r_pos0 r_dep a garr_of a_start a_len a_offs_len]; try lia.
    - split; [apply Hst|split; [exact Hd'|apply Hst]].
    - fold data F. lia.
    - cbn [a garr_of a_offs]. fold ps in Hrun. unfold gde in Hrun. rewrite Hrun. cbn [bind frev rev_append app].
      exists st'. split; [reflexivity|]. rewrite Hp'. cbn [a garr_of a_start a_len a_offs_len rset_dep adv r_pos]. fold data F. lia.
  Qed.

  Lemma tuple_offsets_cons s s' sr en er :
    tuple_offsets (s :: s' :: sr) (en :: er) = (if gis_fixed s then [] else [en]) ++ tuple_offsets (s' :: sr) er.
  Proof. reflexivity. Qed.

  (* one iteration of the loop reads one member *)
  Lemma struct_step x : reads x -> forall fuel st start w gs end_ ol hi end' ol' acc px t,
    (gheight x <= fuel)%nat -> sok st -> vok (r_dep st) x ->
    member_end read_last_checked start w st (gsig x) (match gs with [] => true | _ => false end) end_ ol = Ok (hi, end', ol') ->
    px = pad (r_pos0 st + r_pos st) (galign (gsig x)) ++ gvb e x -> r_rest st = px ++ t ->
    r_pos st + len px <= hi -> hi <= r_len st -> (gis_fixed (gsig x) = true \/ r_pos st + len px = hi) ->
    struct_loop (gde fuel) read_last_checked start w (gsig x :: gs) st end_ ol acc =
    struct_loop (gde fuel) read_last_checked start w gs
      (if match gs with [] => true | _ => false end
       then adv (rset_dep (adv st (len px)) (dec_struct (r_dep st))) ol' else adv st (len px)) end' ol' (x :: acc).
  Proof.
    intros Hx fuel st start w gs end_ ol hi end' ol' acc px t Hfuel Hst Hv Hme Hpx Hrest Hlo Hhi Hfx.
    cbn [struct_loop]. rewrite Hme. cbn [bind]. rewrite gsub_here by lia. cbn [bind].
    destruct (read_window x Hx fuel st hi (r_dep st) px t) as (sub' & Hdec & Hpos); try assumption; [apply Hst|].
    rewrite Hdec. cbn [bind]. now rewrite Hpos.
  Qed.

  (* the members are read one after the other; a member of variable size other than the last ends where the last framing
     offset not yet used says; the window [end_] either ends with the offsets or, if all members are of fixed size, later *)
  Lemma struct_loop_rt l : Forall reads l -> l <> [] -> forall fuel st start w off end_ ol acc t A,
    (gheights l <= fuel)%nat -> sok st -> Forall (vok (r_dep st)) l ->
    r_pos st = start + off -> 1 <= w ->
    A <> 0 -> (r_pos0 st + start) mod A = 0 -> (forall x, In x l -> A mod galign (gsig x) = 0) ->
    let ps := gparts e l off in let toffs := tuple_offsets (map gsig l) (ends_from off ps) in
    Forall (fun o => o < 2 ^ (8 * N.of_nat (N.to_nat w))) toffs ->
    r_rest st = concat ps ++ offs_enc w (rev toffs) ++ t ->
    r_pos st + len (concat ps) + w * N.of_nat (length toffs) <= end_ -> end_ + ol = r_len st ->
    (forallb gis_fixed (map gsig l) = true \/ r_pos st + len (concat ps) + w * N.of_nat (length toffs) = end_) ->
    exists st', struct_loop (gde fuel) read_last_checked start w (map gsig l) st end_ ol acc = Ok (frev acc ++ l, st') /\
                r_pos st' = r_pos st + len (concat ps) + w * N.of_nat (length toffs) + ol.
  Proof.
    induction 1 as [|x l Hx _ IH]; intros Hne fuel st start w off end_ ol acc t A Hfuel Hst Hl Hpos Hw1 HA Hal Hdiv ps toffs Hfit Hrest Hlo Hhi Hfx;
      [congruence|].
    apply Forall_cons_iff in Hl as [Hvx Hl]. cbn [gheights] in Hfuel.
    set (px := pad off (galign (gsig x)) ++ gvb e x).
    assert (Hpx : px = pad (r_pos0 st + r_pos st) (galign (gsig x)) ++ gvb e x).
    { subst px. rewrite Hpos, N.add_assoc, pad_shift; [reflexivity|apply galign_nz|].
      apply (mod_trans _ A); try assumption; [apply galign_nz|]. apply Hdiv. now left. }
    assert (Hps : ps = px :: gparts e l (off + len px)) by reflexivity.
    cbn [map]. destruct l as [|y l'].
    - (* the last member: no offset of its own; afterwards the offsets already used are skipped *)
      subst toffs. rewrite Hps in *. cbn [map tuple_offsets rev offs_enc concat length gparts forallb] in *.
      rewrite app_nil_r, N.mul_0_r, N.add_0_r in *. rewrite andb_true_r in Hfx.
      rewrite (struct_step x Hx fuel st start w [] end_ ol end_ end_ ol acc px t); try assumption; try lia.
      + cbn [struct_loop]. rewrite <- frev_snoc, app_nil_r. eexists. split; [reflexivity|]. cbn [adv rset_dep r_pos]. lia.
      + unfold member_end. now destruct (fixed_sized (gsig x)).
    - (* a member followed by others *)
      set (l := y :: l') in *. set (ps' := gparts e l (off + len px)) in *.
      set (toffs' := tuple_offsets (map gsig l) (ends_from (off + len px) ps')).
      assert (Hto : toffs = (if gis_fixed (gsig x) then [] else [off + len px]) ++ toffs') by (subst toffs; now rewrite Hps).
      assert (Hcat : concat ps = px ++ concat ps') by now rewrite Hps.
      rewrite Hto, Hcat in *. rewrite <- app_assoc in Hrest. rewrite len_app in *.
      assert (Hdiv' : forall z, In z l -> A mod galign (gsig z) = 0) by (intros z Hz; apply Hdiv; now right).
      change (map gsig (x :: l)) with (gsig x :: map gsig l) in Hfx. cbn [forallb] in Hfx. change (map gsig l) with (gsig y :: map gsig l') at 1.
      destruct (gis_fixed (gsig x)) eqn:Hfxx; cbn [app length rev andb] in *.
      + (* of fixed size: read from the window up to the current end *)
        rewrite (struct_step x Hx fuel st start w _ end_ ol end_ end_ ol acc px (concat ps' ++ offs_enc w (rev toffs') ++ t));
          try assumption; try lia; [|unfold member_end; change fixed_sized with gis_fixed; now rewrite Hfxx|now left].
        destruct (IH ltac:(discriminate) fuel (adv st (len px)) start w (off + len px) end_ ol (x :: acc) t A) as (st' & Hrun & Hp');
          try assumption; cbn [adv r_pos r_pos0 r_len r_dep]; try lia.
        * apply (rest_adv _ _ _ Hrest).
        * fold ps' toffs'. lia.
        * fold ps' toffs'. destruct Hfx as [Hfx|Hfx]; [now left|right; lia].
        * fold ps' toffs' in Hrun, Hp'. cbn [adv r_pos] in Hp'. rewrite frev_snoc in Hrun. exists st'. split; [exact Hrun|lia].
      + (* of variable size: its end is the last framing offset not yet used *)
        destruct Hfx as [Hfx|Hfx]; [discriminate|]. apply Forall_cons_iff in Hfit as [Hfit1 Hfit'].
        rewrite offs_enc_app, offs_enc_1, <- app_assoc in Hrest. rewrite Nat2N.inj_succ, N.mul_succ_r in *.
        rewrite (struct_step x Hx fuel st start w _ end_ ol (off + len px + start) (end_ - w) (ol + w) acc px
                   (concat ps' ++ offs_enc w (rev toffs') ++ le_bytes (N.to_nat w) (off + len px) ++ t));
          try assumption; try lia.
        2:{ unfold member_end. change fixed_sized with gis_fixed. rewrite Hfxx.
            destruct (N.ltb_spec end_ start); [lia|]. destruct (N.ltb_spec (r_len st) end_); [lia|]. cbn [orb].
            rewrite (read_last_checked_at st start end_ w (off + len px) (px ++ concat ps' ++ offs_enc w (rev toffs')) t);
              try assumption; try lia.
            - cbn [bind]. destruct (N.ltb_spec end_ w); [lia|reflexivity].
            - rewrite Hrest. now rewrite <- !app_assoc.
            - rewrite !len_app, len_offs_enc, rev_length. lia. }
        destruct (IH ltac:(discriminate) fuel (adv st (len px)) start w (off + len px) (end_ - w) (ol + w) (x :: acc)
                    (le_bytes (N.to_nat w) (off + len px) ++ t) A) as (st' & Hrun & Hp');
          try assumption; cbn [adv r_pos r_pos0 r_len r_dep]; try lia.
        * apply (rest_adv _ _ _ Hrest).
        * fold ps' toffs'. lia.
        * fold ps' toffs'. right. lia.
        * fold ps' toffs' in Hrun, Hp'. cbn [adv r_pos] in Hp'. rewrite frev_snoc in Hrun. exists st'. split; [exact Hrun|lia].
  Qed.

  Lemma tuple_offsets_le sigs ps off : Forall (fun o => o <= off + len (concat ps)) (tuple_offsets sigs (ends_from off ps)).
  Proof.
    revert sigs off. induction ps as [|b r IH]; intros sigs off.
    - destruct sigs as [|s [|s' sr]]; constructor.
    - destruct sigs as [|s [|s' sr]]; try constructor.
      cbn [ends_from concat]. rewrite tuple_offsets_cons, len_app. apply Forall_app. split.
      + destruct (gis_fixed s); constructor; [lia|constructor].
      + eapply Forall_impl; [|apply IH]. cbn. intros o Ho. lia.
  Qed.

  (* members, then the ends of the variable-size members but the last, in reverse; outside the tail_padding class a tuple
     of fixed size needs no padding at its end *)
  Lemma gvb_struct_app l : l <> [] -> node_tail e (GStruct l) = false ->
    gvb e (GStruct l) = concat (gparts e l 0) ++
                        framing (len (concat (gparts e l 0))) (rev (tuple_offsets (map gsig l) (ends_from 0 (gparts e l 0)))).
  Proof.
    intros Hne Hnt. rewrite gvb_struct. unfold tuple_bytes.
    destruct (map gsig l) eqn:Hm; [destruct l; [congruence|discriminate]|]. rewrite <- Hm.
    destruct (forallb gis_fixed (map gsig l)) eqn:Hfx; [|reflexivity].
    cbn [node_tail] in Hnt. rewrite Hfx in Hnt. cbn [andb] in Hnt. apply negb_false_iff, N.eqb_eq in Hnt.
    unfold pad. rewrite Hnt, tuple_offsets_fixed by assumption. reflexivity.
  Qed.

  Lemma reads_struct l : Forall reads l -> reads (GStruct l).
  Proof.
    intros HF fuel st px t Hfuel Hst Hv Hs -> Hrest Hlen Hfx.
    destruct fuel as [|f]; [cbn in Hfuel; lia|]. rewrite gheight_struct in Hfuel.
    pose proof (pre_align e _ (proj1 (proj2 Hv)) (proj1 Hv)) as Hal.
    destruct (pre_node e _ (proj1 (proj2 Hv))) as (_ & Hnt & _ & Hsmall).
    destruct (vok_struct _ _ (proj1 (proj2 Hst)) Hv) as (d' & Hinc & Hd' & Hl & Hne).
    cbn [gsig] in *. rewrite galign_struct in *. rewrite (gvb_struct_app l Hne Hnt) in *.
    set (sigs := map gsig l) in *. set (A := galigns sigs) in *. assert (HA : A <> 0) by apply galigns_nz.
    set (ps := gparts e l 0) in *. set (data := concat ps) in *. set (toffs := tuple_offsets sigs (ends_from 0 ps)) in *.
    set (k := N.of_nat (length toffs)). set (w := offset_width (len data) k).
    assert (HFr : framing (len data) (rev toffs) = offs_enc w (rev toffs)) by (unfold framing; now rewrite rev_length).
    rewrite HFr in *. rewrite len_app, len_offs_enc, rev_length in Hsmall.
    rewrite !len_app, len_pad, len_offs_enc, rev_length in Hlen, Hfx |- *. fold k in Hsmall, Hlen, Hfx |- *.
    assert (Hsm : len data + 8 * k <= 18446744073709551615).
    { pose proof (offset_width_pos (len data) k). fold w in H. change (2 ^ 60) with 1152921504606846976 in Hsmall. nia. }
    set (p := padn (r_pos0 st + r_pos st) A) in *. rewrite <- !app_assoc in Hrest.
    unfold gde. rewrite (gde_gen_struct _ f st sigs Hs), Hs, Hal.
    rewrite (gparse_padding_run st A _ Hrest) by (fold p; lia). cbn [bind]. fold p.
    apply rest_adv_pad in Hrest. fold p in Hrest.
    assert (Hal2 : (r_pos0 st + (r_pos st + p)) mod A = 0) by (rewrite N.add_assoc; now apply padn_after).
    change (r_sig (adv st p)) with (r_sig st). rewrite Hs, Hal, (gparse_padding_aligned (adv st p) _ HA Hal2). cbn [bind].
    change (r_dep (adv st p)) with (r_dep st). rewrite Hinc. cbn [bind]. cbv zeta. cbn [rset_dep r_pos r_len adv].
    destruct (N.ltb_spec (r_len st) (r_pos st + p)); [lia|].
    (* the offset width is that of the encoding if the window ends with it; otherwise there are no offsets to read *)
    assert (Hw : exists w', for_encoded_container (r_len st - (r_pos st + p)) = Ok w' /\ 1 <= w' /\ (toffs = [] \/ w' = w)).
    { destruct Hfx as [Hfx|Hfx].
      - rewrite for_encoded_width by (destruct Hst as (_ & _ & Hb); unfold big in Hb; lia).
        eexists. split; [reflexivity|]. split; [apply offset_width_pos|left]. now apply tuple_offsets_fixed.
      - replace (r_len st - (r_pos st + p)) with (len data + w * k) by lia. exists w.
        split; [apply (for_encoded_framing (len data) k Hsm)|]. split; [apply offset_width_pos|now right]. }
    destruct Hw as (w' & Hw' & Hw1 & Hww). rewrite Hw'. cbn [bind].
    assert (Hwk : w' * k = w * k) by (destruct Hww as [E|E]; [unfold k; rewrite E; cbn [length]; lia|now subst w']).
    destruct (struct_loop_rt l HF Hne f (rset_dep (adv st p) d') (r_pos st + p) w' 0 (r_len st) 0 [] t A) as (st' & Hrun & Hp');
      try assumption; try reflexivity; cbn [rset_dep adv r_len r_pos r_pos0 r_dep]; fold sigs ps data toffs k; try lia.
    - split; [apply Hst|split; [exact Hd'|apply Hst]].
    - intros x Hx. apply pow2_div; [apply galigns_pow2|apply galign_pow2|]. apply galigns_ge. subst sigs. now apply in_map.
    - destruct Hww as [E|E]; rewrite E; [constructor|].
      pose proof (tuple_offsets_le sigs ps 0) as Hle. fold toffs data in Hle. rewrite N.add_0_l in Hle.
      eapply Forall_impl; [|exact Hle]. cbn. intros o Ho. apply offset_fits; [exact Hsm|]. fold w. lia.
    - destruct Hww as [E|E]; [rewrite E in Hrest |- *|subst w']; exact Hrest.
    - destruct Hfx as [Hfx|Hfx]; [now left|right; lia].
    - unfold gde in Hrun. fold sigs in Hrun. rewrite Hrun. cbn [bind frev rev_append app]. exists st'. split; [reflexivity|].
      rewrite Hp'. cbn [rset_dep adv r_pos]. fold sigs ps data toffs k. lia.
  Qed.

  (* the width of the key's framing offset, 0 if it has none *)
  Definition kos_width (kos : option N) : N := match kos with Some w => w | None => 0 end.
  Lemma value_end_run kos ee : kos_width kos <= ee -> value_end kos ee = Ok (ee - kos_width kos).
  Proof. destruct kos as [w|]; cbn; intros H; [destruct (N.ltb_spec ee w); [lia|reflexivity]|now rewrite N.sub_0_r]. Qed.
  Lemma adv_kos st kos : match kos with Some w => adv st w | None => st end = adv st (kos_width kos).
  Proof. destruct kos; [reflexivity|]. symmetry. apply adv_0. Qed.

  (* what follows key and value in an entry: the end of the key, if it is of variable size *)
  Definition key_offset (ks : sig) (kb vb : bytes) : bytes :=
    if gis_fixed ks then [] else le_bytes (N.to_nat (offset_width (len kb + len vb) 1)) (len kb).
  Lemma key_end_run a st ee ks kb vb t : a_kos a = (if gis_fixed ks then None else Some 1) ->
    r_rest st = kb ++ vb ++ key_offset ks kb vb ++ t ->
    (gis_fixed ks = false -> ee = r_pos st + len kb + len vb + len (key_offset ks kb vb)) -> ee <= r_len st ->
    len kb + len vb + 8 <= 18446744073709551615 ->
    exists kos, key_end a st ee = Ok (if gis_fixed ks then ee else r_pos st + len kb, kos) /\
                kos_width kos = len (key_offset ks kb vb).
  Proof.
    intros Hkos Hrest Hee Hb Hsm. unfold key_end, key_offset in *. rewrite Hkos. destruct (gis_fixed ks).
    { exists None. split; reflexivity. }
    set (n := len kb + len vb) in *. set (w := offset_width n 1) in *. specialize (Hee eq_refl).
    assert (Hw1 : 1 <= w) by apply offset_width_pos. rewrite len_le_bytes, N2Nat.id in *.
    destruct (N.ltb_spec ee (r_pos st)); [lia|]. replace (ee - r_pos st) with (n + w * 1) by lia.
    unfold w at 1. rewrite (for_encoded_framing n 1) by lia. fold w. cbn [bind].
    destruct (N.ltb_spec (r_len st) ee); [lia|].
    rewrite (read_last_at st (r_pos st) ee w (len kb) (kb ++ vb) t); try assumption; try lia.
    - cbn [bind]. exists (Some w). split; reflexivity.
    - apply offset_fits; [lia|]. fold w. lia.
    - rewrite Hrest. now rewrite <- app_assoc.
    - rewrite len_app. lia.
  Qed.

  (* elements, then their framing offsets unless they are of fixed size *)
  Lemma gvb_dict_app ks vs l :
    gvb e (GDict ks vs l) = concat (geparts e ks vs l 0) ++
      eframing (gis_fixed ks && gis_fixed vs) (len (concat (geparts e ks vs l 0))) (ends_from 0 (geparts e ks vs l 0)).
  Proof. rewrite gvb_dict. cbv zeta. unfold eframing. destruct (gis_fixed ks && gis_fixed vs); [now rewrite app_nil_r|reflexivity]. Qed.

  (* side conditions on one entry: its members, not in the tail_padding class, not astronomically large *)
  Definition dentry_ok (d : depths) (ks vs : sig) (p : gval * gval) : Prop :=
    (vok d (fst p) /\ gsig (fst p) = ks) /\ (vok d (snd p) /\ gsig (snd p) = vs) /\
    (gis_fixed ks && gis_fixed vs = true -> padn (len (concat (entry_parts e vs p))) (N.max (galign ks) (galign vs)) = 0) /\
    len (concat (entry_parts e vs p)) + 8 <= 18446744073709551615.

  (* one iteration of the loop reads one entry: padding, key, value, the key's framing offset *)
  Lemma dict_step key x : reads key -> reads x -> forall fuel k st a ks vs offs offs' ee acc off t,
    let al := N.max (galign ks) (galign vs) in
    let E := pad off al ++ tuple_bytes al [ks; vs] (entry_parts e vs (key, x)) in
    (gheight key <= fuel)%nat -> (gheight x <= fuel)%nat -> sok st -> dentry_ok (r_dep st) ks vs (key, x) ->
    a_child a = ks -> a_al a = al -> a_kos a = (if gis_fixed ks then None else Some 1) ->
    r_pos st = a_start a + off -> (r_pos0 st + a_start a) mod al = 0 -> r_rest st = E ++ t ->
    garr_done st a offs = false -> peek_end a offs = Ok ee -> pop_end a offs = Ok (ee, offs') ->
    r_pos st + len E <= ee -> ee <= a_start a + a_len a -> a_start a + a_len a <= r_len st ->
    (gis_fixed ks && gis_fixed vs = true \/ ee = r_pos st + len E) ->
    dict_loop (gde fuel) a ks vs (S k) offs st acc = dict_loop (gde fuel) a ks vs k offs' (adv st (len E)) ((key, x) :: acc).
  Proof.
    intros Hk Hx fuel k st a ks vs offs offs' ee acc off t al E Hfk Hfx Hst ((Hvk & Hsk) & (Hvx & Hsx) & Htail & Hsm)
      Hch Hal_a Hkos Hpos Hal Hrest Hnd Hpeek Hpop Hlo Hhi Hb Hee. cbn [fst snd] in *.
    assert (Hal0 : al <> 0) by (apply pow2_nz, pow2_max; apply galign_pow2).
    set (kb := gvb e key). set (vb := pad (len kb) (galign vs) ++ gvb e x). set (tl := key_offset ks kb vb).
    set (P := pad (r_pos0 st + r_pos st) al).
    assert (Hparts : concat (entry_parts e vs (key, x)) = kb ++ vb) by (unfold entry_parts; cbn [fst snd concat]; now rewrite app_nil_r).
    rewrite Hparts, len_app in Htail, Hsm.
    assert (HE : E = P ++ kb ++ vb ++ tl).
    { subst E P tl. rewrite Hpos, N.add_assoc, pad_shift by assumption. f_equal.
      unfold al. rewrite entry_tuple, Hparts. cbv zeta. cbn [fst]. fold kb al. unfold key_offset. rewrite len_app, <- !app_assoc.
      destruct (gis_fixed ks && gis_fixed vs) eqn:Hf; [|reflexivity].
      apply andb_true_iff in Hf as [-> _]. unfold pad. fold al in Htail. now rewrite (Htail eq_refl). }
    rewrite HE in *. rewrite <- !app_assoc in Hrest. rewrite !len_app in Hlo, Hee. unfold P in Hlo, Hee. rewrite len_pad in Hlo, Hee.
    (* after the padding the position is a multiple of the alignments of key and value *)
    set (st1 := adv st (padn (r_pos0 st + r_pos st) al)).
    assert (Hal1 : (r_pos0 st1 + r_pos st1) mod al = 0) by (cbn [st1 adv r_pos0 r_pos]; rewrite N.add_assoc; now apply padn_after).
    assert (Halk : (r_pos0 st1 + r_pos st1) mod galign ks = 0).
    { apply (mod_trans _ al); try assumption; [apply galign_nz|]. apply max_div_l; apply galign_pow2. }
    assert (Halv : (r_pos0 st1 + r_pos st1) mod galign vs = 0).
    { apply (mod_trans _ al); try assumption; [apply galign_nz|]. apply max_div_r; apply galign_pow2. }
    cbn [dict_loop]. rewrite Hnd, Hal_a, (gparse_padding_run st al _ Hrest) by lia. cbn [bind]. fold st1.
    apply rest_adv_pad in Hrest. fold st1 in Hrest. rewrite Hpeek. cbn [bind].
    destruct (key_end_run a st1 ee ks kb vb t Hkos Hrest) as (kos & Hke & Hkw).
    { intros Hf. rewrite Hf in Hee. cbn [andb] in Hee. destruct Hee as [Hee|Hee]; [discriminate|]. fold tl. cbn [st1 adv r_pos]. lia. }
    { cbn [st1 adv r_len]. lia. }
    { lia. }
    rewrite Hke. cbn [bind]. fold tl in Hkw.
    set (khi := if gis_fixed ks then ee else r_pos st1 + len kb).
    assert (Hkhi : r_pos st1 + len kb <= khi /\ khi <= ee /\ (gis_fixed ks = true \/ r_pos st1 + len kb = khi)).
    { subst khi. cbn [st1 adv r_pos]. destruct (gis_fixed ks); [split; [lia|split; [lia|now left]]|split; [lia|split; [lia|now right]]]. }
    rewrite gsub_here by (cbn [st1 adv r_pos r_len] in *; lia). cbn [bind]. rewrite Hch, <- Hsk.
    destruct (read_window key Hk fuel st1 khi (r_dep st1) kb (vb ++ tl ++ t)) as (ksub' & Hkdec & Hkpos);
      try assumption; try apply Hst; try (cbn [st1 adv r_pos r_len] in *; lia).
    { rewrite Hsk, pad_aligned by (apply galign_nz || assumption). reflexivity. }
    { rewrite Hsk. apply Hkhi. }
    rewrite Hkdec. cbn [bind]. rewrite Hkpos.
    set (st2 := adv st1 (len kb)).
    destruct (N.ltb_spec (a_start a + a_len a) (r_pos st2)); [cbn [st2 st1 adv r_pos] in *; lia|].
    rewrite Hpop. cbn [bind].
    rewrite value_end_run by (rewrite Hkw; lia). cbn [bind]. rewrite Hkw.
    rewrite gsub_here by (cbn [st2 st1 adv r_pos r_len] in *; lia). cbn [bind]. rewrite <- Hsx.
    destruct (read_window x Hx fuel st2 (ee - len tl) (r_dep st2) vb (tl ++ t)) as (vsub' & Hvdec & Hvpos);
      try assumption; try apply Hst; try (cbn [st2 st1 adv r_pos r_len] in *; lia).
    { subst vb. f_equal. cbn [st2 adv r_pos0 r_pos]. rewrite Hsx, N.add_assoc. symmetry. apply pad_shift; [apply galign_nz|assumption]. }
    { apply (rest_adv _ _ _ Hrest). }
    { rewrite Hsx. destruct Hee as [Hf|Hee]; [apply andb_true_iff in Hf as [_ ->]; now left|right].
      cbn [st2 st1 adv r_pos]. lia. }
    rewrite Hvdec. cbn [bind]. rewrite Hvpos, adv_kos, Hkw.
    (* the state reached is the one after the whole entry *)
    replace (adv (adv st2 (len vb)) (len tl)) with (adv st (len (P ++ kb ++ vb ++ tl))).
    2:{ subst st2 st1. rewrite !adv_adv, !len_app. unfold P. rewrite len_pad. f_equal; lia. }
    cbn [adv r_pos]. rewrite !len_app. unfold P. rewrite len_pad.
    destruct (N.ltb_spec (a_start a + a_len a) (r_pos st + (padn (r_pos0 st + r_pos st) al + (len kb + (len vb + len tl))))); [lia|].
    now rewrite !sig_eqb_refl.
  Qed.

  Lemma dict_loop_rt ks vs l : Forall (fun p => reads (fst p) /\ reads (snd p)) l -> forall fuel (k : nat) st a acc off t,
    let al := N.max (galign ks) (galign vs) in let fx := gis_fixed ks && gis_fixed vs in
    (length l < k)%nat -> (gheightp l <= fuel)%nat -> sok st -> Forall (dentry_ok (r_dep st) ks vs) l ->
    a_child a = ks -> a_al a = al -> a_kos a = (if gis_fixed ks then None else Some 1) ->
    r_pos st = a_start a + off -> (r_pos0 st + a_start a) mod al = 0 ->
    r_rest st = concat (geparts e ks vs l off) ++ t ->
    a_start a + a_len a = r_pos st + len (concat (geparts e ks vs l off)) ->
    a_start a + a_len a + a_offs_len a <= r_len st ->
    exists st', dict_loop (gde fuel) a ks vs k (if fx then None else Some (ends_from off (geparts e ks vs l off))) st acc
                = Ok (frev acc ++ l, st') /\ r_pos st' = a_start a + a_len a + a_offs_len a.
  Proof.
    induction 1 as [|[key x] l [Hk Hx] _ IH]; intros fuel k st a acc off t al fx Hkf Hfuel Hst Hok Hch Hal_a Hkos Hpos Hal Hrest Hend Hbound;
      (destruct k as [|k]; [cbn in Hkf; lia|]); cbn [geparts concat ends_from length gheightp fst snd] in *.
    - rewrite len_nil in Hend. cbn [dict_loop].
      assert (Hdone : garr_done st a (if fx then None else Some []) = true).
      { destruct fx; [apply N.eqb_eq; lia|reflexivity]. }
      rewrite Hdone. eexists. split; [now rewrite app_nil_r|]. cbn [garr_finish rset_dep adv r_pos]. lia.
    - apply Forall_cons_iff in Hok as [Hp Hok]. fold al in Hrest, Hend |- *.
      set (E := pad off al ++ tuple_bytes al [ks; vs] (entry_parts e vs (key, x))) in *.
      rewrite <- app_assoc in Hrest. rewrite len_app in Hend.
      (* an entry of fixed size has at least one byte, so the loop is not done *)
      assert (Hne : fx = true -> 1 <= len E).
      { intros Hf. apply andb_true_iff in Hf as [Hf _]. destruct Hp as ((Hvk & Hsk) & _). cbn [fst] in *.
        pose proof (fixed_nonempty e key (proj1 Hvk)) as H. rewrite Hsk in H. specialize (H Hf).
        pose proof (tb_len_ge al ks [vs] (entry_parts e vs (key, x))) as Hge.
        unfold entry_parts in Hge at 1. cbn [fst snd concat] in Hge. subst E. rewrite !len_app in *. lia. }
      rewrite (dict_step key x Hk Hx fuel k st a ks vs _ (if fx then None else Some (ends_from (off + len E) (geparts e ks vs l (off + len E))))
                 (if fx then a_start a + a_len a else a_start a + (off + len E)) acc off (concat (geparts e ks vs l (off + len E)) ++ t));
        try assumption; try lia.
      + destruct (IH fuel k (adv st (len E)) a ((key, x) :: acc) (off + len E) t) as (st' & Hrun & Hp');
          try assumption; cbn [adv r_pos r_pos0 r_len r_dep]; try lia.
        * apply (rest_adv _ _ _ Hrest).
        * rewrite frev_snoc in Hrun. exists st'. split; [exact Hrun|exact Hp'].
      + fold fx. destruct fx; [apply N.eqb_neq; specialize (Hne eq_refl); lia|reflexivity].
      + fold fx. now destruct fx.
      + fold fx. now destruct fx.
      + fold al E. destruct fx; lia.
      + destruct fx; lia.
      + fold al E fx. destruct fx; [now left|right; lia].
  Qed.

  Lemma geparts_count ks vs l : forall off,
    (forall p, In p l -> 1 <= len (gvb e (fst p))) -> N.of_nat (length l) <= len (concat (geparts e ks vs l off)).
  Proof.
    induction l as [|q l IH]; intros off Hk; [cbn; lia|]. cbn [geparts concat length]. rewrite !len_app.
    pose proof (tb_len_ge (N.max (galign ks) (galign vs)) ks [vs] (entry_parts e vs q)) as Hge.
    unfold entry_parts in Hge at 1. cbn [concat] in Hge. rewrite !len_app in Hge.
    specialize (Hk q (or_introl eq_refl)) as Hq.
    specialize (IH (off + len (pad off (N.max (galign ks) (galign vs)) ++ tuple_bytes (N.max (galign ks) (galign vs)) [ks; vs] (entry_parts e vs q)))
                   (fun p Hp => Hk p (or_intror Hp))).
    rewrite len_app in IH. lia.
  Qed.
  Lemma length_geparts ks vs l off : length (geparts e ks vs l off) = length l.
  Proof. revert off. induction l as [|q l IH]; intros off; cbn [geparts length]; [reflexivity|]. now rewrite IH. Qed.

  Lemma reads_dict ks vs l : Forall (fun p => reads (fst p) /\ reads (snd p)) l -> reads (GDict ks vs l).
  Proof.
    intros HF fuel st px t Hfuel Hst Hv Hs -> Hrest _ [Hfx0|Hlen]; [discriminate|].
    destruct fuel as [|f]; [cbn in Hfuel; lia|]. rewrite gheight_dict in Hfuel.
    pose proof (pre_align e _ (proj1 (proj2 Hv)) (proj1 Hv)) as Hal.
    destruct (pre_node e _ (proj1 (proj2 Hv))) as (_ & Hnt & _ & Hsmall).
    destruct (vok_dict _ _ _ _ (proj1 (proj2 Hst)) Hv) as (d' & Hinc & Hd' & Hl).
    cbn [gsig galign] in *. rewrite gvb_dict_app in *.
    set (al := N.max (galign ks) (galign vs)) in *. set (fx := gis_fixed ks && gis_fixed vs) in *.
    assert (Hal0 : al <> 0) by (apply pow2_nz, pow2_max; apply galign_pow2).
    set (ps := geparts e ks vs l 0) in *. set (data := concat ps) in *.
    set (F := eframing fx (len data) (ends_from 0 ps)) in *. rewrite len_app in Hsmall.
    assert (Hok : Forall (dentry_ok d' ks vs) l).
    { apply Forall_forall. intros q Hq. rewrite Forall_forall in Hl. split; [apply (Hl q Hq)|]. split; [apply (Hl q Hq)|]. split.
      - intros Hf. cbn [node_tail] in Hnt. fold al in Hnt. rewrite Hf in Hnt. cbn [andb] in Hnt.
        destruct (padn (len (concat (entry_parts e vs q))) al =? 0) eqn:Hz; [now apply N.eqb_eq in Hz|].
        exfalso. rewrite <- Bool.not_true_iff_false in Hnt. apply Hnt. apply existsb_exists. exists q. split; [assumption|].
        now rewrite Hz.
      - pose proof (entry_len_data e ks vs l 0 q Hq) as Hle. fold ps data in Hle.
        change (2 ^ 60) with 1152921504606846976 in Hsmall. lia. }
    (* every entry accounts for at least one byte of the window: the loop counter suffices *)
    assert (Hcount : N.of_nat (length l) <= len data + len F).
    { subst F. unfold eframing. destruct fx eqn:Hf.
      - assert (Hc : N.of_nat (length l) <= len data); [|lia]. subst data ps. apply geparts_count. intros q Hq.
        rewrite Forall_forall in Hok. destruct (Hok q Hq) as ((Hvk & Hsk) & _). apply andb_true_iff in Hf as [Hf _].
        apply fixed_nonempty; [apply Hvk|now rewrite Hsk].
      - rewrite len_framing, length_ends_from. subst ps. rewrite length_geparts.
        pose proof (offset_width_pos (len data) (N.of_nat (length l))). nia. }
    set (p := padn (r_pos0 st + r_pos st) al) in *.
    rewrite <- !app_assoc in Hrest. rewrite !len_app, len_pad in Hlen |- *. fold p in Hlen |- *.
    unfold gde. rewrite (gde_gen_dict _ f st ks vs Hs), Hs, Hal.
    rewrite (gparse_padding_run st al _ Hrest) by (fold p; lia). cbn [bind]. fold p.
    apply rest_adv_pad in Hrest. fold p in Hrest.
    assert (Hal2 : (r_pos0 st + (r_pos st + p)) mod al = 0) by (rewrite N.add_assoc; now apply padn_after).
    (* ArrayDeserializer::new *)
    rewrite garr_new_eq. cbv zeta. change (r_dep (adv st p)) with (r_dep st). rewrite Hinc. cbn [bind].
    change (r_sig (adv st p)) with (r_sig st). rewrite Hs, Hal.
    rewrite gparse_padding_aligned by (assumption || exact Hal2). cbn [bind].
    cbn [rset_dep adv r_pos r_len r_sig]. destruct (N.ltb_spec (r_len st) (r_pos st + p)); [lia|]. rewrite Hs. cbn [bind].
    change fixed_sized with gis_fixed. fold fx.
    rewrite (garr_make_run (rset_dep (adv st p) d') al ks (Some vs) (gis_fixed ks) fx ps t); try assumption.
    2:{ intros Hf. fold data. subst F. unfold eframing in Hsmall. rewrite Hf, len_framing, length_ends_from in Hsmall.
        pose proof (offset_width_pos (len data) (N.of_nat (length ps))). change (2 ^ 60) with 1152921504606846976 in Hsmall. nia. }
    2:{ cbn [rset_dep adv r_pos r_len]. fold data F. lia. }
    cbn [bind]. set (a := garr_of _ _ _ _ _ _ _).
    destruct (dict_loop_rt ks vs l HF f (S (N.to_nat (r_len st))) (rset_dep (adv st p) d') a [] 0 (F ++ t)) as (st' & Hrun & Hp');
      try assumption; try reflexivity; cbn [rset_dep adv r_len r_pos r_pos0 r_dep a garr_of a_start a_len a_offs_len a_kos]; try lia.
    - split; [apply Hst|split; [exact Hd'|apply Hst]].
    - fold fx. destruct fx eqn:Hf; [|reflexivity]. apply andb_true_iff in Hf as [Hf _]. now rewrite Hf.
    - fold data F. lia.
    - cbn [a garr_of a_offs]. fold ps fx in Hrun. unfold gde in Hrun. rewrite Hrun. cbn [bind frev rev_append app].
      exists st'. split; [reflexivity|]. rewrite Hp'. cbn [a garr_of a_start a_len a_offs_len rset_dep adv r_pos]. fold data F. lia.
  Qed.

  Theorem reads_all : forall v, reads v.
  Proof.
    induction v using gval_ind'.
    - apply (reads_uint _ 1 GU8 n); try reflexivity. intros H. symmetry. now apply enc_1.
    - intros fuel st px t _ _ (_ & Hp & _). apply pre_node in Hp as [Hp _]. discriminate.
    - apply (reads_sint _ 2 GI16 z); (reflexivity || discriminate).
    - apply (reads_uint _ 2 GU16 n); reflexivity.
    - apply (reads_sint _ 4 GI32 z); (reflexivity || discriminate).
    - apply (reads_uint _ 4 GU32 n); reflexivity.
    - apply (reads_sint _ 8 GI64 z); (reflexivity || discriminate).
    - apply (reads_uint _ 8 GU64 n); reflexivity.
    - apply (reads_uint _ 8 GF64 b); reflexivity.
    - apply (reads_strlike _ s); [tauto|reflexivity|]. cbn [gwf gsig]. unfold gstr_ok. intros [Hn Hu]%andb_true_iff _. now repeat split.
    - destruct np.
      { intros fuel st px t _ _ (_ & Hp & _). apply all_nodes_head in Hp. unfold node_pre in Hp. rewrite andb_false_r in Hp. discriminate. }
      apply (reads_strlike _ (show s)); [tauto|reflexivity|]. cbn [gwf gsig gstr_value]. intros [Hw _]%andb_true_iff _.
      pose proof (DeCompleteFacts.ascii_show s) as Ha. rewrite (parse_sigval s Hw), WinnowFacts.lbeq_refl.
      repeat split; [now apply DeCompleteFacts.ascii_nul_free|now apply DeCompleteFacts.ascii_utf8].
    - apply (reads_strlike _ s); [tauto|reflexivity|]. cbn [gwf gsig gstr_value]. intros Hw _.
      pose proof (DeCompleteFacts.path_ascii s Hw) as Ha. rewrite Hw.
      repeat split; [now apply DeCompleteFacts.ascii_nul_free|now apply DeCompleteFacts.ascii_utf8].
    - now apply reads_variant.
    - intros fuel st px t _ _ (_ & Hp & _). apply all_nodes_head in Hp. unfold node_pre in Hp. rewrite andb_false_r in Hp. discriminate.
    - now apply reads_array.
    - now apply reads_dict.
    - now apply reads_struct.
    - apply reads_nothing.
    - now apply reads_just.
  Qed.

  (* any value of the fragment is read back from a window that is exactly its (padded) encoding *)
  Theorem rt_all : forall v fuel st,
    (gheight v <= fuel)%nat -> r_e st = e -> gwf v = true -> pre e v = true -> rtok v = true ->
    r_sig st = gsig v -> dep_ok (r_dep st) -> gfits (r_dep st) v -> r_len st < big ->
    holds st (pad (r_pos0 st + r_pos st) (galign (gsig v)) ++ gvb e v) ->
    exists st', gde fuel st = Ok (v, st') /\ r_pos st' = r_len st.
  Proof.
    intros v fuel st Hfuel He Hw Hp Hr Hs Hd Hf Hl (t & Ht & Hb).
    destruct (reads_all v fuel st (pad (r_pos0 st + r_pos st) (galign (gsig v)) ++ gvb e v) t Hfuel) as (st' & H1 & H2);
      try reflexivity; try assumption; try lia.
    - split; [assumption|split; assumption].
    - repeat split; assumption.
    - exists st'. split; [assumption|lia].
  Qed.
End R.

Lemma gheights_le l n : Forall (fun x => (gheight x <= n)%nat) l -> (gheights l <= n)%nat.
Proof. induction 1 as [|x r Hx Hr IH]; cbn [gheights]; lia. Qed.
Lemma gheightp_le l n : Forall (fun p => (gheight (fst p) <= n)%nat /\ (gheight (snd p) <= n)%nat) l -> (gheightp l <= n)%nat.
Proof. induction 1 as [|[k x] r [Hk Hx] Hr IH]; cbn [gheightp fst snd] in *; lia. Qed.

Lemma gheight_limit : forall v ds da dv, ds + da + dv <= 64 -> gdepth_ok ds da dv v = true ->
  N.of_nat (gheight v) + ds + da + dv <= 65.
Proof.
  induction v using gval_ind'; intros ds da dv Hs Hd; try (cbn [gheight]; lia); cbn [gdepth_ok] in Hd.
  - apply andb_true_iff in Hd as [H1 H2]. apply N.leb_le in H1.
    specialize (IHv ds da (dv + 1) ltac:(lia) H2). cbn [gheight]. lia.
  - apply andb_true_iff in Hd as [Hd H3]. apply andb_true_iff in Hd as [H1 H2]. apply N.leb_le in H1, H2. rewrite gheight_array.
    assert (Hl : (gheights l <= N.to_nat (64 - ds - da - dv))%nat); [|lia].
    apply gheights_le. rewrite forallb_forall in H3. rewrite Forall_forall in H |- *. intros x Hx.
    specialize (H x Hx ds (da + 1) dv ltac:(lia) (H3 x Hx)). lia.
  - apply andb_true_iff in Hd as [Hd H3]. apply andb_true_iff in Hd as [H1 H2]. apply N.leb_le in H1, H2. rewrite gheight_dict.
    assert (Hl : (gheightp l <= N.to_nat (64 - ds - da - dv))%nat); [|lia].
    apply gheightp_le. rewrite forallb_forall in H3. rewrite Forall_forall in H |- *. intros q Hq.
    destruct (H q Hq) as [Hk Hx]. specialize (H3 q Hq). apply andb_true_iff in H3 as [Hk1 Hx1].
    specialize (Hk ds (da + 1) dv ltac:(lia) Hk1). specialize (Hx ds (da + 1) dv ltac:(lia) Hx1). lia.
  - apply andb_true_iff in Hd as [Hd H3]. apply andb_true_iff in Hd as [H1 H2]. apply N.leb_le in H1, H2. rewrite gheight_struct.
    assert (Hl : (gheights l <= N.to_nat (64 - ds - da - dv))%nat); [|lia].
    apply gheights_le. rewrite forallb_forall in H3. rewrite Forall_forall in H |- *. intros x Hx.
    specialize (H x Hx (ds + 1) da dv ltac:(lia) (H3 x Hx)). lia.
  - apply andb_true_iff in Hd as [H1 H2]. apply N.leb_le in H1.
    specialize (IHv ds da (dv + 1) ltac:(lia) H2). cbn [gheight]. lia.
Qed.

Lemma within_limits_fuel v : gwithin_limits v = true -> (gheight v <= 65)%nat.
Proof. intros H. pose proof (gheight_limit v 0 0 0 ltac:(lia) H). lia. Qed.

(* the value with its own signature: what the serializer writes is read back as the same value, consuming all of it *)
Theorem gv_roundtrip_plain e pos v :
  gwf v = true -> gwithin_limits v = true -> gplain v = true -> gsmall e v = true -> known_c05 e v = false -> rtok v = true ->
  forall fuel, (65 <= fuel)%nat ->
  exists b st', gser_top e pos (gsig v) (sval_of v) = Ok (b, []) /\
                gde fuel (ginit_dst e pos (gsig v) b []) = Ok (v, st') /\ r_pos st' = len b.
Proof.
  intros Hw Hl Hp Hs Hk Hr fuel Hfuel.
  exists (gv_marshal e pos v).
  assert (Hser : gser_top e pos (gsig v) (sval_of v) = Ok (gv_marshal e pos v, [])).
  { apply gser_top_exact. repeat split; assumption. }
  pose proof (pre_split e v Hk Hs Hp) as Hpre.
  destruct (rt_all e v fuel (ginit_dst e pos (gsig v) (gv_marshal e pos v) [])) as (st' & Hdec & Hpos); try assumption; try reflexivity.
  - pose proof (within_limits_fuel v Hl). lia.
  - split; cbn; lia.
  - cbn [ginit_dst r_len]. pose proof (pre_node e v Hpre) as (_ & _ & _ & Hsm).
    unfold gv_marshal. rewrite (renum_plain v 0 Hp). rewrite len_app, len_pad.
    assert (padn pos (galign (gsig v)) < galign (gsig v)) by (apply DBus.SerProofs.padn_spec, galign_nz).
    destruct (galign_pow2 (gsig v)) as [Hq|[Hq|[Hq|Hq]]]; rewrite Hq in *; unfold big;
      change (2 ^ 60) with 1152921504606846976 in Hsm; lia.
  - unfold gv_marshal. rewrite (renum_plain v 0 Hp). exists []. cbn [ginit_dst r_rest r_pos r_len r_pos0].
    rewrite N.add_0_r, app_nil_r. split; [reflexivity|lia].
  - exists st'. repeat split; assumption.
Qed.
