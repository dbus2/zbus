(* C05/RtFacts.v — building blocks for the GVariant round trip (C02): the decoder's primitive readers on a state whose
   remaining bytes [r_rest] begin with the expected bytes. *)
From ZV Require Import Base.Bytes Base.BytesFacts Base.Res Base.Sig Base.SigParse Base.Utf8 DBus.Val DBus.Spec DBus.Ser DBus.De DBus.SerFacts
  C05.Val C05.Spec C05.Model C05.DeModel C05.Classes C05.Facts.
From ZV Require DBus.DeCompleteFacts.
From Coq Require Import Lia.
Local Open Scope N_scope.

(* the window of [st] starts with the bytes [b] (and is at least that long) *)
Definition starts (st : dst) (b : bytes) : Prop :=
  exists tail, r_rest st = b ++ tail /\ r_pos st + len b <= r_len st.
(* the window of [st] is exactly [b] *)
Definition holds (st : dst) (b : bytes) : Prop :=
  exists tail, r_rest st = b ++ tail /\ r_pos st + len b = r_len st.

Lemma starts_app_l st a b : starts st (a ++ b) -> starts st a.
Proof. intros (t & H1 & H2). exists (b ++ t). rewrite <- app_assoc in H1. split; [assumption|]. rewrite len_app in H2. lia. Qed.

Lemma takeN_app_eq n (a b : bytes) : len a = n -> takeN n (a ++ b) = a.
Proof. intros <-. apply takeN_app. Qed.
Lemma dropN_app_eq n (a b : bytes) : len a = n -> dropN n (a ++ b) = b.
Proof. intros <-. apply dropN_app. Qed.
Lemma dropN_0 {A} (l : list A) : dropN 0 l = l. Proof. reflexivity. Qed.

Lemma adv_adv st a b : adv (adv st a) b = adv st (a + b).
Proof. unfold adv; cbn. f_equal; [apply dropN_dropN|lia]. Qed.
Lemma adv_0 st : adv st 0 = st.
Proof. destruct st; unfold adv; cbn. f_equal. lia. Qed.

Lemma rest_adv st a b : r_rest st = a ++ b -> r_rest (adv st (len a)) = b.
Proof. intros H. cbn [adv r_rest]. rewrite H. apply dropN_app. Qed.
Lemma rest_adv_pad st q al b : r_rest st = pad q al ++ b -> r_rest (adv st (padn q al)) = b.
Proof. rewrite <- (len_pad q al). apply rest_adv. Qed.

(* parse_padding when the padding is there *)
Lemma gparse_padding_run st al b :
  r_rest st = pad (r_pos0 st + r_pos st) al ++ b -> r_pos st + padn (r_pos0 st + r_pos st) al <= r_len st ->
  gparse_padding st al = Ok (adv st (padn (r_pos0 st + r_pos st) al)).
Proof.
  intros H1 H2. unfold gparse_padding. set (p := padn (r_pos0 st + r_pos st) al) in *.
  destruct (N.eqb_spec p 0) as [H0|H0]; [now rewrite H0, adv_0|].
  destruct (N.ltb_spec (r_len st) (r_pos st + p)); [lia|].
  destruct (N.leb_spec (r_pos st + p) (r_len st)); [|lia]. cbn [negb].
  rewrite H1. unfold pad. fold p. rewrite <- (len_zeros p) at 1. rewrite takeN_app.
  change is_zero with (fun c => bn c =? 0). now rewrite DeCompleteFacts.forallb_zero_zeros.
Qed.
Lemma gparse_padding_aligned st al : al <> 0 -> (r_pos0 st + r_pos st) mod al = 0 -> gparse_padding st al = Ok st.
Proof. intros Ha H. unfold gparse_padding. now rewrite (padn_aligned _ _ Ha H). Qed.

Lemma gnext_slice_run st m b : r_rest st = m ++ b -> r_pos st + len m <= r_len st ->
  gnext_slice st (len m) = Ok (m, adv st (len m)).
Proof.
  intros H1 H2. unfold gnext_slice. destruct (N.ltb_spec (r_len st) (r_pos st + len m)); [lia|]. now rewrite H1, takeN_app.
Qed.

(* reading a fixed-width number *)
Lemma grd_fixed_run st (n : nat) x b :
  x < 2 ^ (8 * N.of_nat n) ->
  r_rest st = pad (r_pos0 st + r_pos st) (N.of_nat n) ++ enc (r_e st) n x ++ b ->
  r_pos st + padn (r_pos0 st + r_pos st) (N.of_nat n) + N.of_nat n <= r_len st ->
  grd_fixed st (N.of_nat n) = Ok (x, adv st (padn (r_pos0 st + r_pos st) (N.of_nat n) + N.of_nat n)).
Proof.
  intros Hx H1 H2. unfold grd_fixed. rewrite (gparse_padding_run _ _ _ H1) by lia. cbn [bind].
  apply rest_adv_pad in H1. rewrite <- (len_enc (r_e st) n x) at 2.
  rewrite (gnext_slice_run _ _ _ H1) by (rewrite len_enc; cbn [adv r_pos r_len]; lia). cbn [bind].
  rewrite len_enc, adv_adv. cbn [adv r_e]. now rewrite DeCompleteFacts.dec_enc.
Qed.

(* the bytes of the slice from an index at or after the cursor *)
Lemma from_idx_ge st i : r_pos st <= i -> from_idx st i = dropN (i - r_pos st) (r_rest st).
Proof. intros H. unfold from_idx. destruct (N.leb_spec (r_pos st) i); [reflexivity|lia]. Qed.

Lemma from_idx_skip st a b : r_rest st = a ++ b -> from_idx st (r_pos st + len a) = b.
Proof.
  intros H. rewrite from_idx_ge by lia. replace (r_pos st + len a - r_pos st) with (len a) by lia. rewrite H. apply dropN_app.
Qed.

(* the sub-deserializer over a range of the slice; the one over the bytes from the cursor up to [hi] *)
Lemma gsub_at st lo hi sh g d : lo <= hi -> hi <= r_len st ->
  gsub st lo hi sh g d =
  Ok {| r_e := r_e st; r_pos0 := r_pos0 st + sh; r_base := from_idx st lo; r_rest := from_idx st lo; r_pos := 0;
        r_len := hi - lo; r_sig := g; r_dep := d; r_fds := r_fds st |}.
Proof.
  intros H1 H2. unfold gsub. destruct (N.ltb_spec hi lo); [lia|]. destruct (N.ltb_spec (r_len st) hi); [lia|]. reflexivity.
Qed.
Definition window (st : dst) (hi : N) (g : sig) (d : depths) : dst :=
  {| r_e := r_e st; r_pos0 := r_pos0 st + r_pos st; r_base := r_rest st; r_rest := r_rest st; r_pos := 0;
     r_len := hi - r_pos st; r_sig := g; r_dep := d; r_fds := r_fds st |}.
Lemma gsub_here st hi g d : r_pos st <= hi -> hi <= r_len st ->
  gsub st (r_pos st) hi (r_pos st) g d = Ok (window st hi g d).
Proof. intros H1 H2. rewrite gsub_at by assumption. unfold window. now rewrite from_idx_ge, N.sub_diag by lia. Qed.
Lemma rset_dep_window st hi g d d' : rset_dep (window st hi g d) d' = window st hi g d'.
Proof. reflexivity. Qed.
