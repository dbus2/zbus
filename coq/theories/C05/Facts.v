(* C05/Facts.v — bookkeeping for the GVariant proofs: list reversal, the writer, padding under aligned shifts,
   alignments are powers of two, the framing-offset width, standalone forms of the local fixpoints of [gvb]. *)
From ZV Require Import Base.Bytes Base.BytesFacts Base.Res Base.Sig Base.SigParse DBus.Val DBus.Spec DBus.Ser DBus.SerFacts DBus.SerProofs
  C05.Val C05.Spec C05.Model C05.Classes.
From Coq Require Import Lia.
Local Open Scope N_scope.

Lemma frev_rev {A} (l : list A) : frev l = rev l.
Proof. unfold frev. now rewrite rev_append_rev, app_nil_r. Qed.
Lemma frev_involutive {A} (l : list A) : frev (rev l) = l.
Proof. rewrite frev_rev. apply rev_involutive. Qed.

(* ---------- the writer ---------- *)
Lemma gwr_nil st : gwr st [] = st.
Proof. destruct st; unfold gwr; cbn. now rewrite N.add_0_r. Qed.
Lemma gwr_gwr st a b : gwr (gwr st a) b = gwr st (a ++ b).
Proof.
  unfold gwr; cbn [g_e g_pos0 g_rout g_written g_sig g_vsign g_dep g_fds]. f_equal.
  - rewrite !rev_append_rev, rev_app_distr. now rewrite app_assoc.
  - rewrite len_app. lia.
Qed.
Lemma gout_gwr st b : gout (gwr st b) = gout st ++ b.
Proof.
  unfold gout, gwr; cbn [g_e g_pos0 g_rout g_written g_sig g_vsign g_dep g_fds].
  rewrite !frev_rev, rev_append_rev, rev_app_distr, rev_involutive. reflexivity.
Qed.
Lemma written_gwr st b : g_written (gwr st b) = g_written st + len b. Proof. reflexivity. Qed.
Lemma gabs_gwr st b : gabs (gwr st b) = gabs st + len b. Proof. unfold gabs; cbn. lia. Qed.
Lemma gabs_ginit e pos g f : gabs (ginit e pos g f) = pos.
Proof. apply N.add_0_r. Qed.
Lemma gpadded_gwr st al : gpadded st al = gwr st (pad (gabs st) al). Proof. reflexivity. Qed.
Lemma gset_fds_id st : gset_fds st (g_fds st) = st. Proof. now destruct st. Qed.
Lemma gset_sig_id st : gset_sig st (g_sig st) = st. Proof. now destruct st. Qed.
Lemma gset_dep_id st : gset_dep st (g_dep st) = st. Proof. now destruct st. Qed.
Lemma gset_sig_gwr st b g : gset_sig (gwr st b) g = gwr (gset_sig st g) b. Proof. reflexivity. Qed.
Lemma gset_dep_gwr st b d : gset_dep (gwr st b) d = gwr (gset_dep st d) b. Proof. reflexivity. Qed.
Lemma gset_vsign_gwr st b g : gset_vsign (gwr st b) g = gwr (gset_vsign st g) b. Proof. reflexivity. Qed.
Lemma gset_fds_gwr st b g : gset_fds (gwr st b) g = gwr (gset_fds st g) b. Proof. reflexivity. Qed.

Lemma g_dep_gwr st b : g_dep (gwr st b) = g_dep st. Proof. reflexivity. Qed.
Lemma g_sig_gwr st b : g_sig (gwr st b) = g_sig st. Proof. reflexivity. Qed.
Lemma g_vsign_gwr st b : g_vsign (gwr st b) = g_vsign st. Proof. reflexivity. Qed.
Lemma g_e_gwr st b : g_e (gwr st b) = g_e st. Proof. reflexivity. Qed.
Lemma g_pos0_gwr st b : g_pos0 (gwr st b) = g_pos0 st. Proof. reflexivity. Qed.
Lemma g_fds_gwr st b : g_fds (gwr st b) = g_fds st. Proof. reflexivity. Qed.

Lemma g_e_gset_sig st x : g_e (gset_sig st x) = g_e st. Proof. reflexivity. Qed.
Lemma g_pos0_gset_sig st x : g_pos0 (gset_sig st x) = g_pos0 st. Proof. reflexivity. Qed.
Lemma g_rout_gset_sig st x : g_rout (gset_sig st x) = g_rout st. Proof. reflexivity. Qed.
Lemma g_written_gset_sig st x : g_written (gset_sig st x) = g_written st. Proof. reflexivity. Qed.
Lemma g_sig_gset_sig st x : g_sig (gset_sig st x) = x. Proof. reflexivity. Qed.
Lemma g_vsign_gset_sig st x : g_vsign (gset_sig st x) = g_vsign st. Proof. reflexivity. Qed.
Lemma g_dep_gset_sig st x : g_dep (gset_sig st x) = g_dep st. Proof. reflexivity. Qed.
Lemma g_fds_gset_sig st x : g_fds (gset_sig st x) = g_fds st. Proof. reflexivity. Qed.
Lemma gabs_gset_sig st x : gabs (gset_sig st x) = gabs st. Proof. reflexivity. Qed.
Lemma gout_gset_sig st x : gout (gset_sig st x) = gout st. Proof. reflexivity. Qed.
Lemma g_e_gset_dep st x : g_e (gset_dep st x) = g_e st. Proof. reflexivity. Qed.
Lemma g_pos0_gset_dep st x : g_pos0 (gset_dep st x) = g_pos0 st. Proof. reflexivity. Qed.
Lemma g_rout_gset_dep st x : g_rout (gset_dep st x) = g_rout st. Proof. reflexivity. Qed.
Lemma g_written_gset_dep st x : g_written (gset_dep st x) = g_written st. Proof. reflexivity. Qed.
Lemma g_sig_gset_dep st x : g_sig (gset_dep st x) = g_sig st. Proof. reflexivity. Qed.
Lemma g_vsign_gset_dep st x : g_vsign (gset_dep st x) = g_vsign st. Proof. reflexivity. Qed.
Lemma g_dep_gset_dep st x : g_dep (gset_dep st x) = x. Proof. reflexivity. Qed.
Lemma g_fds_gset_dep st x : g_fds (gset_dep st x) = g_fds st. Proof. reflexivity. Qed.
Lemma gabs_gset_dep st x : gabs (gset_dep st x) = gabs st. Proof. reflexivity. Qed.
Lemma gout_gset_dep st x : gout (gset_dep st x) = gout st. Proof. reflexivity. Qed.
Lemma g_e_gset_vsign st x : g_e (gset_vsign st x) = g_e st. Proof. reflexivity. Qed.
Lemma g_pos0_gset_vsign st x : g_pos0 (gset_vsign st x) = g_pos0 st. Proof. reflexivity. Qed.
Lemma g_rout_gset_vsign st x : g_rout (gset_vsign st x) = g_rout st. Proof. reflexivity. Qed.
Lemma g_written_gset_vsign st x : g_written (gset_vsign st x) = g_written st. Proof. reflexivity. Qed.
Lemma g_sig_gset_vsign st x : g_sig (gset_vsign st x) = g_sig st. Proof. reflexivity. Qed.
Lemma g_vsign_gset_vsign st x : g_vsign (gset_vsign st x) = x. Proof. reflexivity. Qed.
Lemma g_dep_gset_vsign st x : g_dep (gset_vsign st x) = g_dep st. Proof. reflexivity. Qed.
Lemma g_fds_gset_vsign st x : g_fds (gset_vsign st x) = g_fds st. Proof. reflexivity. Qed.
Lemma gabs_gset_vsign st x : gabs (gset_vsign st x) = gabs st. Proof. reflexivity. Qed.
Lemma gout_gset_vsign st x : gout (gset_vsign st x) = gout st. Proof. reflexivity. Qed.
Lemma g_e_gset_fds st x : g_e (gset_fds st x) = g_e st. Proof. reflexivity. Qed.
Lemma g_pos0_gset_fds st x : g_pos0 (gset_fds st x) = g_pos0 st. Proof. reflexivity. Qed.
Lemma g_rout_gset_fds st x : g_rout (gset_fds st x) = g_rout st. Proof. reflexivity. Qed.
Lemma g_written_gset_fds st x : g_written (gset_fds st x) = g_written st. Proof. reflexivity. Qed.
Lemma g_sig_gset_fds st x : g_sig (gset_fds st x) = g_sig st. Proof. reflexivity. Qed.
Lemma g_vsign_gset_fds st x : g_vsign (gset_fds st x) = g_vsign st. Proof. reflexivity. Qed.
Lemma g_dep_gset_fds st x : g_dep (gset_fds st x) = g_dep st. Proof. reflexivity. Qed.
Lemma g_fds_gset_fds st x : g_fds (gset_fds st x) = x. Proof. reflexivity. Qed.
Lemma gabs_gset_fds st x : gabs (gset_fds st x) = gabs st. Proof. reflexivity. Qed.
Lemma gout_gset_fds st x : gout (gset_fds st x) = gout st. Proof. reflexivity. Qed.
#[export] Hint Rewrite gabs_gwr gabs_gset_sig gabs_gset_dep gabs_gset_vsign gabs_gset_fds : gabs.

(* Projections of a state built with [gwr] and the setters reduce by computation, as the table above says; a state
   that stands on its own is left as it is.  [gabs] of such a state is rewritten with the database above. *)
Ltac gproj :=
  cbn [g_e g_pos0 g_rout g_written g_sig g_vsign g_dep g_fds gset_sig gset_dep gset_vsign gset_fds gwr gsub_of];
  autorewrite with gabs.

#[export] Hint Rewrite gset_sig_gwr gset_dep_gwr gset_vsign_gwr gset_fds_gwr gwr_gwr : gpush.
Lemma gback_vsign st g v : gback_from st (gset_vsign (gsub_of st g) v) = gset_vsign st v.
Proof. destruct st; reflexivity. Qed.
Lemma gback_gwr st g b : gback_from st (gwr (gsub_of st g) b) = gset_vsign (gwr st b) None.
Proof. destruct st; reflexivity. Qed.

(* ---------- padding ---------- *)
Lemma len_pad p a : len (pad p a) = padn p a.
Proof. apply len_zeros. Qed.
Lemma add_sub_l (a b : N) : a + b - a = b.
Proof. lia. Qed.
Lemma padn_aligned p a : a <> 0 -> p mod a = 0 -> padn p a = 0.
Proof. intros Ha H. unfold padn. rewrite H, N.sub_0_r. now apply N.mod_same. Qed.
Lemma mod_shift s off a : a <> 0 -> s mod a = 0 -> (s + off) mod a = off mod a.
Proof. intros Ha H. rewrite N.add_mod by assumption. rewrite H, N.add_0_l. now apply N.mod_mod. Qed.
Lemma padn_shift s off a : a <> 0 -> s mod a = 0 -> padn (s + off) a = padn off a.
Proof. intros Ha H. unfold padn. now rewrite mod_shift. Qed.
Lemma padn_after p a : a <> 0 -> (p + padn p a) mod a = 0.
Proof. intros Ha. now apply padn_spec. Qed.
Lemma pad_shift s off a : a <> 0 -> s mod a = 0 -> pad (s + off) a = pad off a.
Proof. intros Ha H. unfold pad. now rewrite padn_shift. Qed.
Lemma pad_aligned p a : a <> 0 -> p mod a = 0 -> pad p a = [].
Proof. intros Ha H. unfold pad. now rewrite padn_aligned. Qed.
Lemma mod_trans s big small : big <> 0 -> small <> 0 -> s mod big = 0 -> big mod small = 0 -> s mod small = 0.
Proof.
  intros Hb Hs H1 H2. apply N.mod_divide in H1; [|assumption]. apply N.mod_divide in H2; [|assumption].
  apply N.mod_divide; [assumption|]. eapply N.divide_trans; eassumption.
Qed.

(* ---------- alignments are 1, 2, 4 or 8 ---------- *)
Definition pow2 (a : N) : Prop := a = 1 \/ a = 2 \/ a = 4 \/ a = 8.
Lemma pow2_max a b : pow2 a -> pow2 b -> pow2 (N.max a b).
Proof. unfold pow2. intros [Ha|[Ha|[Ha|Ha]]] [Hb|[Hb|[Hb|Hb]]]; subst; cbn; tauto. Qed.
Lemma pow2_nz a : pow2 a -> a <> 0.
Proof. unfold pow2. lia. Qed.
Lemma pow2_div a b : pow2 a -> pow2 b -> b <= a -> a mod b = 0.
Proof. unfold pow2. intros [Ha|[Ha|[Ha|Ha]]] [Hb|[Hb|[Hb|Hb]]] H; subst; try reflexivity; lia. Qed.

Lemma galign_pow2 : forall s, pow2 (galign s).
Proof.
  induction s using sig_ind'; cbn [galign]; unfold pow2; try tauto.
  - apply pow2_max; assumption.
  - induction H as [|x l Hx Hl IH]; [unfold pow2; tauto|]. apply pow2_max; assumption.
Qed.
Lemma galigns_pow2 l : pow2 (galigns l).
Proof. induction l as [|x l IH]; cbn; [unfold pow2; tauto|]. apply pow2_max; [apply galign_pow2|assumption]. Qed.
Lemma galign_struct fs : galign (SStruct fs) = galigns fs.
Proof. cbn [galign]. induction fs as [|x l IH]; cbn; [reflexivity|]. now rewrite IH. Qed.
Lemma galigns_ge l f : In f l -> galign f <= galigns l.
Proof. induction l as [|x l IH]; cbn; [tauto|]. intros [->|H]; [lia|]. specialize (IH H). lia. Qed.
Lemma galign_nz s : galign s <> 0. Proof. apply pow2_nz, galign_pow2. Qed.
Lemma galigns_nz l : galigns l <> 0. Proof. apply pow2_nz, galigns_pow2. Qed.

(* ---------- fixed-size-ness: the code's table is the format's ---------- *)
Lemma fixed_sized_spec : forall s, fixed_sized s = gis_fixed s.
Proof.
  (* the two recursive definitions have the same shape: they are convertible *)
  intros s. reflexivity.
Qed.

(* ---------- the framing-offset width ---------- *)
Lemma fos_max_1 : fos_max 1 = 255. Proof. reflexivity. Qed.
Lemma fos_max_2 : fos_max 2 = 65535. Proof. reflexivity. Qed.
Lemma fos_max_4 : fos_max 4 = 4294967295. Proof. reflexivity. Qed.
Lemma fos_max_8 : fos_max 8 = 18446744073709551615. Proof. reflexivity. Qed.

Lemma for_bare_cases n k :
  for_bare_container n k =
  if n + k * 1 <=? 255 then Ok 1 else if n + k * 2 <=? 65535 then Ok 2
  else if n + k * 4 <=? 4294967295 then Ok 4 else if n + k * 8 <=? 18446744073709551615 then Ok 8 else Panic PUnwrap.
Proof. unfold for_bare_container. now rewrite fos_max_1, fos_max_2, fos_max_4, fos_max_8. Qed.

Lemma for_bare_width n k : n + 8 * k <= 18446744073709551615 -> for_bare_container n k = Ok (offset_width n k).
Proof.
  intros H. rewrite for_bare_cases. unfold offset_width.
  rewrite N.mul_1_r, (N.mul_comm k 2), (N.mul_comm k 4), (N.mul_comm k 8).
  destruct (n + k <=? 255); [reflexivity|]. destruct (n + 2 * k <=? 65535); [reflexivity|].
  destruct (n + 4 * k <=? 4294967295); [reflexivity|].
  destruct (N.leb_spec (n + 8 * k) 18446744073709551615); [reflexivity|lia].
Qed.

Lemma offset_width_pos n k : 1 <= offset_width n k.
Proof. unfold offset_width. destruct (n + k <=? 255), (n + 2 * k <=? 65535), (n + 4 * k <=? 4294967295); lia. Qed.

(* ---------- offsets as bytes ---------- *)
Lemma len_le_bytes n x : len (le_bytes n x) = N.of_nat n.
Proof. unfold len. now rewrite le_bytes_length. Qed.
Lemma len_offs_enc w l : len (offs_enc w l) = w * N.of_nat (length l).
Proof.
  unfold offs_enc. induction l as [|o l IH]; cbn [map concat length]; [rewrite len_nil; lia|].
  rewrite len_app, IH, len_le_bytes. lia.
Qed.
Lemma write_offsets_fold w l st :
  fold_left (fun s o => gwr s (offset_bytes w o)) l st = gwr st (offs_enc w l).
Proof.
  revert st. induction l as [|o l IH]; intros st; cbn [fold_left]; [now rewrite gwr_nil|].
  rewrite IH, gwr_gwr. reflexivity.
Qed.

(* ---------- standalone forms of gvb's local fixpoints ---------- *)
Section G.
  Variable e : endian.
  (* [gparts] has the shape of gvb's local fixpoint: the two are convertible *)
  Lemma gvb_array el l :
    gvb e (GArray el l) =
    let ps := gparts e l 0 in let data := concat ps in
    if gis_fixed el then data else data ++ framing (len data) (ends_from 0 ps).
  Proof. reflexivity. Qed.
  Lemma gvb_struct l :
    gvb e (GStruct l) = tuple_bytes (galigns (map gsig l)) (map gsig l) (gparts e l 0).
  Proof. reflexivity. Qed.
  (* [geparts] takes an entry apart with fst and snd, the local fixpoint by pattern matching *)
  Lemma gvb_dict ks vs l :
    gvb e (GDict ks vs l) =
    let ps := geparts e ks vs l 0 in let data := concat ps in
    if gis_fixed ks && gis_fixed vs then data else data ++ framing (len data) (ends_from 0 ps).
  Proof.
    cbn [gvb].
    match goal with |- context [concat (?eparts ks vs l 0)] =>
      assert (H : forall off, eparts ks vs l off = geparts e ks vs l off) end.
    { induction l as [|[key x] l IH]; intros off; [reflexivity|]. cbn [geparts entry_parts fst snd]. now rewrite IH. }
    rewrite H. reflexivity.
  Qed.
End G.
