(* C05/SerProofs.v — for every well-formed value outside the known classes the model of zvariant's GVariant
   serializer has one of two outcomes: within the nesting limits exactly the specification's bytes (gvb / gv_marshal),
   beyond them a depth error. *)
From ZV Require Import Base.Bytes Base.BytesFacts Base.Res Base.Sig Base.SigParse DBus.Val DBus.Spec DBus.Ser DBus.SerFacts
  C05.Val C05.Spec C05.Model C05.Classes C05.Facts C05.SigFacts.
From Coq Require Import Lia.
Local Open Scope N_scope.

(* ---------- standalone forms of gser's local fixpoints ---------- *)
Fixpoint ser_elems (l : list sval) (start : N) (roffs : option (list N)) (st : gstate) : res cerr (gstate * option (list N)) :=
  match l with
  | [] => Ok (st, roffs)
  | y :: r => let* st1 := gser y st in ser_elems r start (push_end st1 start roffs) st1
  end.
Fixpoint ser_fields (l : list sval) (idx : nat) (start : N) (offs : option (list N)) (st : gstate) : res cerr (gstate * option (list N)) :=
  match l with
  | [] => Ok (st, offs)
  | y :: r => let* (g, isv, idx') := gfield_sig st idx in
              let* sub := gser y (gsub_of st g) in
              let '(st, offs) := gfield_done (gback_from st sub) start offs g isv in
              ser_fields r idx' start offs st
  end.
Definition ser_entry_tail (y : sval) (start al : N) (roffs : option (list N)) (ks vs : sig) (key_start : option N) (st : gstate)
  : res cerr (gstate * option (list N)) :=
  let key_offset := match key_start with Some s => Some (g_written st - s) | None => None end in
  let* st := gser y (gset_sig st vs) in
  let st := gset_sig st ks in
  let* st := match key_offset with
             | Some ko =>
                 let entry_size := g_written st - (match key_start with Some s => s | None => 0 end) in
                 let* w := for_bare_container entry_size 1 in
                 Ok (gwr st (offset_bytes w ko))
             | None => Ok st
             end in
  Ok (st, push_end st start roffs).
Fixpoint ser_entries (l : list (sval * sval)) (start al : N) (roffs : option (list N)) (ks vs : sig) (key_start : option N) (st : gstate)
  : res cerr (gstate * option (list N)) :=
  match l with
  | [] => Ok (st, roffs)
  | (k, y) :: r =>
      let st := gpadded st al in
      let key_start := match key_start with Some _ => Some (g_written st) | None => None end in
      let* st := gser k st in
      let* (st, roffs) := ser_entry_tail y start al roffs ks vs key_start st in
      ser_entries r start al roffs ks vs key_start st
  end.

Lemma gser_seq l st :
  gser (XSeq l) st =
  let* (st, start, al, roffs, asig) := gseq_begin st in
  let* (st, roffs) := ser_elems l start roffs st in
  gseq_end st start roffs asig.
Proof. reflexivity. Qed.
Lemma gser_tuple l st :
  gser (XTuple l) st =
  let* (st, k) := gstruct_begin st in
  match k with
  | KStructG start offs saved => let* (st, offs) := ser_fields l 0%nat start offs st in gstruct_end st start offs saved
  | KSeqG start roffs asig => let* (st, roffs) := ser_elems l start roffs st in gseq_end st start roffs asig
  | KMapG _ _ _ _ _ _ _ => Panic PUnreachable
  end.
Proof. reflexivity. Qed.
Lemma gser_map l st :
  gser (XMap l) st =
  let* (st, k) := gmap_begin st in
  match k with
  | KMapG start al roffs asig ks vs key_start =>
      let* (st, roffs) := ser_entries l start al roffs ks vs key_start st in gseq_end st start roffs asig
  | _ => Panic PUnreachable
  end.
Proof. reflexivity. Qed.

(* ---------- nesting depth bookkeeping ---------- *)
Definition dep_ok (d : depths) : Prop := d_struct d <= 32 /\ d_array d <= 32.
Definition dtot (d : depths) : N := d_variant d + d_maybe d.
Definition gfits (d : depths) (v : gval) : Prop := gdepth_ok (d_struct d) (d_array d) (dtot d) v = true.

Lemma dcheck_ok d : d_struct d <= 32 -> d_array d <= 32 -> d_struct d + d_array d + d_variant d + d_maybe d <= 64 ->
  dcheck d = Ok d.
Proof.
  intros H1 H2 H3. unfold dcheck.
  destruct (N.ltb_spec 32 (d_struct d)); [lia|]. destruct (N.ltb_spec 32 (d_array d)); [lia|].
  destruct (N.ltb_spec 64 (d_struct d + d_array d + d_variant d + d_maybe d)); [lia|]. reflexivity.
Qed.

Lemma inc_array_good d : dep_ok d -> d_array d + 1 <= 32 -> d_struct d + d_array d + dtot d + 1 <= 64 ->
  exists d', inc_array d = Ok d' /\ dec_array d' = d /\ dep_ok d' /\
             d_struct d' = d_struct d /\ d_array d' = d_array d + 1 /\ dtot d' = dtot d.
Proof.
  intros [H1 H2] H3 H4. unfold inc_array, dtot in *. eexists. split; [apply dcheck_ok; cbn; lia|].
  destruct d; unfold dec_array, dep_ok, dtot; cbn in *. repeat split; try lia. f_equal. lia.
Qed.
Lemma inc_struct_good d : dep_ok d -> d_struct d + 1 <= 32 -> d_struct d + d_array d + dtot d + 1 <= 64 ->
  exists d', inc_struct d = Ok d' /\ dep_ok d' /\
             d_struct d' = d_struct d + 1 /\ d_array d' = d_array d /\ dtot d' = dtot d.
Proof.
  intros [H1 H2] H3 H4. unfold inc_struct, dtot in *. eexists. split; [apply dcheck_ok; cbn; lia|].
  destruct d; unfold dep_ok, dtot; cbn in *. repeat split; lia.
Qed.
Lemma inc_variant_good d : dep_ok d -> d_struct d + d_array d + dtot d + 1 <= 64 ->
  exists d', inc_variant d = Ok d' /\ dep_ok d' /\
             d_struct d' = d_struct d /\ d_array d' = d_array d /\ dtot d' = dtot d + 1.
Proof.
  intros [H1 H2] H4. unfold inc_variant, dtot in *. eexists. split; [apply dcheck_ok; cbn; lia|].
  destruct d; unfold dep_ok, dtot; cbn in *. repeat split; lia.
Qed.
Lemma inc_maybe_good d : dep_ok d -> d_struct d + d_array d + dtot d + 1 <= 64 ->
  exists d', inc_maybe d = Ok d' /\ dec_maybe d' = d /\ dep_ok d' /\
             d_struct d' = d_struct d /\ d_array d' = d_array d /\ dtot d' = dtot d + 1.
Proof.
  intros [H1 H2] H4. unfold inc_maybe, dtot in *. eexists. split; [apply dcheck_ok; cbn; lia|].
  destruct d; unfold dec_maybe, dep_ok, dtot; cbn in *. repeat split; try lia. f_equal. lia.
Qed.

(* beyond the limits the counters refuse *)
Lemma dcheck_err d :
  (d_struct d <=? 32) && (d_array d <=? 32) && (d_struct d + d_array d + d_variant d + d_maybe d <=? 64) = false ->
  exists k, dcheck d = Err (EDepth k).
Proof.
  unfold dcheck. rewrite !N.ltb_antisym.
  destruct (d_struct d <=? 32), (d_array d <=? 32), (_ <=? 64); try discriminate; eexists; reflexivity.
Qed.
Lemma inc_array_fail d : dep_ok d -> (d_array d + 1 <=? 32) && (d_struct d + d_array d + dtot d + 1 <=? 64) = false ->
  exists k, inc_array d = Err (EDepth k).
Proof.
  intros [H1 H2] H. apply dcheck_err. unfold dtot in H. cbn. rewrite !andb_false_iff, !N.leb_gt in *. lia.
Qed.
Lemma inc_struct_fail d : dep_ok d -> (d_struct d + 1 <=? 32) && (d_struct d + d_array d + dtot d + 1 <=? 64) = false ->
  exists k, inc_struct d = Err (EDepth k).
Proof.
  intros [H1 H2] H. apply dcheck_err. unfold dtot in H. cbn. rewrite !andb_false_iff, !N.leb_gt in *. lia.
Qed.
Lemma inc_variant_fail d : dep_ok d -> (d_struct d + d_array d + dtot d + 1 <=? 64) = false ->
  exists k, inc_variant d = Err (EDepth k).
Proof.
  intros [H1 H2] H. apply dcheck_err. unfold dtot in H. cbn. rewrite !andb_false_iff, !N.leb_gt in *. lia.
Qed.
Lemma inc_maybe_fail d : dep_ok d -> (d_struct d + d_array d + dtot d + 1 <=? 64) = false ->
  exists k, inc_maybe d = Err (EDepth k).
Proof.
  intros [H1 H2] H. apply dcheck_err. unfold dtot in H. cbn. rewrite !andb_false_iff, !N.leb_gt in *. lia.
Qed.

(* ---------- the two outcomes of the serializer on a value: a result, or a depth error beyond the limits ---------- *)
Definition outcome {A} (r : res cerr A) (fits : bool) (a : A) : Prop :=
  if fits then r = Ok a else exists k, r = Err (EDepth k).

Lemma outcome_bind {A B} (r : res cerr A) (f : A -> res cerr B) b c a z :
  outcome r b a -> outcome (f a) c z -> outcome (let* x := r in f x) (b && c) z.
Proof.
  destruct b; cbn [outcome andb].
  - intros -> H. exact H.
  - intros [k ->] _. now exists k.
Qed.
Lemma outcome_then {A B} (r : res cerr A) (f : A -> res cerr B) b a z :
  outcome r b a -> f a = Ok z -> outcome (let* x := r in f x) b z.
Proof. intros Hr Hf. rewrite <- (andb_true_r b). exact (outcome_bind r f b true a z Hr Hf). Qed.

(* ---------- node predicates ---------- *)
Lemma all_nodes_array p el l : all_nodes p (GArray el l) = p (GArray el l) && forallb (all_nodes p) l.
Proof. reflexivity. Qed.
Lemma all_nodes_struct p l : all_nodes p (GStruct l) = p (GStruct l) && forallb (all_nodes p) l.
Proof. reflexivity. Qed.
Lemma all_nodes_dict p ks vs l :
  all_nodes p (GDict ks vs l) = p (GDict ks vs l) && forallb (fun q => all_nodes p (fst q) && all_nodes p (snd q)) l.
Proof.
  cbn [all_nodes]. f_equal. induction l as [|[k x] l IH]; [reflexivity|]. cbn [forallb fst snd]. now rewrite IH.
Qed.

Lemma has_bool_struct fs : has_bool (SStruct fs) = existsb has_bool fs.
Proof. reflexivity. Qed.

(* without `b` (and without the unit type) the code's alignment table is the format's *)
Lemma align_gv_spec : forall s, has_bool s = false -> gsingle_ok s = true -> align_gv s = galign s.
Proof.
  induction s using sig_ind'; cbn [has_bool gsingle_ok align_gv galign]; intros Hb Hs; try reflexivity; try discriminate; auto.
  - apply orb_false_iff in Hb as [Hb1 Hb2]. apply andb_true_iff in Hs as [Hs1 Hs2].
    rewrite IHs2 by assumption. f_equal. destruct s1; cbn in Hs1, Hb1 |- *; try discriminate; reflexivity.
  - apply andb_true_iff in Hs as [_ Hs]. revert Hb Hs.
    induction H as [|x l Hx Hl IH]; intros Hb Hs; [reflexivity|].
    apply orb_false_iff in Hb as [Hb1 Hb2]. apply andb_true_iff in Hs as [Hs1 Hs2].
    rewrite Hx by assumption. f_equal. apply IH; assumption.
Qed.

Lemma gwf_single : forall v, gwf v = true -> gsingle_ok (gsig v) = true.
Proof.
  induction v using gval_ind'; cbn [gwf gsig gsingle_ok]; intros Hw; try reflexivity.
  - now apply andb_true_iff in Hw as [Hw _].
  - apply andb_true_iff in Hw as [Hw _]. assumption.
  - apply andb_true_iff in Hw as [Hne Hw]. apply andb_true_iff. split; [destruct l; [discriminate|reflexivity]|].
    clear Hne. induction H as [|y r Hy Hr IH]; [reflexivity|]. cbn [forallb] in Hw. apply andb_true_iff in Hw as [H1 H2].
    cbn [map]. rewrite Hy by assumption. cbn [andb]. apply IH; assumption.
  - assumption.
  - apply andb_true_iff in Hw as [Hw _]. now apply andb_true_iff in Hw as [Hw _].
Qed.

(* ---------- basic types: the D-Bus serializer writes padding + the fixed-size encoding ---------- *)
Definition dstate_of (st : gstate) : sstate :=
  {| s_cfg := {| c_gv := true; c_oaa := false |}; s_e := g_e st; s_pos0 := gabs st; s_out := [];
     s_sig := g_sig st; s_vsign := None; s_dep := g_dep st; s_fds := g_fds st |}.
Lemma dbus_basic_run st sx al n x :
  DBus.Ser.ser sx (dstate_of st) = basic (dstate_of st) al n x ->
  dbus_basic sx st = Ok (gwr st (pad (gabs st) al ++ enc (g_e st) n x)).
Proof.
  intros H. unfold dbus_basic. fold (dstate_of st). rewrite H. unfold basic, padded, add_padding, wr, abs_pos, written, dstate_of.
  cbn [bind fst s_out s_fds s_e s_pos0 set_out]. rewrite len_nil, N.add_0_r. cbn [app].
  destruct st; reflexivity.
Qed.

Section P.
  Variable e : endian.

  (* node-local side conditions: outside the known classes, the node's encoding is not astronomically large,
     no file descriptor, signatures in their parenthesised form *)
  Definition node_pre (v : gval) : bool :=
    negb (node_known e v) && (len (gvb e v) <? 2 ^ 60)
    && match v with GFd _ => false | GSigv _ np => negb np | _ => true end.
  Definition pre (v : gval) : bool := all_nodes node_pre v.

  (* In a state whose counters read [ds], [da], [dt], a value appends the padding to its alignment and its format
     bytes, and leaves the rest of the state as it was, if it fits the nesting limits from there; if not, a depth
     error comes back. *)
  Definition good (v : gval) : Prop := forall st ds da dt,
    g_e st = e -> gwf v = true -> pre v = true -> g_sig st = gsig v -> g_vsign st = None ->
    dep_ok (g_dep st) -> d_struct (g_dep st) = ds -> d_array (g_dep st) = da -> dtot (g_dep st) = dt ->
    outcome (gser (sval_of v) st) (gdepth_ok ds da dt v) (gwr st (pad (gabs st) (galign (gsig v)) ++ gvb e v)).

  Ltac leaf := intros st ds da dt He Hw Hp Hs Hv Hd _ _ _; cbn [sval_of gser gsig galign gvb gdepth_ok outcome].

  Lemma good_u8 n : good (GU8 n).
  Proof.
    leaf. erewrite dbus_basic_run by reflexivity. rewrite pad_1. cbn [app]. do 2 f_equal.
    destruct (g_e st); cbn; unfold nb; rewrite N.mod_mod by lia; reflexivity.
  Qed.
  (* booleans and descriptors are excluded by [pre] *)
  Lemma good_bool b : good (GBool b).
  Proof. intros st ds da dt He Hw Hp. discriminate Hp. Qed.
  Lemma good_fd h : good (GFd h).
  Proof.
    intros st ds da dt He Hw Hp. unfold pre in Hp. cbn [all_nodes] in Hp. unfold node_pre in Hp.
    rewrite andb_true_r in Hp. apply andb_true_iff in Hp as [_ Hp]. discriminate.
  Qed.

  (* strings, object paths and signatures: the bytes and a nul *)
  Lemma gser_str_bytes st s : g_sig st <> SVariant -> gser_str st s = Ok (gwr st (pad (gabs st) 1 ++ s ++ [x00])).
  Proof.
    intros Hs. unfold gser_str. destruct (g_sig st); try congruence; rewrite gwr_gwr, pad_1; reflexivity.
  Qed.
  Lemma good_str s : good (GStr s).
  Proof. leaf. apply gser_str_bytes. now rewrite Hs. Qed.
  Lemma good_path s : good (GPath s).
  Proof. leaf. apply gser_str_bytes. now rewrite Hs. Qed.
  Lemma good_sigv g np : good (GSigv g np).
  Proof.
    leaf. unfold pre in Hp. cbn [all_nodes] in Hp. unfold node_pre in Hp. rewrite andb_true_r in Hp.
    apply andb_true_iff in Hp as [_ Hp]. destruct np; [discriminate|]. apply gser_str_bytes. now rewrite Hs.
  Qed.

  (* ---------- what [pre] and [gwf] say at a node ---------- *)
  Lemma all_nodes_head p v : all_nodes p v = true -> p v = true.
  Proof. destruct v; cbn [all_nodes]; intros H; try (apply andb_true_iff in H as [H _]); assumption. Qed.
  Lemma pre_node v : pre v = true ->
    has_bool (gsig v) = false /\ node_tail e v = false /\ node_empty_offsets e v = false
    /\ len (gvb e v) < 2 ^ 60.
  Proof.
    intros H. apply all_nodes_head in H. unfold node_pre in H.
    apply andb_true_iff in H as [H _]. apply andb_true_iff in H as [H1 H2].
    apply negb_true_iff in H1. unfold node_known in H1.
    apply orb_false_iff in H1 as [H1 Hc]. apply orb_false_iff in H1 as [Ha Hb].
    apply N.ltb_lt in H2. unfold node_bool in Ha. tauto.
  Qed.
  Lemma pre_align v : pre v = true -> gwf v = true -> align_gv (gsig v) = galign (gsig v).
  Proof. intros Hp Hw. apply align_gv_spec; [apply pre_node in Hp; tauto|now apply gwf_single]. Qed.

  (* restoring signature and depth around a nested serialization *)
  Lemma reframe st b b' g d g0 d0 :
    g0 = g_sig st -> d0 = g_dep st ->
    gset_sig (gset_dep (gwr (gset_dep (gset_sig (gwr st b) g) d) b') d0) g0 = gwr st (b ++ b').
  Proof. intros -> ->. rewrite <- gwr_gwr. destruct st; reflexivity. Qed.

  Lemma good_nothing cs : good (GMaybe cs None).
  Proof.
    leaf. unfold gmaybe_begin. rewrite gpadded_gwr. gproj. rewrite Hs, (pre_align _ Hp Hw).
    cbn [gsig bind]. now rewrite app_nil_r.
  Qed.

  Lemma good_just cs x : good x -> good (GMaybe cs (Some x)).
  Proof.
    intros IH st ds da dt He Hw Hp Hs Hv Hd Hds Hda Hdt. cbn [sval_of gser gdepth_ok].
    unfold gmaybe_begin. rewrite gpadded_gwr. gproj. rewrite Hs, (pre_align _ Hp Hw). cbn [gsig bind galign]. gproj.
    cbn [gwf] in Hw. apply andb_true_iff in Hw as [Hw Hsx]. apply andb_true_iff in Hw as [Hcs Hwx].
    apply sig_eqb_eq in Hsx.
    unfold pre in Hp. cbn [all_nodes] in Hp. apply andb_true_iff in Hp as [Hn Hpx]. fold (pre x) in Hpx.
    subst ds da dt. destruct (_ + 1 <=? 64) eqn:Htot; cbn [andb].
    2:{ destruct (inc_maybe_fail _ Hd Htot) as [k Hk]. exists k. now rewrite Hk. }
    apply N.leb_le in Htot. destruct (inc_maybe_good _ Hd Htot) as (d' & Hinc & Hdec & Hd' & Hs' & Ha' & Ht').
    rewrite Hinc. cbn [bind].
    eapply outcome_then; [apply IH; gproj; (assumption || reflexivity || now symmetry)|].
    gproj. rewrite Hdec, len_pad, Hsx, (pad_aligned _ _ (galign_nz _) (padn_after _ _ (galign_nz _))).
    rewrite (reframe st _ _ cs d' _ _ eq_refl eq_refl). cbn [app gvb]. rewrite fixed_sized_spec.
    destruct (gis_fixed cs); [now rewrite app_nil_r|]. rewrite gwr_gwr. now rewrite <- app_assoc.
  Qed.

  Lemma gser_variant st g n1 n2 y : g_sig st = SVariant -> g_vsign st = None -> parse_sig true (show g) = Some g ->
    gser (XStruct [(n1, XStr (show g)); (n2, y)]) st =
    let* d := inc_variant (g_dep st) in
    let st1 := gset_vsign (gset_dep (gwr st (pad (gabs st) 8)) d) (Some g) in
    let* sub := gser y (gsub_of st1 g) in
    Ok (gset_dep (gwr (gwr (gback_from st1 sub) [x00]) (show g)) (g_dep st)).
  Proof.
    intros Hs Hv Hps. cbn [gser].
    unfold gstruct_begin. rewrite gpadded_gwr. gproj. rewrite Hs. cbn [align_gv]. rewrite gpadded_gwr. gproj.
    rewrite len_pad, (pad_aligned (gabs st + padn (gabs st) 8) 8), gwr_nil by (lia || apply padn_after; lia).
    destruct (inc_variant (g_dep st)) as [d| |]; cbn [bind]; try reflexivity.
    unfold gfield_sig at 1. gproj. rewrite Hs, Hv. cbn [bind gser]. unfold gser_str at 1. gproj.
    rewrite Hps. cbn [bind]. rewrite gback_vsign. unfold gfield_done at 1. gproj. rewrite Hs.
    unfold gfield_sig. gproj. rewrite Hs. cbn [bind].
    destruct (gser y _) as [sub| |]; cbn [bind]; try reflexivity.
    unfold gfield_done. cbn [gback_from g_sig]. gproj. rewrite Hs. reflexivity.
  Qed.

  Lemma good_variant x : good x -> good (GVariant x).
  Proof.
    intros IH st ds da dt He Hw Hp Hs Hv Hd Hds Hda Hdt. cbn [sval_of gsig galign gdepth_ok] in *.
    cbn [gwf] in Hw. apply andb_true_iff in Hw as [Hwx Hsx].
    unfold pre in Hp. cbn [all_nodes] in Hp. apply andb_true_iff in Hp as [Hn Hpx]. fold (pre x) in Hpx.
    rewrite (gser_variant _ _ _ _ _ Hs Hv (parse_show_gv _ Hsx)).
    subst ds da dt. destruct (_ + 1 <=? 64) eqn:Htot; cbn [andb].
    2:{ destruct (inc_variant_fail _ Hd Htot) as [k Hk]. exists k. now rewrite Hk. }
    apply N.leb_le in Htot. destruct (inc_variant_good _ Hd Htot) as (d' & Hinc & Hd' & Hs' & Ha' & Ht').
    rewrite Hinc. cbn [bind]. cbv zeta.
    eapply outcome_then; [apply IH; gproj; (assumption || reflexivity)|].
    (* the payload starts at a multiple of 8, hence of its own alignment *)
    assert (Hal : (gabs st + padn (gabs st) 8) mod galign (gsig x) = 0).
    { apply (mod_trans _ 8); [lia|apply galign_nz|apply padn_after; lia|].
      destruct (galign_pow2 (gsig x)) as [Hq|[Hq|[Hq|Hq]]]; rewrite Hq; reflexivity. }
    rewrite gback_gwr. unfold gsub_of. gproj. rewrite len_pad, (pad_aligned _ _ (galign_nz _) Hal).
    cbn [app gvb]. autorewrite with gpush. do 2 f_equal. destruct st; cbn in *; subst; reflexivity.
  Qed.

  (* ---------- arrays ---------- *)
  (* the elements of a container that began at [st], after the [d] bytes already written for earlier elements *)
  Lemma elems_ok l : Forall good l -> forall st d roffs el ds da dt,
    g_e st = e ->
    forallb (fun x => gwf x && sig_eqb (gsig x) el) l = true -> forallb pre l = true ->
    g_sig st = el -> g_vsign st = None ->
    dep_ok (g_dep st) -> d_struct (g_dep st) = ds -> d_array (g_dep st) = da -> dtot (g_dep st) = dt ->
    gabs st mod galign el = 0 ->
    outcome (ser_elems (map sval_of l) (g_written st) roffs (gwr st d))
      (forallb (gdepth_ok ds da dt) l)
      (gwr st (d ++ concat (gparts e l (len d))),
       option_map (app (rev (ends_from (len d) (gparts e l (len d))))) roffs).
  Proof.
    induction 1 as [|x l Hx Hl IH]; intros st d roffs el ds da dt He Hw Hp Hs Hv Hd Hds Hda Hdt Hal.
    - cbn [map ser_elems gparts concat ends_from rev app forallb outcome]. rewrite app_nil_r. now destruct roffs.
    - cbn [forallb] in *.
      apply andb_true_iff in Hw as [Hwx Hw]. apply andb_true_iff in Hwx as [Hwx Hsx]. apply sig_eqb_eq in Hsx.
      apply andb_true_iff in Hp as [Hpx Hp].
      cbn [map ser_elems]. eapply outcome_bind; [apply Hx; gproj; (assumption || congruence)|].
      gproj. rewrite Hsx, (pad_shift _ _ _ (galign_nz el) Hal), gwr_gwr.
      cbn [gparts concat ends_from]. rewrite Hsx. set (b := pad (len d) (galign el) ++ gvb e x).
      pose proof (fun ro => IH st (d ++ b) ro el ds da dt He Hw Hp Hs Hv Hd Hds Hda Hdt Hal) as IH'.
      rewrite len_app, <- app_assoc in IH'.
      destruct roffs as [ro|]; cbn [push_end option_map rev]; [|apply IH'].
      gproj. rewrite add_sub_l, len_app, <- app_assoc. apply IH'.
  Qed.

  (* the offsets of a container of [n] data bytes: what write_all appends *)
  Lemma write_all_framing st offs n :
    n + N.of_nat (length offs) < 2 ^ 60 ->
    write_all st offs n = Ok (gwr st (framing n offs)).
  Proof.
    intros Hn. unfold write_all, framing. destruct offs as [|o r]; [now rewrite gwr_nil|].
    rewrite for_bare_width.
    2:{ change (2 ^ 60) with 1152921504606846976 in Hn. lia. }
    cbn [bind]. now rewrite write_offsets_fold.
  Qed.

  Lemma len_framing n offs : len (framing n offs) = offset_width n (N.of_nat (length offs)) * N.of_nat (length offs).
  Proof. apply len_offs_enc. Qed.
  Lemma framing_small n offs : len (framing n offs) + n < 2 ^ 60 -> n + N.of_nat (length offs) < 2 ^ 60.
  Proof.
    rewrite len_framing. pose proof (offset_width_pos n (N.of_nat (length offs))) as Hw.
    set (w := offset_width n (N.of_nat (length offs))) in *. set (k := N.of_nat (length offs)).
    pose proof (N.mul_le_mono_r 1 w k Hw) as Hk. rewrite N.mul_1_l in Hk. intros Hlt. lia.
  Qed.

  Lemma length_ends_from off ps : length (ends_from off ps) = length ps.
  Proof. revert off. induction ps as [|b r IH]; intros off; cbn; [reflexivity|]. now rewrite IH. Qed.

  (* SeqSerializer::end_seq after the parts [ps] of an array or dict that began at [st] with padding [p]:
     the counters and the signature come back, the ends are written unless the elements are fixed-size or
     nothing was written at all *)
  Lemma seq_end_ok st p c d' ps fx :
    dec_array d' = g_dep st ->
    (fx = false -> len (concat ps) = 0 -> ps = []) ->
    len (if fx then concat ps else concat ps ++ framing (len (concat ps)) (ends_from 0 ps)) < 2 ^ 60 ->
    gseq_end (gwr (gset_dep (gset_sig (gwr st p) c) d') (concat ps)) (g_written st + len p)
      (option_map (app (rev (ends_from 0 ps))) (if fx then None else Some [])) (g_sig st) =
    Ok (gwr st (p ++ (if fx then concat ps else concat ps ++ framing (len (concat ps)) (ends_from 0 ps)))).
  Proof.
    intros Hdec Hne Hsmall. unfold gseq_end. gproj. rewrite Hdec, (reframe st _ _ c d' _ _ eq_refl eq_refl).
    destruct fx; cbn [option_map]; [reflexivity|]. gproj. rewrite app_nil_r, frev_involutive.
    replace (g_written st + len p + len (concat ps) - (g_written st + len p)) with (len (concat ps)) by lia.
    destruct (N.eqb_spec (len (concat ps)) 0) as [H0|H0].
    - rewrite (Hne eq_refl H0). reflexivity.
    - rewrite len_app in Hsmall. rewrite write_all_framing by (apply framing_small; lia).
      rewrite gwr_gwr. now rewrite <- app_assoc.
  Qed.

  Lemma good_array el l : Forall good l -> good (GArray el l).
  Proof.
    intros HF st ds da dt He Hw Hp Hs Hv Hd Hds Hda Hdt. cbn [sval_of gdepth_ok]. rewrite gser_seq.
    pose proof (pre_align _ Hp Hw) as Hal. cbn [gsig] in Hal, Hs |- *.
    destruct (pre_node _ Hp) as (_ & _ & Hne & Hsmall).
    cbn [gwf] in Hw. apply andb_true_iff in Hw as [Hel Hwl].
    unfold pre in Hp. rewrite all_nodes_array in Hp. apply andb_true_iff in Hp as [_ Hpl].
    unfold gseq_begin. rewrite gpadded_gwr. gproj. rewrite Hs, Hal. cbn [bind galign]. gproj.
    subst ds da dt. destruct ((_ <=? 32) && (_ <=? 64)) eqn:Hchk; cbn [andb].
    2:{ destruct (inc_array_fail _ Hd Hchk) as [k Hk]. exists k. now rewrite Hk. }
    apply andb_true_iff in Hchk as [Hf1 Hf2]. apply N.leb_le in Hf1, Hf2.
    destruct (inc_array_good _ Hd Hf1 Hf2) as (d' & Hinc & Hdec & Hd' & Hs' & Ha' & Ht'). rewrite Hinc. cbn [bind].
    set (p := pad (gabs st) (galign el)). set (st1 := gset_dep (gset_sig (gwr st p) el) d').
    assert (Hal1 : gabs st1 mod galign el = 0).
    { subst st1 p. gproj. rewrite len_pad. apply padn_after, galign_nz. }
    pose proof (elems_ok l HF st1 [] (if fixed_sized el then None else Some []) el _ _ _
                  He Hwl Hpl eq_refl Hv Hd' Hs' Ha' Ht' Hal1) as Hl.
    rewrite gwr_nil in Hl. eapply outcome_then; [exact Hl|].
    cbn [app len length N.of_nat]. rewrite <- Hs, fixed_sized_spec, gvb_array. cbv zeta.
    rewrite gvb_array in Hsmall. apply seq_end_ok; try assumption.
    intros Hfx H0. destruct l; [reflexivity|]. cbn [node_empty_offsets] in Hne. rewrite Hfx, H0 in Hne. discriminate.
  Qed.

  (* ---------- tuples ---------- *)
  (* ends of the variable-size members, in member order (what push_front accumulates, reversed) *)
  Fixpoint var_ends (sigs : list sig) (ends : list N) : list N :=
    match sigs, ends with
    | s :: sr, en :: er => (if gis_fixed s then [] else [en]) ++ var_ends sr er
    | _, _ => []
    end.

  Lemma gset_vsign_none st b : g_vsign st = None -> gset_vsign (gwr st b) None = gwr st b.
  Proof. intros H. destruct st; cbn in *; subst; reflexivity. Qed.

  (* members [l] of a tuple of alignment [A] that began at [st], after members of types [psigs] filled [d] bytes *)
  Lemma fields_ok l : Forall good l -> forall st d psigs rest o A ds da dt,
    g_e st = e -> forallb gwf l = true -> forallb pre l = true ->
    g_sig st = SStruct (psigs ++ map gsig l ++ rest) -> g_vsign st = None ->
    dep_ok (g_dep st) -> d_struct (g_dep st) = ds -> d_array (g_dep st) = da -> dtot (g_dep st) = dt ->
    A <> 0 -> gabs st mod A = 0 -> (forall x, In x l -> A mod galign (gsig x) = 0) ->
    outcome (ser_fields (map sval_of l) (length psigs) (g_written st) (Some o) (gwr st d))
      (forallb (gdepth_ok ds da dt) l)
      (gwr st (d ++ concat (gparts e l (len d))),
       Some (rev (var_ends (map gsig l) (ends_from (len d) (gparts e l (len d)))) ++ o)).
  Proof.
    induction 1 as [|x l Hx Hl IH]; intros st d psigs rest o A ds da dt He Hw Hp Hs Hv Hd Hds Hda Hdt HA Hal Hdiv.
    - cbn [map ser_fields gparts concat ends_from var_ends rev app forallb outcome]. now rewrite app_nil_r.
    - cbn [forallb] in *.
      apply andb_true_iff in Hw as [Hwx Hw]. apply andb_true_iff in Hp as [Hpx Hp].
      cbn [map ser_fields]. unfold gfield_sig. gproj. rewrite Hs.
      cbn [map]. rewrite nth_error_app2 by lia. rewrite Nat.sub_diag. cbn [app nth_error bind].
      eapply outcome_bind; [apply Hx; gproj; (assumption || reflexivity)|].
      assert (Hax : gabs st mod galign (gsig x) = 0).
      { apply (mod_trans _ A); try assumption; [apply galign_nz|]. apply Hdiv. now left. }
      rewrite gback_gwr, (gset_vsign_none (gwr st d) _ Hv), gwr_gwr. unfold gsub_of. gproj.
      rewrite (pad_shift _ _ _ (galign_nz _) Hax).
      cbn [gparts concat ends_from var_ends]. set (b := pad (len d) (galign (gsig x)) ++ gvb e x).
      unfold gfield_done. gproj. rewrite Hs, fixed_sized_spec, add_sub_l.
      assert (Hs2 : g_sig st = SStruct ((psigs ++ [gsig x]) ++ map gsig l ++ rest)) by (now rewrite Hs, <- app_assoc).
      replace (S (length psigs)) with (length (psigs ++ [gsig x])) by (rewrite app_length; cbn; lia).
      pose proof (fun o' => IH st (d ++ b) (psigs ++ [gsig x]) rest o' A ds da dt He Hw Hp Hs2 Hv Hd Hds Hda Hdt HA Hal
                              (fun y Hy => Hdiv y (or_intror Hy))) as IH'.
      rewrite len_app, <- app_assoc in IH'.
      destruct (gis_fixed (gsig x)); cbn [app rev]; rewrite <- ?app_assoc, ?len_app; apply IH'.
  Qed.

  (* a value of a fixed-size type occupies at least one byte *)
  Lemma len_gparts_first x l off : len (gvb e x) <= len (concat (gparts e (x :: l) off)).
  Proof. cbn [gparts concat]. rewrite !len_app. lia. Qed.

  Lemma fixed_nonempty : forall v, gwf v = true -> gis_fixed (gsig v) = true -> 1 <= len (gvb e v).
  Proof.
    induction v using gval_ind'; intros Hw Hfx; try discriminate Hfx;
      try (cbn [gvb]; rewrite ?len_enc; cbn; lia).
    - (* tuple *)
      rewrite gvb_struct. cbn [gwf] in Hw. apply andb_true_iff in Hw as [Hne Hw].
      destruct l as [|x l]; [discriminate|]. cbn [gsig map] in Hfx.
      change (gis_fixed (SStruct (gsig x :: map gsig l))) with (gis_fixed (gsig x) && forallb gis_fixed (map gsig l)) in Hfx.
      unfold tuple_bytes. cbn [map]. change (forallb gis_fixed (gsig x :: map gsig l)) with (gis_fixed (gsig x) && forallb gis_fixed (map gsig l)).
      rewrite Hfx. apply andb_true_iff in Hfx as [Hfx _]. cbn [forallb] in Hw. apply andb_true_iff in Hw as [Hwx _].
      inversion H as [|? ? Hx _]; subst. specialize (Hx Hwx Hfx).
      rewrite len_app. pose proof (len_gparts_first x l 0). lia.
  Qed.

  Lemma var_ends_fixed sigs ends : forallb gis_fixed sigs = true -> var_ends sigs ends = [].
  Proof.
    revert ends. induction sigs as [|s sr IH]; intros ends H; [reflexivity|]. destruct ends as [|en er]; [reflexivity|].
    cbn [forallb] in H. apply andb_true_iff in H as [H1 H2]. cbn [var_ends]. rewrite H1. cbn [app]. now apply IH.
  Qed.
  Lemma tuple_offsets_fixed sigs ends : forallb gis_fixed sigs = true -> tuple_offsets sigs ends = [].
  Proof.
    revert ends. induction sigs as [|s sr IH]; intros ends H; [reflexivity|].
    cbn [forallb] in H. apply andb_true_iff in H as [H1 H2].
    destruct sr as [|s' sr]; [reflexivity|]. destruct ends as [|en er]; [reflexivity|].
    cbn [tuple_offsets]. rewrite H1. cbn [app]. now apply IH.
  Qed.

  Lemma var_ends_split sigs ends : sigs <> [] -> length sigs = length ends ->
    var_ends sigs ends = tuple_offsets sigs ends ++ (if gis_fixed (last sigs SUnit) then [] else [last ends 0]).
  Proof.
    revert ends. induction sigs as [|s sr IH]; intros ends Hne Hlen; [congruence|].
    destruct ends as [|en er]; [discriminate|]. cbn [length] in Hlen.
    destruct sr as [|s' sr].
    - destruct er; [|discriminate]. cbn. now rewrite app_nil_r.
    - destruct er as [|en' er]; [discriminate|].
      change (var_ends (s :: s' :: sr) (en :: en' :: er)) with ((if gis_fixed s then [] else [en]) ++ var_ends (s' :: sr) (en' :: er)).
      change (tuple_offsets (s :: s' :: sr) (en :: en' :: er)) with ((if gis_fixed s then [] else [en]) ++ tuple_offsets (s' :: sr) (en' :: er)).
      rewrite IH by (discriminate || (cbn [length] in *; lia)).
      change (last (s :: s' :: sr) SUnit) with (last (s' :: sr) SUnit).
      change (last (en :: en' :: er) 0) with (last (en' :: er) 0).
      now rewrite app_assoc.
  Qed.

  Lemma last_end ps off : ps <> [] -> last (ends_from off ps) 0 = off + len (concat ps).
  Proof.
    revert off. induction ps as [|b r IH]; intros off Hne; [congruence|].
    destruct r as [|b' r].
    - cbn. rewrite app_nil_r. reflexivity.
    - change (ends_from off (b :: b' :: r)) with ((off + len b) :: ends_from (off + len b) (b' :: r)).
      change (last ((off + len b) :: ends_from (off + len b) (b' :: r)) 0) with (last (ends_from (off + len b) (b' :: r)) 0).
      { rewrite IH by discriminate. cbn [concat]. rewrite !len_app. lia. }
  Qed.

  Lemma len_concat_last (ps : list bytes) : len (last ps []) <= len (concat ps).
  Proof.
    induction ps as [|b r IH]; [cbn; lia|]. destruct r as [|b' r].
    - cbn. rewrite app_nil_r. lia.
    - change (last (b :: b' :: r) []) with (last (b' :: r) []). cbn [concat] in *. rewrite len_app. lia.
  Qed.

  Lemma tuple_offsets_lt sigs ps off x : length sigs = length ps -> 1 <= len (last ps []) ->
    In x (tuple_offsets sigs (ends_from off ps)) -> x < off + len (concat ps).
  Proof.
    revert sigs off. induction ps as [|b r IH]; intros sigs off Hlen Hlast Hin.
    - destruct sigs as [|s [|s' sr]]; cbn in Hin; tauto.
    - destruct sigs as [|s sr]; [discriminate|]. destruct sr as [|s' sr]; [cbn in Hin; tauto|].
      destruct r as [|b' r]; [discriminate|].
      change (ends_from off (b :: b' :: r)) with ((off + len b) :: ends_from (off + len b) (b' :: r)) in Hin.
      change (tuple_offsets (s :: s' :: sr) ((off + len b) :: ends_from (off + len b) (b' :: r)))
        with ((if gis_fixed s then [] else [off + len b]) ++ tuple_offsets (s' :: sr) (ends_from (off + len b) (b' :: r))) in Hin.
      change (last (b :: b' :: r) []) with (last (b' :: r) []) in Hlast.
      pose proof (len_concat_last (b' :: r)) as Hc.
      change (concat (b :: b' :: r)) with (b ++ concat (b' :: r)). rewrite len_app.
      apply in_app_or in Hin as [Hin|Hin].
      + destruct (gis_fixed s); [destruct Hin|]. destruct Hin as [Hx|[]]. clear IH Hlen. subst x. unfold bytes in *. lia.
      + apply (IH (s' :: sr) (off + len b)) in Hin; [lia| cbn [length] in *; lia | assumption].
  Qed.

  Lemma last_map {A B} (f : A -> B) l d d' : l <> [] -> last (map f l) d' = f (last l d).
  Proof.
    induction l as [|x r IH]; intros Hne; [congruence|]. destruct r as [|y r]; [reflexivity|].
    change (last (map f (x :: y :: r)) d') with (last (map f (y :: r)) d').
    change (last (x :: y :: r) d) with (last (y :: r) d). apply IH. discriminate.
  Qed.

  Lemma gparts_last_nonempty l off : l <> [] -> forallb gwf l = true ->
    gis_fixed (gsig (last l (GU8 0))) = true -> 1 <= len (last (gparts e l off) []).
  Proof.
    revert off. induction l as [|x r IH]; intros off Hne Hw Hfx; [congruence|].
    cbn [forallb] in Hw. apply andb_true_iff in Hw as [Hwx Hw].
    destruct r as [|y r].
    - cbn [gparts last] in *. rewrite len_app. pose proof (fixed_nonempty x Hwx Hfx). lia.
    - change (last (x :: y :: r) (GU8 0)) with (last (y :: r) (GU8 0)) in Hfx.
      cbn [gparts]. cbn [gparts] in IH.
      match goal with |- context [last (?a :: ?b :: ?c) []] => change (last (a :: b :: c) []) with (last (b :: c) []) end.
      apply (IH _ ltac:(discriminate) Hw Hfx).
  Qed.

  Lemma length_gparts l off : length (gparts e l off) = length l.
  Proof. revert off. induction l as [|x r IH]; intros off; cbn [gparts length]; [reflexivity|]. now rewrite IH. Qed.

  (* StructSerializer::end_struct after the members [ps], of types [sigs], of a tuple that began at [st] with
     padding [p]: the recorded ends are those of the variable-size members; the last one is dropped when it is the
     end of the tuple, and nothing is written when there are no data bytes *)
  Lemma struct_end_ok st p d' A sigs ps :
    sigs <> [] -> length sigs = length ps ->
    (forallb gis_fixed sigs = true -> padn (len (concat ps)) A = 0) ->
    (forallb gis_fixed sigs = false -> len (concat ps) = 0 -> tuple_offsets sigs (ends_from 0 ps) = []) ->
    (gis_fixed (last sigs SUnit) = true -> 1 <= len (last ps [])) ->
    len (tuple_bytes A sigs ps) < 2 ^ 60 ->
    gstruct_end (gwr (gset_dep (gwr st p) d') (concat ps)) (g_written st + len p)
      (Some (rev (var_ends sigs (ends_from 0 ps)) ++ [])) (g_dep st) =
    Ok (gwr st (p ++ tuple_bytes A sigs ps)).
  Proof.
    intros Hsne Hlen Htail Hempty Hlast Hsmall. unfold gstruct_end. gproj.
    replace (g_written st + len p + len (concat ps) - (g_written st + len p)) with (len (concat ps)) by lia.
    set (data := concat ps) in *. set (ends := ends_from 0 ps) in *.
    assert (Hfin : forall b', gset_dep (gwr (gset_dep (gwr st p) d') b') (g_dep st) = gwr st (p ++ b')).
    { intros b'. autorewrite with gpush. f_equal. destruct st; reflexivity. }
    assert (Htb : tuple_bytes A sigs ps =
               if forallb gis_fixed sigs then data ++ pad (len data) A
               else data ++ framing (len data) (rev (tuple_offsets sigs ends))).
    { unfold tuple_bytes. destruct sigs; [congruence|reflexivity]. }
    rewrite Htb in *. rewrite app_nil_r.
    destruct (forallb gis_fixed sigs) eqn:Hall.
    - unfold pad. rewrite (Htail eq_refl). cbn [zeros repeat N.to_nat]. rewrite app_nil_r.
      rewrite var_ends_fixed by assumption. cbn [rev].
      destruct (len data =? 0); [now rewrite Hfin|]. unfold write_all. now rewrite Hfin.
    - destruct (N.eqb_spec (len data) 0) as [H0|H0].
      + rewrite (Hempty eq_refl H0). cbn [rev]. unfold framing, offs_enc. cbn [map concat].
        now rewrite Hfin, app_nil_r.
      + assert (Hlen' : length sigs = length ends) by (subst ends; now rewrite length_ends_from).
        rewrite (var_ends_split sigs ends Hsne Hlen').
        assert (Hle : last ends 0 = len data).
        { subst ends data. rewrite last_end; [lia|]. destruct ps; [|discriminate]. destruct sigs; [congruence|discriminate]. }
        rewrite len_app in Hsmall.
        assert (Hsm : len data + N.of_nat (length (rev (tuple_offsets sigs ends))) < 2 ^ 60) by (apply framing_small; lia).
        destruct (gis_fixed (last sigs SUnit)) eqn:Hlastfx.
        * rewrite app_nil_r.
          destruct (rev (tuple_offsets sigs ends)) as [|front rest] eqn:Hrev.
          -- unfold write_all. rewrite Hfin. unfold framing, offs_enc. cbn [map concat]. now rewrite app_nil_r.
          -- assert (Hin : In front (tuple_offsets sigs ends)).
             { apply in_rev. rewrite Hrev. now left. }
             apply (tuple_offsets_lt sigs ps 0 front Hlen (Hlast eq_refl)) in Hin.
             fold data in Hin. destruct (N.eqb_spec front (len data)) as [Heq|_]; [lia|].
             rewrite <- Hrev in *. rewrite write_all_framing by assumption. rewrite Hfin, gwr_gwr.
             now rewrite <- app_assoc.
        * rewrite rev_app_distr. cbn [rev app]. rewrite Hle, N.eqb_refl.
          rewrite write_all_framing by assumption. rewrite Hfin, gwr_gwr. now rewrite <- app_assoc.
  Qed.

  Lemma good_struct l : Forall good l -> good (GStruct l).
  Proof.
    intros HF st ds da dt He Hw Hp Hs Hv Hd Hds Hda Hdt. cbn [sval_of gdepth_ok]. rewrite gser_tuple.
    pose proof (pre_align _ Hp Hw) as Hal. cbn [gsig] in Hal, Hs |- *.
    destruct (pre_node _ Hp) as (_ & Hnt & Hne & Hsmall).
    cbn [gwf] in Hw. apply andb_true_iff in Hw as [Hnel Hwl].
    assert (Hl : l <> []) by (destruct l; discriminate).
    unfold pre in Hp. rewrite all_nodes_struct in Hp. apply andb_true_iff in Hp as [_ Hpl].
    set (sigs := map gsig l) in *. rewrite galign_struct in *. set (A := galigns sigs) in *.
    assert (HA : A <> 0) by apply galigns_nz.
    unfold gstruct_begin. rewrite gpadded_gwr. gproj. rewrite Hs, Hal, gpadded_gwr. gproj.
    set (p := pad (gabs st) A).
    assert (HpA : (gabs st + len p) mod A = 0) by (subst p; rewrite len_pad; now apply padn_after).
    rewrite (pad_aligned _ A HA HpA), gwr_nil, len_nil, N.add_0_r. rewrite <- gabs_gwr in HpA.
    subst ds da dt. destruct ((_ <=? 32) && (_ <=? 64)) eqn:Hchk; cbn [andb].
    2:{ destruct (inc_struct_fail _ Hd Hchk) as [k Hk]. exists k. now rewrite Hk. }
    apply andb_true_iff in Hchk as [Hf1 Hf2]. apply N.leb_le in Hf1, Hf2.
    destruct (inc_struct_good _ Hd Hf1 Hf2) as (d' & Hinc & Hd' & Hs' & Ha' & Ht'). rewrite Hinc. cbn [bind].
    set (st1 := gset_dep (gwr st p) d').
    assert (Hdiv : forall x, In x l -> A mod galign (gsig x) = 0).
    { intros x Hx. apply pow2_div; [apply galigns_pow2|apply galign_pow2|]. apply galigns_ge. subst sigs. now apply in_map. }
    assert (Hs1 : g_sig st1 = SStruct ([] ++ sigs ++ [])) by (now rewrite app_nil_r).
    pose proof (fields_ok l HF st1 [] [] [] [] A _ _ _ He Hwl Hpl Hs1 Hv Hd' Hs' Ha' Ht' HA HpA Hdiv) as Hfl.
    rewrite gwr_nil in Hfl. eapply outcome_then; [exact Hfl|].
    cbn [app len length N.of_nat]. rewrite gvb_struct in *. fold sigs A in Hsmall |- *.
    apply struct_end_ok; try assumption.
    - subst sigs. destruct l; [congruence|discriminate].
    - subst sigs. now rewrite map_length, length_gparts.
    - intros Hall. cbn [node_tail] in Hnt. fold sigs A in Hnt. rewrite Hall in Hnt.
      now apply negb_false_iff, N.eqb_eq in Hnt.
    - intros Hall H0. cbn [node_empty_offsets] in Hne. fold sigs in Hne. rewrite Hall, H0 in Hne.
      apply negb_false_iff, Nat.eqb_eq in Hne. now apply length_zero_iff_nil.
    - intros Hfx. apply gparts_last_nonempty; try assumption.
      subst sigs. now rewrite (last_map gsig l (GU8 0) SUnit Hl) in Hfx.
  Qed.

  (* ---------- dicts ---------- *)
  Definition entry_ok (ks vs : sig) (p : gval * gval) : Prop :=
    gwf (fst p) = true /\ gwf (snd p) = true /\ gsig (fst p) = ks /\ gsig (snd p) = vs /\
    pre (fst p) = true /\ pre (snd p) = true /\
    (gis_fixed ks && gis_fixed vs = true -> padn (len (concat (entry_parts e vs p))) (N.max (galign ks) (galign vs)) = 0) /\
    len (concat (entry_parts e vs p)) < 2 ^ 60.

  Lemma tb_len_ge al s sr ps : len (concat ps) <= len (tuple_bytes al (s :: sr) ps).
  Proof. unfold tuple_bytes. destruct (forallb gis_fixed (s :: sr)); rewrite len_app; lia. Qed.
  Lemma entry_len_data ks vs l : forall off p, In p l ->
    len (concat (entry_parts e vs p)) <= len (concat (geparts e ks vs l off)).
  Proof.
    induction l as [|q l IH]; intros off p Hin; [destruct Hin|]. cbn [geparts concat]. rewrite !len_app.
    destruct Hin as [->|Hin].
    - pose proof (tb_len_ge (N.max (galign ks) (galign vs)) ks [vs] (entry_parts e vs p)). lia.
    - specialize (IH (off + len (pad off (N.max (galign ks) (galign vs)) ++ tuple_bytes (N.max (galign ks) (galign vs)) [ks; vs] (entry_parts e vs q))) p Hin).
      rewrite len_app in IH. lia.
  Qed.

  Lemma max_div_l a b : pow2 a -> pow2 b -> N.max a b mod a = 0.
  Proof. intros Ha Hb. apply pow2_div; [now apply pow2_max|assumption|lia]. Qed.
  Lemma max_div_r a b : pow2 a -> pow2 b -> N.max a b mod b = 0.
  Proof. intros Ha Hb. apply pow2_div; [now apply pow2_max|assumption|lia]. Qed.

  (* the format's encoding of one dict entry, spelled out *)
  Lemma entry_tuple ks vs p :
    tuple_bytes (N.max (galign ks) (galign vs)) [ks; vs] (entry_parts e vs p) =
    let data := concat (entry_parts e vs p) in
    if gis_fixed ks && gis_fixed vs then data ++ pad (len data) (N.max (galign ks) (galign vs))
    else data ++ (if gis_fixed ks then [] else le_bytes (N.to_nat (offset_width (len data) 1)) (len (gvb e (fst p)))).
  Proof.
    unfold tuple_bytes, entry_parts. cbn [forallb ends_from tuple_offsets]. rewrite andb_true_r.
    destruct (gis_fixed ks); destruct (gis_fixed vs); cbn [andb app rev]; try reflexivity;
      unfold framing, offs_enc; cbn [length map concat N.of_nat Pos.of_succ_nat]; rewrite ?app_nil_r, ?N.add_0_l; reflexivity.
  Qed.

  (* one entry, from a position aligned for the entry type: key, value, and the end of the key if it is variable-size *)
  Lemma entry_ser key x : good key -> good x -> forall st start roffs (kso : option N) ds da dt,
    g_e st = e -> entry_ok (gsig key) (gsig x) (key, x) -> g_sig st = gsig key -> g_vsign st = None ->
    dep_ok (g_dep st) -> d_struct (g_dep st) = ds -> d_array (g_dep st) = da -> dtot (g_dep st) = dt ->
    gabs st mod N.max (galign (gsig key)) (galign (gsig x)) = 0 ->
    match kso with Some _ => gis_fixed (gsig key) = false | None => gis_fixed (gsig key) = true end ->
    let al := N.max (galign (gsig key)) (galign (gsig x)) in
    let b := tuple_bytes al [gsig key; gsig x] (entry_parts e (gsig x) (key, x)) in
    outcome (let* st1 := gser (sval_of key) st in
             ser_entry_tail (sval_of x) start al roffs (gsig key) (gsig x)
               (match kso with Some _ => Some (g_written st) | None => None end) st1)
      (gdepth_ok ds da dt key && gdepth_ok ds da dt x)
      (gwr st b, push_end (gwr st b) start roffs).
  Proof.
    intros Hk Hx st start roffs kso ds da dt He (Hwk & Hwx & _ & _ & Hpk & Hpx & Htail & Hkeyw) Hs Hv Hd Hds Hda Hdt Hal Hkso al.
    cbn [fst snd] in *. fold al in Hal, Htail.
    assert (Hal0 : al <> 0) by (apply pow2_nz, pow2_max; apply galign_pow2).
    assert (HEk : gabs st mod galign (gsig key) = 0).
    { apply (mod_trans _ al); try assumption; [apply galign_nz|]. apply max_div_l; apply galign_pow2. }
    assert (HEv : gabs st mod galign (gsig x) = 0).
    { apply (mod_trans _ al); try assumption; [apply galign_nz|]. apply max_div_r; apply galign_pow2. }
    eapply outcome_bind; [apply Hk; assumption|].
    rewrite (pad_aligned _ _ (galign_nz _) HEk). cbn [app]. set (kb := gvb e key).
    unfold ser_entry_tail. gproj.
    eapply outcome_then; [apply Hx; gproj; (assumption || reflexivity)|].
    gproj. rewrite (pad_shift _ _ _ (galign_nz _) HEv). set (vb := pad (len kb) (galign (gsig x)) ++ gvb e x).
    assert (Hsame : gset_sig (gwr (gset_sig (gwr st kb) (gsig x)) vb) (gsig key) = gwr st (kb ++ vb)).
    { autorewrite with gpush. f_equal. clear - Hs. destruct st; cbn in *; subst; reflexivity. }
    rewrite Hsame. pose proof (entry_tuple (gsig key) (gsig x) (key, x)) as Het. cbv zeta in Het.
    assert (Hcat : concat (entry_parts e (gsig x) (key, x)) = kb ++ vb).
    { unfold entry_parts. cbn [fst snd concat]. now rewrite app_nil_r. }
    rewrite Hcat in Het, Htail, Hkeyw. cbn [fst] in Het. fold al kb in Het. rewrite Het.
    destruct kso as [ks0|]; rewrite Hkso; cbn [andb bind].
    - (* variable-size key: its end is stored after the value *)
      rewrite <- N.add_assoc, <- len_app, !add_sub_l.
      change (2 ^ 60) with 1152921504606846976 in Hkeyw. rewrite for_bare_width by lia.
      cbn [bind]. rewrite gwr_gwr. reflexivity.
    - (* fixed-size key: no offset inside the entry *)
      destruct (gis_fixed (gsig x)); [unfold pad; rewrite (Htail ltac:(now rewrite Hkso))|]; now rewrite app_nil_r.
  Qed.

  Lemma bind_assoc {E A B C} (r : res E A) (f : A -> res E B) (g : B -> res E C) :
    bind (bind r f) g = bind r (fun x => bind (f x) g).
  Proof. now destruct r. Qed.

  (* the entries [l] of a dict that began at [st], after the [d] bytes of earlier entries *)
  Lemma entries_ok l : Forall (fun p => good (fst p) /\ good (snd p)) l -> forall st d roffs ks vs (kso : option N) ds da dt,
    g_e st = e -> Forall (entry_ok ks vs) l ->
    g_sig st = ks -> g_vsign st = None ->
    dep_ok (g_dep st) -> d_struct (g_dep st) = ds -> d_array (g_dep st) = da -> dtot (g_dep st) = dt ->
    gabs st mod N.max (galign ks) (galign vs) = 0 ->
    match kso with Some _ => gis_fixed ks = false | None => gis_fixed ks = true end ->
    outcome (ser_entries (map (fun p => (sval_of (fst p), sval_of (snd p))) l) (g_written st)
               (N.max (galign ks) (galign vs)) roffs ks vs kso (gwr st d))
      (forallb (fun p => gdepth_ok ds da dt (fst p) && gdepth_ok ds da dt (snd p)) l)
      (gwr st (d ++ concat (geparts e ks vs l (len d))),
       option_map (app (rev (ends_from (len d) (geparts e ks vs l (len d))))) roffs).
  Proof.
    induction 1 as [|[key x] l [Hk Hx] Hl IH]; intros st d roffs ks vs kso ds da dt He Hok Hs Hv Hd Hds Hda Hdt Hal Hkso.
    - cbn [map ser_entries geparts concat ends_from rev app forallb outcome]. rewrite app_nil_r. now destruct roffs.
    - inversion Hok as [|p0' l0' Hp Hokl]; subst p0' l0'.
      pose proof Hp as (_ & _ & Hsk & Hsx & _). cbn [fst snd] in *. destruct Hsk, Hsx.
      set (al := N.max (galign (gsig key)) (galign (gsig x))) in *.
      assert (Hal0 : al <> 0) by (apply pow2_nz, pow2_max; apply galign_pow2).
      cbn [map ser_entries fst snd forallb]. rewrite gpadded_gwr, gwr_gwr. gproj.
      rewrite (pad_shift _ _ _ Hal0 Hal). set (p0 := pad (len d) al).
      rewrite <- bind_assoc. eapply outcome_bind.
      { apply (entry_ser key x Hk Hx (gwr st (d ++ p0))); gproj; try assumption.
        subst p0. rewrite len_app, (mod_shift _ _ _ Hal0 Hal), len_pad. now apply padn_after. }
      rewrite gwr_gwr, <- app_assoc. cbn [geparts concat ends_from]. fold al p0.
      set (b := p0 ++ tuple_bytes al [gsig key; gsig x] (entry_parts e (gsig x) (key, x))).
      pose proof (fun ro => IH st (d ++ b) ro (gsig key) (gsig x)
                              (match kso with Some _ => Some (g_written st + len (d ++ p0)) | None => None end)
                              ds da dt He Hokl Hs Hv Hd Hds Hda Hdt Hal ltac:(now destruct kso)) as IH'.
      rewrite (len_app d b), <- app_assoc in IH'.
      destruct roffs as [ro|]; cbn [push_end option_map rev]; [|apply IH'].
      gproj. rewrite add_sub_l, (len_app d b), <- app_assoc. apply IH'.
  Qed.

  Lemma good_dict ks vs l : Forall (fun p => good (fst p) /\ good (snd p)) l -> good (GDict ks vs l).
  Proof.
    intros HF st ds da dt He Hw Hp Hs Hv Hd Hds Hda Hdt. cbn [sval_of gdepth_ok]. rewrite gser_map.
    pose proof (pre_align _ Hp Hw) as Hal. cbn [gsig] in Hal, Hs |- *.
    destruct (pre_node _ Hp) as (_ & Hnt & Hne & Hsmall).
    cbn [gwf] in Hw. apply andb_true_iff in Hw as [_ Hwl].
    unfold pre in Hp. rewrite all_nodes_dict in Hp. apply andb_true_iff in Hp as [_ Hpl].
    cbn [galign] in *. set (al := N.max (galign ks) (galign vs)) in *.
    assert (Hal0 : al <> 0) by (apply pow2_nz, pow2_max; apply galign_pow2).
    unfold gmap_begin. rewrite Hs. unfold gseq_begin. rewrite gpadded_gwr. gproj. rewrite Hs, Hal. cbn [bind]. gproj.
    subst ds da dt. destruct ((_ <=? 32) && (_ <=? 64)) eqn:Hchk; cbn [andb].
    2:{ destruct (inc_array_fail _ Hd Hchk) as [k Hk]. exists k. now rewrite Hk. }
    apply andb_true_iff in Hchk as [Hf1 Hf2]. apply N.leb_le in Hf1, Hf2.
    destruct (inc_array_good _ Hd Hf1 Hf2) as (d' & Hinc & Hdec & Hd' & Hs' & Ha' & Ht'). rewrite Hinc. cbn [bind].
    set (p := pad (gabs st) al). set (st1 := gset_dep (gset_sig (gwr st p) ks) d').
    rewrite !fixed_sized_spec. rewrite gvb_dict in *. cbv zeta in *.
    assert (Hok : Forall (entry_ok ks vs) l).
    { apply Forall_forall. intros q Hq.
      rewrite forallb_forall in Hwl, Hpl. specialize (Hwl q Hq). specialize (Hpl q Hq).
      apply andb_true_iff in Hwl as [Hwl Hq4]. apply andb_true_iff in Hwl as [Hwl Hq3]. apply andb_true_iff in Hwl as [Hq1 Hq2].
      apply sig_eqb_eq in Hq3, Hq4. apply andb_true_iff in Hpl as [Hq5 Hq6].
      repeat split; try assumption.
      - intros Hfx. cbn [node_tail] in Hnt. rewrite Hfx in Hnt. cbn [andb] in Hnt.
        destruct (padn (len (concat (entry_parts e vs q))) al =? 0) eqn:Hz; [now apply N.eqb_eq in Hz|].
        exfalso. rewrite <- Bool.not_true_iff_false in Hnt. apply Hnt. apply existsb_exists. exists q. split; [assumption|].
        change (N.max (galign ks) (galign vs)) with al. now rewrite Hz.
      - pose proof (entry_len_data ks vs l 0 q Hq) as Hle.
        destruct (gis_fixed ks && gis_fixed vs); [|rewrite len_app in Hsmall]; lia. }
    assert (Hal1 : gabs st1 mod al = 0).
    { subst st1 p. gproj. rewrite len_pad. now apply padn_after. }
    pose proof (entries_ok l HF st1 [] (if gis_fixed ks && gis_fixed vs then None else Some []) ks vs
                  (if gis_fixed ks then None else Some 0) _ _ _ He Hok eq_refl Hv Hd' Hs' Ha' Ht' Hal1
                  ltac:(now destruct (gis_fixed ks))) as Hl.
    rewrite gwr_nil in Hl. eapply outcome_then; [exact Hl|].
    cbn [app len length N.of_nat]. rewrite <- Hs. apply seq_end_ok; try assumption.
    intros Hfx H0. destruct l; [reflexivity|]. cbn [node_empty_offsets] in Hne. rewrite Hfx, H0 in Hne. discriminate.
  Qed.

  (* ---------- the serializer theorem ---------- *)
  Theorem gser_good : forall v, good v.
  Proof.
    induction v using gval_ind'.
    (* integers and floats: the D-Bus serializer writes padding and the fixed-size encoding *)
    3-9: leaf; erewrite dbus_basic_run by (cbn [DBus.Ser.ser dstate_of s_sig]; rewrite ?Hs; reflexivity); now rewrite He.
    - apply good_u8. - apply good_bool. - apply good_str. - apply good_sigv. - apply good_path.
    - now apply good_variant. - apply good_fd. - now apply good_array. - now apply good_dict. - now apply good_struct.
    - apply good_nothing. - now apply good_just.
  Qed.
End P.

(* ---------- top level ---------- *)
Lemma all_nodes_conj p q : forall v,
  all_nodes p v = true -> all_nodes q v = true -> all_nodes (fun x => p x && q x) v = true.
Proof.
  induction v using gval_ind'; rewrite ?all_nodes_array, ?all_nodes_struct, ?all_nodes_dict; cbn [all_nodes];
    intros Hp Hq; apply andb_true_iff in Hp as [-> Hp], Hq as [-> Hq]; cbn [andb]; auto;
    apply forallb_forall; intros x Hx; rewrite forallb_forall in Hp, Hq; rewrite Forall_forall in H; auto.
  destruct (H x Hx) as [H1 H2]. specialize (Hp x Hx). specialize (Hq x Hx).
  apply andb_true_iff in Hp as [? ?], Hq as [? ?]. apply andb_true_iff. auto.
Qed.

Lemma pre_split e v : known_c05 e v = false -> gsmall e v = true -> gplain v = true -> pre e v = true.
Proof.
  intros Hk Hs Hp. apply negb_false_iff in Hk. now repeat apply all_nodes_conj.
Qed.

(* values without descriptors are not changed by the descriptor numbering *)
Lemma renum_plain : forall v k, gplain v = true -> renum v k = v.
Proof.
  unfold gplain. induction v using gval_ind'; intros k Hp; try reflexivity; try discriminate;
    rewrite ?all_nodes_array, ?all_nodes_struct, ?all_nodes_dict in Hp; cbn [all_nodes node_plain andb] in Hp;
    cbn [renum]; f_equal.
  (* arrays and tuples number their members the same way *)
  2, 4: revert k; induction H as [|x r Hx Hr IH]; intros k; [reflexivity|];
        cbn [forallb] in Hp; apply andb_true_iff in Hp as [H1 H2]; rewrite (Hx k H1); f_equal; now apply IH.
  - auto.
  - revert k. induction H as [|[key x] r [Hx1 Hx2] Hr IH]; intros k; [reflexivity|].
    cbn [forallb fst snd] in *. apply andb_true_iff in Hp as [H1 H2]. apply andb_true_iff in H1 as [H1 H3].
    rewrite (Hx1 k H1), (Hx2 _ H3). f_equal. now apply IH.
  - f_equal. auto.
Qed.

Definition encodable (e : endian) (v : gval) : Prop :=
  gwf v = true /\ known_c05 e v = false /\ gsmall e v = true /\ gplain v = true /\ gwithin_limits v = true.

(* from the initial state of either pass *)
Lemma gser_init e pos v f : gwf v = true -> known_c05 e v = false -> gsmall e v = true -> gplain v = true ->
  outcome (gser (sval_of v) (ginit e pos (gsig v) f)) (gwithin_limits v)
          (gwr (ginit e pos (gsig v) f) (gv_marshal e pos v)).
Proof.
  intros Hw Hk Hs Hp. unfold gv_marshal. rewrite (renum_plain v 0 Hp).
  replace (pad pos) with (pad (gabs (ginit e pos (gsig v) f))) by now rewrite gabs_ginit.
  apply (gser_good e v (ginit e pos (gsig v) f)); try reflexivity; try assumption.
  - now apply pre_split.
  - split; cbn; lia.
Qed.

Theorem gser_top_exact e pos v : encodable e v ->
  gser_top e pos (gsig v) (sval_of v) = Ok (gv_marshal e pos v, []).
Proof.
  intros (Hw & Hk & Hs & Hp & Hl). pose proof (gser_init e pos v (FdsMode []) Hw Hk Hs Hp) as H.
  rewrite Hl in H. unfold gser_top. rewrite H. cbn [bind]. now rewrite gout_gwr.
Qed.

Theorem gsize_top_exact e pos v : encodable e v ->
  gsize_top e pos (gsig v) (sval_of v) = Ok (len (gv_marshal e pos v), 0).
Proof.
  intros (Hw & Hk & Hs & Hp & Hl). pose proof (gser_init e pos v (NumMode 0) Hw Hk Hs Hp) as H.
  rewrite Hl in H. unfold gsize_top. now rewrite H.
Qed.
