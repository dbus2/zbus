(* C05/DepthProofs.v — C07, GVariant half, encoder: a value beyond the nesting limits (32 arrays, 32 tuples, 64
   containers in total, variants and maybes counting) makes the serializer model stop with a depth error
   (the other outcome of SerProofs.gser_good: it succeeds exactly within the limits). *)
From ZV Require Import Base.Bytes Base.Res Base.Sig Base.SigParse DBus.Val DBus.Spec DBus.Ser DBus.SerFacts
  C05.Val C05.Spec C05.Model C05.Classes C05.Facts C05.SigFacts C05.SerProofs.
From Coq Require Import Lia.
Local Open Scope N_scope.

Lemma dcheck_fail d : d_struct d <= 32 -> d_array d <= 32 -> 64 < d_struct d + d_array d + d_variant d + d_maybe d ->
  dcheck d = Err (EDepth DTotal).
Proof.
  intros H1 H2 H3. unfold dcheck.
  destruct (N.ltb_spec 32 (d_struct d)); [lia|]. destruct (N.ltb_spec 32 (d_array d)); [lia|].
  destruct (N.ltb_spec 64 (d_struct d + d_array d + d_variant d + d_maybe d)); [reflexivity|lia].
Qed.

(* beyond the nesting limits the serializer returns a depth error *)
Theorem gser_top_depth e pos v :
  gwf v = true -> known_c05 e v = false -> gsmall e v = true -> gplain v = true ->
  gwithin_limits v = false -> exists k, gser_top e pos (gsig v) (sval_of v) = Err (EDepth k).
Proof.
  intros Hw Hk Hs Hp Hl. pose proof (gser_init e pos v (FdsMode []) Hw Hk Hs Hp) as H.
  rewrite Hl in H. destruct H as [k H]. exists k. unfold gser_top. now rewrite H.
Qed.
