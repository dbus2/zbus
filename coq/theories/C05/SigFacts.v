(* C05/SigFacts.v — the signature parser with the gvariant feature reads back what [show] prints for every single
   complete GVariant type (maybe included): parse_sig true (show g) = Some g. *)
From ZV Require Import Base.Bytes Base.Sig Base.SigParse Base.SigParseFacts C05.Val C05.Spec.

Lemma gsingle_printable : forall g, gsingle_ok g = true -> printable_gv true g = true.
Proof.
  induction g using sig_ind'; cbn [gsingle_ok printable_gv]; intros Hs; try discriminate; try reflexivity; auto.
  - apply andb_true_iff in Hs as [H1 H2]. rewrite IHg2 by assumption.
    destruct g1; cbn in H1; try discriminate; reflexivity.
  - apply andb_true_iff in Hs as [H1 H2]. rewrite H1. cbn [andb].
    clear H1. revert H2. induction H as [|x l Hx Hl IH]; intros H2; [reflexivity|].
    apply andb_true_iff in H2 as [Ha Hb]. cbn [forallb].
    rewrite Hx by assumption. apply IH. assumption.
Qed.

Theorem parse_show_gv g : gsingle_ok g = true -> parse_sig true (show g) = Some g.
Proof. intros H. apply parse_sig_show. now apply gsingle_printable. Qed.
