(* C05/DeProofs.v — the model of zvariant's GVariant deserializer never panics, on any input, except
   (a) in the signature parser's recursion (native stack, modelled by PStack) and
   (b) where the reader of a tuple member's framing offset panics — which read_last_offset_from_buffer did on a
       window shorter than the offset width (the former struct_offset_underflow finding), and which the checked
       reader of the code as it is (commit b5246470) never does.
   Every other slice / index / subtraction / unwrap of the decode path is shown to be guarded. *)
From ZV Require Import Base.Bytes Base.BytesFacts Base.Res Base.Sig Base.SigParse Base.Utf8 DBus.Val DBus.Spec DBus.Ser DBus.De DBus.SerFacts
  C05.Val C05.Spec C05.Model C05.DeModel C05.Facts.
From Coq Require Import Lia.
Local Open Scope N_scope.

Definition wfst (st : dst) : Prop := r_pos st <= r_len st /\ r_len st < 18446744073709551616.

(* every panic of [r] satisfies [Q] *)
Definition panics {E A} (r : res E A) (Q : panic -> Prop) : Prop := forall p, r = Panic p -> Q p.
Lemma panics_bind {E A B} (r : res E A) (f : A -> res E B) Q :
  panics r Q -> (forall a, r = Ok a -> panics (f a) Q) -> panics (bind r f) Q.
Proof. intros Hr Hf p. destruct r; cbn [bind]; [exact (Hf a eq_refl p)|discriminate|intros [= <-]; now apply Hr]. Qed.
Lemma panics_bind_never {E A B} (r : res E A) (f : A -> res E B) Q :
  (forall p, r <> Panic p) -> (forall a, r = Ok a -> panics (f a) Q) -> panics (bind r f) Q.
Proof. intros Hr. apply panics_bind. intros p Hp. destruct (Hr p Hp). Qed.

Lemma gparse_padding_nopanic st al p : gparse_padding st al <> Panic p.
Proof.
  unfold gparse_padding. destruct (_ =? 0); [discriminate|].
  destruct (N.ltb_spec (r_len st) (r_pos st + padn (r_pos0 st + r_pos st) al)); [discriminate|].
  destruct (N.leb_spec (r_pos st + padn (r_pos0 st + r_pos st) al) (r_len st)); [|lia]. cbn [negb].
  destruct (forallb _ _); discriminate.
Qed.
Lemma gparse_padding_ok st al st' : gparse_padding st al = Ok st' -> r_len st' = r_len st /\ (wfst st -> wfst st').
Proof.
  unfold gparse_padding, wfst. intros H. destruct (_ =? 0); [now injection H as <-|].
  destruct (N.ltb_spec (r_len st) (r_pos st + padn (r_pos0 st + r_pos st) al)); [discriminate|].
  destruct (negb _); [discriminate|]. destruct (forallb _ _); [|discriminate]. injection H as <-. cbn. split; [reflexivity|lia].
Qed.

Lemma gsub_nopanic st lo hi sh g d p : gsub st lo hi sh g d <> Panic p.
Proof. unfold gsub. destruct (_ || _); discriminate. Qed.
Lemma gsub_ok st lo hi sh g d st' : gsub st lo hi sh g d = Ok st' ->
  r_len st < 18446744073709551616 -> wfst st' /\ r_len st' <= r_len st.
Proof.
  unfold gsub, wfst. intros H Hl. destruct (N.ltb_spec hi lo); [discriminate|]. destruct (N.ltb_spec (r_len st) hi); [discriminate|].
  cbn in H. injection H as <-. cbn. lia.
Qed.

Lemma for_encoded_ge n w : for_encoded_container n = Ok w -> n <> 0 -> w <= n.
Proof.
  unfold for_encoded_container. rewrite for_bare_cases. rewrite !N.mul_0_l, !N.add_0_r. intros H Hn.
  destruct (N.leb_spec n 255); [injection H as <-; lia|]. destruct (N.leb_spec n 65535); [injection H as <-; lia|].
  destruct (N.leb_spec n 4294967295); [injection H as <-; lia|].
  destruct (N.leb_spec n 18446744073709551615); [injection H as <-; lia|discriminate].
Qed.
Lemma for_encoded_width n : n < 18446744073709551616 -> for_encoded_container n = Ok (offset_width n 0).
Proof. intros H. apply for_bare_width. lia. Qed.
Lemma for_encoded_small n w : for_encoded_container n = Ok w -> 2 <= w -> 256 <= n.
Proof.
  unfold for_encoded_container. rewrite for_bare_cases. rewrite !N.mul_0_l, !N.add_0_r. intros H Hw.
  destruct (N.leb_spec n 255); [injection H as <-; lia|lia].
Qed.

Lemma read_last_safe st a b w p : for_encoded_container (b - a) = Ok w -> read_last st a b w <> Panic p.
Proof.
  intros H. unfold read_last. destruct (N.eqb_spec (b - a) 0); [discriminate|].
  apply for_encoded_ge in H; [|assumption]. destruct (N.ltb_spec (b - a) w); [lia|discriminate].
Qed.
Lemma read_last_checked_nopanic st a b w p : read_last_checked st a b w <> Panic p.
Proof.
  unfold read_last_checked, read_last. destruct (_ =? 0); cbn [negb andb]; [discriminate|]. destruct (_ <? _); discriminate.
Qed.

(* from_encoded_array: never panics; the offsets it returns all lie inside the data part *)
Section OffsLoop.
Variables w os : N.
Fixpoint offs_loop (k : nat) (l : bytes) (acc : list N) {struct k} : res cerr (list N) :=
  match k with
  | O => Err EFuel
  | S k' =>
      match l with
      | [] => Ok (frev acc)
      | _ => let c := takeN w l in
             if len c <? w then Err EBounds
             else let o := le_val c in if os <? o then Err EBounds else offs_loop k' (dropN w l) (o :: acc)
      end
  end.
Lemma offs_loop_spec : forall k l acc,
  (forall p, offs_loop k l acc <> Panic p) /\
  (forall offs, offs_loop k l acc = Ok offs -> Forall (fun o => o <= os) acc -> Forall (fun o => o <= os) offs).
Proof.
  induction k as [|k IH]; intros l acc; [split; discriminate|].
  destruct l as [|c0 l0]; cbn [offs_loop].
  - split; [discriminate|]. intros offs [= <-] Ha. rewrite frev_rev. now apply Forall_rev.
  - cbv zeta. destruct (len (takeN w (c0 :: l0)) <? w); [split; discriminate|].
    destruct (N.ltb_spec os (le_val (takeN w (c0 :: l0)))); [split; discriminate|].
    destruct (IH (dropN w (c0 :: l0)) (le_val (takeN w (c0 :: l0)) :: acc)) as [H1 H2]. split; [assumption|].
    intros offs Ho Ha. apply (H2 offs Ho). constructor; assumption.
Qed.
End OffsLoop.

Lemma from_encoded_array_eq st :
  from_encoded_array st =
  let clen := r_len st - r_pos st in
  let* w := for_encoded_container clen in
  let* offsets_start := read_last st (r_pos st) (r_len st) w in
  if clen <? offsets_start then Err EBounds else
  let offsets_len := clen - offsets_start in
  let region := takeN offsets_len (from_idx st (r_pos st + offsets_start)) in
  let* offs := offs_loop w offsets_start (S (length region)) region [] in
  Ok (offs, offsets_len).
Proof. reflexivity. Qed.

Lemma from_encoded_array_spec st : wfst st ->
  (forall p, from_encoded_array st <> Panic p) /\
  (forall offs ol, from_encoded_array st = Ok (offs, ol) ->
     ol <= r_len st - r_pos st /\ Forall (fun o => o <= r_len st - r_pos st - ol) offs).
Proof.
  intros [Hp Hl]. rewrite from_encoded_array_eq. cbv zeta.
  set (clen := r_len st - r_pos st). rewrite (for_encoded_width clen) by (subst clen; lia). cbn [bind].
  destruct (read_last st (r_pos st) (r_len st) (offset_width clen 0)) as [os| |] eqn:Hrl; cbn [bind].
  2:{ split; discriminate. }
  2:{ exfalso. eapply read_last_safe; [|exact Hrl]. apply for_encoded_width. lia. }
  destruct (N.ltb_spec clen os); [split; discriminate|].
  destruct (offs_loop_spec (offset_width clen 0) os (S (length (takeN (clen - os) (from_idx st (r_pos st + os)))))
              (takeN (clen - os) (from_idx st (r_pos st + os))) []) as [Hnp Hall].
  destruct (offs_loop _ os _ _ []) as [offs| |] eqn:Hloop; cbn [bind].
  - split; [discriminate|]. intros offs' ol [= <- <-]. split; [lia|].
    replace (clen - (clen - os)) with os by lia. apply (Hall offs eq_refl). constructor.
  - split; discriminate.
  - exfalso. now apply (Hnp p).
Qed.

(* ArrayDeserializer::new after the padding and the signature match *)
Definition garr_make (st : dst) (al : N) (child : sig) (vsig : option sig) (fixed_key fixed_child : bool)
  : res cerr (dst * garr) :=
  let len0 := r_len st - r_pos st in
  if fixed_child then
    Ok (st, {| a_len := len0; a_start := r_pos st; a_al := al; a_child := child; a_vsig := vsig;
               a_offs := None; a_offs_len := 0; a_kos := None |})
  else
    let* (offs, offs_len) := from_encoded_array st in
    if len0 <? offs_len then Panic PArith else
    Ok (st, {| a_len := len0 - offs_len; a_start := r_pos st; a_al := al; a_child := child; a_vsig := vsig;
               a_offs := Some offs; a_offs_len := offs_len;
               a_kos := if fixed_key then None else Some 1 |}).
Lemma garr_new_eq st :
  garr_new st =
  let* d := inc_array (r_dep st) in
  let al := align_gv (r_sig st) in
  let* st := gparse_padding (rset_dep st d) al in
  if r_len st <? r_pos st then Panic PArith else
  let* (child, vsig, fixed_key, fixed_child) :=
      match r_sig st with
      | SArray c => Ok (c, None, false, fixed_sized c)
      | SDict k v => Ok (k, Some v, fixed_sized k, fixed_sized k && fixed_sized v)
      | _ => Err ESigMismatch
      end in
  garr_make st al child vsig fixed_key fixed_child.
Proof. reflexivity. Qed.

Lemma garr_make_spec st al child vsig fk fx : wfst st ->
  (forall p, garr_make st al child vsig fk fx <> Panic p) /\
  (forall st' a, garr_make st al child vsig fk fx = Ok (st', a) ->
     st' = st /\ a_start a = r_pos st /\ a_start a + a_len a <= r_len st /\
     match a_offs a with Some offs => Forall (fun o => a_start a + o <= r_len st) offs | None => True end).
Proof.
  intros Hwf. pose proof Hwf as [Hp Hl]. unfold garr_make. cbv zeta. destruct fx.
  - split; [discriminate|]. intros st' a [= <- <-]. cbn. repeat split. lia.
  - destruct (from_encoded_array_spec st Hwf) as [Hnp Hok].
    destruct (from_encoded_array st) as [[offs ol]| |]; cbn [bind]; [|split; discriminate|exfalso; now apply (Hnp p)].
    destruct (Hok offs ol eq_refl) as [Hol Hall].
    destruct (N.ltb_spec (r_len st - r_pos st) ol); [lia|].
    split; [discriminate|]. intros st' a [= <- <-]. cbn. repeat split; try lia.
    eapply Forall_impl; [|exact Hall]. cbn. intros o Ho. lia.
Qed.

Lemma inc_nopanic d p : inc_array d <> Panic p /\ inc_struct d <> Panic p /\ inc_variant d <> Panic p /\ inc_maybe d <> Panic p.
Proof.
  unfold inc_array, inc_struct, inc_variant, inc_maybe, dcheck.
  repeat split; repeat match goal with |- (if ?c then _ else _) <> _ => destruct c end; discriminate.
Qed.
Lemma inc_array_np d p : inc_array d <> Panic p. Proof. apply inc_nopanic. Qed.
Lemma inc_variant_np d p : inc_variant d <> Panic p. Proof. apply inc_nopanic. Qed.
Lemma inc_struct_np d p : inc_struct d <> Panic p. Proof. apply inc_nopanic. Qed.
Lemma inc_maybe_np d p : inc_maybe d <> Panic p. Proof. apply inc_nopanic. Qed.

Lemma garr_new_spec st : wfst st ->
  (forall p, garr_new st <> Panic p) /\
  (forall st' a, garr_new st = Ok (st', a) ->
     wfst st' /\ r_len st' = r_len st /\ a_start a + a_len a <= r_len st' /\
     match a_offs a with Some offs => Forall (fun o => a_start a + o <= r_len st') offs | None => True end).
Proof.
  intros Hwf. rewrite garr_new_eq. cbv zeta.
  destruct (inc_array (r_dep st)) as [d| |] eqn:Hinc; cbn [bind]; [|split; discriminate|now apply inc_array_np in Hinc].
  destruct (gparse_padding (rset_dep st d) (align_gv (r_sig st))) as [st1| |] eqn:Hpp; cbn [bind]; [|split; discriminate|].
  2:{ now apply gparse_padding_nopanic in Hpp. }
  apply gparse_padding_ok in Hpp as [Hlen Hwf1]. specialize (Hwf1 Hwf). cbn [rset_dep r_len] in Hlen.
  destruct (N.ltb_spec (r_len st1) (r_pos st1)); [destruct Hwf1; lia|].
  assert (Hmake : forall child vsig fk fx,
            (forall p, garr_make st1 (align_gv (r_sig st)) child vsig fk fx <> Panic p) /\
            (forall st' a, garr_make st1 (align_gv (r_sig st)) child vsig fk fx = Ok (st', a) ->
               wfst st' /\ r_len st' = r_len st /\ a_start a + a_len a <= r_len st' /\
               match a_offs a with Some offs => Forall (fun o => a_start a + o <= r_len st') offs | None => True end)).
  { intros child vsig fk fx. destruct (garr_make_spec st1 (align_gv (r_sig st)) child vsig fk fx Hwf1) as [Hnp Hok].
    split; [exact Hnp|]. intros st' a Hm. destruct (Hok st' a Hm) as (-> & _ & Hend & Hoffs). tauto. }
  destruct (r_sig st1); cbn [bind]; try (split; discriminate); apply Hmake.
Qed.

Lemma gde_str_nopanic st p : gde_str st <> Panic p.
Proof.
  unfold gde_str. destruct (r_sig st); try discriminate;
    (destruct (_ <? _); [discriminate|]; destruct (negb _); [discriminate|]; destruct (utf8_valid _); discriminate).
Qed.
Lemma gstr_value_nopanic g s p : gstr_value g s <> Panic p.
Proof. unfold gstr_value. destruct g; try discriminate. - destruct (parse_sig _ _); discriminate. - destruct (path_ok _); discriminate. Qed.
Lemma grd_fixed_nopanic st n p : grd_fixed st n <> Panic p.
Proof.
  unfold grd_fixed. destruct (gparse_padding st n) eqn:H1; cbn [bind]; [|discriminate|now apply gparse_padding_nopanic in H1].
  unfold gnext_slice. destruct (_ <? _); discriminate.
Qed.
Lemma sig_nest_le : forall l o q b, sig_nest l o q b <= N.max b (o + q + len l).
Proof.
  induction l as [|c r IH]; intros o q b; cbn [sig_nest]; [lia|]. rewrite len_cons.
  destruct (beq c "a"%byte || beq c "m"%byte); [specialize (IH o (q + 1) (N.max b (o + q + 1))); lia|].
  destruct (beq c "("%byte || beq c "{"%byte); [specialize (IH (o + 1) 0 (N.max b (o + q + 1))); lia|].
  destruct (beq c ")"%byte || beq c "}"%byte); [specialize (IH (o - 1) 0 b); lia|].
  specialize (IH o 0 b); lia.
Qed.
Lemma parse_sig_stack_panics raw : panics (parse_sig_stack raw) (fun p => p = PStack /\ stack_limit < len raw).
Proof.
  intros p. unfold parse_sig_stack. destruct (N.ltb_spec stack_limit (sig_nest raw 0 0 0)).
  - intros [= <-]. split; [reflexivity|]. pose proof (sig_nest_le raw 0 0 0). lia.
  - destruct (parse_sig _ _); discriminate.
Qed.
Lemma len_takeN_le {A} n (l : list A) : N.of_nat (length (takeN n l)) <= n.
Proof. unfold takeN. pose proof (firstn_le_length (N.to_nat n) l). lia. Qed.
Lemma len_removelast_le {A} (l : list A) : (length (removelast l) <= length l)%nat.
Proof. induction l as [|x [|y r] IH]; cbn [removelast length] in *; lia. Qed.
Lemma len_strip_nul s : len (strip_nul s) <= len s.
Proof. unfold strip_nul. destruct s; [lia|]. destruct (is_zero _); [|lia]. unfold len. pose proof (len_removelast_le (b :: s)). lia. Qed.
Lemma gde_str_len st s st' : gde_str st = Ok (s, st') -> len s <= r_len st - r_pos st.
Proof.
  pose proof (len_strip_nul (takeN (r_len st - r_pos st) (r_rest st))) as Hs.
  pose proof (len_takeN_le (r_len st - r_pos st) (r_rest st)) as Ht. unfold len in Hs.
  unfold gde_str. destruct (r_sig st); try discriminate;
    (destruct (_ <? _); [discriminate|]; destruct (negb _); [discriminate|]; destruct (utf8_valid _); [|discriminate];
     intros [= <- _]; unfold len; lia).
Qed.

(* standalone forms of gde_gen's loops, and names for the pieces of their bodies *)
(* ArrayDeserializer::element_end: for an array element (pop), for a dict key (peek) and a dict value (pop) *)
Definition arr_end (a : garr) (offs : option (list N)) : N * option (list N) :=
  match offs with
  | Some (o :: r) => (a_start a + o, Some r)
  | _ => (a_start a + a_len a, offs)
  end.
Definition peek_end (a : garr) (offs : option (list N)) : res cerr N :=
  match offs with
  | Some (o :: _) => Ok (a_start a + o)
  | Some [] => Err EOther
  | None => Ok (a_start a + a_len a)
  end.
Definition pop_end (a : garr) (offs : option (list N)) : res cerr (N * option (list N)) :=
  match offs with
  | Some (o :: r) => Ok (a_start a + o, Some r)
  | Some [] => Err EOther
  | None => Ok (a_start a + a_len a, None)
  end.
(* where a dict key ends, and the width of its framing offset if it has one *)
Definition key_end (a : garr) (st : dst) (element_end : N) : res cerr (N * option N) :=
  match a_kos a with
  | Some _ =>
      if element_end <? r_pos st then Err EBounds else
      let* w := for_encoded_container (element_end - r_pos st) in
      if r_len st <? element_end then Panic PSlice else
      let* o := read_last st (r_pos st) element_end w in
      Ok (r_pos st + o, Some w)
  | None => Ok (element_end, None)
  end.
Definition value_end (kos : option N) (element_end : N) : res cerr N :=
  match kos with
  | Some w => if element_end <? w then Err EBounds else Ok (element_end - w)
  | None => Ok element_end
  end.
(* where a tuple member ends; the end of the framing offsets not yet used, and the length of those used *)
Definition member_end (rl : dst -> N -> N -> N -> res cerr N) (start w : N) (st : dst) (g : sig) (last : bool)
    (end_ offsets_len : N) : res cerr (N * N * N) :=
  if fixed_sized g then Ok (end_, end_, offsets_len)
  else if last then Ok (end_, end_, offsets_len)
  else
    if (end_ <? start) || (r_len st <? end_) then Err EBounds else
    let* o := rl st start end_ w in
    if end_ <? w then Err EBounds else
    Ok (o + start, end_ - w, offsets_len + w).

Section Loops.
  Variable dec : dst -> res cerr (gval * dst).

  Section Arr.
    Variable a : garr.
    Variable c : sig.
    Fixpoint arr_loop (k : nat) (offs : option (list N)) (st : dst) (acc : list gval) {struct k}
      : res cerr (list gval * dst) :=
      match k with
      | O => Err EFuel
      | S k' =>
          if garr_done st a offs then Ok (frev acc, garr_finish st a)
          else
            let '(end_, offs') := arr_end a offs in
            let* sub := gsub st (r_pos st) end_ (r_pos st) (a_child a) (r_dep st) in
            let* (v, sub') := dec sub in
            let st := adv st (r_pos sub') in
            if a_start a + a_len a <? r_pos st then Err EBounds
            else if negb (sig_eqb (gsig v) c) then Err ESigMismatch
            else arr_loop k' offs' st (v :: acc)
      end.
  End Arr.

  Section Dict.
    Variable a : garr.
    Variables ks vs : sig.
    Fixpoint dict_loop (k : nat) (offs : option (list N)) (st : dst) (acc : list (gval * gval)) {struct k}
      : res cerr (list (gval * gval) * dst) :=
      match k with
      | O => Err EFuel
      | S k' =>
          if garr_done st a offs then Ok (frev acc, garr_finish st a)
          else
            let* st := gparse_padding st (a_al a) in
            let* element_end := peek_end a offs in
            let* (key_end, kos) := key_end a st element_end in
            let* ksub := gsub st (r_pos st) key_end (r_pos st) (a_child a) (r_dep st) in
            let* (kv, ksub') := dec ksub in
            let st := adv st (r_pos ksub') in
            if a_start a + a_len a <? r_pos st then Err EBounds else
            let* (element_end, offs') := pop_end a offs in
            let* value_end := value_end kos element_end in
            let* vsub := gsub st (r_pos st) value_end (r_pos st) vs (r_dep st) in
            let* (vv, vsub') := dec vsub in
            let st := adv st (r_pos vsub') in
            let st := match kos with Some w => adv st w | None => st end in
            if a_start a + a_len a <? r_pos st then Err EBounds
            else if negb (sig_eqb (gsig kv) ks) || negb (sig_eqb (gsig vv) vs) then Err ESigMismatch
            else dict_loop k' offs' st ((kv, vv) :: acc)
      end.
  End Dict.

  Section Struct.
    Variable rl : dst -> N -> N -> N -> res cerr N.
    Variables start w : N.
    Fixpoint struct_loop (gs : list sig) (st : dst) (end_ offsets_len : N) (acc : list gval) {struct gs}
      : res cerr (list gval * dst) :=
      match gs with
      | [] => Ok (frev acc, st)
      | g :: r =>
          let last := match r with [] => true | _ => false end in
          let* (element_end, end', offsets_len') := member_end rl start w st g last end_ offsets_len in
          let* sub := gsub st (r_pos st) element_end (r_pos st) g (r_dep st) in
          let* (v, sub') := dec sub in
          let st := adv st (r_pos sub') in
          let st := if last then adv (rset_dep st (dec_struct (r_dep st))) offsets_len' else st in
          struct_loop r st end' offsets_len' (v :: acc)
      end.
  End Struct.
End Loops.

Lemma gde_gen_array rl f st c : r_sig st = SArray c ->
  gde_gen rl (S f) st =
  let* st := gparse_padding st (align_gv (r_sig st)) in
  let* (st, a) := garr_new st in
  let* (l, st') := arr_loop (gde_gen rl f) a c (S (N.to_nat (r_len st))) (a_offs a) st [] in
  Ok (GArray c l, st').
Proof. destruct st as [? ? ? ? ? ? g ? ?]. cbn [r_sig]. intros ->. reflexivity. Qed.
Lemma gde_gen_dict rl f st ks vs : r_sig st = SDict ks vs ->
  gde_gen rl (S f) st =
  let* st := gparse_padding st (align_gv (r_sig st)) in
  let* (st, a) := garr_new st in
  let* (l, st') := dict_loop (gde_gen rl f) a ks vs (S (N.to_nat (r_len st))) (a_offs a) st [] in
  Ok (GDict ks vs l, st').
Proof. destruct st as [? ? ? ? ? ? g ? ?]. cbn [r_sig]. intros ->. reflexivity. Qed.
Lemma gde_gen_struct rl f st fs : r_sig st = SStruct fs ->
  gde_gen rl (S f) st =
  let* st := gparse_padding st (align_gv (r_sig st)) in
  let* st := gparse_padding st (align_gv (r_sig st)) in
  let* d := inc_struct (r_dep st) in
  let st := rset_dep st d in
  let start := r_pos st in
  if r_len st <? start then Panic PArith else
  let* w := for_encoded_container (r_len st - start) in
  let* (l, st') := struct_loop (gde_gen rl f) rl start w fs st (r_len st) 0 [] in
  Ok (GStruct l, st').
Proof. destruct st as [? ? ? ? ? ? g ? ?]. cbn [r_sig]. intros ->. reflexivity. Qed.

(* the scalar and string types: nothing on their path panics *)
Lemma gde_gen_leaf rl f st :
  match r_sig st with
  | SVariant | SArray _ | SDict _ _ | SStruct _ | SMaybe _ => True
  | _ => panics (gde_gen rl (S f) st) (fun _ => False)
  end.
Proof.
  destruct st as [e0 p0 base rest pos len g dep fds]. cbn [r_sig]. destruct g; try exact I; cbn [gde_gen r_sig]; cbv zeta;
    try (apply panics_bind_never; [apply grd_fixed_nopanic|now intros [x st1] _]).
  - discriminate.
  - apply panics_bind_never; [apply grd_fixed_nopanic|intros [x st1] _].
    destruct (x =? 1); [discriminate|]. destruct (x =? 0); discriminate.
  - apply panics_bind_never; [apply gde_str_nopanic|intros [x st1] _].
    apply panics_bind_never; [apply gstr_value_nopanic|discriminate].
  - apply panics_bind_never; [apply gde_str_nopanic|intros [x st1] _].
    apply panics_bind_never; [apply gstr_value_nopanic|discriminate].
  - apply panics_bind_never; [apply gde_str_nopanic|intros [x st1] _].
    apply panics_bind_never; [apply gstr_value_nopanic|discriminate].
  - apply panics_bind_never; [apply grd_fixed_nopanic|intros [x st1] _]. destruct (nthN _ _); discriminate.
Qed.

Lemma key_end_nopanic a st ee p : ee <= r_len st -> r_len st < 18446744073709551616 -> key_end a st ee <> Panic p.
Proof.
  intros He Hl. unfold key_end. destruct (a_kos a); [|discriminate].
  destruct (N.ltb_spec ee (r_pos st)); [discriminate|].
  rewrite for_encoded_width by lia. cbn [bind]. destruct (N.ltb_spec (r_len st) ee); [lia|].
  destruct (read_last st (r_pos st) ee _) eqn:Hr; cbn [bind]; try discriminate.
  apply read_last_safe in Hr; [destruct Hr|]. apply for_encoded_width. lia.
Qed.

Section NP.
  Variable rl : dst -> N -> N -> N -> res cerr N.
  Variable P : dst -> panic -> Prop.
  (* what a panic of the tuple-offset reader tells, when it is called with the width chosen for the tuple *)
  Hypothesis Hrl : forall st a b w, for_encoded_container (r_len st - a) = Ok w -> panics (rl st a b w) (P st).

  Definition bad (st : dst) (p : panic) : Prop :=
    (p = PStack /\ stack_limit < r_len st) \/ exists st', r_len st' <= r_len st /\ P st' p.
  Lemma bad_mono {A} (r : res cerr A) st1 st2 : r_len st1 <= r_len st2 -> panics r (bad st1) -> panics r (bad st2).
  Proof.
    intros H Hr p Hp. destruct (Hr p Hp) as [[-> Hs]|(st' & H1 & H2)]; [left; split; [reflexivity|lia]|].
    right. exists st'. split; [lia|assumption].
  Qed.

  Definition dec_ok (dec : dst -> res cerr (gval * dst)) : Prop := forall st, wfst st -> panics (dec st) (bad st).

  Lemma arr_loop_np dec a c : dec_ok dec -> forall k offs st acc,
    r_len st < 18446744073709551616 -> panics (arr_loop dec a c k offs st acc) (bad st).
  Proof.
    intros Hdec. induction k as [|k IH]; intros offs st acc Hl; [discriminate|].
    cbn [arr_loop]. destruct (garr_done st a offs); [discriminate|]. destruct (arr_end a offs) as [end_ offs'].
    apply panics_bind_never; [apply gsub_nopanic|intros sub Hsub]. apply gsub_ok in Hsub as [Hwf Hle]; [|assumption].
    apply panics_bind; [apply (bad_mono _ sub); [exact Hle|now apply Hdec]|intros [v sub'] _].
    cbv zeta. destruct (_ <? _); [discriminate|]. destruct (negb _); [discriminate|]. refine (IH _ _ _ _). exact Hl.
  Qed.

  Lemma dict_loop_np dec a ks vs : dec_ok dec -> forall k offs st acc,
    r_len st < 18446744073709551616 -> a_start a + a_len a <= r_len st ->
    match offs with Some l => Forall (fun o => a_start a + o <= r_len st) l | None => True end ->
    panics (dict_loop dec a ks vs k offs st acc) (bad st).
  Proof.
    intros Hdec. induction k as [|k IH]; intros offs st acc Hl Hal Hoffs; [discriminate|].
    cbn [dict_loop]. destruct (garr_done st a offs); [discriminate|].
    apply panics_bind_never; [apply gparse_padding_nopanic|intros st1 Hpp]. apply gparse_padding_ok in Hpp as [Hl1 _].
    apply panics_bind; [destruct offs as [[|o r]|]; discriminate|intros ee Hee].
    assert (Hee_le : ee <= r_len st1).
    { rewrite Hl1. destruct offs as [[|o r]|]; try discriminate; injection Hee as <-; [|lia]. now inversion Hoffs. }
    apply panics_bind_never; [intros p; apply key_end_nopanic; lia|intros [ke kos] _].
    apply panics_bind_never; [apply gsub_nopanic|intros ksub Hsub]. apply gsub_ok in Hsub as [Hwf Hle]; [|lia].
    apply panics_bind; [apply (bad_mono _ ksub); [lia|now apply Hdec]|intros [kv ksub'] _].
    cbv zeta. destruct (_ <? _); [discriminate|].
    apply panics_bind; [destruct offs as [[|o r]|]; discriminate|intros [ee2 offs'] Hpop].
    apply panics_bind; [unfold value_end; destruct kos; [destruct (_ <? _)|]; discriminate|intros ve _].
    apply panics_bind_never; [apply gsub_nopanic|intros vsub Hvsub].
    apply gsub_ok in Hvsub as [Hwfv Hlev]; [|cbn [adv r_len]; lia]. cbn [adv r_len] in Hlev.
    apply panics_bind; [apply (bad_mono _ vsub); [lia|now apply Hdec]|intros [vv vsub'] _].
    cbv zeta. destruct (_ <? _); [discriminate|]. destruct (_ || _); [discriminate|].
    match goal with |- panics (dict_loop _ _ _ _ _ _ ?s _) _ => assert (Hl3 : r_len s = r_len st) by (destruct kos; exact Hl1) end.
    eapply bad_mono; [|apply IH]; rewrite ?Hl3; try lia.
    destruct offs as [[|o r]|]; try discriminate; injection Hpop as <- <-; [|exact I]. now inversion Hoffs.
  Qed.

  Lemma struct_loop_np dec start w : dec_ok dec -> forall gs st end_ ol acc,
    r_len st < 18446744073709551616 -> for_encoded_container (r_len st - start) = Ok w ->
    panics (struct_loop dec rl start w gs st end_ ol acc) (bad st).
  Proof.
    intros Hdec. induction gs as [|g r IH]; intros st end_ ol acc Hl Hw; [discriminate|].
    cbn [struct_loop]. apply panics_bind.
    { unfold member_end. destruct (fixed_sized g); [discriminate|]. destruct r; [discriminate|].
      destruct (_ || _); [discriminate|]. apply panics_bind; [|intros o _; destruct (_ <? _); discriminate].
      intros p Hp. right. exists st. split; [lia|]. exact (Hrl st start end_ w Hw p Hp). }
    intros [[element_end end'] ol'] _.
    apply panics_bind_never; [apply gsub_nopanic|intros sub Hsub]. apply gsub_ok in Hsub as [Hwf Hle]; [|assumption].
    apply panics_bind; [apply (bad_mono _ sub); [exact Hle|now apply Hdec]|intros [v sub'] _].
    cbv zeta. destruct r; (refine (IH _ _ _ _ _ _); [exact Hl|exact Hw]).
  Qed.

  Theorem gde_gen_np : forall fuel, dec_ok (gde_gen rl fuel).
  Proof.
    induction fuel as [|f IH]; intros st Hwf; [discriminate|].
    assert (Hlen : r_len st < 18446744073709551616) by apply Hwf.
    (* the steps shared by the containers: padding to the alignment keeps the state well-formed *)
    assert (Hpad : forall st0 al (K : dst -> res cerr (gval * dst)), wfst st0 -> r_len st0 = r_len st ->
              (forall st1, wfst st1 -> r_len st1 = r_len st -> panics (K st1) (bad st)) ->
              panics (let* st1 := gparse_padding st0 al in K st1) (bad st)).
    { intros st0 al K Hwf0 Hl0 HK. apply panics_bind_never; [apply gparse_padding_nopanic|intros st1 Hpp].
      apply gparse_padding_ok in Hpp as [Hl1 Hwf1]. apply HK; [now apply Hwf1|congruence]. }
    destruct (r_sig st) as [| | | | | | | | | | | | | | |c|ks vs|fs|c] eqn:Hsig;
      try (intros p Hp; pose proof (gde_gen_leaf rl f st) as Hleaf; rewrite Hsig in Hleaf; destruct (Hleaf p Hp)).
    - (* variant *) cbn [gde_gen]. rewrite Hsig.
      apply Hpad; [assumption|reflexivity|intros st1 Hwf1 Hl1]. apply Hpad; [assumption..|intros st2 Hwf2 Hl2].
      destruct (r_len st2 =? 0); [discriminate|].
      destruct (N.ltb_spec (r_len st2) (r_pos st2)); [destruct Hwf2; lia|].
      destruct (last_nul _ 0 None) as [i|]; [|discriminate].
      apply panics_bind_never; [apply gsub_nopanic|intros sst Hs1]. apply gsub_ok in Hs1 as [Hwfs Hles]; [|lia].
      apply panics_bind_never; [apply gde_str_nopanic|intros [s sst'] Hstr]. apply gde_str_len in Hstr.
      apply panics_bind.
      { intros p Hp. apply parse_sig_stack_panics in Hp as [-> Hlim]. left. split; [reflexivity|lia]. }
      intros g0 _. apply panics_bind.
      { intros p Hp. apply parse_sig_stack_panics in Hp as [-> Hlim]. left. split; [reflexivity|].
        match type of Hlim with _ < len (takeN ?n ?l) => pose proof (len_takeN_le n l) as Ht; unfold len in Hlim end. lia. }
      intros g _.
      apply panics_bind_never; [apply gsub_nopanic|intros vst0 Hs2]. apply gsub_ok in Hs2 as [Hwfv Hlev]; [|lia].
      apply panics_bind_never; [apply inc_variant_np|intros d _].
      apply panics_bind; [|now intros [v vst'] _].
      apply (bad_mono _ (rset_dep vst0 d)); [cbn [rset_dep r_len]; lia|]. apply IH. exact Hwfv.
    - (* array *) rewrite (gde_gen_array rl f st c Hsig).
      apply Hpad; [assumption|reflexivity|intros st1 Hwf1 Hl1].
      destruct (garr_new_spec st1 Hwf1) as [Hnp Hok].
      apply panics_bind_never; [exact Hnp|intros [st2 a] Hnew]. destruct (Hok st2 a Hnew) as (Hwf2 & Hl2 & _).
      apply panics_bind; [|now intros [l st3] _].
      apply (bad_mono _ st2); [lia|]. apply arr_loop_np; [exact IH|apply Hwf2].
    - (* dict *) rewrite (gde_gen_dict rl f st ks vs Hsig).
      apply Hpad; [assumption|reflexivity|intros st1 Hwf1 Hl1].
      destruct (garr_new_spec st1 Hwf1) as [Hnp Hok].
      apply panics_bind_never; [exact Hnp|intros [st2 a] Hnew]. destruct (Hok st2 a Hnew) as (Hwf2 & Hl2 & Hal & Hoffs).
      apply panics_bind; [|now intros [l st3] _].
      apply (bad_mono _ st2); [lia|]. apply dict_loop_np; [exact IH|apply Hwf2|assumption..].
    - (* tuple *) rewrite (gde_gen_struct rl f st fs Hsig).
      apply Hpad; [assumption|reflexivity|intros st1 Hwf1 Hl1]. apply Hpad; [assumption..|intros st2 Hwf2 Hl2].
      apply panics_bind_never; [apply inc_struct_np|intros d _]. cbn [rset_dep r_pos r_len].
      destruct (N.ltb_spec (r_len st2) (r_pos st2)); [destruct Hwf2; lia|].
      rewrite for_encoded_width by (destruct Hwf2; lia). cbn [bind].
      apply panics_bind; [|now intros [l st3] _].
      apply (bad_mono _ (rset_dep st2 d)); [cbn [rset_dep r_len]; lia|].
      apply struct_loop_np; [exact IH|apply Hwf2|]. apply for_encoded_width. destruct Hwf2. cbn [rset_dep r_len]. lia.
    - (* maybe *) cbn [gde_gen]. rewrite Hsig. cbv zeta.
      apply Hpad; [assumption|reflexivity|intros st1 Hwf1 Hl1].
      destruct (N.eqb_spec (r_pos st1) (r_len st1)); [discriminate|].
      apply panics_bind.
      { destruct (fixed_sized _); [discriminate|]. destruct (N.eqb_spec (r_len st1) 0); [destruct Hwf1; lia|discriminate]. }
      intros end_ _.
      apply panics_bind_never; [apply gsub_nopanic|intros sub0 Hs]. apply gsub_ok in Hs as [Hwfs Hles]; [|lia].
      apply panics_bind_never; [apply inc_maybe_np|intros d _].
      apply panics_bind; [apply (bad_mono _ (rset_dep sub0 d)); [cbn [rset_dep r_len]; lia|apply IH; exact Hwfs]|intros [v sub'] _].
      destruct (fixed_sized _); [discriminate|]. destruct (_ <=? _); [discriminate|].
      destruct (r_rest _); [discriminate|]. destruct (is_zero _); discriminate.
  Qed.
End NP.

(* the code as it is (after commit b5246470): the only panic left is the signature parser's recursion *)
Theorem gde_panics fuel st p : wfst st -> gde fuel st = Panic p -> p = PStack /\ stack_limit < r_len st.
Proof.
  intros Hwf H. destruct (gde_gen_np read_last_checked (fun _ _ => False)) with (fuel := fuel) (st := st) (p := p)
    as [Hp|(st' & _ & [])]; try assumption.
  intros st0 a b w _ p0 Hx. now apply read_last_checked_nopanic in Hx.
Qed.

(* the code before that commit: every panic other than the parser's stack was the subtraction in
   read_last_offset_from_buffer, reached on a window of at least 256 bytes *)
Theorem gde_before_fix_panics fuel st p : wfst st -> gde_before_fix fuel st = Panic p ->
  (p = PStack /\ stack_limit < r_len st) \/ (p = PArith /\ 256 <= r_len st).
Proof.
  intros Hwf H.
  destruct (gde_gen_np read_last (fun s q => q = PArith /\ 256 <= r_len s)) with (fuel := fuel) (st := st) (p := p)
    as [Hp|(st' & Hle & Hq & H256)]; try assumption.
  - intros st0 a b w Hw p0 Hx. unfold read_last in Hx. destruct (N.eqb_spec (b - a) 0); [discriminate|].
    destruct (N.ltb_spec (b - a) w); [|discriminate]. injection Hx as <-. split; [reflexivity|].
    assert (2 <= w) by lia. apply for_encoded_small in Hw; [lia|assumption].
  - now left.
  - right. split; [assumption|lia].
Qed.

Corollary gde_small_nopanic fuel st p : wfst st -> r_len st <= stack_limit -> gde fuel st <> Panic p.
Proof. intros Hwf Hs H. destruct (gde_panics fuel st p Hwf H) as [_ Hge]. lia. Qed.

Definition panic_of {A} (r : res cerr A) : option panic := match r with Panic p => Some p | _ => None end.

Theorem gde_tops_panics e pos g b fds p : len b < 18446744073709551616 ->
  gde_value_top e pos b fds = Panic p \/ gde_struct_top e pos g b fds = Panic p \/ gde_typed_top e pos g b fds = Panic p ->
  p = PStack /\ stack_limit < len b.
Proof.
  (* with the closed fuel 70 in the goal the kernel unrolls the decoder when it compares the two sides: generalize it *)
  intros Hb. unfold gde_value_top, gde_struct_top, gde_typed_top. generalize gde_fuel. intros n H.
  assert (Hi : forall g0, panics (gde n (ginit_dst e pos g0 b fds)) (fun p => p = PStack /\ stack_limit < len b)).
  { intros g0 q. apply gde_panics. unfold wfst, ginit_dst; cbn. lia. }
  destruct H as [H|[H|H]]; revert p H; (apply panics_bind; [apply Hi|intros [v st] _]).
  - destruct v; discriminate.
  - discriminate.
  - discriminate.
Qed.

Theorem gde_tops_small_nopanic e pos g b fds p : len b <= stack_limit ->
  gde_value_top e pos b fds <> Panic p /\ gde_struct_top e pos g b fds <> Panic p /\ gde_typed_top e pos g b fds <> Panic p.
Proof.
  intros Hb. assert (Hb' : len b < 18446744073709551616) by (unfold stack_limit in Hb; lia).
  assert (Hno : ~ (p = PStack /\ stack_limit < len b)) by (intros [_ Hx]; lia).
  repeat split; intros Hx; apply Hno; apply (gde_tops_panics e pos g b fds p Hb'); tauto.
Qed.
