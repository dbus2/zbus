(* C13/Refine.v — whatever the reference reader of C11/Spec.v accepts, the model of the code accepts, with the same
   result: primitives, values of any variant-free type, one header field, the field array. *)
From ZV Require Import Base.Bytes Base.Res Base.Sig C10.Model C10.Spec C10.Proofs C11.Model C11.Spec C11.Lemmas
     C11.Invariants.
From Coq Require Import Lia.
Open Scope N_scope.

(* ---------- primitives ---------- *)
Lemma sp_take_ok b pos n s p : sp_take b pos n = Some (s, p) -> next_slice b pos n = Ok (s, p).
Proof.
  unfold sp_take, next_slice. destruct (pos + n <=? len b) eqn:E; [|discriminate]. intros [= <- <-].
  replace (len b <? pos + n) with false by lia. reflexivity.
Qed.
Lemma sp_align_ok b pos a p : sp_align b pos a = Some p -> parse_padding b pos a = Ok p /\ p = pos + padding pos a.
Proof.
  unfold sp_align, sp_take, parse_padding. destruct (pos + padding pos a <=? len b) eqn:E; [|discriminate].
  destruct (all_zero _) eqn:Ez; [|discriminate]. intros [= <-].
  destruct (padding pos a =? 0) eqn:E0.
  - split; [f_equal; lia|reflexivity].
  - replace (len b <? pos + padding pos a) with false by lia. split; reflexivity.
Qed.
Lemma sp_fixed_ok b pos a l p : sp_fixed b pos a = Some (l, p) -> de_fixed b pos a = Ok p.
Proof.
  unfold sp_fixed, de_fixed. destruct (sp_align b pos a) as [p0|] eqn:Ea; [|discriminate]. intros H.
  apply sp_align_ok in Ea. destruct Ea as [-> _]. cbn [bind]. apply sp_take_ok in H. rewrite H. reflexivity.
Qed.
Lemma sp_fixed_snd b pos a p : option_map snd (sp_fixed b pos a) = Some p -> de_fixed b pos a = Ok p.
Proof. destruct (sp_fixed b pos a) as [[l q]|] eqn:E; [|discriminate]. intros [= <-]. eapply sp_fixed_ok; eauto. Qed.
Lemma sp_u32_ok e b pos n p : sp_u32 e b pos = Some (n, p) -> de_u32 e b pos = Ok (n, p).
Proof.
  unfold sp_u32, sp_fixed, de_u32. destruct (sp_align b pos 4) as [p0|] eqn:Ea; [|discriminate].
  destruct (sp_take b p0 4) as [[l p1]|] eqn:Et; [|discriminate]. intros [= <- <-].
  apply sp_align_ok in Ea. destruct Ea as [-> _]. cbn [bind]. apply sp_take_ok in Et. rewrite Et. reflexivity.
Qed.
Lemma sp_byte_ok b pos n p : sp_byte b pos = Some (n, p) -> de_u8 b pos = Ok (n, p).
Proof.
  unfold sp_byte, de_u8. destruct (sp_take b pos 1) as [[l p1]|] eqn:Et; [|discriminate].
  destruct l as [|c l']; [discriminate|]. intros [= <- <-]. apply sp_take_ok in Et. rewrite Et. reflexivity.
Qed.
Lemma sp_string_ok w e b pos s p : sp_string w e b pos = Some (s, p) -> exists st, de_str w e b pos = Ok (s, st, p).
Proof.
  unfold sp_string, de_str. intros H.
  destruct (if w then sp_u32 e b pos else sp_byte b pos) as [[n p0]|] eqn:En; [|discriminate].
  assert (Hn : (if w then de_u32 e b pos else de_u8 b pos) = Ok (n, p0)).
  { destruct w; [apply sp_u32_ok|apply sp_byte_ok]; exact En. }
  destruct (sp_take b p0 n) as [[s' p1]|] eqn:Es; [|discriminate].
  destruct (sp_take b p1 1) as [[z p2]|] eqn:Ez; [|discriminate].
  destruct z as [|z0 [|? ?]]; try discriminate.
  destruct ((bn z0 =? 0) && negb (has_nul s') && utf8_valid s') eqn:Ec; [|discriminate]. injection H as <- <-.
  apply andb_prop in Ec. destruct Ec as [Ec Eu]. apply andb_prop in Ec. destruct Ec as [E0 Enul].
  apply sp_take_ok in Es. apply sp_take_ok in Ez. apply Bool.negb_true_iff in Enul.
  eexists. destruct w; cbv beta iota in Hn |- *; rewrite Hn; cbn [bind]; rewrite Es; cbn [bind]; rewrite Enul; rewrite Ez; cbn [bind];
    unfold all_zero; cbn [forallb]; rewrite E0; cbn [andb negb]; rewrite Eu; reflexivity.
Qed.

Lemma sp_inc_arr d d' : sp_inc 1 d = Some d' -> inc_array d = Ok d'.
Proof.
  unfold sp_inc, inc_array, depth_check. cbn [d_struct d_array d_variant].
  destruct (_ && _) eqn:E; [|discriminate]. intros [= <-]. cbn [d_struct d_array d_variant].
  replace (32 <? d_struct d) with false by lia. replace (32 <? d_array d + 1) with false by lia.
  replace (64 <? _) with false by lia. reflexivity.
Qed.
Lemma sp_inc_struct d d' : sp_inc 0 d = Some d' -> inc_struct d = Ok d'.
Proof.
  unfold sp_inc, inc_struct, depth_check. cbn [d_struct d_array d_variant].
  destruct (_ && _) eqn:E; [|discriminate]. intros [= <-]. cbn [d_struct d_array d_variant].
  replace (32 <? d_struct d + 1) with false by lia. replace (32 <? d_array d) with false by lia.
  replace (64 <? _) with false by lia. reflexivity.
Qed.

(* the head of an array or a dictionary: padding to 4, depth, byte length, padding of the first element.  The model pads
   before de_u32, which pads again: the second padding finds the position aligned *)
Lemma sp_container_head {A} d d' e b pos n p1 al start (k : depths -> N -> N -> R A) :
  sp_inc 1 d = Some d' -> sp_u32 e b pos = Some (n, p1) -> sp_align b p1 al = Some start ->
  (let* p0 := parse_padding b pos 4 in let* d'' := inc_array d in let* (n', p1') := de_u32 e b p0 in
   let* start' := parse_padding b p1' al in k d'' n' start') = k d' n start.
Proof.
  intros Ed Eu Ea. pose proof (sp_u32_ok _ _ _ _ _ Eu) as Hu. unfold de_u32 in Hu. apply bind_ok in Hu. destruct Hu as (p0 & Hp0 & Hu).
  rewrite Hp0. cbn [bind]. rewrite (sp_inc_arr _ _ Ed). cbn [bind].
  assert (Hu' : de_u32 e b p0 = Ok (n, p1)).
  { unfold de_u32. apply parse_padding_mod in Hp0; [|lia]. subst p0.
    rewrite parse_padding_aligned by (try lia; apply padding_aligned; lia). cbn [bind]. exact Hu. }
  rewrite Hu'. cbn [bind]. apply sp_align_ok in Ea. destruct Ea as [-> _]. reflexivity.
Qed.

(* ---------- values ---------- *)
Lemma sp_arr_loop_ok selem elem b al endp : (forall q p, selem q = Some p -> elem q = Ok p) ->
  forall k q p, sp_arr_loop selem b al endp k q = Some p -> arr_loop elem b al endp k q = Ok p.
Proof.
  intros He. induction k as [|k IH]; intros q p H; cbn [sp_arr_loop arr_loop] in *; destruct (q =? endp); try discriminate;
    try (injection H as <-; reflexivity).
  destruct (sp_align b q al) as [q1|] eqn:Ea; [|discriminate]. apply sp_align_ok in Ea. destruct Ea as [-> _]. cbn [bind].
  destruct (selem q1) as [q2|] eqn:Ee; [|discriminate]. rewrite (He _ _ Ee). cbn [bind].
  destruct (q2 <=? endp) eqn:El; [|discriminate]. replace (endp <? q2) with false by lia. apply IH. exact H.
Qed.
Lemma sp_dict_loop_ok skd svd kd vd b endp : (forall q p, skd q = Some p -> kd q = Ok p) -> (forall q p, svd q = Some p -> vd q = Ok p) ->
  forall k q p, sp_dict_loop skd svd b endp k q = Some p -> dict_loop kd vd b endp k q = Ok p.
Proof.
  intros Hk Hv. induction k as [|k IH]; intros q p H; cbn [sp_dict_loop dict_loop] in *; destruct (q =? endp); try discriminate;
    try (injection H as <-; reflexivity).
  destruct (sp_align b q 8) as [q1|] eqn:Ea; [|discriminate]. apply sp_align_ok in Ea. destruct Ea as [-> _]. cbn [bind].
  destruct (skd q1) as [q2|] eqn:Ek; [|discriminate]. rewrite (Hk _ _ Ek). cbn [bind].
  destruct (q2 <=? endp) eqn:El; [|discriminate]. replace (endp <? q2) with false by lia.
  destruct (svd q2) as [q3|] eqn:Ev; [|discriminate]. rewrite (Hv _ _ Ev). cbn [bind].
  destruct (q3 <=? endp) eqn:El3; [|discriminate]. replace (endp <? q3) with false by lia. apply IH. exact H.
Qed.
Lemma sp_struct_go_ok sfld fld l : Forall (fun f => forall q p, sfld f q = Some p -> fld f q = Ok p) l ->
  forall q p, sp_struct_go sfld l q = Some p -> struct_go fld l q = Ok p.
Proof.
  induction 1 as [|f r Hf Hr IH]; intros q p H; cbn [sp_struct_go struct_go] in *; [injection H as <-; reflexivity|].
  destruct (sfld f q) as [q'|] eqn:E; [|discriminate]. rewrite (Hf _ _ E). cbn [bind]. apply IH. exact H.
Qed.

(* a valid value of any variant-free, descriptor-free type is decoded, to the same extent *)
Lemma sp_value_ok vf : forall s d e b pos p, sp_value s d e b pos = Some p -> de_value vf s d e b pos = Ok p.
Proof.
  induction s using sig_ind'; intros d e b pos p Hs; rewrite de_value_eq; cbn [sp_value] in Hs; try discriminate;
    try (apply sp_fixed_snd; exact Hs).
  - (* u8 *) destruct (sp_take b pos 1) as [[l q]|] eqn:E; [|discriminate]. injection Hs as <-.
    apply sp_take_ok in E. rewrite E. reflexivity.
  - (* bool *) destruct (sp_u32 e b pos) as [[n q]|] eqn:E; [|discriminate]. apply sp_u32_ok in E. rewrite E. cbn [bind]. destruct (n <=? 1); congruence.
  - (* str *) destruct (sp_string true e b pos) as [[s' q]|] eqn:E; [|discriminate]. injection Hs as <-.
    apply sp_string_ok in E. destruct E as (st & ->). reflexivity.
  - (* sig *) destruct (sp_string false e b pos) as [[s' q]|] eqn:E; [|discriminate].
    apply sp_string_ok in E. destruct E as (st & ->). cbn [bind]. destruct (parse_sig s'); congruence.
  - (* path *) destruct (sp_string true e b pos) as [[s' q]|] eqn:E; [|discriminate].
    apply sp_string_ok in E. destruct E as (st & ->). cbn [bind]. rewrite object_path_ok. destruct (spec_object_path s'); congruence.
  - (* array *)
    destruct (sp_inc 1 d) as [d'|] eqn:Ed; [|discriminate]. destruct (sp_u32 e b pos) as [[n p1]|] eqn:Eu; [|discriminate].
    destruct (sp_align b p1 (align_dbus s)) as [start|] eqn:Ea; [|discriminate].
    rewrite (sp_container_head _ _ _ _ _ _ _ _ _ _ Ed Eu Ea). eapply sp_arr_loop_ok; [|exact Hs]. intros q p'. apply IHs.
  - (* dict *)
    destruct (sp_inc 1 d) as [d'|] eqn:Ed; [|discriminate]. destruct (sp_u32 e b pos) as [[n p1]|] eqn:Eu; [|discriminate].
    destruct (sp_align b p1 8) as [start|] eqn:Ea; [|discriminate].
    rewrite (sp_container_head _ _ _ _ _ _ _ _ _ _ Ed Eu Ea). eapply sp_dict_loop_ok; [| |exact Hs]; intros q p'; [apply IHs1|apply IHs2].
  - (* struct *)
    destruct (sp_align b pos 8) as [p0|] eqn:Ea; [|discriminate]. destruct (sp_inc 0 d) as [d'|] eqn:Ed; [|discriminate].
    apply sp_align_ok in Ea. destruct Ea as [-> _]. cbn [bind]. rewrite (sp_inc_struct _ _ Ed). cbn [bind].
    eapply sp_struct_go_ok; [|exact Hs]. revert H. apply Forall_impl. intros f Hf q p'. apply Hf.
Qed.
