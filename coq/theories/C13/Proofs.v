(* C13/Proofs.v — forward compatibility: unknown header fields and flag bits are tolerated (proved for every message and
   every stream the reference reader accepts); messages of unknown type are still not skipped (refuted, with the
   partial statement that remains). *)
From ZV Require Import Base.Bytes Base.BytesFacts Base.Res Base.Sig C10.Model C11.Model C11.Spec C11.Lemmas C11.Proofs C13.Model
     C13.Spec C13.Tolerant C13.Stream.
From Coq Require Import Lia.
Open Scope N_scope.

(* ---------- the full statement ---------- *)
(* whatever the reference reader of the specification accepts (unknown field codes skipped, unknown flag bits ignored) ... *)
Definition C13_message_statement : Prop :=
  forall b sm, spec_parse b = Some sm -> 1 <= sm_type sm <= 4 ->
    exists m, from_raw_parts (ph_endian (hv_ph (sm_view sm))) b = Ok m /\ header m = Ok (sm_view sm) /\ body m = Ok (sm_body sm).
(* ... and a stream of such messages is delivered message by message, those of unknown type being dropped *)
Definition C13_stream_statement : Prop :=
  forall stream l, spec_stream (S (length stream)) stream = Some l -> read_stream stream = l.
Definition C13_full_statement : Prop := C13_message_statement /\ C13_stream_statement.

(* ---------- witnesses (also in known_findings/C13.jsonl, run on the real code) ---------- *)
Definition unhex (s : string) : bytes := match bytes_of_hex (B s) with Some b => b | None => [] end.

Definition n1 : bytes := unhex "6c01000100000000010000002d00000001016f00040000002f612f620000000002017300070000006f72672e612e4200030173000400000050696e6700000000".
Definition n3 : bytes := unhex "6c04000100000000030000002d00000001016f00040000002f612f620000000002017300070000006f72672e612e4200030173000400000050696e6700000000".
(* header field code 10 carrying a u32 *)
Definition odd_field : bytes := unhex "6c01000100000000020000003800000001016f00040000002f612f620000000002017300070000006f72672e612e4200030173000400000050696e67000000000a01750007000000".
(* flag bit 0x08 *)
Definition odd_flag : bytes := unhex "6c01080100000000020000002d00000001016f00040000002f612f620000000002017300070000006f72672e612e4200030173000400000050696e6700000000".
(* message type 5 *)
Definition odd_type : bytes := unhex "6c05000100000000020000002d00000001016f00040000002f612f620000000002017300070000006f72672e612e4200030173000400000050696e6700000000".

(* ---------- unknown header fields and unknown flag bits are tolerated (since fix 9e1c6e56 / 0d33c3d1) ---------- *)
(* the message part of the full statement holds: whatever the reference reader accepts with a known type is accepted,
   with the same header (unknown fields dropped, unknown flag bits masked) and the same body *)
Theorem message_tolerant : C13_message_statement.
Proof.
  intros b sm Hs Hty. destruct (message_ok b sm Hs Hty) as (m & Hp & Hh & Hb & _). eauto.
Qed.

Lemma stream_loop : forall fuel stream l, spec_stream fuel stream = Some l -> stream_types_known fuel stream = true ->
  reader_loop fuel stream = l.
Proof.
  induction fuel as [|f IH]; intros stream l Hs Hk; [discriminate|].
  cbn [spec_stream] in Hs. destruct stream as [|c t] eqn:Est.
  { injection Hs as <-. reflexivity. }
  rewrite <- Est in *.
  destruct (spec_frame_len stream) as [n|] eqn:Efl; [|discriminate].
  destruct (n <=? len stream) eqn:En; [|discriminate].
  destruct (spec_parse (takeN n stream)) as [sm|] eqn:Esp; [|discriminate].
  destruct (spec_stream f (dropN n stream)) as [rest|] eqn:Er; [|discriminate].
  assert (Hn16 : 16 <= n).
  { destruct (spec_parse_inv _ _ Esp) as (e & c0 & ty & fl & ver & bl & sn & flen & a & Hr & _).
    destruct Hr. rewrite len_takeN in hr_len16 by lia. exact hr_len16. }
  cbn [stream_types_known] in Hk. rewrite Efl in Hk. replace ((n <=? len stream) && (0 <? n)) with true in Hk by lia.
  rewrite Esp in Hk. apply andb_prop in Hk. destruct Hk as [Hty Hk].
  rewrite Hty in Hs. injection Hs as <-.
  assert (Hty' : 1 <= sm_type sm <= 4) by lia.
  cbn [reader_loop]. rewrite (frame_spec stream n sm ltac:(lia) Esp Hty').
  destruct (message_ok _ _ Esp Hty') as (m & Hp & Hh & _ & _ & Hsn).
  rewrite Hp, Hh, Hsn. f_equal. apply IH; assumption.
Qed.

(* the stream part holds for every stream whose messages all have a known type, whatever fields and flags they carry *)
Theorem stream_tolerant stream l : spec_stream (S (length stream)) stream = Some l ->
  stream_types_known (S (length stream)) stream = true -> read_stream stream = l.
Proof. intros Hs Hk. unfold read_stream. apply stream_loop; assumption. Qed.

Theorem unknown_field_ok b sm : spec_parse b = Some sm -> 0 < sm_unknown_fields sm -> 1 <= sm_type sm <= 4 ->
  exists m, from_raw_parts (ph_endian (hv_ph (sm_view sm))) b = Ok m /\ header m = Ok (sm_view sm) /\ body m = Ok (sm_body sm).
Proof. intros Hs _ Hty. exact (message_tolerant b sm Hs Hty). Qed.

Theorem unknown_flag_ok b sm : spec_parse b = Some sm -> 8 <= sm_raw_flags sm -> 1 <= sm_type sm <= 4 ->
  exists m, from_raw_parts (ph_endian (hv_ph (sm_view sm))) b = Ok m /\ header m = Ok (sm_view sm) /\ body m = Ok (sm_body sm)
            /\ ph_flags (hv_ph (sm_view sm)) = sm_raw_flags sm mod 8.
Proof.
  intros Hs _ Hty. destruct (message_tolerant b sm Hs Hty) as (m & Hp & Hh & Hb). exists m. repeat split; auto.
  unfold spec_parse in Hs.
  repeat match type of Hs with
         | match ?x with _ => _ end = _ => destruct x; try discriminate
         | (if ?x then _ else _) = _ => destruct x; try discriminate
         end.
  injection Hs as <-. reflexivity.
Qed.

(* the former witnesses (known_findings/C13.jsonl, status fixed): both are delivered and the stream goes on *)
Example former_witnesses_tolerated :
  (exists sm, spec_parse odd_field = Some sm /\ sm_unknown_fields sm = 1) /\
  (exists sm, spec_parse odd_flag = Some sm /\ sm_raw_flags sm = 8) /\
  read_stream (n1 ++ odd_field ++ n3) = [IMsg 1; IMsg 2; IMsg 3; IErrIo; IEnd] /\
  read_stream (n1 ++ odd_flag ++ n3) = [IMsg 1; IMsg 2; IMsg 3; IErrIo; IEnd].
Proof.
  repeat (match goal with |- _ /\ _ => split end); try (eexists; split); vm_compute; reflexivity.
Qed.

(* ---------- unknown message types: still not skipped ---------- *)
Theorem unknown_type_refuted :
  exists b sm, spec_parse b = Some sm /\ sm_type sm = 5 /\ sm_raw_flags sm = 0 /\ sm_unknown_fields sm = 0
               /\ read_stream (n1 ++ b ++ n3) = [IMsg 1; IErrMsg; IEnd]
               /\ spec_stream 400 (n1 ++ b ++ n3) = Some [IMsg 1; IMsg 3; IErrIo; IEnd].
Proof. exists odd_type. eexists. repeat (match goal with |- _ /\ _ => split end); vm_compute; reflexivity. Qed.

Theorem full_refuted : ~ C13_full_statement.
Proof.
  intros [_ Hst]. specialize (Hst (n1 ++ odd_type ++ n3) [IMsg 1; IMsg 3; IErrIo; IEnd]).
  assert (Hr : read_stream (n1 ++ odd_type ++ n3) = [IMsg 1; IErrMsg; IEnd]) by (vm_compute; reflexivity).
  rewrite Hr in Hst. discriminate Hst. vm_compute. reflexivity.
Qed.

(* ---------- what remains: messages the library builds (codes 1..9, flags <= 7, types 1..4) ---------- *)
Record built := { bm_hdr : hdr; bm_sig : sig; bm_body : bytes; bm_nfds : N }.
Definition built_ok (x : built) : Prop :=
  hdr_valid (bm_hdr x) = true /\ body_valid (bm_sig x) (bm_nfds x) = true
  /\ len (spec_message (bm_hdr x) (bm_sig x) (bm_body x) (bm_nfds x)) <= max_message_size.
Definition built_bytes (x : built) : bytes := spec_message (bm_hdr x) (bm_sig x) (bm_body x) (bm_nfds x).

Lemma frame_built x rest : built_ok x ->
  next_frame (built_bytes x ++ rest) = FrMsg (h_endian (bm_hdr x)) (built_bytes x) rest.
Proof.
  intros (Hh & _ & Hsz). destruct x as [h bsig bd nfds]. unfold built_bytes in *. cbn [bm_hdr bm_sig bm_body bm_nfds] in *.
  apply hdr_valid_inv in Hh. destruct Hh as [Hnums _]. destruct (spec_message_small _ _ _ _ Hsz) as (Hbl & Hal & _).
  pose proof (len_spec_message h bsig bd nfds) as Hlen. rewrite body_offset_eq in Hlen.
  pose proof (spec_message_shape h bsig bd nfds) as Eb.
  set (b := spec_message h bsig bd nfds) in *. set (arr := msg_array h bsig nfds) in *.
  destruct (fixed16_reads h (len bd) (len arr) [] Hnums Hbl Hal) as [Hp Hu]. rewrite app_nil_r in Hp, Hu.
  assert (Hpr : primary_read (takeN 16 (b ++ rest)) = Ok ({| ph_endian := h_endian h; ph_type := h_type h; ph_flags := h_flags h;
                  ph_version := 1; ph_body_len := len bd; ph_serial := h_serial h |}, len arr)).
  { rewrite Eb, <- app_assoc, <- (len_fixed16 h (len bd) (len arr)), takeN_app.
    exact (primary_read_intro (h_endian h) _ _ _ _ eq_refl Hp Hu). }
  pose proof (next_frame_msg (b ++ rest) _ (len arr) ltac:(rewrite len_app; lia) Hpr) as Hnf.
  cbn [ph_body_len ph_endian] in Hnf. rewrite <- Hlen in Hnf. rewrite Hnf by (rewrite ?len_app; lia).
  rewrite takeN_app, dropN_app. reflexivity.
Qed.

Lemma loop_built : forall msgs fuel, Forall built_ok msgs -> (length msgs < fuel)%nat ->
  reader_loop fuel (concat (map built_bytes msgs)) = map (fun x => IMsg (h_serial (bm_hdr x))) msgs ++ [IErrIo; IEnd].
Proof.
  induction msgs as [|x r IH]; intros fuel Hall Hf.
  - destruct fuel; [cbn in Hf; lia|]. reflexivity.
  - inversion Hall as [|? ? Hx Hr]; subst. destruct fuel as [|fuel]; [cbn in Hf; lia|].
    cbn [map concat reader_loop]. rewrite (frame_built x _ Hx).
    destruct Hx as (Hh & Hb & Hsz).
    destruct (parse_spec_message _ _ _ _ Hh Hb Hsz) as (fs & Hj & Hinv & _ & _ & Hp).
    unfold built_bytes at 1. rewrite Hp.
    rewrite (header_parsed _ _ _ _ fs) by (auto; apply spec_message_small; exact Hsz).
    cbn [parsed_msg m_ph ph_serial app]. f_equal. apply IH; [exact Hr|cbn in Hf; lia].
Qed.

(* every message has at least its 16 fixed bytes: the default fuel of [read_stream] is enough *)
Lemma built_len x : built_ok x -> 16 <= len (built_bytes x).
Proof.
  intros _. unfold built_bytes, spec_message, pad8, spec_header. rewrite !len_app, !len_u32. change (len [_;_;_;_]) with 4. lia.
Qed.
Lemma concat_len msgs : Forall built_ok msgs -> 16 * N.of_nat (length msgs) <= len (concat (map built_bytes msgs)).
Proof.
  induction 1 as [|x r Hx Hr IH]; [cbn; lia|]. cbn [map concat length]. rewrite len_app. pose proof (built_len x Hx). lia.
Qed.

Theorem known_stream msgs : Forall built_ok msgs ->
  read_stream (concat (map built_bytes msgs)) = map (fun x => IMsg (h_serial (bm_hdr x))) msgs ++ [IErrIo; IEnd].
Proof.
  intros Hall. unfold read_stream. apply loop_built; [exact Hall|].
  pose proof (concat_len msgs Hall). unfold len in H. lia.
Qed.

Theorem known_message x : built_ok x ->
  exists m, from_raw_parts (h_endian (bm_hdr x)) (built_bytes x) = Ok m
            /\ header m = Ok (view (bm_hdr x) (bm_sig x) (bm_body x) (bm_nfds x)) /\ body m = Ok (bm_body x).
Proof.
  intros (Hh & Hb & Hsz). destruct (roundtrip _ _ _ _ Hh Hb Hsz) as (bytes & off & m & Hbb & Hp & Hhd & Hbd & _).
  rewrite (build_bytes_spec _ _ _ _ Hh Hb Hsz) in Hbb. injection Hbb as <- <-. eauto.
Qed.

(* non-vacuity: a two-message stream *)
Definition ex1 : built :=
  {| bm_hdr := {| h_endian := LE; h_type := 1; h_flags := 0; h_serial := 1; h_path := Some (B "/a/b"); h_iface := Some (B "org.a.B");
                  h_member := Some (B "Ping"); h_errname := None; h_reply := None; h_dest := None; h_sender := None |};
     bm_sig := SUnit; bm_body := []; bm_nfds := 0 |}.
Definition ex2 : built :=
  {| bm_hdr := {| h_endian := BE; h_type := 2; h_flags := 0; h_serial := 2; h_path := None; h_iface := None; h_member := None;
                  h_errname := None; h_reply := Some 1; h_dest := Some (B ":1.5"); h_sender := None |};
     bm_sig := SStr; bm_body := enc_s BE (B "hi"); bm_nfds := 0 |}.
Example ex_built_ok : Forall built_ok [ex1; ex2].
Proof. repeat constructor; vm_compute; congruence. Qed.
Example ex1_is_n1 : built_bytes ex1 = n1.
Proof. vm_compute. reflexivity. Qed.
