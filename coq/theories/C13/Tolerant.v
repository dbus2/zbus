(* C13/Tolerant.v — one header field, the field array, and a whole message: the model of the repaired code accepts
   everything the reference reader accepts (unknown field codes and flag bits included), with the same header view. *)
From ZV Require Import Base.Bytes Base.BytesFacts Base.Res Base.Sig C10.Model C10.Spec C10.Proofs C11.Model C11.Spec C11.Lemmas
     C11.Invariants C11.Proofs C13.Refine.
From ZV Require Base.WinnowFacts.
From Coq Require Import Lia.
Open Scope N_scope.

(* the reference reader's fields, as the offset-free record of C11/Proofs.v *)
Definition sproj (a : sfields) : pfields :=
  {| p_path := s_path a; p_iface := s_iface a; p_member := s_member a; p_errname := s_errname a; p_reply := s_reply a;
     p_dest := s_dest a; p_sender := s_sender a; p_sig := match s_sig a with Some g => g | None => SUnit end; p_fds := s_fds a |}.

(* ---------- the variant of a header field ---------- *)
Lemma de_str_narrow_info e b p1 sg st p2 : de_str false e b p1 = Ok (sg, st, p2) ->
  exists lb, nth_error b (N.to_nat p1) = Some lb /\ bn lb = len sg /\ p2 = p1 + 1 + len sg + 1 /\ p2 <= len b
             /\ takeN (len sg) (dropN (p1 + 1) b) = sg.
Proof.
  intros H. pose proof (de_str_ok _ _ _ _ _ _ _ H) as (Ha & Hb & Hc & Hd & _).
  unfold de_str in H. apply bind_ok in H. destruct H as ([n p0] & H0 & H).
  pose proof (de_u8_nth _ _ _ _ H0) as (c & Hc1 & Hc2). apply de_u8_ok in H0. destruct H0 as (-> & _ & _).
  apply bind_ok in H. destruct H as ([s' q] & Hs & H). apply next_slice_ok in Hs. destruct Hs as (-> & _ & Es & Hl).
  destruct (has_nul s'); [discriminate|]. apply bind_ok in H. destruct H as ([z q2] & Hz & H).
  destruct (negb _); [discriminate|]. destruct (utf8_valid s'); [|discriminate]. injection H as <- <- <-.
  apply next_slice_ok in Hz. destruct Hz as (-> & Hz & _).
  exists c. rewrite Hl. repeat split; auto; try lia.
Qed.

Lemma de_variant_tail e b p1 sg p2 vs :
  sp_string false e b p1 = Some (sg, p2) -> parse_sig sg = Some vs -> vs <> SUnit -> lbeq (show vs) sg = true ->
  de_variant e b p1 = variant_tail vs e b p2.
Proof.
  intros Hs Hp Hu Hl. apply sp_string_ok in Hs. destruct Hs as (st & Hs).
  destruct (de_str_narrow_info _ _ _ _ _ _ Hs) as (lb & Hn & Hlb & -> & Hle & Ht).
  apply Base.WinnowFacts.lbeq_eq in Hl.
  rewrite de_variant_eq. unfold variant_sig. rewrite Hs. cbn [bind]. rewrite Hp, Hn, Hlb.
  replace (len b <? p1 + 1 + len sg) with false by lia. rewrite Ht, Hp.
  replace ((match vs with SUnit => true | _ => false end) || negb (len (show vs) =? len sg)) with false.
  2:{ rewrite Hl, N.eqb_refl. destruct vs; try reflexivity. congruence. }
  replace (len b <? p1 + 1 + len sg + 1) with false by lia. reflexivity.
Qed.

(* an ignored field: any valid value *)
Lemma tail_unknown vs e b p2 p3 : sp_value vs field_value_depths e b p2 = Some p3 -> exists v, variant_tail vs e b p2 = Ok (v, p3).
Proof.
  intros H. destruct vs; try (apply (sp_value_ok 64) in H; cbn [variant_tail]; rewrite H; cbn [bind]; eexists; reflexivity);
    cbn [sp_value] in H; cbn [variant_tail].
  - (* u32 *) destruct (sp_fixed b p2 4) as [[l q]|] eqn:E; [|discriminate]. injection H as ->.
    assert (Hu : sp_u32 e b p2 = Some (rd_u32 e l, p3)) by (unfold sp_u32; rewrite E; reflexivity).
    apply sp_u32_ok in Hu. rewrite Hu. cbn [bind]. eexists. reflexivity.
  - (* str *) destruct (sp_string true e b p2) as [[s q]|] eqn:E; [|discriminate]. injection H as ->.
    apply sp_string_ok in E. destruct E as (st & ->). cbn [bind]. eexists. reflexivity.
  - (* sig *) destruct (sp_string false e b p2) as [[s q]|] eqn:E; [|discriminate].
    apply sp_string_ok in E. destruct E as (st & ->). cbn [bind]. destruct (parse_sig s); [|discriminate]. injection H as ->. eexists. reflexivity.
  - (* path *) destruct (sp_string true e b p2) as [[s q]|] eqn:E; [|discriminate].
    apply sp_string_ok in E. destruct E as (st & ->). cbn [bind]. rewrite object_path_ok. destruct (spec_object_path s); [|discriminate].
    injection H as ->. eexists. reflexivity.
Qed.

(* a known field *)
Lemma tail_known code vs e b p2 a a' p3 fs : 1 <= code <= 9 -> proj fs = sproj a -> sp_known code vs e b p2 a = Some (a', p3) ->
  exists v fs', variant_tail vs e b p2 = Ok (v, p3) /\ set_field fs code v = Ok fs' /\ proj fs' = sproj a'.
Proof.
  intros Hc Hj H. unfold sp_known in H.
  destruct (code_cases code Hc) as [->|[->|[->|[->|[->|[->|[->|[->| ->]]]]]]]]; clear Hc; destruct vs; try discriminate;
    cbn [variant_tail].
  all: try (destruct (sp_string true e b p2) as [[s q]|] eqn:Es; [|discriminate];
            match type of H with (if ?c then _ else _) = _ => destruct c eqn:Ec; [|discriminate] end;
            injection H as <- <-; apply andb_prop in Ec; destruct Ec as [Ev Enone];
            apply sp_string_ok in Es; destruct Es as (st & Es); rewrite Es; cbn [bind]).
  all: try (destruct (sp_u32 e b p2) as [[n q]|] eqn:Es; [|discriminate];
            match type of H with (if ?c then _ else _) = _ => destruct c eqn:Ec; [|discriminate] end;
            injection H as <- <-; apply sp_u32_ok in Es; rewrite Es; cbn [bind]).
  all: try (destruct (sp_string false e b p2) as [[s q]|] eqn:Es; [|discriminate];
            destruct (parse_sig s) as [g|] eqn:Eg; [|discriminate];
            match type of H with (if ?c then _ else _) = _ => destruct c eqn:Ec; [|discriminate] end;
            injection H as <- <-; apply sp_string_ok in Es; destruct Es as (st & Es); rewrite Es; cbn [bind]; rewrite Eg).
  (* the new records are the old ones with one field set: [proj] and [sproj] commute with the setters by computation *)
  - (* 1 path *) rewrite object_path_ok, Ev. eexists. eexists. split; [reflexivity|]. split; [reflexivity|].
    exact (f_equal (set_path (Some s)) Hj).
  - (* 2 interface *) eexists. eexists. split; [reflexivity|]. cbn [set_field]. rewrite interface_ok, Ev. split; [reflexivity|].
    exact (f_equal (set_iface (Some s)) Hj).
  - (* 3 member *) eexists. eexists. split; [reflexivity|]. cbn [set_field]. rewrite member_ok, Ev. split; [reflexivity|].
    exact (f_equal (set_member (Some s)) Hj).
  - (* 4 error name *) eexists. eexists. split; [reflexivity|]. cbn [set_field]. unfold validate_error. rewrite interface_ok, Ev.
    split; [reflexivity|]. exact (f_equal (set_errname (Some s)) Hj).
  - (* 5 reply serial *) apply andb_prop in Ec. destruct Ec as [En0 _]. eexists. eexists. split; [reflexivity|]. cbn [set_field].
    apply Bool.negb_true_iff in En0. rewrite En0. split; [reflexivity|]. exact (f_equal (set_reply (Some n)) Hj).
  - (* 6 destination *) eexists. eexists. split; [reflexivity|]. cbn [set_field]. rewrite bus_ok, Ev. split; [reflexivity|].
    exact (f_equal (set_dest (Some s)) Hj).
  - (* 7 sender *) eexists. eexists. split; [reflexivity|]. cbn [set_field]. rewrite unique_ok, Ev. split; [reflexivity|].
    exact (f_equal (set_sender (Some s)) Hj).
  - (* 8 signature *) eexists. eexists. split; [reflexivity|]. split; [reflexivity|]. exact (f_equal (set_sig g) Hj).
  - (* 9 unix fds *) eexists. eexists. split; [reflexivity|]. split; [reflexivity|]. exact (f_equal (set_fds (Some n)) Hj).
Qed.

(* ---------- one element of the field array, the whole array ---------- *)
Lemma field_step e b pos a a' q fs : 1 <= pos -> proj fs = sproj a -> sp_field e b pos a = Some (a', q) ->
  exists code v, de_field e b pos = Ok (code, v, q) /\ code <> 0 /\
    ((9 < code /\ sproj a' = sproj a) \/ (code <= 9 /\ exists fs', set_field fs code v = Ok fs' /\ proj fs' = sproj a')).
Proof.
  intros Hpos Hj H. unfold sp_field in H.
  destruct (sp_align b pos 8) as [p|] eqn:Ea; [|discriminate].
  destruct (sp_byte b p) as [[code p1]|] eqn:Eb; [|discriminate].
  destruct (sp_string false e b p1) as [[sg p2]|] eqn:Es; [|discriminate].
  destruct (parse_sig sg) as [vs|] eqn:Ep; [|discriminate].
  assert (Hb : vs <> SUnit /\
               (if lbeq (show vs) sg then
                  if code =? 0 then None
                  else if code <=? 9 then sp_known code vs e b p2 a
                  else match sp_value vs field_value_depths e b p2 with
                       | Some p3 => Some ({| s_path := s_path a; s_iface := s_iface a; s_member := s_member a; s_errname := s_errname a;
                                             s_reply := s_reply a; s_dest := s_dest a; s_sender := s_sender a; s_sig := s_sig a;
                                             s_fds := s_fds a; s_unk := s_unk a + 1 |}, p3)
                       | None => None
                       end
                else None) = Some (a', q)).
  { destruct vs; try discriminate; (split; [discriminate|exact H]). }
  clear H. destruct Hb as [Hu H].
  destruct (lbeq (show vs) sg) eqn:El; [|discriminate].
  destruct (code =? 0) eqn:E0; [discriminate|].
  apply sp_align_ok in Ea. destruct Ea as [Ea _]. apply sp_byte_ok in Eb.
  pose proof (de_variant_tail e b p1 sg p2 vs Es Ep Hu El) as Hv.
  unfold de_field. rewrite Ea. cbn [bind]. rewrite Eb. cbn [bind]. rewrite Hv.
  exists code. destruct (code <=? 9) eqn:E9.
  - destruct (tail_known code vs e b p2 a a' q fs ltac:(lia) Hj H) as (v & fs' & Ht & Hs & Hj').
    exists v. rewrite Ht. cbn [bind]. split; [reflexivity|]. split; [lia|]. right. split; [lia|]. eauto.
  - destruct (sp_value vs field_value_depths e b p2) as [p3|] eqn:Ev; [|discriminate]. injection H as <- <-.
    destruct (tail_unknown _ _ _ _ _ Ev) as (v & Ht). exists v. rewrite Ht. cbn [bind].
    split; [reflexivity|]. split; [lia|]. left. split; [lia|reflexivity].
Qed.

Lemma fields_loop e b endp : forall fuel pos a a' fs, 1 <= pos -> proj fs = sproj a ->
  sp_fields fuel e b endp pos a = Some a' ->
  exists fs', de_fields_loop fuel e b endp pos fs = Ok (fs', endp) /\ proj fs' = sproj a'.
Proof.
  induction fuel as [|f IH]; intros pos a a' fs Hpos Hj H; cbn [sp_fields de_fields_loop] in *.
  - destruct (pos =? endp) eqn:E; [|discriminate]. injection H as <-. exists fs. split; [f_equal; f_equal; lia|exact Hj].
  - destruct (pos =? endp) eqn:E; [injection H as <-; exists fs; split; [f_equal; f_equal; lia|exact Hj]|].
    destruct (sp_field e b pos a) as [[a1 p3]|] eqn:Ef; [|discriminate].
    destruct (p3 <=? endp) eqn:El; [|discriminate].
    destruct (field_step e b pos a a1 p3 fs Hpos Hj Ef) as (code & v & Hd & Hc0 & Hcase).
    rewrite Hd. cbn [bind]. replace (endp <? p3) with false by lia. replace (code =? 0) with false by lia.
    apply de_field_ok in Hd; [|exact Hpos]. destruct Hd as (_ & Hlt & _).
    destruct Hcase as [[H9 Hs]|[H9 (fs1 & Hs & Hj1)]].
    + replace (9 <? code) with true by lia. apply (IH p3 a1 a' fs); [lia|rewrite Hs; exact Hj|exact H].
    + replace (9 <? code) with false by lia. rewrite Hs. cbn [bind]. apply (IH p3 a1 a' fs1); [lia|exact Hj1|exact H].
Qed.

(* ---------- a whole message ---------- *)
Lemma sp_u32_at e b pos n p : pos mod 4 = 0 -> sp_u32 e b pos = Some (n, p) -> de_u32 e b pos = Ok (n, pos + 4) /\ p = pos + 4 /\ pos + 4 <= len b /\ n < two32.
Proof.
  intros Hal H. pose proof (sp_u32_ok _ _ _ _ _ H) as Hd. pose proof (de_u32_ok _ _ _ _ _ Hd) as (_ & Hle & Hn).
  unfold sp_u32, sp_fixed in H. destruct (sp_align b pos 4) as [p0|] eqn:Ea; [|discriminate].
  apply sp_align_ok in Ea. destruct Ea as [_ ->]. rewrite (padding_0 pos 4) in H by (lia || exact Hal).
  unfold sp_take in H. destruct (pos + 0 + 4 <=? len b); [|discriminate]. injection H as _ <-.
  replace (pos + 0 + 4) with (pos + 4) in * by lia. auto.
Qed.
Lemma sp_byte_at b pos n p : sp_byte b pos = Some (n, p) -> de_u8 b pos = Ok (n, pos + 1) /\ n < 256.
Proof.
  intros H. apply sp_byte_ok in H. pose proof (de_u8_ok _ _ _ _ H) as (-> & _ & Hn). auto.
Qed.
Lemma endian_of_byte_inv c e : endian_of_byte c = Some e -> c = endian_byte e.
Proof.
  unfold endian_of_byte. destruct (beq c "l") eqn:E1; [intros [= <-]; apply Byte.byte_dec_bl in E1; exact E1|].
  destruct (beq c "B") eqn:E2; [intros [= <-]; apply Byte.byte_dec_bl in E2; exact E2|discriminate].
Qed.

(* ---------- the fixed header of a message the reference reader accepts ---------- *)
Record hdr_reads (e : endian) (b : bytes) (c0 : byte) (ty fl ver bl sn flen : N) : Prop := {
  hr_first : exists r, b = c0 :: r;
  hr_endian : endian_of_byte c0 = Some e;
  hr_0 : de_u8 b 0 = Ok (bn c0, 1); hr_1 : de_u8 b 1 = Ok (ty, 2); hr_2 : de_u8 b 2 = Ok (fl, 3); hr_3 : de_u8 b 3 = Ok (ver, 4);
  hr_4 : de_u32 e b 4 = Ok (bl, 8); hr_8 : de_u32 e b 8 = Ok (sn, 12); hr_12 : de_u32 e b 12 = Ok (flen, 16);
  hr_sn : sn <> 0; hr_len16 : 16 <= len b }.

Lemma primary_from_reads e b c0 ty fl ver bl sn flen : hdr_reads e b c0 ty fl ver bl sn flen -> 1 <= ty <= 4 ->
  de_primary e b = Ok ({| ph_endian := e; ph_type := ty; ph_flags := fl mod 8; ph_version := ver; ph_body_len := bl; ph_serial := sn |}, 12).
Proof.
  intros [_ He D0 D1 D2 D3 D4 D8 _ Hsn _] Hty.
  unfold de_primary. rewrite parse_padding_aligned by (reflexivity || lia). cbn [bind].
  rewrite D0. cbn [bind]. rewrite nb_bn, He. rewrite D1. cbn [bind].
  replace ((1 <=? ty) && (ty <=? 4)) with true by lia. cbn [negb].
  rewrite D2. cbn [bind]. rewrite D3. cbn [bind]. rewrite D4. cbn [bind]. rewrite D8. cbn [bind].
  replace (sn =? 0) with false by lia. reflexivity.
Qed.

(* everything the reference reader has checked when it accepts [b] *)
Lemma spec_parse_inv b sm : spec_parse b = Some sm ->
  exists e c0 ty fl ver bl sn flen a,
    hdr_reads e b c0 ty fl ver bl sn flen
    /\ sp_fields (S (length b)) e b (16 + flen) 16 sfields_empty = Some a
    /\ len b = 16 + flen + padding (16 + flen) 8 + bl /\ len b <= max_message_size
    /\ sm = {| sm_type := ty;
               sm_view := hview_of {| ph_endian := e; ph_type := ty; ph_flags := fl mod 8; ph_version := ver;
                                      ph_body_len := bl; ph_serial := sn |} (sproj a);
               sm_body := dropN (16 + flen + padding (16 + flen) 8) b; sm_unknown_fields := s_unk a; sm_raw_flags := fl |}.
Proof.
  intros H. unfold spec_parse in H.
  destruct b as [|c0 r] eqn:Eb; [discriminate|]. rewrite <- Eb in *.
  destruct (endian_of_byte c0) as [e|] eqn:Ee; [|discriminate].
  destruct (sp_byte b 1) as [[ty q1]|] eqn:E1; [|discriminate].
  destruct (sp_byte b 2) as [[fl q2]|] eqn:E2; [|discriminate].
  destruct (sp_byte b 3) as [[ver q3]|] eqn:E3; [|discriminate].
  destruct (sp_u32 e b 4) as [[bl q4]|] eqn:E4; [|discriminate].
  destruct (sp_u32 e b 8) as [[sn q8]|] eqn:E8; [|discriminate].
  destruct (sp_u32 e b 12) as [[flen p]|] eqn:E12; [|discriminate].
  destruct ((ver =? 1) && negb (sn =? 0) && negb (ty =? 0) && (len b <=? max_message_size)) eqn:Ec; [|discriminate].
  destruct (sp_fields (S (length b)) e b (p + flen) p sfields_empty) as [a|] eqn:Ef; [|discriminate].
  destruct (sp_align b (p + flen) 8) as [off|] eqn:Eo; [|discriminate].
  destruct (off + bl =? len b) eqn:Elen; [|discriminate]. injection H as <-.
  apply sp_byte_at in E1. destruct E1 as [D1 _]. apply sp_byte_at in E2. destruct E2 as [D2 _]. apply sp_byte_at in E3. destruct E3 as [D3 _].
  apply sp_u32_at in E4; [|reflexivity]. destruct E4 as (D4 & _ & _ & _).
  apply sp_u32_at in E8; [|reflexivity]. destruct E8 as (D8 & _ & _ & _).
  apply sp_u32_at in E12; [|reflexivity]. destruct E12 as (D12 & -> & Hl16 & _).
  change (12 + 4) with 16 in *. change (8 + 4) with 12 in *. change (4 + 4) with 8 in *.
  change (1 + 1) with 2 in *. change (2 + 1) with 3 in *. change (3 + 1) with 4 in *.
  apply sp_align_ok in Eo. destruct Eo as [_ ->].
  exists e, c0, ty, fl, ver, bl, sn, flen, a. split; [|split; [exact Ef|split; [lia|split; [lia|reflexivity]]]].
  constructor; auto; try lia.
  - exists r. exact Eb.
  - rewrite Eb. exact (de_u8_at' _ 0 c0 (at_pos_prefix [c0] r)).
Qed.

Theorem message_ok b sm : spec_parse b = Some sm -> 1 <= sm_type sm <= 4 ->
  exists m, from_raw_parts (ph_endian (hv_ph (sm_view sm))) b = Ok m /\ header m = Ok (sm_view sm) /\ body m = Ok (sm_body sm)
            /\ m_bytes m = b /\ ph_serial (m_ph m) = ph_serial (hv_ph (sm_view sm)).
Proof.
  intros H Hty. destruct (spec_parse_inv b sm H) as (e & c0 & ty & fl & ver & bl & sn & flen & a & Hr & Hf & Hlen & Hmax & ->).
  cbn [sm_type sm_view sm_body hview_of hv_ph ph_endian ph_serial] in *.
  pose proof (primary_from_reads _ _ _ _ _ _ _ _ _ Hr Hty) as Hprim. destruct Hr as [[r Eb] He _ _ _ _ _ _ D12 _ _].
  apply endian_of_byte_inv in He. subst c0.
  destruct (fields_loop e b (16 + flen) (S (length b)) 16 sfields_empty a fields_empty ltac:(lia) eq_refl Hf) as (fs & Hloop & Hj).
  assert (Hdf : de_fields e b = Ok (fs, 16 + flen)).
  { unfold de_fields. rewrite D12. cbn [bind]. rewrite parse_padding_aligned by (reflexivity || lia). exact Hloop. }
  eexists. split; [exact (from_raw_parts_intro e b r _ flen fs _ Eb Hprim D12 Hdf ltac:(lia))|].
  split; [|split; [|split; reflexivity]].
  - rewrite (header_exact _ _ _ _ (de_fields_ok _ _ _ _ Hdf)), Hj by (unfold max_message_size, two32 in *; lia). reflexivity.
  - unfold body, data_slice. cbn [m_bytes m_body_offset]. replace (len b <? _) with false by lia. reflexivity.
Qed.
