(* C13/Stream.v — framing: the reader of the model cuts a stream exactly where the reference reader does. *)
From ZV Require Import Base.Bytes Base.BytesFacts Base.Res Base.Sig C10.Model C11.Model C11.Spec C11.Lemmas C11.Invariants C11.Proofs
     C13.Model C13.Tolerant.
From Coq Require Import Lia.
Open Scope N_scope.

(* ---------- reading inside a prefix ---------- *)
Lemma take_take_nat {A} : forall (s : list A) (n p k : nat), (p + n <= k)%nat ->
  firstn n (skipn p (firstn k s)) = firstn n (skipn p s).
Proof.
  induction s as [|x t IH]; intros n p k H.
  - rewrite firstn_nil, !skipn_nil. reflexivity.
  - destruct k as [|k']; [replace p with 0%nat by lia; replace n with 0%nat by lia; reflexivity|].
    cbn [firstn]. destruct p as [|p'].
    + cbn [skipn]. destruct n as [|n']; [reflexivity|]. cbn [firstn]. f_equal.
      specialize (IH n' 0%nat k'). cbn [skipn] in IH. apply IH. lia.
    + cbn [skipn]. apply IH. lia.
Qed.
Lemma take_take (s : bytes) pos n k : pos + n <= k -> takeN n (dropN pos (takeN k s)) = takeN n (dropN pos s).
Proof. intros H. unfold takeN, dropN. apply take_take_nat. lia. Qed.

Lemma next_slice_prefix s k pos n : pos + n <= k -> k <= len s -> next_slice (takeN k s) pos n = next_slice s pos n.
Proof.
  intros H Hk. unfold next_slice. rewrite len_takeN by exact Hk.
  replace (k <? pos + n) with false by lia. replace (len s <? pos + n) with false by lia. rewrite take_take by exact H. reflexivity.
Qed.
Lemma parse_padding_prefix s k pos a : pos + padding pos a <= k -> k <= len s -> parse_padding (takeN k s) pos a = parse_padding s pos a.
Proof.
  intros H Hk. unfold parse_padding. destruct (padding pos a =? 0); [reflexivity|]. rewrite len_takeN by exact Hk.
  replace (k <? pos + padding pos a) with false by lia. replace (len s <? pos + padding pos a) with false by lia.
  rewrite take_take by exact H. reflexivity.
Qed.
Lemma de_u8_prefix s k pos : pos + 1 <= k -> k <= len s -> de_u8 (takeN k s) pos = de_u8 s pos.
Proof. intros H Hk. unfold de_u8. rewrite next_slice_prefix by assumption. reflexivity. Qed.
Lemma de_u32_prefix e s k pos : pos mod 4 = 0 -> pos + 4 <= k -> k <= len s -> de_u32 e (takeN k s) pos = de_u32 e s pos.
Proof.
  intros Hal H Hk. unfold de_u32. rewrite !parse_padding_aligned by (lia || exact Hal). cbn [bind].
  rewrite next_slice_prefix by assumption. reflexivity.
Qed.

(* ---------- PrimaryHeader::read and receive_message, once their reads are known ---------- *)
Lemma primary_read_intro e buf r ph flen :
  buf = endian_byte e :: r -> de_primary e buf = Ok (ph, 12) -> de_u32 e buf 12 = Ok (flen, 16) ->
  primary_read buf = Ok (ph, flen).
Proof.
  intros Eb Hp Hu. pose proof (de_u32_ok _ _ _ _ _ Hu) as (_ & Hl & _).
  unfold primary_read. rewrite Eb at 1. rewrite endian_rt, Hp. cbn [bind N.eqb Pos.eqb negb].
  unfold data_slice. replace (len buf <? 12) with false by lia. cbn [bind]. rewrite Hu. reflexivity.
Qed.

Lemma next_frame_msg stream ph flen : 16 <= len stream -> primary_read (takeN 16 stream) = Ok (ph, flen) ->
  let total := 16 + flen + padding (16 + flen) 8 + ph_body_len ph in
  total <= max_message_size -> total <= len stream ->
  next_frame stream = FrMsg (ph_endian ph) (takeN total stream) (dropN total stream).
Proof.
  intros H16 Hp total Hmax Hlen. unfold next_frame. replace (len stream <? 16) with false by lia. rewrite Hp.
  cbv beta iota zeta. fold total. replace (max_message_size <? total) with false by lia.
  replace (len stream <? total) with false by lia. reflexivity.
Qed.

(* ---------- one frame ---------- *)
Lemma frame_spec stream n sm : n <= len stream -> spec_parse (takeN n stream) = Some sm -> 1 <= sm_type sm <= 4 ->
  next_frame stream = FrMsg (ph_endian (hv_ph (sm_view sm))) (takeN n stream) (dropN n stream).
Proof.
  intros Hn Hsp Hty. set (fr := takeN n stream) in *.
  assert (Hlfr : len fr = n) by (apply len_takeN; exact Hn).
  destruct (spec_parse_inv fr sm Hsp) as (e & c0 & ty & fl & ver & bl & sn & flen & a & Hr & _ & Hlen & Hmax & ->).
  cbn [sm_type sm_view hview_of hv_ph ph_endian] in *.
  pose proof Hr as [[r Efr] Hend D0 D1 D2 D3 D4 D8 D12 Hsn Hl16].
  (* the reads inside the first 16 bytes *)
  assert (Hr16 : hdr_reads e (takeN 16 fr) c0 ty fl ver bl sn flen).
  { constructor; auto.
    - rewrite Efr. unfold takeN. cbn. eexists. reflexivity.
    - rewrite de_u8_prefix by lia. exact D0.
    - rewrite de_u8_prefix by lia. exact D1.
    - rewrite de_u8_prefix by lia. exact D2.
    - rewrite de_u8_prefix by lia. exact D3.
    - rewrite de_u32_prefix by (reflexivity || lia). exact D4.
    - rewrite de_u32_prefix by (reflexivity || lia). exact D8.
    - rewrite de_u32_prefix by (reflexivity || lia). exact D12.
    - rewrite len_takeN by lia. lia. }
  assert (Hpr : primary_read (takeN 16 stream) = Ok ({| ph_endian := e; ph_type := ty; ph_flags := fl mod 8; ph_version := ver;
                                                         ph_body_len := bl; ph_serial := sn |}, flen)).
  { replace (takeN 16 stream) with (takeN 16 fr) by (subst fr; unfold takeN; rewrite firstn_firstn; f_equal; lia).
    pose proof (primary_from_reads _ _ _ _ _ _ _ _ _ Hr16 Hty) as Hp. destruct Hr16 as [[r16 E16] _ _ _ _ _ _ _ D12' _ _].
    apply endian_of_byte_inv in Hend. subst c0. exact (primary_read_intro e _ r16 _ flen E16 Hp D12'). }
  pose proof (next_frame_msg stream _ flen ltac:(lia) Hpr) as Hnf. cbn [ph_body_len ph_endian] in Hnf.
  replace (16 + flen + padding (16 + flen) 8 + bl) with n in Hnf by lia. apply Hnf; lia.
Qed.
