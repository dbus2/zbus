(* C18/Proofs.v — in every reachable state of the sender system the wire is a sequence of whole messages, in an
   order that respects each task's program, followed by a prefix of the message in flight; descriptors are attached
   exactly at first bytes.  For every scheduler and every way the transport splits the writes. *)
From ZV Require Import Base.Bytes Base.BytesFacts Base.Res Base.WinnowFacts C18.Model C18.Spec.
From Coq Require Import Lia ZifyBool.

Lemma wire_of_app a b : wire_of (a ++ b) = wire_of a ++ wire_of b.
Proof. apply flat_map_app. Qed.

Lemma fds_of_app a b off : fds_of off (a ++ b) = fds_of off a ++ fds_of (off + length (wire_of a)) b.
Proof.
  revert off; induction a as [|[t m] a IH]; intros off; cbn [app fds_of wire_of flat_map length].
  - now rewrite Nat.add_0_r.
  - rewrite IH. fold (wire_of a). rewrite app_length. cbn [snd]. now rewrite Nat.add_assoc.
Qed.

Lemma proj_app i a b : proj i (a ++ b) = proj i a ++ proj i b.
Proof. unfold proj. now rewrite filter_app, map_app. Qed.

Lemma proj_one i t m : proj i [(t, m)] = if Nat.eqb i t then [m] else [].
Proof. unfold proj. cbn. rewrite (Nat.eqb_sym t i). now destruct (Nat.eqb i t). Qed.

Definition nonempty (progs : nat -> list msg) : Prop := forall i m, In m (progs i) -> mbytes m <> [].

(* ------------------------------------------------------------------ the invariant *)
Theorem wire_invariant progs tr s : nonempty progs -> reach progs tr s -> wire_ok progs s.
Proof.
  intros Hne Hr. induction Hr as [|tr s l s' Hr IH Hs].
  - unfold wire_ok, init. cbn. repeat split.
  - unfold wire_ok in IH. unfold step in Hs. destruct l as [i|n|]; destruct (holder s) as [h|] eqn:Hh; try discriminate.
    + (* lock *)
      destruct IH as (Hw & Hf & Hp). destruct (tasks s i) as [|m r] eqn:Ht; [discriminate|].
      inversion Hs; subst s'; clear Hs. unfold wire_ok. cbn [holder wire fdat order tasks h_pos h_msg h_task].
      rewrite app_nil_r. repeat split; try assumption; [lia|].
      intros j. unfold upd. rewrite <- (Hp j). destruct (Nat.eqb j i) eqn:E.
      * apply Nat.eqb_eq in E. subst j. now rewrite Ht.
      * reflexivity.
    + (* one sendmsg *)
      destruct IH as (Hw & Hle & Hf & Hp).
      destruct ((h_pos h <? length (mbytes (h_msg h))) && (1 <=? n) && (n <=? length (mbytes (h_msg h)) - h_pos h)) eqn:Hc;
        [|discriminate].
      inversion Hs; subst s'; clear Hs. unfold wire_ok. cbn [holder wire fdat order tasks h_pos h_msg h_task].
      repeat split.
      * rewrite Hw, <- app_assoc. f_equal. symmetry. apply firstn_add.
      * lia.
      * destruct (Nat.eqb_spec (h_pos h + n) 0) as [E|_]; [lia|].
        destruct (Nat.eqb_spec (h_pos h) 0) as [E0|_]; [|exact Hf].
        rewrite Hf, fds_of_app. cbn [fds_of]. rewrite Hw, E0. cbn [firstn]. now rewrite app_nil_r.
      * exact Hp.
    + (* unlock *)
      destruct IH as (Hw & Hle & Hf & Hp).
      destruct (length (mbytes (h_msg h)) <=? h_pos h) eqn:Hc; [|discriminate].
      inversion Hs; subst s'; clear Hs. unfold wire_ok. cbn [holder wire fdat order tasks].
      assert (Hin : In (h_msg h) (progs (h_task h))).
      { rewrite <- (Hp (h_task h)), Nat.eqb_refl. apply in_app_iff. right. now left. }
      (* the message is not empty, so this is not its first sendmsg *)
      assert (Hpos : h_pos h <> 0).
      { intros E. apply (Hne _ _ Hin). destruct (mbytes (h_msg h)); [reflexivity | cbn [length] in Hc; lia]. }
      repeat split.
      * rewrite Hw, wire_of_app. f_equal. cbn. rewrite app_nil_r. apply firstn_all2. lia.
      * rewrite Hf. now destruct (Nat.eqb_spec (h_pos h) 0).
      * intros i. rewrite proj_app, proj_one, <- app_assoc. apply Hp.
Qed.

(* when everybody is done: whole messages only, an interleaving of the programs, descriptors at first bytes *)
Theorem wire_final progs tr s : nonempty progs -> reach progs tr s ->
  holder s = None -> (forall i, tasks s i = []) ->
  wire s = wire_of (order s) /\ fdat s = fds_of 0 (order s) /\ interleaving progs (order s).
Proof.
  intros Hne Hr Hh Ht. pose proof (wire_invariant progs tr s Hne Hr) as H. unfold wire_ok in H. rewrite Hh in H.
  destruct H as (Hw & Hf & Hp). repeat split; try assumption. intros i. rewrite <- (Hp i), Ht. now rewrite app_nil_r.
Qed.

(* no byte of another message ever sits between the bytes of the message in flight: at any moment the wire ends
   with exactly the first pos bytes of the holder's message, and before them only whole messages *)
Theorem wire_in_flight progs tr s h : nonempty progs -> reach progs tr s -> holder s = Some h ->
  wire s = wire_of (order s) ++ firstn (h_pos h) (mbytes (h_msg h)) /\ h_pos h <= length (mbytes (h_msg h)).
Proof.
  intros Hne Hr Hh. pose proof (wire_invariant progs tr s Hne Hr) as H. unfold wire_ok in H. rewrite Hh in H. tauto.
Qed.

(* replaying a recorded schedule through the executable [run] stays inside the step relation *)
Lemma run_reach_gen progs : forall tr tr0 s0 s, reach progs tr0 s0 -> run tr s0 = Some s -> reach progs (tr0 ++ tr) s.
Proof.
  induction tr as [|l tr IH]; intros tr0 s0 s Hr Hrun; cbn [run] in Hrun.
  - inversion Hrun; subst. now rewrite app_nil_r.
  - destruct (step l s0) as [s1|] eqn:E; [|discriminate].
    replace (tr0 ++ l :: tr) with ((tr0 ++ [l]) ++ tr) by (now rewrite <- app_assoc).
    apply (IH _ s1); [econstructor; eassumption | assumption].
Qed.
Theorem run_sound progs tr s : run tr (init progs) = Some s -> reach progs tr s.
Proof. intros H. apply (run_reach_gen progs tr [] (init progs) s); [constructor | assumption]. Qed.

(* ------------------------------------------------------------------ the oracle is sound *)
Lemma pick_spec w : forall ps i m ps', pick w ps = Some (i, m, ps') ->
  nth i ps [] = m :: nth i ps' [] /\ (forall j, j <> i -> nth j ps' [] = nth j ps []) /\
  w = mbytes m ++ skipn (length (mbytes m)) w /\ mbytes m <> [].
Proof.
  induction ps as [|p rest IH]; intros i m ps' H; [discriminate|]. cbn [pick] in H.
  assert (Hother : match pick w rest with Some (i0, m', rest') => Some (S i0, m', p :: rest') | None => None end = Some (i, m, ps') ->
                   nth i (p :: rest) [] = m :: nth i ps' [] /\ (forall j, j <> i -> nth j ps' [] = nth j (p :: rest) []) /\
                   w = mbytes m ++ skipn (length (mbytes m)) w /\ mbytes m <> []).
  { destruct (pick w rest) as [[[i0 m0] r0]|] eqn:E; [|discriminate]. intros H0. inversion H0; subst i m ps'.
    destruct (IH i0 m0 r0 eq_refl) as (A & B & C & D). repeat split; try assumption.
    intros j Hj. destruct j as [|j]; [reflexivity|]. cbn. apply B. lia. }
  destruct p as [|m0 r]; [now apply Hother|].
  destruct (negb (is_nil (mbytes m0)) && starts_with (mbytes m0) w) eqn:E; [|now apply Hother].
  inversion H; subst i m ps'. apply Bool.andb_true_iff in E. destruct E as [E1 E2]. repeat split.
  - intros j Hj. destruct j as [|j]; [lia | reflexivity].
  - now apply starts_with_app.
  - intros En. rewrite En in E1. discriminate.
Qed.

Lemma all_nil_nth ps : forallb is_nil ps = true -> forall j, nth j ps [] = @nil msg.
Proof.
  induction ps as [|p ps IH]; intros H j; [now destruct j|]. cbn in H. apply Bool.andb_true_iff in H. destruct H as [H1 H2].
  destruct j as [|j]; cbn; [now destruct p | now apply IH].
Qed.

Lemma parse_wire_sound : forall fuel w ps o, parse_wire fuel w ps = Some o ->
  w = wire_of o /\ interleaving (progs_of ps) o.
Proof.
  induction fuel as [|fuel IH]; intros [|b w] ps o H; cbn [parse_wire] in H; try discriminate.
  1,2: destruct (forallb is_nil ps) eqn:E; [|discriminate]; injection H as <-; split; [reflexivity|];
       intros j; unfold progs_of; now rewrite all_nil_nth.
  destruct (pick (b :: w) ps) as [[[i m] ps']|] eqn:Ep; [|discriminate].
  destruct (parse_wire fuel (skipn (length (mbytes m)) (b :: w)) ps') as [o'|] eqn:Eo; [|discriminate].
  injection H as <-. apply IH in Eo. destruct Eo as [Hw Hi].
  apply pick_spec in Ep. destruct Ep as (A & Bq & C & D). split.
  - cbn [wire_of flat_map snd]. fold (wire_of o'). rewrite <- Hw. exact C.
  - intros j. unfold proj, progs_of in *. cbn [filter fst]. destruct (Nat.eqb_spec i j) as [<-|E].
    + cbn [map snd]. rewrite A. f_equal. apply Hi.
    + rewrite <- (Bq j) by congruence. apply Hi.
Qed.

Lemma nlist_eqb_eq a : forall b, nlist_eqb a b = true -> a = b.
Proof.
  induction a as [|x a IH]; intros [|y b] H; try discriminate; [reflexivity|].
  cbn in H. apply Bool.andb_true_iff in H. destruct H as [H1 H2]. apply N.eqb_eq in H1. subst. f_equal. now apply IH.
Qed.
Lemma fdl_eqb_eq a : forall b, fdl_eqb a b = true -> a = b.
Proof.
  induction a as [|[o1 f1] a IH]; intros [|[o2 f2] b] H; try discriminate; [reflexivity|].
  cbn in H. apply Bool.andb_true_iff in H. destruct H as [H H3]. apply Bool.andb_true_iff in H. destruct H as [H1 H2].
  apply Nat.eqb_eq in H1. apply nlist_eqb_eq in H2. subst. f_equal. now apply IH.
Qed.

Theorem spec_check_sound ps w fobs : spec_check ps w fobs = true ->
  exists o, w = wire_of o /\ interleaving (progs_of ps) o /\ fd_clean (fds_of 0 o) = fobs.
Proof.
  unfold spec_check. destruct (parse_wire (S (length w)) w ps) as [o|] eqn:E; [|discriminate].
  intros H. apply parse_wire_sound in E. destruct E as [Hw Hi]. apply fdl_eqb_eq in H. now exists o.
Qed.

(* ------------------------------------------------------------------ non-vacuity: three tasks, partial writes *)
Definition mk (s : string) (f : list fd) : msg := {| mbytes := B s; mfds := f |}.
Definition demo_progs : nat -> list msg := progs_of [[mk "AAAA" [7%N]; mk "aa" []]; [mk "BBB" []]; [mk "CCCCC" [8%N; 9%N]]].

Example demo_run :
  let tr := [LLock 1; LSend 2; LSend 1; LUnlock; LLock 0; LSend 1; LSend 3; LUnlock; LLock 2; LSend 4; LSend 1; LUnlock;
             LLock 0; LSend 2; LUnlock] in
  exists s, run tr (init demo_progs) = Some s /\ quiescent s /\ nonempty demo_progs /\
            wire s = B "BBBAAAACCCCCaa" /\ fd_clean (fdat s) = [(3, [7%N]); (7, [8%N; 9%N])] /\
            spec_check [[mk "AAAA" [7%N]; mk "aa" []]; [mk "BBB" []]; [mk "CCCCC" [8%N; 9%N]]] (wire s) (fd_clean (fdat s)) = true.
Proof.
  cbv zeta. eexists. split; [vm_compute; reflexivity|]. split; [|split; [|split; [|split]]].
  - split; [reflexivity|]. intros i. do 3 (destruct i as [|i]; [reflexivity|]). now destruct i.
  - intros i m. do 3 (destruct i as [|i]; [cbn; intros H; repeat (destruct H as [H|H]; [subst m; discriminate|]); destruct H|]).
    destruct i; cbn; tauto.
  - reflexivity.
  - reflexivity.
  - vm_compute. reflexivity.
Qed.

(* a mid-flight state: task 0 holds the mutex with 2 of its 4 bytes out; nothing of another task can follow *)
Example demo_in_flight :
  exists s h, run [LLock 1; LSend 3; LUnlock; LLock 0; LSend 2] (init demo_progs) = Some s /\ holder s = Some h /\
              h_task h = 0 /\ h_pos h = 2 /\ wire s = B "BBBAA" /\ step (LLock 2) s = None /\ step (LLock 1) s = None.
Proof. eexists. eexists. split; [vm_compute; reflexivity|]. repeat split. Qed.
