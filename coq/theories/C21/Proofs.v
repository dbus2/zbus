(* C21/Proofs.v — the model of MatchRule::matches against the specification's semantics. *)
From ZV Require Import Base.Bytes Base.Res Base.WinnowFacts C10.Model C10.Spec C10.Proofs C21.Model C21.Spec.
From Coq Require Import Lia.

Lemma starts_with_refl a : starts_with a a = true.
Proof. induction a as [|c a IH]; cbn; [reflexivity|]. now rewrite beq_refl. Qed.
Lemma starts_with_app_l a b : forall p, starts_with (a ++ b) p = true -> starts_with a p = true.
Proof.
  induction a as [|c a IH]; intros p H; [reflexivity|]. destruct p as [|d p]; cbn in *; [discriminate|].
  apply andb_true_iff in H as [H1 H2]. rewrite H1. cbn. now apply IH.
Qed.

(* the arg0namespace test (mod.rs:298-302) is the specification's *)
Lemma strip_prefix_dot ns : forall a,
  match strip_prefix ns a with
  | None => false
  | Some [] => true
  | Some (c :: _) => beq c "."
  end = in_name_namespace ns a.
Proof.
  unfold in_name_namespace. induction ns as [|x ns IH]; intros a.
  - destruct a as [|c a]; [reflexivity|]. cbn [strip_prefix lbeq orb app starts_with]. unfold dot.
    rewrite (beq_sym "." c). now rewrite andb_true_r.
  - destruct a as [|c a]; [reflexivity|]. cbn [strip_prefix lbeq orb app starts_with]. rewrite (beq_sym c x).
    destruct (beq x c) eqn:E; [|reflexivity]. cbn [andb]. apply IH.
Qed.

(* the repaired path_namespace test (fix 8cf9b673) is the specification's *)
Lemma strip_prefix_slash ns : forall p,
  match strip_prefix ns p with Some (c :: _) => beq c "/" | _ => false end = starts_with (ns ++ [slash]) p.
Proof.
  induction ns as [|x ns IH]; intros p.
  - destruct p as [|c p]; [reflexivity|]. cbn [strip_prefix app starts_with]. unfold slash.
    rewrite (beq_sym "/" c). now rewrite andb_true_r.
  - destruct p as [|c p]; [reflexivity|]. cbn [strip_prefix app starts_with].
    destruct (beq x c); [apply IH|reflexivity].
Qed.
Lemma ns_covers_spec ns p : ns_covers ns p = in_namespace ns p.
Proof.
  unfold ns_covers, in_namespace. rewrite strip_prefix_slash. change (B "/") with [slash].
  destruct (lbeq p ns), (lbeq ns [slash]); cbn; try reflexivity.
Qed.

Lemma forallb_cong_ex {A} (k f g : A -> bool) l :
  existsb k l = false -> (forall x, k x = false -> f x = g x) -> forallb f l = forallb g l.
Proof.
  intros Hk Hfg. induction l as [|x l IH]; [reflexivity|]. cbn in *.
  apply orb_false_iff in Hk as [H1 H2]. now rewrite (Hfg x H1), IH.
Qed.

Section Components.
Variable owns : bytes -> bytes -> bool.
Variables (r : rule) (m : msg).
Hypothesis Hlocal : local r m = true.
Hypothesis Hknown : known_C21 r m = false.

Lemma known_parts :
  k_arg_path r m = false /\ k_sole_struct r m = false.
Proof.
  unfold known_C21 in Hknown. repeat (apply orb_false_iff in Hknown as [Hknown ?]). auto.
Qed.

Lemma c_type : chk_type r m = s_type r m.
Proof. reflexivity. Qed.

Lemma c_sender : chk_sender r m = s_sender owns r m.
Proof.
  unfold chk_sender, s_sender, local in *. destruct (r_sender r) as [[u|w]|]; cbn in *; try discriminate.
  - destruct (m_sender m); reflexivity.
  - destruct (m_sender m); reflexivity.
Qed.

Lemma c_interface : chk_interface r m = s_field (r_interface r) (m_interface m).
Proof. unfold chk_interface, s_field. destruct (r_interface r), (m_interface m); reflexivity. Qed.
Lemma c_member : chk_member r m = s_field (r_member r) (m_member m).
Proof. unfold chk_member, s_field. destruct (r_member r), (m_member m); reflexivity. Qed.

Lemma c_destination : chk_destination r m = s_destination owns r m.
Proof.
  unfold chk_destination, s_destination, local in *.
  destruct (r_destination r) as [d|]; [|reflexivity].
  destruct (m_destination m) as [[u|w]|]; try reflexivity.
  destruct (r_sender r) as [[?|?]|]; cbn in Hlocal; discriminate.
Qed.

Lemma c_path : chk_path r m = s_path r m.
Proof.
  unfold chk_path, s_path.
  destruct (r_path r) as [[p|ns]|]; [| |reflexivity]; destruct (m_path m) as [mp|]; try reflexivity.
  apply ns_covers_spec.
Qed.

Lemma c_arg0ns : chk_arg0ns r m = s_arg0ns r m.
Proof.
  destruct known_parts as (_ & Hk). unfold chk_arg0ns, s_arg0ns, k_sole_struct, has_arg0ns in *.
  destruct (r_arg0ns r) as [ns|]; [|reflexivity]. rewrite orb_true_r in Hk. cbn [andb] in Hk.
  destruct (m_body m) as [|a0 rest]; [reflexivity|].
  destruct a0; try reflexivity.
  - cbn [body_sig_starts_with_s negb arg0_raw]. rewrite bus_ok.
    destruct (spec_bus s); [|reflexivity]. cbn. apply strip_prefix_dot.
  - destruct rest; [discriminate Hk|reflexivity].
Qed.

Lemma c_args : chk_args r m = forallb (s_arg (m_body m)) (r_args r) && forallb (s_arg_path (m_body m)) (r_arg_paths r).
Proof.
  destruct known_parts as (Hp & Hs). unfold chk_args, k_sole_struct, has_args, k_arg_path in *.
  destruct (is_nil (r_args r) && is_nil (r_arg_paths r)) eqn:En.
  - apply andb_true_iff in En as [E1 E2]. destruct (r_args r); [|discriminate]. destruct (r_arg_paths r); [|discriminate]. reflexivity.
  - cbn [negb andb orb] in Hs.
    assert (Hfields : m_body m = [] \/ (m_body m <> [] /\ body_fields (m_body m) = Some (m_body m))).
    { destruct (m_body m) as [|a [|b rest]]; [now left| |].
      - right. split; [discriminate|]. destruct a; try reflexivity. discriminate.
      - right. split; [discriminate|]. destruct a; reflexivity. }
    destruct Hfields as [E|[_ E]].
    + rewrite E. cbn [body_fields].
      destruct (r_args r) as [|ia l]; cbn.
      * destruct (r_arg_paths r) as [|ib l2]; [discriminate|]. cbn.
        unfold s_arg_path. destruct (N.to_nat (fst ib)); reflexivity.
      * unfold s_arg. destruct (N.to_nat (fst ia)); reflexivity.
    + rewrite E. f_equal.
      * apply forallb_ext'. intros [i v]. unfold chk_arg, s_arg. cbn.
        destruct (nth_error (m_body m) (N.to_nat i)) as [[]|]; try reflexivity. apply lbeq_sym.
      * apply (forallb_cong_ex (k_arg_path_one (m_body m))); [exact Hp|].
        intros [i v]. unfold k_arg_path_one, chk_arg_path, s_arg_path, path_like_match. cbn.
        destruct (nth_error (m_body m) (N.to_nat i)) as [[]|]; try reflexivity; try discriminate.
        intros Hk. rewrite (lbeq_sym v p). destruct (lbeq p v); [reflexivity|]. cbn in Hk.
        apply orb_false_iff in Hk as [H1 H2]. rewrite H1, H2. reflexivity.
Qed.

Lemma matches_partial : matches r m = Ok (matches_spec owns r m).
Proof.
  unfold matches, matches_b, matches_spec.
  rewrite c_type, c_sender, c_interface, c_member, c_destination, c_path, c_arg0ns, c_args.
  f_equal. rewrite <- !andb_assoc. do 4 f_equal.
  rewrite (andb_comm (s_arg0ns r m)), <- andb_assoc.
  destruct (s_destination owns r m), (s_path r m); reflexivity.
Qed.
End Components.

(* In the documented exemption (well-known sender in the rule, well-known destination on the message)
   the code does not decide, it lets the message through: whatever the bus would say, a message the
   specification delivers is never dropped. *)
Lemma matches_no_false_negative owns r m :
  known_C21 r m = false -> matches_spec owns r m = true -> matches r m = Ok true.
Proof.
  intros Hk Hs. unfold matches, matches_b. f_equal.
  rewrite c_type, c_interface, c_member, c_path, (c_arg0ns r m Hk), (c_args r m Hk).
  unfold matches_spec in Hs. repeat (apply andb_true_iff in Hs as [Hs ?]).
  assert (chk_sender r m = true) as ->.
  { unfold chk_sender, s_sender in *. destruct (r_sender r) as [[u|w]|]; try reflexivity.
    destruct (m_sender m); [assumption|discriminate]. }
  assert (chk_destination r m = true) as ->.
  { unfold chk_destination, s_destination in *. destruct (r_destination r) as [d|]; [|reflexivity].
    destruct (m_destination m) as [[u|w]|]; [assumption|reflexivity|discriminate]. }
  repeat match goal with H : _ = true |- _ => rewrite H; clear H end. reflexivity.
Qed.

(* ------------------------------------------------------------------ the full statement and its refutations *)
Definition sig_msg (path : bytes) (dest : option busname) (body : list arg) : msg :=
  {| m_type := Signal; m_sender := Some (B ":1.7"); m_interface := Some (B "a.b"); m_member := Some (B "M");
     m_path := Some path; m_destination := dest; m_body := body |}.

(* a counterexample: a rule built by the builder, a message, the code's verdict and the specification's *)
Definition counterexample (ops : list bop) (m : msg) (code : bool) : Prop :=
  exists r, build ops = Ok r /\ local r m = true /\ matches r m = Ok code /\
            forall owns, matches_spec owns r m = negb code.

(* repaired by fix 8cf9b673: the former counterexamples now get the specification's verdict *)
Example dest_absent_fixed : exists r, build [ODest (B ":1.5")] = Ok r /\
  matches r (sig_msg (B "/a") None []) = Ok false /\ known_C21 r (sig_msg (B "/a") None []) = false.
Proof. eexists. split; [reflexivity|]. split; reflexivity. Qed.
Example path_ns_prefix_fixed : exists r, build [OPathNs (B "/a")] = Ok r /\
  matches r (sig_msg (B "/ab") None []) = Ok false /\ matches r (sig_msg (B "/a/b") None []) = Ok true /\
  matches r (sig_msg (B "/a") None []) = Ok true /\ known_C21 r (sig_msg (B "/ab") None []) = false.
Proof. eexists. split; [reflexivity|]. repeat split. Qed.

Lemma arg_path_string_refuted :
  counterexample [OArgPath 0 (B "/a")] (sig_msg (B "/") None [AStr (B "/a")]) false.
Proof. eexists. split; [reflexivity|]. repeat split. Qed.

Lemma arg_path_slash_refuted :
  counterexample [OArgPath 0 (B "/a/b")] (sig_msg (B "/") None [APath (B "/")]) false.
Proof. eexists. split; [reflexivity|]. repeat split. Qed.

Lemma sole_struct_refuted :
  counterexample [OArg 0 (B "x")] (sig_msg (B "/") None [AStructSU (B "x") 7]) true.
Proof. eexists. split; [reflexivity|]. repeat split. Qed.

(* the same flattening lets arg0namespace see the first field of a struct *)
Lemma sole_struct_arg0ns_refuted :
  counterexample [OArg0ns (B "a")] (sig_msg (B "/") None [AStructSU (B "a.b") 7]) true.
Proof. eexists. split; [vm_compute; reflexivity|]. repeat split. Qed.

(* repaired by fix 3ae57b16: a first argument that is not a string is no longer read as one *)
Example arg0ns_untyped_fixed : exists r, build [OArg0ns (B "a")] = Ok r /\
  let m := sig_msg (B "/") None [AU32 3; AByte "a"; AByte "."; AByte "b"; AByte x00] in
  matches r m = Ok false /\ known_C21 r m = false /\
  matches r (sig_msg (B "/") None [APath (B "/a")]) = Ok false /\
  matches r (sig_msg (B "/") None [AStructSU (B "a.b") 7; AU32 1]) = Ok false /\
  matches r (sig_msg (B "/") None [AStr (B "a.b"); AU32 1]) = Ok true.
Proof. eexists. split; [vm_compute; reflexivity|]. repeat split. Qed.

Lemma full_refuted : ~ (forall owns r m, local r m = true -> matches r m = Ok (matches_spec owns r m)).
Proof.
  intros H. destruct sole_struct_refuted as (r & _ & Hl & Hm & Hs).
  specialize (H (fun _ _ => false) _ _ Hl). rewrite Hm, Hs in H. discriminate.
Qed.

(* each witness lies in the class named after it, and in no earlier one *)
Lemma witnesses_classified :
  (forall r, build [OArgPath 0 (B "/a")] = Ok r -> class_of r (sig_msg (B "/") None [AStr (B "/a")]) = B "arg_path_rules") /\
  (forall r, build [OArg 0 (B "x")] = Ok r -> class_of r (sig_msg (B "/") None [AStructSU (B "x") 7]) = B "sole_struct_flattened") /\
  (forall r, build [OArg0ns (B "a")] = Ok r -> class_of r (sig_msg (B "/") None [AStructSU (B "a.b") 7]) = B "sole_struct_flattened").
Proof. repeat split; intros r H; vm_compute in H; inversion H; subst; reflexivity. Qed.

(* ---- non-vacuity: the hypotheses of the partial theorem hold for a rule with every key and a matching
   message, and for near misses ---- *)
Definition ex_ops : list bop :=
  [OType Signal; OSender (B ":1.7"); OInterface (B "a.b"); OMember (B "M"); OPathNs (B "/a"); ODest (B ":1.9");
   OArg 1 (B "x,y"); OArgPath 2 (B "/p/q"); OArg0ns (B "org.zbus")].
Definition ex_msg (path : bytes) (a2 : arg) : msg :=
  sig_msg path (Some (BUnique (B ":1.9"))) [AStr (B "org.zbus.Name"); AStr (B "x,y"); a2].
Example ex_match : exists r, build ex_ops = Ok r /\
  local r (ex_msg (B "/a/b") (APath (B "/p/q"))) = true /\ known_C21 r (ex_msg (B "/a/b") (APath (B "/p/q"))) = false /\
  matches r (ex_msg (B "/a/b") (APath (B "/p/q"))) = Ok true.
Proof. eexists. split; [vm_compute; reflexivity|]. repeat split. Qed.
Example ex_near_miss : exists r, build ex_ops = Ok r /\
  local r (ex_msg (B "/b/a") (APath (B "/p/q"))) = true /\ known_C21 r (ex_msg (B "/b/a") (APath (B "/p/q"))) = false /\
  matches r (ex_msg (B "/b/a") (APath (B "/p/q"))) = Ok false /\
  known_C21 r (ex_msg (B "/a/b") (APath (B "/p"))) = false /\
  matches r (ex_msg (B "/a/b") (APath (B "/p"))) = Ok false.
Proof. eexists. split; [vm_compute; reflexivity|]. repeat split. Qed.
Example ex_exempt : exists r m, build [OSender (B "org.zbus.Srv"); OMember (B "M")] = Ok r /\ local r m = false /\
  known_C21 r m = false /\ matches_spec (fun _ _ => true) r m = true /\ matches r m = Ok true.
Proof. eexists. exists (sig_msg (B "/a") None []). split; [vm_compute; reflexivity|]. repeat split. Qed.

(* ---- sanity of the specification's own formulation: the examples of the D-Bus specification, and agreement of
   the string formulation [in_namespace] with the component formulation [in_namespace_c] on all 40 x 40 pairs of
   object paths with at most three components drawn from {a, ab, b} (a check of the definition, not a theorem
   about all paths) ---- *)
Example spec_path_namespace_examples :
  in_namespace (B "/com/example/foo") (B "/com/example/foo") = true /\
  in_namespace (B "/com/example/foo") (B "/com/example/foo/bar") = true /\
  in_namespace (B "/com/example/foo") (B "/com/example/foobar") = false /\
  in_namespace (B "/") (B "/anything") = true /\ in_namespace (B "/a/b") (B "/a") = false.
Proof. repeat split. Qed.
Example spec_arg_path_examples :      (* "arg0path='/aa/bb/'" of the specification *)
  forallb (path_like_match (B "/aa/bb/")) [B "/"; B "/aa/"; B "/aa/bb/"; B "/aa/bb/cc/"; B "/aa/bb/cc"] = true /\
  existsb (path_like_match (B "/aa/bb/")) [B "/aa/b"; B "/aa"; B "/aa/bb"] = false.
Proof. split; reflexivity. Qed.
Example spec_arg0namespace_examples :  (* "arg0namespace='com.example.backend1'" of the specification *)
  forallb (in_name_namespace (B "com.example.backend1")) [B "com.example.backend1.foo"; B "com.example.backend1.foo.bar"; B "com.example.backend1"] = true /\
  in_name_namespace (B "com.example.backend1") (B "com.example.backend2") = false /\
  in_name_namespace (B "com.example.backend1") (B "com.example.backend10") = false.
Proof. repeat split. Qed.

Definition small_elems : list bytes := [B "a"; B "ab"; B "b"].
Definition small_paths : list bytes :=
  [B "/"] ++ map (fun e => slash :: e) small_elems
  ++ flat_map (fun e => map (fun f => slash :: e ++ slash :: f) small_elems) small_elems
  ++ flat_map (fun e => flat_map (fun f => map (fun g => slash :: e ++ slash :: f ++ slash :: g) small_elems) small_elems) small_elems.
Example in_namespace_formulations_agree :
  length small_paths = 40 /\
  forallb (fun ns => forallb (fun p => Bool.eqb (in_namespace ns p) (in_namespace_c ns p)) small_paths) small_paths = true.
Proof. split; vm_compute; reflexivity. Qed.
