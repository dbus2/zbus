(* C21/Model.v — executable mirror of zbus/src/match_rule/{mod.rs,builder.rs} as they are:
   the rule record, the builder operations (validation, index limit, sorted insertion) and
   MatchRule::matches in code order.  Display / TryFrom<&str> are in C22/Model.v.  No proofs here.

   Strings are byte lists (valid UTF-8 is assumed of every input: the API takes &str).
   Name and object-path validation is the model of C10 (C10/Model.v, tied to the code there).

   Messages are abstracted to what `matches` looks at: the message type, five header fields and the
   body arguments.  Body arguments are drawn from the nine shapes the harness can build. *)
From ZV Require Import Base.Bytes Base.Res C10.Model.

(* str::split_once(c): split at the first occurrence of c *)
Fixpoint split_once (c : byte) (l : bytes) : option (bytes * bytes) :=
  match l with
  | [] => None
  | x :: r => if beq x c then Some ([], r)
              else match split_once c r with Some (a, b) => Some (x :: a, b) | None => None end
  end.

Inductive merr := EInvalidMatchRule | ENames | EVariant.

Inductive mtype := MethodCall | MethodReturn | MError | Signal.
Definition mtype_eqb (a b : mtype) : bool :=
  match a, b with
  | MethodCall, MethodCall | MethodReturn, MethodReturn | MError, MError | Signal, Signal => true
  | _, _ => false
  end.

(* zbus_names::BusName: the variant is chosen by TryFrom<Str> (bus_name.rs:213): unique first *)
Inductive busname := BUnique (s : bytes) | BWellKnown (s : bytes).
Definition bus_str (b : busname) : bytes := match b with BUnique s | BWellKnown s => s end.
Definition mk_bus (s : bytes) : res merr busname :=
  if validate_unique s then Ok (BUnique s)
  else if validate_well_known s then Ok (BWellKnown s)
  else Err ENames.

Inductive pathspec := PPath (p : bytes) | PNamespace (p : bytes).

Record rule := {
  r_type : option mtype;
  r_sender : option busname;
  r_interface : option bytes;
  r_member : option bytes;
  r_path : option pathspec;
  r_destination : option bytes;          (* UniqueName *)
  r_args : list (N * bytes);             (* Vec<(u8, Str)>, kept sorted by the builder *)
  r_arg_paths : list (N * bytes);        (* Vec<(u8, ObjectPath)> *)
  r_arg0ns : option bytes }.

Definition empty_rule : rule :=
  {| r_type := None; r_sender := None; r_interface := None; r_member := None; r_path := None;
     r_destination := None; r_args := []; r_arg_paths := []; r_arg0ns := None |}.

(* ------------------------------------------------------------------ builder.rs *)
Definition MAX_ARGS : N := 64.

(* builder.rs:139-148 / 185-194: binary_search_by on the vector (sorted, no duplicate index: an invariant
   proved in C22/Proofs.v), replace if present, else insert at the insertion point. *)
Fixpoint ins (i : N) (v : bytes) (l : list (N * bytes)) : list (N * bytes) :=
  match l with
  | [] => [(i, v)]
  | (j, w) :: t => if (i <? j)%N then (i, v) :: l
                   else if (i =? j)%N then (i, v) :: t
                   else (j, w) :: ins i v t
  end.

(* builder.rs:221-257 arg0ns *)
Definition ns_char (c : byte) : bool := is_alphanum c || beq c "-" || beq c "_" || beq c ".".
Definition valid_first_char (is_unique : bool) (s : bytes) : bool :=
  match s with
  | [] => false
  | c :: _ => if beq c "." then false else if is_digit c && negb is_unique then false else true
  end.
Definition validate_arg0ns (ns : bytes) : bool :=
  if lbeq ns [] || (255 <? len ns)%N then false
  else
    let '(is_unique, s) := match ns with
                           | c :: r => if beq c ":" then (true, r) else (false, ns)
                           | [] => (false, ns)
                           end in
    valid_first_char is_unique s
    && forallb (valid_first_char is_unique) (split_on "." s)
    && forallb ns_char s.

Inductive bop :=
| OType (t : mtype) | OSender (s : bytes) | OInterface (s : bytes) | OMember (s : bytes)
| OPath (s : bytes) | OPathNs (s : bytes) | ODest (s : bytes)
| OArg (i : N) (s : bytes) | OArgPath (i : N) (s : bytes) | OArg0ns (s : bytes)
| OAddArg (s : bytes) | OAddArgPath (s : bytes).

Definition set_type r t := {| r_type := Some t; r_sender := r_sender r; r_interface := r_interface r; r_member := r_member r;
  r_path := r_path r; r_destination := r_destination r; r_args := r_args r; r_arg_paths := r_arg_paths r; r_arg0ns := r_arg0ns r |}.
Definition set_sender r b := {| r_type := r_type r; r_sender := Some b; r_interface := r_interface r; r_member := r_member r;
  r_path := r_path r; r_destination := r_destination r; r_args := r_args r; r_arg_paths := r_arg_paths r; r_arg0ns := r_arg0ns r |}.
Definition set_interface r s := {| r_type := r_type r; r_sender := r_sender r; r_interface := Some s; r_member := r_member r;
  r_path := r_path r; r_destination := r_destination r; r_args := r_args r; r_arg_paths := r_arg_paths r; r_arg0ns := r_arg0ns r |}.
Definition set_member r s := {| r_type := r_type r; r_sender := r_sender r; r_interface := r_interface r; r_member := Some s;
  r_path := r_path r; r_destination := r_destination r; r_args := r_args r; r_arg_paths := r_arg_paths r; r_arg0ns := r_arg0ns r |}.
Definition set_path r p := {| r_type := r_type r; r_sender := r_sender r; r_interface := r_interface r; r_member := r_member r;
  r_path := Some p; r_destination := r_destination r; r_args := r_args r; r_arg_paths := r_arg_paths r; r_arg0ns := r_arg0ns r |}.
Definition set_destination r s := {| r_type := r_type r; r_sender := r_sender r; r_interface := r_interface r; r_member := r_member r;
  r_path := r_path r; r_destination := Some s; r_args := r_args r; r_arg_paths := r_arg_paths r; r_arg0ns := r_arg0ns r |}.
Definition set_args r a := {| r_type := r_type r; r_sender := r_sender r; r_interface := r_interface r; r_member := r_member r;
  r_path := r_path r; r_destination := r_destination r; r_args := a; r_arg_paths := r_arg_paths r; r_arg0ns := r_arg0ns r |}.
Definition set_arg_paths r a := {| r_type := r_type r; r_sender := r_sender r; r_interface := r_interface r; r_member := r_member r;
  r_path := r_path r; r_destination := r_destination r; r_args := r_args r; r_arg_paths := a; r_arg0ns := r_arg0ns r |}.
Definition set_arg0ns r s := {| r_type := r_type r; r_sender := r_sender r; r_interface := r_interface r; r_member := r_member r;
  r_path := r_path r; r_destination := r_destination r; r_args := r_args r; r_arg_paths := r_arg_paths r; r_arg0ns := Some s |}.

Definition b_arg (r : rule) (i : N) (s : bytes) : res merr rule :=
  if (MAX_ARGS <=? i)%N then Err EInvalidMatchRule else Ok (set_args r (ins i s (r_args r))).
Definition b_arg_path (r : rule) (i : N) (s : bytes) : res merr rule :=
  if (MAX_ARGS <=? i)%N then Err EInvalidMatchRule
  else if validate_object_path s then Ok (set_arg_paths r (ins i s (r_arg_paths r)))
  else Err EVariant.

Definition len_list {A} (l : list A) : N := N.of_nat (List.length l).
Definition apply_op (r : rule) (o : bop) : res merr rule :=
  match o with
  | OType t => Ok (set_type r t)
  | OSender s => let* b := mk_bus s in Ok (set_sender r b)
  | OInterface s => if validate_interface s then Ok (set_interface r s) else Err ENames
  | OMember s => if validate_member s then Ok (set_member r s) else Err ENames
  | OPath s => if validate_object_path s then Ok (set_path r (PPath s)) else Err EVariant
  | OPathNs s => if validate_object_path s then Ok (set_path r (PNamespace s)) else Err EVariant
  | ODest s => if validate_unique s then Ok (set_destination r s) else Err ENames
  | OArg i s => b_arg r i s
  | OArgPath i s => b_arg_path r i s
  | OArg0ns s => if validate_arg0ns s then Ok (set_arg0ns r s) else Err EInvalidMatchRule
  | OAddArg s => b_arg r (len_list (r_args r)) s
  | OAddArgPath s => b_arg_path r (len_list (r_arg_paths r)) s
  end.

Definition build_from (r : rule) (ops : list bop) : res merr rule :=
  fold_left (fun acc o => let* r := acc in apply_op r o) ops (Ok r).
Definition build (ops : list bop) : res merr rule := build_from empty_rule ops.

(* ------------------------------------------------------------------ messages *)
Inductive arg :=
| AStr (s : bytes)                 (* s *)
| APath (p : bytes)                (* o *)
| AU32 (n : N)                     (* u *)
| AByte (b : byte)                 (* y *)
| ASig (g : bytes)                 (* g *)
| AVarStr (s : bytes)              (* v holding a string *)
| AVarPath (p : bytes)             (* v holding an object path *)
| AArrStr (s : bytes)              (* as with one element *)
| AStructSU (s : bytes) (n : N).   (* (su) *)

Record msg := {
  m_type : mtype;
  m_sender : option bytes;            (* UniqueName *)
  m_interface : option bytes;
  m_member : option bytes;
  m_path : option bytes;
  m_destination : option busname;
  m_body : list arg }.

(* `msg.body().signature().to_string_no_parens().starts_with('s')` (mod.rs:289-296, fix 3ae57b16).  The body
   signature is the concatenation of the arguments' signatures; it is stored without outer parentheses
   (fields.rs: to_string_no_parens) and parsed back, so a body whose only argument is the struct (su) has the
   signature "su", like a body made of a string and a u32.  An empty body has the empty signature. *)
Definition body_sig_starts_with_s (body : list arg) : bool :=
  match body with
  | AStr _ :: _ => true
  | [AStructSU _ _] => true
  | _ => false
  end.

(* what `msg.body().deserialize_unchecked::<BusName>()` sees before validation, on the bodies that pass the
   test above: the string at offset 0 (a struct is 8-aligned, the body starts 8-aligned, so the first field of
   a leading struct is at offset 0 too).  The decoder does not look at the signature; on any other body this
   read is not reached any more. *)
Definition arg0_raw (body : list arg) : option bytes :=
  match body with
  | AStr s :: _ | AStructSU s _ :: _ => Some s
  | _ => None
  end.

(* `msg.body().deserialize::<Structure>()` then `.fields()` (mod.rs:293-298).  The body signature is
   stored without the outer parentheses (fields.rs: to_string_no_parens) and parsed back; a body
   whose only argument is a struct therefore comes back as the struct's own fields.  An empty body
   (Signature::Unit) fails to deserialize as a Structure. *)
Definition body_fields (body : list arg) : option (list arg) :=
  match body with
  | [] => None
  | [AStructSU s n] => Some [AStr s; AU32 n]
  | _ => Some body
  end.

(* ------------------------------------------------------------------ MatchRule::matches (mod.rs:209-324) *)
Fixpoint strip_prefix (p l : bytes) : option bytes :=
  match p, l with
  | [], _ => Some l
  | a :: p', b :: l' => if beq a b then strip_prefix p' l' else None
  | _ :: _, [] => None
  end.

Definition opt_beq (a b : option bytes) : bool :=
  match a, b with Some x, Some y => lbeq x y | None, None => true | _, _ => false end.

Definition chk_type (r : rule) (m : msg) : bool :=                       (* 213-217 *)
  match r_type r with Some t => mtype_eqb t (m_type m) | None => true end.
Definition chk_sender (r : rule) (m : msg) : bool :=                     (* 220-229 *)
  match r_sender r with
  | Some (BUnique name) => opt_beq (Some name) (m_sender m)
  | Some (BWellKnown _) => true
  | None => true
  end.
Definition chk_interface (r : rule) (m : msg) : bool :=                  (* 232-238 *)
  match r_interface r with
  | Some i => match m_interface m with Some mi => lbeq i mi | None => false end
  | None => true
  end.
Definition chk_member (r : rule) (m : msg) : bool :=                     (* 241-247 *)
  match r_member r with
  | Some i => match m_member m with Some mi => lbeq i mi | None => false end
  | None => true
  end.
Definition chk_destination (r : rule) (m : msg) : bool :=                (* 250-261, after fix 8cf9b673 *)
  match r_destination r with
  | Some d => match m_destination m with
              | Some (BUnique name) => lbeq d name
              | Some (BWellKnown _) => true
              | None => false
              end
  | None => true
  end.
(* 271-279 after fix 8cf9b673: msg_path == path_ns || path_ns == "/" ||
   msg_path.strip_prefix(path_ns).is_some_and(|rest| rest.starts_with('/')) *)
Definition ns_covers (ns mp : bytes) : bool :=
  lbeq mp ns || lbeq ns (B "/")
  || match strip_prefix ns mp with Some (c :: _) => beq c "/" | _ => false end.
Definition chk_path (r : rule) (m : msg) : bool :=                       (* 264-283 *)
  match r_path r with
  | Some ps => match m_path m with
               | None => false
               | Some mp => match ps with
                            | PPath p => lbeq p mp
                            | PNamespace ns => ns_covers ns mp
                            end
               end
  | None => true
  end.
Definition chk_arg0ns (r : rule) (m : msg) : bool :=                     (* 286-306 *)
  match r_arg0ns r with
  | Some ns =>
      if negb (body_sig_starts_with_s (m_body m)) then false else
      match arg0_raw (m_body m) with
      | Some a0 =>
          if validate_bus a0 then
            match strip_prefix ns a0 with
            | None => false
            | Some [] => true
            | Some (c :: _) => beq c "."
            end
          else false
      | None => false
      end
  | None => true
  end.
Definition chk_arg (fields : list arg) (ia : N * bytes) : bool :=        (* 319-328 *)
  match nth_error fields (N.to_nat (fst ia)) with
  | Some (AStr a) => lbeq (snd ia) a
  | Some _ => false
  | None => false
  end.
Definition chk_arg_path (fields : list arg) (ia : N * bytes) : bool :=   (* 331-340 *)
  match nth_error fields (N.to_nat (fst ia)) with
  | Some (APath a) => lbeq (snd ia) a
  | Some _ => false
  | None => false
  end.
Definition is_nil {A} (l : list A) : bool := match l with [] => true | _ => false end.
Definition chk_args (r : rule) (m : msg) : bool :=                       (* 308-343 *)
  if is_nil (r_args r) && is_nil (r_arg_paths r) then true
  else match body_fields (m_body m) with
       | None => false
       | Some fields => forallb (chk_arg fields) (r_args r) && forallb (chk_arg_path fields) (r_arg_paths r)
       end.

(* every `return Ok(false)` is a false conjunct; the order is the order of the code *)
Definition matches_b (r : rule) (m : msg) : bool :=
  chk_type r m && chk_sender r m && chk_interface r m && chk_member r m && chk_destination r m
  && chk_path r m && chk_arg0ns r m && chk_args r m.
Definition matches (r : rule) (m : msg) : res merr bool := Ok (matches_b r m).
