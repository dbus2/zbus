(* C29/Progress.v — lock-order discipline => no deadlock, for the RwLock semantics of the model (write-preferring,
   a pending writer blocks new readers), any number of tasks, any scripts, any scheduler.

   A rank function on locks is given.  A program is DISCIPLINED when it requests a lock only while every guard it holds
   has a strictly smaller rank, releases only what it holds, ends holding nothing, and spawns only disciplined bodies.
   Theorem [progress]: in every state that satisfies the invariant [ok] (kept by every step from a burst of disciplined
   calls: C29/Invariant.v), either some step is enabled or every task has finished and nothing is left to arrive. *)
From ZV Require Import Base.Bytes C29.Model C29.Steps C29.Order.

Fixpoint cntn (x : nat) (l : list nat) : nat :=
  match l with [] => 0 | y :: r => (if Nat.eqb y x then 1 else 0) + cntn x r end.
Fixpoint cntlm (x : lock * bool) (l : list (lock * bool)) : nat :=
  match l with [] => 0 | y :: r => (if lm_eqb y x then 1 else 0) + cntlm x r end.

Lemma lm_eqb_eq a b : lm_eqb a b = true <-> a = b.
Proof.
  unfold lm_eqb. destruct a as [a1 a2], b as [b1 b2]. cbn. rewrite andb_true_iff, Nat.eqb_eq, eqb_true_iff.
  split; [intros [-> ->]; reflexivity|intros H; inversion H; auto].
Qed.
Lemma lm_eqb_refl a : lm_eqb a a = true.
Proof. now apply lm_eqb_eq. Qed.
Lemma lm_eqb_neq a b : a <> b -> lm_eqb a b = false.
Proof. intros H. destruct (lm_eqb a b) eqn:E; [apply lm_eqb_eq in E; congruence|reflexivity]. Qed.

Lemma cntn_cons_other u t l : u <> t -> cntn u (t :: l) = cntn u l.
Proof. intros H. cbn. destruct (Nat.eqb_spec t u); [congruence|reflexivity]. Qed.
Lemma cntlm_cons_other x y l : y <> x -> cntlm y (x :: l) = cntlm y l.
Proof. intros H. cbn. now rewrite lm_eqb_neq by congruence. Qed.

Lemma cntn_remove_same x l : cntn x (remove_one x l) = pred (cntn x l).
Proof.
  induction l as [|y r IH]; cbn; [reflexivity|]. destruct (Nat.eqb_spec y x); cbn; [reflexivity|].
  destruct (Nat.eqb_spec y x); [congruence|]. exact IH.
Qed.
Lemma cntn_remove_other x y l : y <> x -> cntn y (remove_one x l) = cntn y l.
Proof.
  intros Hne. induction l as [|z r IH]; cbn; [reflexivity|]. destruct (Nat.eqb_spec z x); cbn.
  - subst z. destruct (Nat.eqb_spec x y); [congruence|reflexivity].
  - now rewrite IH.
Qed.
Lemma memn_cntn x l : memn x l = true <-> 1 <= cntn x l.
Proof.
  unfold memn. induction l as [|y r IH]; cbn; [split; [discriminate|lia]|].
  rewrite orb_true_iff, IH. rewrite (Nat.eqb_sym x y). destruct (Nat.eqb y x); split; intros H; try lia; auto.
Qed.
Lemma cntn_in x l : 1 <= cntn x l -> In x l.
Proof.
  induction l as [|y r IH]; cbn; [lia|]. destruct (Nat.eqb_spec y x); [left; assumption|]. cbn. auto.
Qed.
Lemma cntn_pos x l : In x l -> 1 <= cntn x l.
Proof. induction l as [|y r IH]; cbn; [intros []|]. intros [->|H]; [rewrite Nat.eqb_refl|apply IH in H]; lia. Qed.
Lemma cntlm_remove_same x l : cntlm x (remove_lm x l) = pred (cntlm x l).
Proof.
  induction l as [|y r IH]; cbn; [reflexivity|]. destruct (lm_eqb y x) eqn:E; cbn; [reflexivity|]. rewrite E. exact IH.
Qed.
Lemma cntlm_remove_other x y l : y <> x -> cntlm y (remove_lm x l) = cntlm y l.
Proof.
  intros Hne. induction l as [|z r IH]; cbn; [reflexivity|]. destruct (lm_eqb z x) eqn:E; cbn.
  - apply lm_eqb_eq in E. subst z. rewrite lm_eqb_neq by congruence. reflexivity.
  - now rewrite IH.
Qed.
Definition memlm (x : lock * bool) (l : list (lock * bool)) : bool := existsb (fun y => lm_eqb y x) l.
Lemma memlm_cnt x l : memlm x l = true <-> 1 <= cntlm x l.
Proof.
  unfold memlm. induction l as [|y r IH]; cbn; [split; [discriminate|lia]|].
  rewrite orb_true_iff, IH. destruct (lm_eqb y x); split; intros H; try lia; auto.
Qed.
Lemma cntlm_in x l : 1 <= cntlm x l -> In x l.
Proof.
  induction l as [|y r IH]; cbn; [lia|]. destruct (lm_eqb y x) eqn:E; [apply lm_eqb_eq in E; left; assumption|]. cbn. auto.
Qed.

Definition is_wtrue (w : option (nat * bool)) (t : nat) : nat :=
  match w with Some (u, true) => if Nat.eqb u t then 1 else 0 | _ => 0 end.

(* the ghost [held] agrees with the lock table: as many entries as the task holds guards *)
Record acct (s : sys) : Prop := {
  a_rd : forall t l, cntn t (readers (locks s l)) = cntlm (l, false) (held (tasks s t));
  a_wr : forall t l, is_wtrue (writer (locks s l)) t = cntlm (l, true) (held (tasks s t))
}.

Lemma acct_init calls : acct (init calls).
Proof. split; intros t l; cbn; destruct (Nat.eqb t 0); reflexivity. Qed.

Lemma reader_holds s v l : acct s -> In v (readers (locks s l)) -> In (l, false) (held (tasks s v)).
Proof. intros Ha Hin. apply cntlm_in. rewrite <- (a_rd s Ha). now apply cntn_pos. Qed.

Lemma writer_holds s u l : acct s -> writer (locks s l) = Some (u, true) -> In (l, true) (held (tasks s u)).
Proof. intros Ha Hw. apply cntlm_in. rewrite <- (a_wr s Ha), Hw. cbn. rewrite Nat.eqb_refl. lia. Qed.

Definition can_step (s : sys) : Prop := exists lb s', step lb s = Some s'.

Lemma task_can_step s t s' : tstep s t s' -> can_step s.
Proof. intros H. exists (LTask t), s'. now apply tstep_step. Qed.

Definition is_req (i : instr) (l : lock) : Prop := i = IRead l \/ i = IWrite l.

Lemma is_req_dec i : (exists l, is_req i l) \/ (forall l, ~ is_req i l).
Proof. destruct i; try (right; intros l' [H|H]; discriminate); left; eexists; [left|right]; reflexivity. Qed.

Section Discipline.
  Variable rank : lock -> nat.

  Definition below (H : list (lock * bool)) (l : lock) : bool := forallb (fun h => rank (fst h) <? rank l) H.

  (* Some H' = the program respects the discipline when started holding H, and ends holding H' *)
  Fixpoint disc_gen (sp : call -> bool) (H : list (lock * bool)) (p : list instr) : option (list (lock * bool)) :=
    match p with
    | [] => Some H
    | i :: r =>
        match i with
        | IRead l => if below H l then disc_gen sp ((l, false) :: H) r else None
        | IWrite l => if below H l then disc_gen sp ((l, true) :: H) r else None
        | IRUnlock l => if memlm (l, false) H then disc_gen sp (remove_lm (l, false) H) r else None
        | IWUnlock l => if memlm (l, true) H then disc_gen sp (remove_lm (l, true) H) r else None
        | ISpawn c => if sp c then disc_gen sp H r else None
        | IRecv => if is_nil H then disc_gen sp H r else None
        | ITau | IEv _ => disc_gen sp H r
        end
    end.
  (* the body run by a spawned task: no further spawn, starts and ends holding nothing *)
  Definition body_ok (c : call) : bool :=
    match disc_gen (fun _ => false) [] (body c) with Some [] => true | _ => false end.
  Definition disc_run := disc_gen body_ok.

  Definition disc_call (c : call) : bool :=
    match disc_run [] (dispatch c) with Some [] => true | _ => false end.
  Definition disciplined (calls : list call) : bool := forallb disc_call calls.

  Lemma disc_run_app p q H :
    disc_run H (p ++ q) = match disc_run H p with Some H' => disc_run H' q | None => None end.
  Proof.
    unfold disc_run. revert H. induction p as [|i p IH]; intros H; cbn [app disc_gen]; [reflexivity|].
    destruct i; try apply IH.
    - destruct (below H l); [apply IH|reflexivity].
    - destruct (memlm (l, false) H); [apply IH|reflexivity].
    - destruct (below H l); [apply IH|reflexivity].
    - destruct (memlm (l, true) H); [apply IH|reflexivity].
    - destruct (body_ok c); [apply IH|reflexivity].
    - destruct (is_nil H); [apply IH|reflexivity].
  Qed.

  Lemma disc_gen_mono sp p : forall H H', disc_gen (fun _ => false) H p = Some H' -> disc_gen sp H p = Some H'.
  Proof.
    induction p as [|i p IH]; intros H H'; cbn [disc_gen]; [auto|].
    destruct i; auto.
    - destruct (below H l); auto.
    - destruct (memlm (l, false) H); auto.
    - destruct (below H l); auto.
    - destruct (memlm (l, true) H); auto.
    - discriminate.
    - destruct (is_nil H); auto.
  Qed.

  Lemma body_ok_run c : body_ok c = true -> disc_run [] (body c) = Some [].
  Proof.
    unfold body_ok. destruct (disc_gen (fun _ => false) [] (body c)) as [[|]|] eqn:E; try discriminate.
    intros _. now apply disc_gen_mono.
  Qed.

  Record ok (s : sys) : Prop := {
    k_disc : forall t, disc_run (held (tasks s t)) (prog (tasks s t)) = Some [];
    k_calls : forall c, In c (inbox s ++ future s) -> disc_call c = true;
    k_acct : acct s;
    k_pend : pinv s;
    k_dinv : dinv s
  }.

  Lemma ok_init calls : disciplined calls = true -> ok (init calls).
  Proof.
    intros Hd. split; [| |apply acct_init|apply pinv_init|apply dinv_init]; cbn.
    - intros t. destruct (Nat.eqb t 0); reflexivity.
    - intros c Hc. unfold disciplined in Hd. rewrite forallb_forall in Hd. auto.
  Qed.

  Definition asks_above (s : sys) (k : nat) : Prop :=
    exists v i r l, prog (tasks s v) = i :: r /\ is_req i l /\ k < rank l.

  (* instructions other than lock requests are always enabled (possibly after an arrival) *)
  Lemma enabled_nonreq s t i r : ok s -> prog (tasks s t) = i :: r -> (forall l, ~ is_req i l) -> can_step s.
  Proof.
    intros Hok Hp Hn. pose proof (k_disc s Hok t) as Hd. rewrite Hp in Hd.
    destruct i; try (eapply task_can_step; econstructor; eassumption).
    - exfalso. apply (Hn l). now left.
    - cbn in Hd. destruct (memlm (l, false) (held (tasks s t))) eqn:Hm; [|discriminate].
      apply memlm_cnt in Hm. rewrite <- (a_rd s (k_acct s Hok)) in Hm. apply memn_cntn in Hm.
      eapply task_can_step, ts_runlock; eauto.
    - exfalso. apply (Hn l). now right.
    - cbn in Hd. destruct (memlm (l, true) (held (tasks s t))) eqn:Hm; [|discriminate].
      apply memlm_cnt in Hm. rewrite <- (a_wr s (k_acct s Hok)) in Hm. unfold is_wtrue in Hm.
      destruct (writer (locks s l)) as [[u [|]]|] eqn:Hw; try lia. destruct (Nat.eqb_spec u t); [subst u|lia].
      eapply task_can_step, ts_wunlock; eauto.
    - destruct (inbox s) as [|c q] eqn:Hi; [|eapply task_can_step, ts_recv; eauto].
      destruct (future s) as [|c q] eqn:Hf; [eapply task_can_step, ts_eos; eauto|].
      exists LArrive. eexists. cbn. rewrite Hf. reflexivity.
  Qed.

  (* a task that holds a guard is alive; either it can do something, or it waits for a lock of larger rank *)
  Lemma holder_moves s u x : ok s -> In x (held (tasks s u)) -> can_step s \/ asks_above s (rank (fst x)).
  Proof.
    intros Hok Hin. pose proof (k_disc s Hok u) as Hd.
    destruct (prog (tasks s u)) as [|i r] eqn:Hp; [cbn in Hd; inversion Hd as [E]; now rewrite E in Hin|].
    destruct (is_req_dec i) as [[l Hq]|Hn]; [right|left; eapply enabled_nonreq; eauto].
    exists u, i, r, l. repeat split; auto.
    assert (Hb : below (held (tasks s u)) l = true) by (destruct Hq as [-> | ->]; cbn in Hd; destruct (below _ l); congruence).
    unfold below in Hb. rewrite forallb_forall in Hb. now apply Nat.ltb_lt, Hb.
  Qed.

  (* the heart: a task blocked on l points to an enabled step or to a task blocked on a lock of larger rank: the
     writer of l; or, if a writer is pending, that writer itself or one of the readers it waits for *)
  Lemma climb s t i r l : ok s -> prog (tasks s t) = i :: r -> is_req i l -> can_step s \/ asks_above s (rank l).
  Proof.
    intros Hok Hp Hq. pose proof (k_acct s Hok) as Ha.
    destruct (writer (locks s l)) as [[u [|]]|] eqn:Hw.
    - apply (holder_moves s u (l, true) Hok). now apply writer_holds.
    - destruct (k_pend s Hok u l Hw) as [r' Hp']. destruct (readers (locks s l)) as [|v rs] eqn:Hr.
      + left. eapply task_can_step, ts_wacquire; eauto.
      + apply (holder_moves s v (l, false) Hok). apply reader_holds; [exact Ha|]. rewrite Hr. now left.
    - left. destruct Hq as [-> | ->]; eapply task_can_step; [eapply ts_read|eapply ts_wbegin]; eauto.
  Qed.

  Variable R : nat.
  Hypothesis rank_le : forall l, rank l <= R.

  Lemma climb_all s : ok s -> forall n t i r l, R - rank l <= n -> prog (tasks s t) = i :: r -> is_req i l -> can_step s.
  Proof.
    intros Hok. induction n as [|n IH]; intros t i r l Hn Hp Hq;
      (destruct (climb s t i r l Hok Hp Hq) as [H|[v [i' [r' [l' [Hp' [Hq' Hlt]]]]]]]; [exact H|]); pose proof (rank_le l').
    - lia.
    - apply (IH v i' r' l'); auto. lia.
  Qed.

  Lemma live_or_not s : forall n, (exists t i r, t < n /\ prog (tasks s t) = i :: r) \/ (forall t, t < n -> prog (tasks s t) = []).
  Proof.
    induction n as [|n [[t [i [r [Hlt Hp]]]]|Hall]].
    - right. intros t Ht. lia.
    - left. exists t, i, r. split; [lia|assumption].
    - destruct (prog (tasks s n)) as [|i r] eqn:Hp.
      + right. intros t Ht. destruct (Nat.eq_dec t n); [now subst|apply Hall; lia].
      + left. exists n, i, r. split; [lia|assumption].
  Qed.

  (* no deadlock: in a state kept by the discipline, something can happen unless everything has finished *)
  Theorem progress s : wf s -> ok s -> (exists lb s', step lb s = Some s') \/ all_done s.
  Proof.
    intros Hwf Hok.
    destruct (live_or_not s (ntasks s)) as [[t [i [r [Hlt Hp]]]]|Hall].
    - left. destruct (is_req_dec i) as [[l Hq]|Hn]; [|eapply enabled_nonreq; eauto].
      apply (climb_all s Hok R t i r l); auto. lia.
    - right.
      assert (Hd : forall t, prog (tasks s t) = []).
      { intros t. destruct (Nat.lt_ge_cases t (ntasks s)) as [H|H]; [now apply Hall|]. destruct Hwf as [_ Hi]. now rewrite (Hi t H). }
      split; [exact Hd|]. destruct (proj2 (k_dinv s Hok) (Hd 0)) as [Hi Hf]. now split.
  Qed.
End Discipline.
