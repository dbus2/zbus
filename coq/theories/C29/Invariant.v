(* C29/Invariant.v — what [progress] (C29/Progress.v) assumes of a state is kept by every step: the ghost guards agree
   with the lock table, whatever the programs do; and disciplined programs stay disciplined. *)
From ZV Require Import Base.Bytes C29.Model C29.Steps C29.Order C29.Progress.

Lemma acct_same s s' : acct s -> (forall m, locks s' m = locks s m) -> (forall u, held (tasks s' u) = held (tasks s u)) ->
  acct s'.
Proof. intros [Hr Hw] Hl Hh. split; intros u m; rewrite Hl, Hh; auto. Qed.

Lemma held_updt f t p u : held (updt f t {| prog := p; held := held (f t) |} u) = held (f u).
Proof. unfold updt. destruct (Nat.eqb_spec u t); [now subst|reflexivity]. Qed.

(* task t works on lock l: the other tasks see no change in l, t's guards of other locks stay, and at (t, l) table
   and ghost change together *)
Lemma acct_lock s t tk' l ls' : acct s ->
  (forall u, u <> t -> cntn u (readers ls') = cntn u (readers (locks s l)) /\
                       is_wtrue (writer ls') u = is_wtrue (writer (locks s l)) u) ->
  (forall m b, m <> l -> cntlm (m, b) (held tk') = cntlm (m, b) (held (tasks s t))) ->
  cntn t (readers ls') = cntlm (l, false) (held tk') -> is_wtrue (writer ls') t = cntlm (l, true) (held tk') ->
  acct (set_task_lock s t tk' l ls').
Proof.
  intros [Hr Hw] Ho Hm H1 H2. split; intros u m; cbn [tasks locks set_task_lock]; unfold updt, updl;
    destruct (Nat.eqb_spec m l) as [->|Hml], (Nat.eqb_spec u t) as [->|Hut]; auto;
    try (rewrite Hm by assumption; auto); destruct (Ho u Hut) as [E1 E2]; rewrite ?E1, ?E2; auto.
Qed.

Lemma acct_step s lb s' : wf s -> acct s -> step lb s = Some s' -> acct s'.
Proof.
  intros [_ Hidle] Ha Hst. destruct lb as [t|].
  2:{ apply step_arrive in Hst. destruct Hst as [c [q [_ ->]]]. destruct Ha. now split. }
  pose proof (a_rd s Ha t) as Hr. pose proof (a_wr s Ha t) as Hw.
  assert (Hoth : forall u v b, v <> u -> is_wtrue (Some (v, b)) u = 0).
  { intros u v [|] Hn; cbn; [destruct (Nat.eqb_spec v u)|]; congruence. }
  (* for each lock instruction the premises of acct_lock, in their order, less those that hold by computation *)
  apply step_tstep in Hst. inversion Hst; subst;
    first [apply acct_lock; [exact Ha|intros u Hu; split|intros m b Hm|..]; cbn [readers writer held]; try reflexivity
          |apply (acct_same s _ Ha); [reflexivity|intros u; cbn [tasks set_task]; try apply held_updt]].
  - (* read *) now apply cntn_cons_other.
  - now rewrite H0.
  - apply cntlm_cons_other. congruence.
  - cbn. rewrite Nat.eqb_refl, lm_eqb_refl. now rewrite Hr.
  - rewrite cntlm_cons_other by congruence. now rewrite <- Hw, H0.
  - (* read unlock *) now apply cntn_remove_other.
  - apply cntlm_remove_other. congruence.
  - now rewrite cntn_remove_same, cntlm_remove_same, Hr.
  - rewrite cntlm_remove_other by congruence. apply Hw.
  - (* write: the writer mutex is taken *) now rewrite H0.
  - apply Hr.
  - now rewrite <- Hw, H0.
  - (* write: acquired *) now rewrite H1.
  - rewrite H0. apply Hoth. congruence.
  - apply cntlm_cons_other. congruence.
  - rewrite cntlm_cons_other by congruence. now rewrite <- Hr, H1.
  - cbn. rewrite Nat.eqb_refl, lm_eqb_refl. now rewrite <- Hw, H0.
  - (* write unlock *) rewrite H0. symmetry. apply Hoth. congruence.
  - apply cntlm_remove_other. congruence.
  - rewrite cntlm_remove_other by congruence. apply Hr.
  - rewrite cntlm_remove_same, <- Hw, H0. cbn. now rewrite Nat.eqb_refl.
  - (* spawn *) unfold updt at 1. destruct (Nat.eqb_spec u (ntasks s)) as [->|]; [now rewrite Hidle|apply held_updt].
Qed.

Section Keep.
  Variable rank : lock -> nat.
  Notation ok := (ok rank).
  Notation disc_run := (disc_run rank).

  Lemma disc_pop H i r : disc_run H (i :: r) = Some [] -> disc_run (held_after i H) r = Some [].
  Proof.
    unfold Progress.disc_run. cbn [disc_gen held_after]. destruct i; auto;
      match goal with |- (if ?b then _ else _) = _ -> _ => destruct b; [auto|discriminate] end.
  Qed.

  Lemma ok_step s lb s' : wf s -> ok s -> step lb s = Some s' -> ok s'.
  Proof.
    intros Hwf Hok Hst.
    pose proof (acct_step _ _ _ Hwf (k_acct _ _ Hok) Hst) as Ha. pose proof (pinv_step _ _ _ Hwf (k_pend _ _ Hok) Hst) as Hp'.
    pose proof (dinv_step _ _ _ Hwf (k_dinv _ _ Hok) Hst) as Hd'. destruct Hok as [K1 K5 _ _ _]. destruct lb as [t|].
    2:{ apply step_arrive in Hst. destruct Hst as [c [q [Hf ->]]]. split; auto. cbn. intros c' Hc'. apply K5.
        rewrite Hf. now rewrite <- app_assoc in Hc'. }
    pose proof (K1 t) as Hd.
    destruct (step_cstep _ _ _ Hst) as [i r lk lg Hp _ _ _ _ _|l r lk Hp _ _|c r Hp|c q r Hp Hib]; rewrite Hp in Hd;
      (split; [| |assumption..]); cbn [tasks inbox future]; try exact K5.
    - intros u. unfold updt. destruct (Nat.eqb_spec u t); [now apply disc_pop|apply K1].
    - intros u. rewrite updt_id. apply K1.
    - apply (disc_pop _ (ISpawn c)) in Hd as Hr. unfold Progress.disc_run in Hd. cbn [disc_gen] in Hd.
      destruct (body_ok rank c) eqn:Hb; [|discriminate].
      intros u. unfold updt. destruct (Nat.eqb_spec u (ntasks s)); [now apply body_ok_run|].
      destruct (Nat.eqb_spec u t); [exact Hr|apply K1].
    - unfold Progress.disc_run in Hd. cbn [disc_gen] in Hd. destruct (held (tasks s t)); [cbn [is_nil] in Hd|discriminate].
      assert (Hc : disc_call rank c = true) by (apply K5; rewrite Hib; now left).
      intros u. unfold updt. destruct (Nat.eqb_spec u t); [cbn [prog held]|apply K1].
      rewrite disc_run_app. unfold disc_call in Hc. destruct (Progress.disc_run rank [] (dispatch c)) as [[|]|]; try discriminate.
      exact Hd.
    - intros c' Hc'. apply K5. rewrite Hib. now right.
  Qed.

  Lemma ok_reach calls tr s : disciplined rank calls = true -> reach calls tr s -> ok s.
  Proof.
    intros Hd. revert tr s. apply reach_inv; [now apply ok_init|]. intros; eapply ok_step; eauto using wf_reach.
  Qed.
End Keep.
