(* C29/Steps.v — the step function seen as a relation (one constructor per atomic action); what a task step does to
   the programs, the queues and the log, whatever it does to the locks; and two invariants of every run: task slots
   from ntasks on are unused, and a task that has taken a writer mutex and waits for the readers to leave still has that
   IWrite at the head of its program. *)
From ZV Require Import Base.Bytes C29.Model.

Lemma updt_same f t v : updt f t v t = v.
Proof. unfold updt. now rewrite Nat.eqb_refl. Qed.
Lemma updt_other f t v u : u <> t -> updt f t v u = f u.
Proof. intros H. unfold updt. destruct (Nat.eqb_spec u t); congruence. Qed.
Lemma updt_id f t u : updt f t (f t) u = f u.
Proof. unfold updt. destruct (Nat.eqb_spec u t); congruence. Qed.
Lemma updl_same f l v : updl f l v l = v.
Proof. unfold updl. now rewrite Nat.eqb_refl. Qed.
Lemma updl_other f l v m : m <> l -> updl f l v m = f m.
Proof. intros H. unfold updl. destruct (Nat.eqb_spec m l); congruence. Qed.

Inductive tstep (s : sys) (t : nat) : sys -> Prop :=
  | ts_read l r :
      prog (tasks s t) = IRead l :: r -> writer (locks s l) = None ->
      tstep s t (set_task_lock s t {| prog := r; held := (l, false) :: held (tasks s t) |} l
                               {| readers := t :: readers (locks s l); writer := None |})
  | ts_runlock l r :
      prog (tasks s t) = IRUnlock l :: r -> memn t (readers (locks s l)) = true ->
      tstep s t (set_task_lock s t {| prog := r; held := remove_lm (l, false) (held (tasks s t)) |} l
                               {| readers := remove_one t (readers (locks s l)); writer := writer (locks s l) |})
  | ts_wbegin l r :
      prog (tasks s t) = IWrite l :: r -> writer (locks s l) = None ->
      tstep s t (set_task_lock s t (tasks s t) l {| readers := readers (locks s l); writer := Some (t, false) |})
  | ts_wacquire l r :
      prog (tasks s t) = IWrite l :: r -> writer (locks s l) = Some (t, false) -> readers (locks s l) = [] ->
      tstep s t (set_task_lock s t {| prog := r; held := (l, true) :: held (tasks s t) |} l
                               {| readers := []; writer := Some (t, true) |})
  | ts_wunlock l r :
      prog (tasks s t) = IWUnlock l :: r -> writer (locks s l) = Some (t, true) ->
      tstep s t (set_task_lock s t {| prog := r; held := remove_lm (l, true) (held (tasks s t)) |} l
                               {| readers := readers (locks s l); writer := None |})
  | ts_tau r :
      prog (tasks s t) = ITau :: r ->
      tstep s t (set_task s t {| prog := r; held := held (tasks s t) |})
  | ts_ev e r :
      prog (tasks s t) = IEv e :: r ->
      tstep s t {| tasks := updt (tasks s) t {| prog := r; held := held (tasks s t) |}; ntasks := ntasks s;
                   locks := locks s; future := future s; inbox := inbox s; log := log s ++ [e] |}
  | ts_spawn c r :
      prog (tasks s t) = ISpawn c :: r ->
      tstep s t {| tasks := updt (updt (tasks s) t {| prog := r; held := held (tasks s t) |}) (ntasks s)
                                 {| prog := body c; held := [] |};
                   ntasks := S (ntasks s); locks := locks s; future := future s; inbox := inbox s; log := log s |}
  | ts_recv c q r :
      prog (tasks s t) = IRecv :: r -> inbox s = c :: q ->
      tstep s t {| tasks := updt (tasks s) t {| prog := dispatch c ++ IRecv :: r; held := held (tasks s t) |};
                   ntasks := ntasks s; locks := locks s; future := future s; inbox := q; log := log s |}
  | ts_eos r :
      prog (tasks s t) = IRecv :: r -> inbox s = [] -> future s = [] ->
      tstep s t (set_task s t {| prog := r; held := held (tasks s t) |}).

Lemma step_tstep s t s' : step (LTask t) s = Some s' -> tstep s t s'.
Proof.
  unfold step. destruct (prog (tasks s t)) as [|i r] eqn:Hp; [discriminate|].
  destruct i.
  - destruct (writer (locks s l)) eqn:Hw; [discriminate|]. intros [= <-]. now apply ts_read.
  - destruct (memn t (readers (locks s l))) eqn:Hm; [|discriminate]. intros [= <-]. now apply ts_runlock.
  - destruct (writer (locks s l)) as [[u [|]]|] eqn:Hw; try discriminate.
    + destruct (Nat.eqb_spec u t); cbn [andb]; [|discriminate]. subst u.
      destruct (readers (locks s l)) eqn:Hr; cbn [is_nil]; [|discriminate].
      intros [= <-]. now apply ts_wacquire.
    + intros [= <-]. now apply (ts_wbegin s t l r).
  - destruct (writer (locks s l)) as [[u [|]]|] eqn:Hw; try discriminate.
    destruct (Nat.eqb_spec u t); [|discriminate]. subst u.
    intros [= <-]. now apply ts_wunlock.
  - intros [= <-]. now apply ts_tau.
  - intros [= <-]. now apply ts_ev.
  - intros [= <-]. now apply ts_spawn.
  - destruct (inbox s) as [|c q] eqn:Hi.
    + destruct (future s) eqn:Hf; [|discriminate]. intros [= <-]. now apply ts_eos.
    + intros [= <-]. now apply ts_recv.
Qed.

Lemma tstep_step s t s' : tstep s t s' -> step (LTask t) s = Some s'.
Proof.
  intros H; inversion H; subst; unfold step;
    repeat match goal with E : prog _ = _ |- _ => rewrite E end;
    repeat match goal with E : writer _ = _ |- _ => rewrite E end;
    repeat match goal with E : memn _ _ = _ |- _ => rewrite E end;
    repeat match goal with E : inbox _ = _ |- _ => rewrite E end;
    repeat match goal with E : future _ = _ |- _ => rewrite E end;
    repeat match goal with E : readers _ = _ |- _ => rewrite E end;
    rewrite ?Nat.eqb_refl; cbn [andb is_nil]; try reflexivity.
Qed.

Lemma step_arrive s s' : step LArrive s = Some s' ->
  exists c r, future s = c :: r /\
    s' = {| tasks := tasks s; ntasks := ntasks s; locks := locks s; future := r; inbox := inbox s ++ [c]; log := log s |}.
Proof. cbn. destruct (future s) as [|c r]; [discriminate|]. intros H; inversion H. now exists c, r. Qed.

Lemma run_app tr1 tr2 s : runs (tr1 ++ tr2) s = match runs tr1 s with Some s1 => runs tr2 s1 | None => None end.
Proof. revert s; induction tr1 as [|lb tr1 IH]; intros s; cbn; [reflexivity|]. destruct (step lb s); auto. Qed.

(* the step case may use that the state is reachable, hence every invariant established before *)
Lemma reach_inv (P : sys -> Prop) calls :
  P (init calls) -> (forall tr s lb s', reach calls tr s -> P s -> step lb s = Some s' -> P s') ->
  forall tr s, reach calls tr s -> P s.
Proof.
  intros H0 HS tr. unfold reach.
  cut (forall tr0 s0, runs tr0 (init calls) = Some s0 -> P s0 -> forall s, runs tr s0 = Some s -> P s).
  { intros H s. now apply (H [] (init calls)). }
  induction tr as [|lb tr IH]; intros tr0 s0 Hr0 Hp s Hr; cbn in Hr.
  - inversion Hr; subst; exact Hp.
  - destruct (step lb s0) as [s1|] eqn:E; [|discriminate]. apply (IH (tr0 ++ [lb]) s1); [|eapply HS; eauto|exact Hr].
    rewrite run_app, Hr0. cbn. now rewrite E.
Qed.

Definition held_after (i : instr) (H : list (lock * bool)) : list (lock * bool) :=
  match i with
  | IRead l => (l, false) :: H
  | IWrite l => (l, true) :: H
  | IRUnlock l => remove_lm (l, false) H
  | IWUnlock l => remove_lm (l, true) H
  | _ => H
  end.

Definition emits (i : instr) : list ev := match i with IEv e => [e] | _ => [] end.

(* the head instruction completes / the task takes the writer mutex and stays at its IWrite / it spawns / it receives.
   Of the lock table of the new state only one thing is said: which tasks are in the WaitingReaders state of which
   lock.  The invariants about programs and events do not look at the locks; the bound on the length of runs needs
   just that *)
Inductive cstep (s : sys) (t : nat) : sys -> Prop :=
  | cs_pop i r lk lg :
      prog (tasks s t) = i :: r -> (forall c, i <> ISpawn c) -> (i = IRecv -> inbox s = [] /\ future s = []) ->
      (forall l, i = IWrite l -> writer (locks s l) = Some (t, false)) ->
      (forall m u, writer (lk m) = Some (u, false) <-> writer (locks s m) = Some (u, false) /\ i <> IWrite m) ->
      log s ++ emits i = lg ->
      cstep s t {| tasks := updt (tasks s) t {| prog := r; held := held_after i (held (tasks s t)) |}; ntasks := ntasks s;
                   locks := lk; future := future s; inbox := inbox s; log := lg |}
  | cs_wait l r lk :
      prog (tasks s t) = IWrite l :: r -> writer (locks s l) = None ->
      (forall m u, writer (lk m) = Some (u, false) <-> writer (locks s m) = Some (u, false) \/ m = l /\ u = t) ->
      cstep s t {| tasks := updt (tasks s) t (tasks s t); ntasks := ntasks s; locks := lk; future := future s;
                   inbox := inbox s; log := log s |}
  | cs_spawn c r :
      prog (tasks s t) = ISpawn c :: r ->
      cstep s t {| tasks := updt (updt (tasks s) t {| prog := r; held := held (tasks s t) |}) (ntasks s)
                                 {| prog := body c; held := [] |};
                   ntasks := S (ntasks s); locks := locks s; future := future s; inbox := inbox s; log := log s |}
  | cs_recv c q r :
      prog (tasks s t) = IRecv :: r -> inbox s = c :: q ->
      cstep s t {| tasks := updt (tasks s) t {| prog := dispatch c ++ IRecv :: r; held := held (tasks s t) |};
                   ntasks := ntasks s; locks := locks s; future := future s; inbox := q; log := log s |}.

Lemma tstep_cstep s t s' : tstep s t s' -> cstep s t s'.
Proof.
  intros H. destruct H as [l r Hp Hw|l r Hp Hm|l r Hp Hw|l r Hp Hw Hr|l r Hp Hw|r Hp|e r Hp|c r Hp|c q r Hp Hi|r Hp Hi Hf];
    [ | |apply (cs_wait _ _ _ _ _ Hp Hw)| | | | |exact (cs_spawn _ _ _ _ Hp)|exact (cs_recv _ _ _ _ _ Hp Hi)| ];
    try (apply (cs_pop _ _ _ _ _ _ Hp); try discriminate; try apply app_nil_r; auto);
    try (intros m u; unfold updl; destruct (Nat.eqb_spec m l) as [->|]; cbn [writer]; rewrite ?Hw);
    try (intros m u); intuition congruence.
Qed.

Lemma step_cstep s t s' : step (LTask t) s = Some s' -> cstep s t s'.
Proof. intros H. now apply tstep_cstep, step_tstep. Qed.

Definition wf (s : sys) : Prop := 1 <= ntasks s /\ forall t, ntasks s <= t -> tasks s t = idle.

Lemma wf_init calls : wf (init calls).
Proof. split; cbn; [lia|]. intros t Ht. destruct (Nat.eqb_spec t 0); [lia|reflexivity]. Qed.

Lemma wf_live s t : wf s -> prog (tasks s t) <> [] -> t < ntasks s.
Proof.
  intros [_ H] Hp. destruct (Nat.lt_ge_cases t (ntasks s)) as [|Hge]; [assumption|].
  rewrite (H t Hge) in Hp. cbn in Hp. congruence.
Qed.

Lemma step_live s t s' : wf s -> step (LTask t) s = Some s' -> t < ntasks s.
Proof.
  intros Hwf Hst. apply wf_live; [assumption|]. unfold step in Hst. destruct (prog (tasks s t)); [discriminate|congruence].
Qed.

Lemma wf_step s lb s' : wf s -> step lb s = Some s' -> wf s'.
Proof.
  intros Hwf Hst. destruct lb as [t|].
  - pose proof (step_live _ _ _ Hwf Hst) as Hlt. destruct Hwf as [H1 H2].
    destruct (step_cstep _ _ _ Hst); split; cbn; try lia; intros u Hu;
      rewrite !updt_other by lia; apply H2; lia.
  - apply step_arrive in Hst. destruct Hst as [c [r [_ ->]]]. exact Hwf.
Qed.

Lemma wf_reach calls tr s : reach calls tr s -> wf s.
Proof. apply reach_inv; [apply wf_init|]. intros; eapply wf_step; eauto. Qed.

(* a task is in the WaitingReaders state only of the lock at the head of its program *)
Definition pinv (s : sys) : Prop :=
  forall t l, writer (locks s l) = Some (t, false) -> exists r, prog (tasks s t) = IWrite l :: r.

Lemma pinv_init calls : pinv (init calls).
Proof. intros t l. cbn. discriminate. Qed.

(* a flag that was there before the step still has its IWrite in front, unless the step consumed that very IWrite *)
Lemma pinv_kept s t i r tk' u l : pinv s -> prog (tasks s t) = i :: r -> i <> IWrite l ->
  writer (locks s l) = Some (u, false) -> exists r', prog (updt (tasks s) t tk' u) = IWrite l :: r'.
Proof.
  intros K Hp Hi Hw. destruct (K u l Hw) as [r' Hr']. exists r'. rewrite updt_other; [exact Hr'|].
  intros ->. rewrite Hp in Hr'. congruence.
Qed.

Lemma pinv_step s lb s' : wf s -> pinv s -> step lb s = Some s' -> pinv s'.
Proof.
  intros [_ Hidle] K Hst. destruct lb as [t|].
  2:{ apply step_arrive in Hst. destruct Hst as [c [q [_ ->]]]. exact K. }
  destruct (step_cstep _ _ _ Hst) as [i r lk lg Hp _ _ _ Hfl _|l r lk Hp _ Hfl|c r Hp|c q r Hp _];
    intros u m Hw; cbn [tasks locks] in *.
  - apply Hfl in Hw. destruct Hw. now apply (pinv_kept s t i r).
  - rewrite updt_id. apply Hfl in Hw. destruct Hw as [Hw|[-> ->]]; [exact (K u m Hw)|now exists r].
  - rewrite updt_other; [now apply (pinv_kept s t (ISpawn c) r)|].
    intros ->. destruct (K _ _ Hw) as [r' Hr']. rewrite Hidle in Hr' by lia. discriminate.
  - now apply (pinv_kept s t IRecv r).
Qed.
