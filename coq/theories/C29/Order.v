(* C29/Order.v — inline (spawn-disabled) method calls run one after another in arrival order:
   an invariant of every reachable state, for all scripts and all schedules. *)
From ZV Require Import Base.Bytes C29.Model C29.Spec C29.Steps.

(* the events a program will emit at its own level (spawned bodies not included) *)
Fixpoint tev (p : list instr) : list ev :=
  match p with
  | [] => []
  | IEv e :: r => e :: tev r
  | _ :: r => tev r
  end.

Lemma tev_app p q : tev (p ++ q) = tev p ++ tev q.
Proof. induction p as [|i p IH]; cbn; [reflexivity|]. destruct i; cbn; rewrite ?IH; reflexivity. Qed.

Lemma tev_cons i r : tev (i :: r) = emits i ++ tev r.
Proof. destruct i; reflexivity. Qed.

Lemma tev_repeat_tau n : tev (repeat ITau n) = [].
Proof. induction n; cbn; auto. Qed.

Lemma tev_c_op c j o : tev (c_op c j o) = [EvO c j].
Proof. unfold c_op. rewrite tev_app. destruct o; cbn; rewrite ?tev_repeat_tau; reflexivity. Qed.

Lemma tev_c_ops c ops : forall j, tev (c_ops c j ops) = map (EvO c) (seq j (length ops)).
Proof.
  induction ops as [|o r IH]; intros j; cbn; [reflexivity|].
  rewrite tev_app, tev_c_op, IH. reflexivity.
Qed.

Lemma tev_handler c : tev (handler c) = [EvS (c_id c)] ++ op_events (c_id c) (length (c_script c)) ++ [EvE (c_id c)].
Proof. unfold handler. cbn. rewrite tev_app, tev_c_ops. reflexivity. Qed.

Definition reply_evs (c : call) : list ev := if c_noreply c then [] else [EvR (c_id c)].

Lemma tev_body c :
  tev (body c) = match c_kind c with
                 | KIntro => reply_evs c
                 | KUnknown => [EvR (c_id c)]
                 | KGetAll => tev (handler c) ++ tev (handler c) ++ reply_evs c
                 | _ => tev (handler c) ++ reply_evs c
                 end.
Proof.
  unfold body, reply_evs. destruct (c_kind c), (c_noreply c); cbn [app tev]; rewrite ?tev_app; cbn [tev]; reflexivity.
Qed.

Lemma tev_body_method c : is_method (c_kind c) = true -> tev (body c) = handler_events c.
Proof.
  rewrite tev_body, tev_handler. unfold handler_events, reply_evs, wants_reply.
  destruct (c_kind c); try discriminate; intros _; destruct (c_noreply c); cbn [negb]; now rewrite <- !app_assoc.
Qed.

Lemma in_tev_c_ops c e ops : forall j, In e (tev (c_ops c j ops)) -> ev_call e = c.
Proof. intros j. rewrite tev_c_ops. rewrite in_map_iff. intros [x [<- _]]. reflexivity. Qed.

Lemma in_tev_handler c e : In e (tev (handler c)) -> ev_call e = c_id c.
Proof.
  rewrite tev_handler. cbn. rewrite in_app_iff. unfold op_events. rewrite in_map_iff. cbn.
  intros [<-|[[x [<- _]]|[<-|[]]]]; reflexivity.
Qed.

Lemma in_tev_body c e : In e (tev (body c)) -> ev_call e = c_id c.
Proof.
  pose proof (in_tev_handler c e) as Hh. rewrite tev_body. unfold reply_evs.
  destruct (c_kind c), (c_noreply c); rewrite ?in_app_iff; cbn [In]; intuition (subst; reflexivity).
Qed.

Definition flat_instr (i : instr) : bool := match i with IRecv | ISpawn _ => false | _ => true end.

Lemma flat_c_ops c ops : forall j, forallb flat_instr (c_ops c j ops) = true.
Proof.
  induction ops as [|o r IH]; intros j; cbn; [reflexivity|]. rewrite forallb_app, IH, andb_true_r.
  unfold c_op. rewrite forallb_app. cbn. rewrite andb_true_r. destruct o; cbn; try reflexivity.
  induction n; cbn; auto.
Qed.

Lemma flat_handler c : forallb flat_instr (handler c) = true.
Proof. unfold handler. cbn. rewrite forallb_app, flat_c_ops. reflexivity. Qed.

Lemma flat_body c : forallb flat_instr (body c) = true.
Proof.
  pose proof (flat_handler c) as Hh.
  unfold body. destruct (c_kind c); destruct (c_noreply c); rewrite ?forallb_app; cbn [forallb flat_instr app];
    rewrite ?forallb_app, ?Hh; reflexivity.
Qed.

Lemma body_no_recv c : ~ In IRecv (body c).
Proof. intros H. pose proof (flat_body c) as F. rewrite forallb_forall in F. specialize (F _ H). discriminate. Qed.

Lemma body_no_spawn c c' : ~ In (ISpawn c') (body c).
Proof. intros H. pose proof (flat_body c) as F. rewrite forallb_forall in F. specialize (F _ H). discriminate. Qed.

Lemma dispatch_cases c :
  dispatch c = [IRead L_root; IRUnlock L_root] ++ body c /\ (c_spawn c = false \/ c_kind c = KUnknown) \/
  dispatch c = [IRead L_root; IRUnlock L_root; ISpawn c] /\ c_spawn c = true /\ c_kind c <> KUnknown.
Proof. unfold dispatch. destruct (c_kind c), (c_spawn c); auto; right; repeat split; discriminate. Qed.

Lemma in_tev_dispatch c e : In e (tev (dispatch c)) -> ev_call e = c_id c.
Proof. destruct (dispatch_cases c) as [[-> _]|[-> _]]; [apply in_tev_body|intros []]. Qed.

Lemma dispatch_no_recv c : ~ In IRecv (dispatch c).
Proof.
  destruct (dispatch_cases c) as [[-> _]|[-> _]]; cbn; [|intuition discriminate].
  intros [H|[H|H]]; try discriminate. now apply body_no_recv in H.
Qed.

Lemma in_spawn_dispatch c c' : In (ISpawn c') (dispatch c) -> c' = c /\ c_spawn c = true /\ c_kind c <> KUnknown.
Proof.
  destruct (dispatch_cases c) as [[-> _]|[-> H]]; cbn; intros [E|[E|E]]; try discriminate.
  - now apply body_no_spawn in E.
  - destruct E as [E|[]]. injection E as <-. now split.
Qed.

Lemma nodup_map_inj {A} (f : A -> nat) (l : list A) a b :
  NoDup (map f l) -> In a l -> In b l -> f a = f b -> a = b.
Proof.
  induction l as [|x l IH]; cbn; [tauto|]. intros Hnd Ha Hb Hf. inversion Hnd as [|? ? Hx Hl]; subst.
  destruct Ha as [<-|Ha], Hb as [<-|Hb]; auto.
  - exfalso. apply Hx. rewrite Hf. now apply in_map.
  - exfalso. apply Hx. rewrite <- Hf. now apply in_map.
Qed.

Lemma memn_in n l : memn n l = true <-> In n l.
Proof.
  unfold memn. rewrite existsb_exists. split.
  - intros [x [Hx He]]. apply Nat.eqb_eq in He. now subst.
  - intros H. exists n. split; [assumption|apply Nat.eqb_refl].
Qed.

Lemma filter_all {A} (f : A -> bool) l : (forall x, In x l -> f x = true) -> filter f l = l.
Proof. induction l as [|x l IH]; cbn; intros H; [reflexivity|]. rewrite (H x) by auto. f_equal. apply IH. auto. Qed.
Lemma filter_none {A} (f : A -> bool) l : (forall x, In x l -> f x = false) -> filter f l = [].
Proof. induction l as [|x l IH]; cbn; intros H; [reflexivity|]. rewrite (H x) by auto. apply IH. auto. Qed.

Fixpoint tail_ok (p : list instr) : Prop :=
  match p with
  | [] => True
  | i :: r => match r with [] => i = IRecv | _ :: _ => i <> IRecv /\ tail_ok r end
  end.

Lemma tail_pop i r : tail_ok (i :: r) -> tail_ok r.
Proof. destruct r; cbn; tauto. Qed.

Lemma tail_recv r : tail_ok (IRecv :: r) -> r = [].
Proof. destruct r; cbn; [reflexivity|]. intros [H _]. congruence. Qed.

Lemma tail_snoc p : ~ In IRecv p -> tail_ok (p ++ [IRecv]).
Proof.
  induction p as [|i p IH]; intros H; [reflexivity|]. cbn in H. cbn [app tail_ok].
  destruct (p ++ [IRecv]) eqn:E; [now destruct p|]. split; [intros ->|apply IH]; tauto.
Qed.

(* the dispatch task's program ends in its only IRecv; once that has run, nothing is left to receive *)
Definition dinv (s : sys) : Prop :=
  tail_ok (prog (tasks s 0)) /\ (prog (tasks s 0) = [] -> inbox s = [] /\ future s = []).

Lemma dinv_init calls : dinv (init calls).
Proof. split; cbn; [reflexivity|discriminate]. Qed.

Lemma dinv_pop s t i r tk' : dinv s -> prog (tasks s t) = i :: r -> prog tk' = r ->
  (i = IRecv -> inbox s = [] /\ future s = []) ->
  tail_ok (prog (updt (tasks s) t tk' 0)) /\ (prog (updt (tasks s) t tk' 0) = [] -> inbox s = [] /\ future s = []).
Proof.
  intros [Ht He] Hp Hk Hi. unfold updt. destruct (Nat.eqb_spec 0 t) as [<-|Hne]; [|now split].
  rewrite Hk. rewrite Hp in Ht. split; [eapply tail_pop; eauto|]. intros ->. apply Hi, Ht.
Qed.

Lemma dinv_step s lb s' : wf s -> dinv s -> step lb s = Some s' -> dinv s'.
Proof.
  intros [Hn _] Hd Hst. destruct lb as [t|].
  2:{ apply step_arrive in Hst. destruct Hst as [c [q [Hf ->]]]. destruct Hd as [Ht He]. split; [exact Ht|]. cbn.
      intros E. destruct (He E) as [_ Hf']. congruence. }
  destruct (step_cstep _ _ _ Hst) as [i r lk lg Hp _ Hi _ _ _|l r lk Hp _ _|c r Hp|c q r Hp Hib];
    unfold dinv; cbn [tasks inbox future].
  - now apply (dinv_pop s t i r).
  - now rewrite updt_id.
  - rewrite (updt_other _ (ntasks s)) by lia. now apply (dinv_pop s t (ISpawn c) r).
  - destruct Hd as [Ht He]. destruct (Nat.eq_dec t 0) as [->|Hne].
    + rewrite updt_same. cbn [prog]. rewrite Hp in Ht. apply tail_recv in Ht. subst r.
      split; [apply tail_snoc, dispatch_no_recv|intros E; now apply app_eq_nil in E].
    + rewrite updt_other by lia. split; [exact Ht|]. intros E. destruct (He E) as [E' _]. congruence.
Qed.

Lemma dinv_reach calls tr s : reach calls tr s -> dinv s.
Proof. apply reach_inv; [apply dinv_init|]. intros; eapply dinv_step; eauto using wf_reach. Qed.

Section Order.
  Variable calls : list call.
  Hypothesis Hnd : NoDup (map c_id calls).

  Definition isin (e : ev) : bool := memn (ev_call e) (inline_ids calls).
  Definition pev (p : list instr) : list ev := filter isin (tev p).

  Lemma pev_app p q : pev (p ++ q) = pev p ++ pev q.
  Proof. unfold pev. now rewrite tev_app, filter_app. Qed.

  Lemma pev_cons i r : pev (i :: r) = filter isin (emits i) ++ pev r.
  Proof. unfold pev. now rewrite tev_cons, filter_app. Qed.

  Lemma id_inline c : In c calls -> memn (c_id c) (inline_ids calls) = inline c.
  Proof.
    intros Hc. destruct (inline c) eqn:Hi.
    - apply memn_in. unfold inline_ids. apply in_map. apply filter_In. now split.
    - destruct (memn (c_id c) (inline_ids calls)) eqn:Hm; [|reflexivity]. exfalso.
      apply memn_in in Hm. unfold inline_ids in Hm. apply in_map_iff in Hm. destruct Hm as [c' [Hid Hc']].
      apply filter_In in Hc'. destruct Hc' as [Hc' Hi'].
      assert (c' = c) by (eapply nodup_map_inj; eauto). subst. congruence.
  Qed.

  Lemma pev_body c : In c calls -> pev (body c) = if inline c then handler_events c else [].
  Proof.
    intros Hc. unfold pev. destruct (inline c) eqn:Hi.
    - rewrite filter_all.
      + apply tev_body_method. unfold inline in Hi. apply andb_prop in Hi. tauto.
      + intros e He. unfold isin. rewrite (in_tev_body c e He), id_inline, Hi; auto.
    - apply filter_none. intros e He. unfold isin. rewrite (in_tev_body c e He), id_inline, Hi; auto.
  Qed.

  Lemma pev_dispatch c : In c calls -> pev (dispatch c) = if inline c then handler_events c else [].
  Proof.
    intros Hc. destruct (dispatch_cases c) as [[-> _]|[-> [Hs _]]]; [now apply pev_body|].
    unfold inline. now rewrite Hs.
  Qed.

  Lemma flat_map_pending l : incl l calls ->
    flat_map (fun c => pev (dispatch c)) l = flat_map handler_events (filter inline l).
  Proof.
    induction l as [|c l IH]; intros Hi; cbn [flat_map filter]; [reflexivity|].
    rewrite pev_dispatch by (apply Hi; now left). rewrite IH by (intros x Hx; apply Hi; now right).
    destruct (inline c); reflexivity.
  Qed.

  (* the inline events already logged, those the dispatch task will emit before it receives again, and those of the
     calls it has not received yet make up the sequential execution; no other task, running or to be spawned, emits
     an inline event or receives *)
  Record OInv (s : sys) : Prop := {
    o_sub : incl (inbox s ++ future s) calls;
    o_main : filter isin (log s) ++ pev (prog (tasks s 0)) ++ flat_map (fun c => pev (dispatch c)) (inbox s ++ future s)
             = sequential_order calls;
    o_others : forall t, t <> 0 -> pev (prog (tasks s t)) = [] /\ ~ In IRecv (prog (tasks s t));
    o_spawn : forall t c, In (ISpawn c) (prog (tasks s t)) -> pev (body c) = []
  }.

  Lemma oinv_init : OInv (init calls).
  Proof.
    split; cbn.
    - apply incl_refl.
    - rewrite flat_map_pending by apply incl_refl. reflexivity.
    - intros t Ht. destruct (Nat.eqb_spec t 0); [lia|]. cbn. split; [reflexivity|tauto].
    - intros t c. destruct (Nat.eqb_spec t 0); cbn; intuition discriminate.
  Qed.

  Lemma oinv_pop s t i r tk' n lk lg : OInv s -> prog (tasks s t) = i :: r -> prog tk' = r -> log s ++ emits i = lg ->
    OInv {| tasks := updt (tasks s) t tk'; ntasks := n; locks := lk; future := future s; inbox := inbox s; log := lg |}.
  Proof.
    intros [Hs Hm Ho Hsp] Hp Hk <-.
    assert (Hpev : pev (prog (tasks s t)) = filter isin (emits i) ++ pev r) by (rewrite Hp; apply pev_cons).
    split; cbn [tasks inbox future log]; [exact Hs| | |].
    - rewrite filter_app, <- app_assoc. destruct (Nat.eq_dec t 0) as [->|Hne].
      + rewrite updt_same, Hk. rewrite Hpev, <- app_assoc in Hm. exact Hm.
      + rewrite updt_other by auto. destruct (Ho t Hne) as [H1 _]. rewrite Hpev in H1. apply app_eq_nil in H1.
        destruct H1 as [-> _]. exact Hm.
    - intros u Hu. unfold updt. destruct (Nat.eqb_spec u t) as [->|]; [|now apply Ho]. destruct (Ho t Hu) as [H1 H2].
      rewrite Hk. rewrite Hpev in H1. apply app_eq_nil in H1. split; [tauto|]. intros Hin. apply H2. rewrite Hp. now right.
    - intros u c. unfold updt. destruct (Nat.eqb_spec u t) as [->|]; [|apply Hsp]. rewrite Hk. intros Hin.
      apply (Hsp t). rewrite Hp. now right.
  Qed.

  Lemma oinv_new s u c n lk : OInv s -> u <> 0 -> pev (body c) = [] ->
    OInv {| tasks := updt (tasks s) u {| prog := body c; held := [] |}; ntasks := n; locks := lk; future := future s;
            inbox := inbox s; log := log s |}.
  Proof.
    intros [Hs Hm Ho Hsp] Hu Hb. split; cbn [tasks inbox future log]; [exact Hs|now rewrite updt_other by auto| |].
    - intros v Hv. unfold updt. destruct (Nat.eqb_spec v u); [split; [exact Hb|apply body_no_recv]|now apply Ho].
    - intros v c'. unfold updt. destruct (Nat.eqb_spec v u); [|apply Hsp]. intros Hin. exfalso. eapply body_no_spawn; eauto.
  Qed.

  Lemma oinv_step s lb s' : wf s -> dinv s -> OInv s -> step lb s = Some s' -> OInv s'.
  Proof.
    intros Hwf [Ht _] HI Hst. destruct lb as [t|].
    2:{ apply step_arrive in Hst. destruct Hst as [c [r [Hf ->]]]. destruct HI as [Hs Hm Ho Hsp]. rewrite Hf in Hs, Hm.
        split; cbn [tasks inbox future log]; rewrite <- ?app_assoc; assumption. }
    destruct (step_cstep _ _ _ Hst) as [i r lk lg Hp _ _ _ _ Hl|l r lk Hp _ _|c r Hp|c q r Hp Hib].
    - now apply (oinv_pop s t i r).
    - destruct HI as [Hs Hm Ho Hsp].
      split; cbn [tasks inbox future log]; [exact Hs|now rewrite updt_id|intros u; rewrite updt_id; apply Ho|intros u; rewrite updt_id; apply Hsp].
    - apply (oinv_new {| tasks := updt (tasks s) t {| prog := r; held := held (tasks s t) |}; ntasks := ntasks s;
                         locks := locks s; future := future s; inbox := inbox s; log := log s |}).
      + apply (oinv_pop s t (ISpawn c) r); [exact HI|exact Hp|reflexivity|apply app_nil_r].
      + destruct Hwf. lia.
      + apply (o_spawn s HI t). rewrite Hp. now left.
    - destruct HI as [Hs Hm Ho Hsp].
      assert (t = 0) as ->.
      { destruct (Nat.eq_dec t 0) as [|n]; [assumption|]. exfalso. destruct (Ho t n) as [_ H2]. apply H2. rewrite Hp. now left. }
      rewrite Hp in Ht, Hm. apply tail_recv in Ht. subst r. rewrite Hib in Hs, Hm. cbn [app flat_map] in Hs, Hm.
      assert (Hc : In c calls) by (apply Hs; now left).
      split; cbn [tasks inbox future log].
      + intros x Hx. apply Hs. now right.
      + rewrite updt_same. cbn [prog]. rewrite pev_app. unfold pev at 1 in Hm. unfold pev at 2. cbn [tev filter app] in *.
        rewrite app_nil_r. exact Hm.
      + intros u Hu. rewrite updt_other by assumption. now apply Ho.
      + intros u c'. unfold updt. destruct (Nat.eqb_spec u 0) as [->|]; [cbn [prog]|apply Hsp].
        rewrite in_app_iff. intros [Hin|Hin]; [|cbn in Hin; intuition discriminate].
        apply in_spawn_dispatch in Hin. destruct Hin as [-> [Hsw _]]. rewrite pev_body by assumption.
        unfold inline. now rewrite Hsw.
  Qed.

  Lemma oinv_reach tr s : reach calls tr s -> OInv s.
  Proof. apply reach_inv; [apply oinv_init|]. intros; eapply oinv_step; eauto using wf_reach, dinv_reach. Qed.

  (* the sub-log of the inline calls is a prefix of their sequential execution in arrival order *)
  Theorem order_invariant tr s : reach calls tr s -> prefix_of (inline_log calls (log s)) (sequential_order calls).
  Proof. intros Hr. eexists. exact (o_main s (oinv_reach tr s Hr)). Qed.

  (* ... and when nothing is left to run, all of it has happened *)
  Theorem order_final tr s : reach calls tr s -> all_done s -> inline_log calls (log s) = sequential_order calls.
  Proof.
    intros Hr [Hd [Hf Hi]]. pose proof (o_main s (oinv_reach tr s Hr)) as Hm.
    rewrite Hd, Hf, Hi in Hm. cbn in Hm. rewrite app_nil_r in Hm. exact Hm.
  Qed.
End Order.
