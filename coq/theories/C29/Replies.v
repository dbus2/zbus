(* C29/Replies.v — conservation of instructions: what is in the log plus what the programs (running, spawned later,
   or not yet received) will still emit is constant.  Consequence: no reply is ever sent twice, and when every task
   has finished every call of the burst has got exactly one reply. *)
From ZV Require Import Base.Bytes C29.Model C29.Spec C29.Steps C29.Order.

Fixpoint tsum (F : nat -> nat) (n : nat) : nat := match n with 0 => 0 | S k => tsum F k + F k end.

Lemma tsum_ext n F G : (forall u, u < n -> F u = G u) -> tsum F n = tsum G n.
Proof. induction n as [|n IH]; intros H; cbn; [reflexivity|]. rewrite IH by (intros; apply H; lia). rewrite H by lia. reflexivity. Qed.

Lemma tsum_le n F G : (forall u, u < n -> F u <= G u) -> tsum F n <= tsum G n.
Proof.
  induction n as [|n IH]; intros H; cbn; [lia|]. specialize (IH ltac:(intros; apply H; lia)). pose proof (H n ltac:(lia)). lia.
Qed.

Lemma tsum_upd n F G t : t < n -> (forall u, u <> t -> G u = F u) -> tsum G n + F t = tsum F n + G t.
Proof.
  induction n as [|n IH]; intros Hlt Hoth; [lia|]. cbn. destruct (Nat.eq_dec t n) as [->|Hne].
  - rewrite (tsum_ext n G F) by (intros u Hu; apply Hoth; lia). lia.
  - rewrite (Hoth n) by lia. assert (t < n) by lia. specialize (IH H Hoth). lia.
Qed.

Lemma tsum_updt (F : task -> nat) f t v n : t < n ->
  tsum (fun u => F (updt f t v u)) n + F (f t) = tsum (fun u => F (f u)) n + F v.
Proof.
  intros Hlt. pose proof (tsum_upd n (fun u => F (f u)) (fun u => F (updt f t v u)) t Hlt) as H. cbn beta in H.
  rewrite updt_same in H. apply H. intros u Hu. now rewrite updt_other.
Qed.

Lemma tsum_zero n F : (forall u, F u = 0) -> tsum F n = 0.
Proof. intros H. induction n; cbn; [reflexivity|]. rewrite IHn, H. reflexivity. Qed.

Section Total.
  Variable wt : instr -> nat.

  Definition wsum (p : list instr) : nat := list_sum (map wt p).
  Definition wdeep (i : instr) : nat := match i with ISpawn c => wt i + wsum (body c) | _ => wt i end.
  Definition W (p : list instr) : nat := list_sum (map wdeep p).

  Lemma W_app p q : W (p ++ q) = W p + W q.
  Proof. unfold W. now rewrite map_app, list_sum_app. Qed.

  Lemma W_flat p : forallb flat_instr p = true -> W p = wsum p.
  Proof.
    unfold W, wsum. induction p as [|i p IH]; [reflexivity|]. intros H. cbn [forallb] in H.
    apply andb_prop in H. destruct H as [Hi Hp]. specialize (IH Hp). simpl. rewrite IH.
    destruct i; cbn in Hi; try discriminate; reflexivity.
  Qed.

  Definition pendW (s : sys) : nat := list_sum (map (fun c => W (dispatch c)) (inbox s ++ future s)).
  Definition total (s : sys) : nat := tsum (fun t => W (prog (tasks s t))) (ntasks s) + pendW s.

  (* one lemma per case of cstep; a popped ISpawn is counted with the body it starts *)
  Lemma total_pop s t i r tk' lk lg : t < ntasks s -> prog (tasks s t) = i :: r -> prog tk' = r ->
    total {| tasks := updt (tasks s) t tk'; ntasks := ntasks s; locks := lk; future := future s; inbox := inbox s; log := lg |}
    + wdeep i = total s.
  Proof.
    intros Hlt Hp Hk. unfold total, pendW. cbn [tasks ntasks inbox future].
    pose proof (tsum_updt (fun tk => W (prog tk)) (tasks s) t tk' (ntasks s) Hlt) as HU. cbn beta in HU.
    rewrite Hk, Hp in HU. change (W (i :: r)) with (wdeep i + W r) in HU. lia.
  Qed.

  Lemma total_wait s t lk :
    total {| tasks := updt (tasks s) t (tasks s t); ntasks := ntasks s; locks := lk; future := future s; inbox := inbox s;
             log := log s |} = total s.
  Proof.
    unfold total, pendW. cbn [tasks ntasks inbox future]. f_equal. apply tsum_ext. intros u _. now rewrite updt_id.
  Qed.

  Lemma total_spawn s t c r : t < ntasks s -> prog (tasks s t) = ISpawn c :: r ->
    total {| tasks := updt (updt (tasks s) t {| prog := r; held := held (tasks s t) |}) (ntasks s) {| prog := body c; held := [] |};
             ntasks := S (ntasks s); locks := locks s; future := future s; inbox := inbox s; log := log s |}
    + wt (ISpawn c) = total s.
  Proof.
    intros Hlt Hp.
    pose proof (total_pop s t _ r {| prog := r; held := held (tasks s t) |} (locks s) (log s) Hlt Hp eq_refl) as HT.
    unfold total, pendW in HT |- *. cbn [tasks ntasks inbox future tsum wdeep] in HT |- *.
    rewrite updt_same. cbn [prog]. rewrite (W_flat (body c) (flat_body c)).
    rewrite (tsum_ext (ntasks s) _ (fun u => W (prog (updt (tasks s) t {| prog := r; held := held (tasks s t) |} u))))
      by (intros u Hu; rewrite updt_other by lia; reflexivity).
    lia.
  Qed.

  Lemma total_recv s t c q r : t < ntasks s -> prog (tasks s t) = IRecv :: r -> inbox s = c :: q ->
    total {| tasks := updt (tasks s) t {| prog := dispatch c ++ IRecv :: r; held := held (tasks s t) |};
             ntasks := ntasks s; locks := locks s; future := future s; inbox := q; log := log s |}
    = total s.
  Proof.
    intros Hlt Hp Hib. unfold total, pendW. cbn [tasks ntasks inbox future]. rewrite Hib. cbn [app map].
    change (list_sum (W (dispatch c) :: ?l)) with (W (dispatch c) + list_sum l).
    pose proof (tsum_updt (fun tk => W (prog tk)) (tasks s) t
                  {| prog := dispatch c ++ IRecv :: r; held := held (tasks s t) |} (ntasks s) Hlt) as HU.
    cbn beta in HU. rewrite Hp in HU. cbn [prog] in HU. rewrite W_app in HU. lia.
  Qed.

  Lemma total_arrive s s' : step LArrive s = Some s' -> total s' = total s /\ log s' = log s.
  Proof.
    intros H. apply step_arrive in H. destruct H as [c [r [Hf ->]]]. unfold total, pendW.
    cbn [tasks ntasks inbox future log]. rewrite Hf. rewrite <- app_assoc. cbn [app]. auto.
  Qed.

  Lemma total_done s : all_done s -> total s = 0.
  Proof.
    intros [Hd [Hf Hi]]. unfold total, pendW. rewrite Hf, Hi. cbn. rewrite Nat.add_0_r.
    apply tsum_zero. intros u. now rewrite Hd.
  Qed.

  Lemma total_init calls : total (init calls) = wt IRecv + list_sum (map (fun c => W (dispatch c)) calls).
  Proof. unfold total, pendW. cbn [init tasks ntasks inbox future tsum app]. cbn. lia. Qed.
End Total.

Lemma count_ev_app e a b : count_ev e (a ++ b) = count_ev e a + count_ev e b.
Proof. induction a as [|x a IH]; cbn; [reflexivity|]. rewrite IH. lia. Qed.

Definition ind (e : ev) (i : instr) : nat := count_ev e (emits i).

Lemma count_conserved calls e tr s : reach calls tr s ->
  count_ev e (log s) + total (ind e) s = total (ind e) (init calls).
Proof.
  revert tr s. apply reach_inv; [reflexivity|]. intros tr s lb s' Hr Hc Hst. pose proof (wf_reach _ _ _ Hr) as Hw.
  destruct lb as [t|].
  2:{ destruct (total_arrive (ind e) s s' Hst) as [-> ->]. exact Hc. }
  pose proof (step_live _ _ _ Hw Hst) as Hlt.
  destruct (step_cstep _ _ _ Hst) as [i r lk lg Hp Hns _ _ _ <-|l r lk Hp _ _|c r Hp|c q r Hp Hib]; cbn [log].
  - pose proof (total_pop (ind e) s t i r {| prog := r; held := held_after i (held (tasks s t)) |} lk (log s ++ emits i)
                  Hlt Hp eq_refl) as HT.
    rewrite count_ev_app.
    replace (wdeep (ind e) i) with (count_ev e (emits i)) in HT by (destruct i; try reflexivity; now destruct (Hns c)).
    lia.
  - now rewrite total_wait.
  - pose proof (total_spawn (ind e) s t c r Hlt Hp) as HT. change (ind e (ISpawn c)) with 0 in HT. lia.
  - now rewrite (total_recv (ind e) s t c q r).
Qed.

Lemma wsum_app wt p q : wsum wt (p ++ q) = wsum wt p + wsum wt q.
Proof. unfold wsum. now rewrite map_app, list_sum_app. Qed.

Lemma wsum_ind_tev e p : wsum (ind e) p = count_ev e (tev p).
Proof.
  unfold wsum. induction p as [|i p IH]; [reflexivity|].
  change (list_sum (map (ind e) (i :: p))) with (ind e i + list_sum (map (ind e) p)). rewrite IH, tev_cons, count_ev_app.
  reflexivity.
Qed.

Lemma reply_in_handler n c : count_ev (EvR n) (tev (handler c)) = 0.
Proof.
  rewrite tev_handler. rewrite !count_ev_app. cbn. unfold op_events.
  induction (seq 0 (length (c_script c))) as [|x l IH]; cbn; lia.
Qed.

Definition rwt (c : call) : nat := if wants_reply c then 1 else 0.

Lemma replies_in_body n c : count_ev (EvR n) (tev (body c)) = if Nat.eqb (c_id c) n then rwt c else 0.
Proof.
  pose proof (reply_in_handler n c) as Hh. rewrite tev_body. unfold reply_evs, rwt, wants_reply.
  destruct (c_kind c), (c_noreply c); rewrite ?count_ev_app, ?Hh; cbn [count_ev ev_eqb negb]; destruct (Nat.eqb (c_id c) n); lia.
Qed.

Lemma replies_in_dispatch n c : W (ind (EvR n)) (dispatch c) = if Nat.eqb (c_id c) n then rwt c else 0.
Proof.
  rewrite <- replies_in_body, <- wsum_ind_tev. destruct (dispatch_cases c) as [[-> _]|[-> _]].
  - rewrite W_app, (W_flat _ _ (flat_body c)). reflexivity.
  - cbn. lia.
Qed.

(* how many replies the code of a burst contains for call id n: one per call carrying that id *)
Definition ids_eq (n : nat) (calls : list call) : nat := list_sum (map (fun c => if Nat.eqb (c_id c) n then rwt c else 0) calls).

Lemma total_replies_init n calls : total (ind (EvR n)) (init calls) = ids_eq n calls.
Proof.
  rewrite total_init. change (ind (EvR n) IRecv) with 0. cbn [Nat.add]. unfold ids_eq. f_equal.
  induction calls as [|c l IH]; [reflexivity|]. cbn [map]. now rewrite replies_in_dispatch, IH.
Qed.

Lemma list_sum_cons a l : list_sum (a :: l) = a + list_sum l.
Proof. reflexivity. Qed.

Lemma ids_eq_absent n calls : ~ In n (map c_id calls) -> ids_eq n calls = 0.
Proof.
  unfold ids_eq. induction calls as [|c l IH]; [reflexivity|]. cbn [map]. intros H. rewrite list_sum_cons, IH by (cbn in H; tauto).
  destruct (Nat.eqb_spec (c_id c) n); [exfalso; apply H; now left|reflexivity].
Qed.

Lemma ids_eq_nodup calls c : NoDup (map c_id calls) -> In c calls -> ids_eq (c_id c) calls = rwt c.
Proof.
  unfold ids_eq. induction calls as [|x l IH]; [intros _ []|]. cbn [map]. intros Hnd Hin.
  inversion Hnd as [|? ? Hx Hl]; subst. rewrite list_sum_cons. destruct Hin as [->|Hin].
  - rewrite Nat.eqb_refl. fold (ids_eq (c_id c) l). rewrite ids_eq_absent by assumption. lia.
  - destruct (Nat.eqb_spec (c_id x) (c_id c)) as [E|E]; [exfalso; apply Hx; rewrite E; now apply in_map|].
    rewrite IH by assumption. lia.
Qed.

Lemma ids_eq_le n calls : NoDup (map c_id calls) -> ids_eq n calls <= if memn n (map c_id calls) then 1 else 0.
Proof.
  intros Hnd. destruct (memn n (map c_id calls)) eqn:Hm.
  - apply memn_in in Hm. apply in_map_iff in Hm. destruct Hm as [c [<- Hc]]. rewrite ids_eq_nodup by assumption.
    unfold rwt. destruct (wants_reply c); lia.
  - rewrite ids_eq_absent; [lia|]. intros H. apply memn_in in H. congruence.
Qed.

(* at most one reply per call, none for ids that were never sent — at every moment *)
Theorem replies_at_most_once calls tr s n : NoDup (map c_id calls) -> reach calls tr s ->
  count_ev (EvR n) (log s) <= if memn n (map c_id calls) then 1 else 0.
Proof.
  intros Hnd Hr. pose proof (count_conserved calls (EvR n) tr s Hr) as H.
  rewrite total_replies_init in H. pose proof (ids_eq_le n calls Hnd). lia.
Qed.

(* when everything has finished: exactly one each, and none for the calls that carry NO_REPLY_EXPECTED *)
Theorem replies_all calls tr s : NoDup (map c_id calls) -> reach calls tr s -> all_done s ->
  replies_ok calls (log s) = true.
Proof.
  intros Hnd Hr Hd. unfold replies_ok. apply forallb_forall. intros c Hc. apply Nat.eqb_eq.
  pose proof (count_conserved calls (EvR (c_id c)) tr s Hr) as H.
  rewrite total_replies_init, (ids_eq_nodup calls c Hnd Hc), (total_done _ s Hd) in H. unfold rwt in H. lia.
Qed.

(* a call that does not want a reply never gets one *)
Theorem noreply_never calls tr s c : NoDup (map c_id calls) -> reach calls tr s -> In c calls -> wants_reply c = false ->
  count_ev (EvR (c_id c)) (log s) = 0.
Proof.
  intros Hnd Hr Hc Hw. pose proof (count_conserved calls (EvR (c_id c)) tr s Hr) as H.
  rewrite total_replies_init, (ids_eq_nodup calls c Hnd Hc) in H. unfold rwt in H. rewrite Hw in H. lia.
Qed.
