(* C29/Measure.v — every run is finite, with an explicit bound: each step consumes an instruction, sets WRITER_BIT,
   receives a message or lets one arrive, and each of these decreases a measure by exactly one.  Together with
   [progress] (some step is enabled until everything has finished) this is the liveness half of "every call gets its
   reply": however the scheduler chooses, after at most [run_bound calls] steps nothing is left to do. *)
From ZV Require Import Base.Bytes C29.Model C29.Steps C29.Replies.

(* weight of an instruction: a write acquisition takes two steps *)
Definition wt2 (i : instr) : nat := match i with IWrite _ => 2 | _ => 1 end.

Definition wflag (w : option (nat * bool)) (t : nat) : nat :=
  match w with Some (u, false) => if Nat.eqb u t then 1 else 0 | _ => 0 end.

(* 1 if task t owns the writer mutex of the lock it is asking for and waits for the readers to leave *)
Definition pend (s : sys) (t : nat) : nat :=
  match prog (tasks s t) with
  | IWrite l :: _ => wflag (writer (locks s l)) t
  | _ => 0
  end.

(* 1 if the next step of task t takes the writer mutex of the lock it is asking for *)
Definition begins (s : sys) (t : nat) : nat :=
  match prog (tasks s t) with
  | IWrite l :: _ => match writer (locks s l) with None => 1 | Some _ => 0 end
  | _ => 0
  end.

Definition P (s : sys) : nat := tsum (pend s) (ntasks s).
Definition mu (s : sys) : nat := total wt2 s + length (inbox s) + 2 * length (future s).
Definition run_bound (calls : list call) : nat := total wt2 (init calls) + 2 * length calls.

Lemma pend_le_W s t : pend s t <= W wt2 (prog (tasks s t)).
Proof.
  unfold pend. destruct (prog (tasks s t)) as [|i r]; [lia|]. destruct i; try lia.
  change (W wt2 (IWrite l :: r)) with (2 + W wt2 r). unfold wflag.
  destruct (writer (locks s l)) as [[u [|]]|]; try lia. destruct (Nat.eqb u t); lia.
Qed.

Lemma P_le_total s : P s <= total wt2 s.
Proof.
  unfold P, total.
  pose proof (tsum_le (ntasks s) (pend s) (fun t => W wt2 (prog (tasks s t))) ltac:(intros; apply pend_le_W)). lia.
Qed.

(* instructions and messages: every step of a task uses one up, except that a write acquisition uses none when
   it takes the writer mutex and two when it completes *)
Lemma mu_step s t s' : t < ntasks s -> cstep s t s' -> mu s' + 1 + pend s t = mu s + begins s t.
Proof.
  intros Hlt [i r lk lg Hp Hns _ Hw _ _|l r lk Hp Hw _|c r Hp|c q r Hp Hib]; unfold mu, pend, begins; rewrite Hp;
    cbn [inbox future].
  - pose proof (total_pop wt2 s t i r {| prog := r; held := held_after i (held (tasks s t)) |} lk lg Hlt Hp eq_refl) as HT.
    destruct i; cbn [wdeep wt2] in HT; try lia; [|now destruct (Hns c)].
    rewrite (Hw l eq_refl). cbn [wflag]. rewrite Nat.eqb_refl. lia.
  - rewrite total_wait, Hw. cbn [wflag]. lia.
  - pose proof (total_spawn wt2 s t c r Hlt Hp) as HT. cbn [wt2] in HT. lia.
  - rewrite (total_recv wt2 s t c q r Hlt Hp Hib), Hib. cbn [length]. lia.
Qed.

Lemma wflag_eq w w' u : (w = Some (u, false) <-> w' = Some (u, false)) -> wflag w u = wflag w' u.
Proof.
  intros [H1 H2]. unfold wflag.
  destruct w as [[x [|]]|], w' as [[y [|]]|]; try reflexivity;
    try destruct (Nat.eqb_spec x u) as [->|]; try destruct (Nat.eqb_spec y u) as [->|]; try reflexivity;
    try specialize (H1 eq_refl); try specialize (H2 eq_refl); congruence.
Qed.

Lemma pend_other s s' u : tasks s' u = tasks s u ->
  (forall m, writer (locks s' m) = Some (u, false) <-> writer (locks s m) = Some (u, false)) -> pend s' u = pend s u.
Proof.
  intros Ht Hm. unfold pend. rewrite Ht. destruct (prog (tasks s u)) as [|[] ?]; try reflexivity. apply wflag_eq, Hm.
Qed.

(* after t has completed its head instruction it is not pending: a flag for t needs the OLD head to be that IWrite *)
Lemma pend_popped s s' t i r : pinv s -> prog (tasks s t) = i :: r -> prog (tasks s' t) = r ->
  (forall l, writer (locks s' l) = Some (t, false) -> writer (locks s l) = Some (t, false) /\ i <> IWrite l) ->
  pend s' t = 0.
Proof.
  intros K Hp Hk Hw. unfold pend. rewrite Hk.
  destruct r as [|j r1]; [reflexivity|]. destruct j; try reflexivity. unfold wflag.
  destruct (writer (locks s' l)) as [[u [|]]|] eqn:E; try reflexivity. destruct (Nat.eqb_spec u t); [subst u|reflexivity].
  exfalso. destruct (Hw l E) as [E0 Hd]. destruct (K t l E0) as [r' Hr']. rewrite Hp in Hr'. inversion Hr'; subst. now apply Hd.
Qed.

(* only t's own flag changes; a task that appears is not pending *)
Lemma P_upd s s' t : wf s -> t < ntasks s -> ntasks s' = ntasks s \/ ntasks s' = S (ntasks s) ->
  (forall u, u <> t -> pend s' u = pend s u) -> pend s' t = begins s t -> P s' + pend s t = P s + begins s t.
Proof.
  intros [_ Hidle] Hlt Hn Hoth <-. unfold P. destruct Hn as [-> | ->]; cbn [tsum]; [now apply tsum_upd|].
  rewrite (Hoth (ntasks s)) by lia. unfold pend at 2. rewrite (Hidle _ (le_n _)). cbn [prog idle]. rewrite Nat.add_0_r. now apply tsum_upd.
Qed.

(* pending writers: one more when a task takes a writer mutex, one less when it completes the acquisition *)
Lemma P_step s t s' : wf s -> pinv s -> t < ntasks s -> cstep s t s' -> P s' + pend s t = P s + begins s t.
Proof.
  intros Hwf K Hlt [i r lk lg Hp _ _ Hw Hfl _|l r lk Hp Hw Hfl|c r Hp|c q r Hp Hib]; (apply P_upd; auto; [intros u Hu|]).
  - apply pend_other; [cbn; now rewrite updt_other|]. intros m. cbn [locks]. rewrite Hfl.
    split; [tauto|]. intros E. split; [exact E|]. intros ->. rewrite (Hw m eq_refl) in E. congruence.
  - transitivity 0.
    + eapply (pend_popped s _ t i r K Hp); [cbn; now rewrite updt_same|]. intros l. apply Hfl.
    + unfold begins. rewrite Hp. destruct i; try reflexivity. now rewrite (Hw l eq_refl).
  - apply pend_other; [cbn; now rewrite updt_id|]. intros m. cbn [locks]. rewrite Hfl. intuition congruence.
  - unfold begins, pend. cbn [tasks locks]. rewrite updt_id, Hp, Hw.
    rewrite (proj2 (Hfl l t) (or_intror (conj eq_refl eq_refl))). cbn. now rewrite Nat.eqb_refl.
  - destruct (Nat.eq_dec u (ntasks s)) as [->|Hne]; [|apply pend_other; [cbn; now rewrite !updt_other|reflexivity]].
    destruct Hwf as [_ Hidle]. unfold pend. cbn [tasks]. rewrite updt_same, (Hidle _ (le_n _)). cbn [prog idle].
    unfold body. destruct (c_kind c); reflexivity.
  - transitivity 0; [|unfold begins; now rewrite Hp].
    eapply (pend_popped s _ t _ r K Hp); [cbn; rewrite updt_other by lia; now rewrite updt_same|].
    intros l E. split; [exact E|discriminate].
  - apply pend_other; [cbn; now rewrite updt_other|reflexivity].
  - unfold begins, pend. cbn [tasks]. now rewrite updt_same, Hp.
Qed.

(* exactly one unit per step *)
Lemma measure_step s lb s' : wf s -> pinv s -> step lb s = Some s' -> mu s' + P s + 1 = mu s + P s'.
Proof.
  intros Hwf K Hst. destruct lb as [t|].
  - pose proof (step_live _ _ _ Hwf Hst) as Hlt. apply step_cstep in Hst.
    pose proof (mu_step _ _ _ Hlt Hst). pose proof (P_step _ _ _ Hwf K Hlt Hst). lia.
  - destruct (total_arrive wt2 s s' Hst) as [Ht _]. apply step_arrive in Hst. destruct Hst as [c [q [Hf ->]]].
    unfold mu, P, pend. rewrite Ht. cbn [inbox future ntasks tasks locks]. rewrite Hf, app_length. cbn [length]. lia.
Qed.

Lemma runs_measure tr : forall s s', wf s -> pinv s -> runs tr s = Some s' -> length tr + mu s' + P s = mu s + P s'.
Proof.
  induction tr as [|lb tr IH]; intros s s' Hw K Hr; cbn in Hr.
  - inversion Hr; subst. cbn. lia.
  - destruct (step lb s) as [s1|] eqn:E; [|discriminate]. pose proof (measure_step _ _ _ Hw K E).
    specialize (IH s1 s' (wf_step _ _ _ Hw E) (pinv_step _ _ _ Hw K E) Hr). cbn [length]. lia.
Qed.

(* every run is at most [run_bound calls] steps long *)
Theorem run_length_bound calls tr s : reach calls tr s -> length tr <= run_bound calls.
Proof.
  intros Hr. pose proof (runs_measure tr _ _ (wf_init calls) (pinv_init calls) Hr) as H. pose proof (P_le_total s).
  unfold mu, run_bound, P in *. cbn [init inbox future ntasks length tsum] in H.
  change (pend (init calls) 0) with 0 in H. lia.
Qed.
