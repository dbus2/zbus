(* C29/Proofs.v — the statements of Properties/C29.v (and the parts C30 reuses) other than arrival order (Order.v), assembled
   from Progress.v + Invariant.v (lock-order discipline => no deadlock) and Replies.v (conservation); the order oracle is sound;
   bursts of plain handlers are in the safe class; the replay verdicts of Judge.v are backed by runs; a worked burst. *)
From ZV Require Import Base.Bytes C29.Model C29.Spec C29.Steps C29.Order C29.Progress C29.Invariant C29.Replies
  C29.Exec C29.Judge C29.Safe.

(* ---- booleans of the oracle ---- *)
Lemma ev_eqb_eq a b : ev_eqb a b = true <-> a = b.
Proof.
  destruct a, b; cbn; try (split; [discriminate|congruence]); rewrite ?andb_true_iff, ?Nat.eqb_eq;
    split; intros H; try (inversion H; auto); try (destruct H; congruence); congruence.
Qed.

Lemma evl_eqb_eq a : forall b, evl_eqb a b = true -> a = b.
Proof.
  induction a as [|x a IH]; intros [|y b]; cbn; try discriminate; [reflexivity|].
  intros H. apply andb_prop in H. destruct H as [H1 H2]. apply ev_eqb_eq in H1. f_equal; auto.
Qed.

Lemma is_prefix_sound a : forall b, is_prefix a b = true -> prefix_of a b.
Proof.
  induction a as [|x a IH]; intros b H.
  - exists b. reflexivity.
  - destruct b as [|y b]; cbn in H; [discriminate|]. apply andb_prop in H. destruct H as [H1 H2].
    apply ev_eqb_eq in H1. subst y. destruct (IH b H2) as [rest Hr]. exists rest. cbn. now rewrite Hr.
Qed.

Lemma filter_prefix (f : ev -> bool) a b : prefix_of a b -> prefix_of (filter f a) (filter f b).
Proof. intros [rest <-]. exists (filter f rest). now rewrite filter_app. Qed.

Theorem oracle_sound calls l : order_ok calls l = true ->
  prefix_of (filter not_reply (inline_log calls l)) (filter not_reply (sequential_order calls)).
Proof. apply is_prefix_sound. Qed.

(* ---- no deadlock in the safe class ---- *)
Lemma rank_of_le calls l : rank_of calls l <= 3.
Proof. unfold rank_of. destruct (Nat.eqb l L_root); [lia|]. destruct (memn l (post calls)); [lia|]. destruct (is_user_iface l); lia. Qed.

Theorem safe_progress calls tr s : safe calls = true -> reach calls tr s ->
  (exists lb s', step lb s = Some s') \/ all_done s.
Proof.
  intros Hs Hr. apply (progress (rank_of calls) 3 (rank_of_le calls) s (wf_reach calls tr s Hr)).
  now apply (ok_reach (rank_of calls) calls tr).
Qed.

Theorem all_reply_thm calls tr s : NoDup (map c_id calls) -> safe calls = true -> reach calls tr s ->
  (forall n, count_ev (EvR n) (log s) <= if memn n (map c_id calls) then 1 else 0) /\
  ((exists lb s', step lb s = Some s') \/ (all_done s /\ replies_ok calls (log s) = true)).
Proof.
  intros Hnd Hs Hr. split.
  - intros n. now apply (replies_at_most_once calls tr s n).
  - destruct (safe_progress calls tr s Hs Hr) as [H|H]; [now left|right]. split; [assumption|].
    now apply (replies_all calls tr s).
Qed.

(* ---- method handlers that await, register, remove, emit are in the safe class ---- *)
Fixpoint root_after (h : bool) (p : list instr) : bool :=
  match p with
  | [] => h
  | i :: r =>
      match i with
      | IRead l | IWrite l => if Nat.eqb l L_root then root_after true r else root_after h r
      | IRUnlock l | IWUnlock l => if Nat.eqb l L_root then root_after false r else root_after h r
      | _ => root_after h r
      end
  end.

Lemma under_root_app p q : forall h, under_root h (p ++ q) = under_root h p ++ under_root (root_after h p) q.
Proof.
  induction p as [|i p IH]; intros h; cbn [app under_root root_after]; [reflexivity|].
  destruct i; try apply IH; destruct (Nat.eqb l L_root); try apply IH; destruct h; cbn; rewrite ?IH; reflexivity.
Qed.

Lemma root_after_app p q : forall h, root_after h (p ++ q) = root_after (root_after h p) q.
Proof.
  induction p as [|i p IH]; intros h; cbn [app root_after]; [reflexivity|].
  destruct i; try apply IH; destruct (Nat.eqb l L_root); apply IH.
Qed.

(* started without the root lock, p requests nothing while it holds it and ends without it *)
Definition quiet (p : list instr) : Prop := under_root false p = [] /\ root_after false p = false.

Lemma quiet_app p q : quiet p -> quiet q -> quiet (p ++ q).
Proof.
  intros [P1 P2] [Q1 Q2]. split; [rewrite under_root_app, P1, P2|rewrite root_after_app, P2]; assumption.
Qed.

Lemma quiet_taus n : quiet (repeat ITau n).
Proof. induction n as [|n IH]; [split; reflexivity|exact IH]. Qed.

Lemma plain_ops_quiet c ops : forallb plain_op ops = true -> forall j, quiet (c_ops c j ops).
Proof.
  induction ops as [|o r IH]; intros Hp j; cbn [c_ops]; [split; reflexivity|].
  cbn [forallb] in Hp. apply andb_prop in Hp. destruct Hp as [Ho Hr].
  apply quiet_app; [|now apply IH]. apply quiet_app; [|split; reflexivity].
  destruct o; try discriminate Ho; [apply quiet_taus|split; reflexivity..].
Qed.

Lemma plain_handler_quiet c : forallb plain_op (c_script c) = true -> quiet (handler c).
Proof.
  intros Hp. apply (quiet_app [_]); [split; reflexivity|]. apply quiet_app; [now apply plain_ops_quiet|split; reflexivity].
Qed.

Lemma iface_not_root k : Nat.eqb (L_iface k) L_root = false.
Proof. apply Nat.eqb_neq. unfold L_iface, L_root. lia. Qed.
Lemma props_not_root k : Nat.eqb (L_props k) L_root = false.
Proof. apply Nat.eqb_neq. unfold L_props, L_root. lia. Qed.
Lemma iface_is_user k : is_user_iface (L_iface k) = true.
Proof.
  unfold is_user_iface, L_iface. apply Nat.eqb_eq. rewrite Nat.add_comm, Nat.mul_comm, Nat.mod_add by lia. reflexivity.
Qed.
Lemma props_not_user k : is_user_iface (L_props k) = false.
Proof.
  unfold is_user_iface, L_props. apply Nat.eqb_neq. rewrite Nat.add_comm, Nat.mul_comm, Nat.mod_add by lia. cbn. lia.
Qed.

(* around the handler, a body takes the root lock only in the pair [IRead L_root; IRUnlock L_root] *)
Lemma plain_body_quiet c : plain_handler c = true -> quiet (body c).
Proof.
  unfold plain_handler, body. intros Hp. cbv zeta.
  destruct (c_kind c); try discriminate Hp; [..|split; reflexivity];
    apply plain_handler_quiet in Hp; destruct (c_noreply c);
    (apply quiet_app; [|apply quiet_app; [exact Hp|]]); try (apply quiet_app; [exact Hp|]).
  all: split; cbn [under_root root_after]; rewrite ?iface_not_root, ?props_not_root; reflexivity.
Qed.

Lemma handlers_post calls : handlers_only calls = true -> post calls = [].
Proof.
  unfold handlers_only, post. induction calls as [|c l IH]; cbn; [reflexivity|]. intros H. apply andb_prop in H.
  destruct H as [Hc Hl]. destruct (plain_body_quiet c Hc) as [-> _]. now apply IH.
Qed.

Section PlainDisc.
  Variable rank : lock -> nat.
  Hypothesis rank_root : rank L_root = 2.
  Hypothesis rank_iface : forall k, rank (L_iface k) = 1.
  Hypothesis rank_props : forall k, rank (L_props k) = 0.
  Variable sp : call -> bool.

  Lemma disc_taus H n q : disc_gen rank sp H (repeat ITau n ++ q) = disc_gen rank sp H q.
  Proof. induction n; cbn; auto. Qed.

  Lemma disc_rpair H l q : below rank H l = true -> disc_gen rank sp H (IRead l :: IRUnlock l :: q) = disc_gen rank sp H q.
  Proof. intros Hb. cbn [disc_gen]. rewrite Hb. unfold memlm. cbn [existsb remove_lm]. now rewrite lm_eqb_refl. Qed.
  Lemma disc_wpair H l q : below rank H l = true -> disc_gen rank sp H (IWrite l :: IWUnlock l :: q) = disc_gen rank sp H q.
  Proof. intros Hb. cbn [disc_gen]. rewrite Hb. unfold memlm. cbn [existsb remove_lm]. now rewrite lm_eqb_refl. Qed.

  Lemma disc_plain_ops c H ops : below rank H L_root = true -> forallb plain_op ops = true -> forall j q,
    disc_gen rank sp H (c_ops c j ops ++ q) = disc_gen rank sp H q.
  Proof.
    intros Hb. induction ops as [|o r IH]; intros Hp j q; cbn [c_ops app]; [reflexivity|].
    cbn [forallb] in Hp. apply andb_prop in Hp. destruct Hp as [Ho Hr]. rewrite <- app_assoc.
    unfold c_op. destruct o; cbn in Ho; try discriminate; [rewrite <- app_assoc, disc_taus|cbn [app]; rewrite disc_wpair by assumption..];
      cbn [app disc_gen]; now apply IH.
  Qed.

  Lemma disc_plain_handler c H q : below rank H L_root = true -> forallb plain_op (c_script c) = true ->
    disc_gen rank sp H (handler c ++ q) = disc_gen rank sp H q.
  Proof.
    intros Hb Hp. unfold handler. cbn [app disc_gen]. rewrite <- app_assoc. rewrite disc_plain_ops by assumption. reflexivity.
  Qed.

  (* runs disc_gen over instructions that are written out; the locks are compared by rank, through the three hypotheses *)
  Ltac norm :=
    repeat (progress (cbn [app disc_gen below forallb fst existsb remove_lm orb andb Nat.ltb Nat.leb]; unfold memlm;
                      rewrite ?lm_eqb_refl, ?rank_root, ?rank_iface, ?rank_props)).

  Lemma disc_plain_body c : plain_handler c = true -> disc_gen rank sp [] (body c) = Some [].
  Proof.
    unfold plain_handler, body. intros Hp. destruct (c_kind c); try discriminate Hp; [..|reflexivity].
    all: pose proof (fun H q Hb => disc_plain_handler c H q Hb Hp) as Hh; destruct (c_noreply c); norm.
    (* the handler runs holding interface and Properties locks only: all below the root lock *)
    all: rewrite !Hh by (norm; reflexivity); norm; reflexivity.
  Qed.
End PlainDisc.

(* every burst of method and property handlers that await / register / remove / emit respects the lock order *)
Theorem handlers_only_safe calls : handlers_only calls = true -> safe calls = true.
Proof.
  intros Hm. unfold safe, disciplined. apply forallb_forall. intros c Hc.
  assert (Hp : plain_handler c = true) by (unfold handlers_only in Hm; rewrite forallb_forall in Hm; auto).
  assert (Hr : rank_of calls L_root = 2) by reflexivity.
  assert (Hi : forall k, rank_of calls (L_iface k) = 1).
  { intros k. unfold rank_of. rewrite iface_not_root, (handlers_post calls Hm), iface_is_user. reflexivity. }
  assert (Hq : forall k, rank_of calls (L_props k) = 0).
  { intros k. unfold rank_of. rewrite props_not_root, (handlers_post calls Hm), props_not_user. reflexivity. }
  unfold disc_call, Progress.disc_run. destruct (dispatch_cases c) as [[-> _]|[-> _]]; cbn [app]; rewrite disc_rpair by reflexivity.
  - now rewrite (disc_plain_body (rank_of calls) Hr Hi Hq (body_ok (rank_of calls)) c Hp).
  - cbn [disc_gen]. unfold body_ok. now rewrite (disc_plain_body (rank_of calls) Hr Hi Hq (fun _ => false) c Hp).
Qed.

Lemma methods_are_handlers calls : methods_only calls = true -> handlers_only calls = true.
Proof.
  unfold methods_only, handlers_only. rewrite !forallb_forall. intros H c Hc. specialize (H c Hc).
  unfold plain_method in H. unfold plain_handler. destruct (c_kind c); try discriminate; assumption.
Qed.

Theorem methods_only_safe calls : methods_only calls = true -> safe calls = true.
Proof. intros H. apply handlers_only_safe. now apply methods_are_handlers. Qed.

(* ---- the verdicts of the two-phase check are backed by real runs of the model ---- *)
Lemma is_nil_eq {A} (l : list A) : is_nil l = true <-> l = [].
Proof. destruct l; split; easy. Qed.

Lemma all_done_b_iff s : wf s -> all_done_b s = true <-> all_done s.
Proof.
  intros [_ Hidle]. unfold all_done_b, all_done. rewrite !andb_true_iff, forallb_forall, !is_nil_eq. split.
  - intros [[Ht Hf] Hi]. repeat split; auto. intros t.
    destruct (Nat.lt_ge_cases t (ntasks s)); [apply is_nil_eq, Ht, in_seq; lia|now rewrite Hidle].
  - intros [Hp [Hf Hi]]. repeat split; auto. intros t _. apply is_nil_eq, Hp.
Qed.

Lemma none_enabled_sound s : wf s -> none_enabled s = true -> stuck s.
Proof.
  intros [_ Hidle] H. apply andb_prop in H. destruct H as [Ht Ha]. intros [t|].
  - destruct (Nat.lt_ge_cases t (ntasks s)) as [Hlt|Hge]; [|unfold step; now rewrite (Hidle t Hge)].
    rewrite forallb_forall in Ht. specialize (Ht t). rewrite in_seq in Ht.
    destruct (step (LTask t) s); [|reflexivity]. discriminate Ht. lia.
  - destruct (step LArrive s); [discriminate|reflexivity].
Qed.

(* a verdict that does not start with 'O' is not "OK" *)
Lemma not_ok (w : bytes) (Q : Prop) : match w with "O"%byte :: _ => False | _ => True end -> w = tokOK -> Q.
Proof. intros H ->. destruct H. Qed.

Lemma certify_done_sound calls obs tr : certify_done calls obs tr = tokOK ->
  exists s, reach calls tr s /\ filter is_soe (log s) = obs /\ all_done s.
Proof.
  unfold certify_done. destruct (runs tr (init calls)) as [s|] eqn:Hr; [|now apply not_ok].
  destruct (evl_eqb (soe (log s)) obs) eqn:He; cbn [negb]; [|now apply not_ok].
  destruct (all_done_b s) eqn:Hd; [|now apply not_ok].
  intros _. exists s. split; [exact Hr|]. split; [now apply evl_eqb_eq|]. apply all_done_b_iff; [eapply wf_reach|]; eassumption.
Qed.

Lemma certify_dead_sound calls rep obs tr : certify_dead calls rep obs tr = tokOK ->
  exists s, reach calls tr s /\ filter is_soe (log s) = obs /\ replies_match calls rep (log s) = true /\ stuck s /\ ~ all_done s.
Proof.
  unfold certify_dead. destruct (runs tr (init calls)) as [s|] eqn:Hr; [|now apply not_ok].
  destruct (evl_eqb (soe (log s)) obs) eqn:He; cbn [negb]; [|now apply not_ok].
  destruct (replies_match calls rep (log s)) eqn:Hm; cbn [negb]; [|now apply not_ok].
  destruct (none_enabled s) eqn:Hn; cbn [andb]; [|now apply not_ok].
  destruct (all_done_b s) eqn:Hd; cbn [negb]; [now apply not_ok|].
  intros _. exists s. pose proof (wf_reach calls tr s Hr) as Hw. split; [exact Hr|]. split; [now apply evl_eqb_eq|].
  split; [exact Hm|]. split; [now apply none_enabled_sound|]. intros H. apply (all_done_b_iff s Hw) in H. congruence.
Qed.

Theorem explains_ok_sound calls obs : explains_ok calls obs = tokOK ->
  exists tr s, reach calls tr s /\ filter is_soe (log s) = obs /\ all_done s.
Proof.
  unfold explains_ok. destruct (replay _ _ _ _) as [x|why n]; [|now apply not_ok].
  intros H. exists (rev (snd x)). now apply certify_done_sound.
Qed.

(* for a hang: a run into a state where nothing can step, calls are unfinished, and the replies sent are exactly
   those the peer has received *)
Lemma explains_hang_run calls rep obs : explains_hang calls rep obs = tokOK ->
  exists tr s, reach calls tr s /\ filter is_soe (log s) = obs /\ replies_match calls rep (log s) = true /\
               stuck s /\ ~ all_done s.
Proof.
  (* the fuel of the search plays no part; as a unary numeral in the goal it makes destruct slow *)
  unfold explains_hang. generalize 3000. intros fuel.
  destruct (replay _ _ _ _) as [x|why n]; [|now apply not_ok].
  destruct (fst (search rep 16 x fuel)) as [y|]; [|now apply not_ok].
  intros H. exists (rev (snd y)). now apply certify_dead_sound.
Qed.

Theorem explains_hang_sound calls rep obs : explains_hang calls rep obs = tokOK ->
  exists tr s, reach calls tr s /\ filter is_soe (log s) = obs /\ stuck s /\ ~ all_done s.
Proof. intros H. destruct (explains_hang_run calls rep obs H) as [tr [s [Hr [Ho [_ Hs]]]]]. now exists tr, s. Qed.

(* ---- non-vacuity: a burst with two inline calls (one &self, one &mut carrying NO_REPLY_EXPECTED; awaits and a registration), one spawned
   call and an unknown object, run to the end under two different schedules ---- *)
Definition ex_calls : list call :=
  [ {| c_id := 0; c_kind := KRef; c_if := 2; c_spawn := false; c_noreply := false; c_script := [OAwait 2; OAt] |};
    {| c_id := 1; c_kind := KMut; c_if := 0; c_spawn := true; c_noreply := false; c_script := [OAwait 1; ORemove] |};
    {| c_id := 2; c_kind := KMut; c_if := 2; c_spawn := false; c_noreply := true; c_script := [OAwait 3] |};
    {| c_id := 3; c_kind := KUnknown; c_if := 0; c_spawn := false; c_noreply := false; c_script := [] |} ].

Example ex_nodup : NoDup (map c_id ex_calls).
Proof. cbn. repeat constructor; cbn; intuition discriminate. Qed.

Example ex_safe : methods_only ex_calls = true /\ safe ex_calls = true.
Proof. split; vm_compute; reflexivity. Qed.

(* a schedule is checked by running it: the statement is a boolean, so the proof term stays small *)
Definition ex_check (calls : list call) (r : list label * sys) : bool :=
  match runs (fst r) (init calls) with
  | Some s => all_done_b s && evl_eqb (inline_log calls (log s)) (sequential_order calls) && replies_ok calls (log s)
  | None => false
  end.

Lemma ex_check_sound calls r : ex_check calls r = true ->
  exists tr s, reach calls tr s /\ all_done s /\ inline_log calls (log s) = sequential_order calls /\
               replies_ok calls (log s) = true.
Proof.
  unfold ex_check. destruct (runs (fst r) (init calls)) as [s|] eqn:Hr; [|discriminate]. intros H.
  apply andb_prop in H. destruct H as [H H3]. apply andb_prop in H. destruct H as [H1 H2].
  exists (fst r), s. split; [exact Hr|]. split; [apply all_done_b_iff; [eapply wf_reach; exact Hr|assumption]|].
  split; [now apply evl_eqb_eq|assumption].
Qed.

Example ex_run_fifo : ex_check ex_calls (auto_run 1000 (init ex_calls) []) = true.
Proof. vm_compute. reflexivity. Qed.

Example ex_run_lifo : ex_check ex_calls (auto_run_rev 1000 (init ex_calls) []) = true.
Proof. vm_compute. reflexivity. Qed.

(* the two schedules really differ: the spawned call 1 is interleaved differently with the inline ones *)
Example ex_runs_differ :
  evl_eqb (log (snd (auto_run 1000 (init ex_calls) []))) (log (snd (auto_run_rev 1000 (init ex_calls) []))) = false.
Proof. vm_compute. reflexivity. Qed.

Example ex_complete_run : exists tr s, reach ex_calls tr s /\ all_done s /\
  inline_log ex_calls (log s) = sequential_order ex_calls /\ replies_ok ex_calls (log s) = true.
Proof. exact (ex_check_sound _ _ ex_run_fifo). Qed.
