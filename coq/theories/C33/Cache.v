(* C33/Cache.v — property reads through ONE proxy instance with the default property cache: after a
   successful write (through any proxy: the server's signals are the same) a read through a proxy whose
   cache is already populated returns the written value, for the modes true / invalidates / false.
   (`const` may legitimately keep the first value.)  Over all descriptions, states and cache contents. *)
From ZV Require Import Base.Bytes Base.WinnowFacts C26.Desc C26.Tree C26.Msg C28.Model C26.Model C33.Model.
From ZV Require Import C28.Spec C33.Spec C26.Facts C28.Proofs C28.History C33.Proofs.

(* ---------------------------------------------------------------- the tree after a setter ran *)
Lemma upd_ifs_find iname vals l i :
  find (fun j => lbeq (id_name (in_desc j)) iname) l = Some i ->
  find (fun j => lbeq (id_name (in_desc j)) iname) (upd_ifs iname vals l) =
  Some {| in_desc := in_desc i; in_tag := in_tag i; in_vals := vals |}.
Proof.
  induction l as [|j l IH]; cbn [find upd_ifs map]; [discriminate|].
  destruct (lbeq (id_name (in_desc j)) iname) eqn:E.
  - intro H. inversion H; subst. cbn [in_desc]. now rewrite E.
  - intro H. rewrite E. apply IH. exact H.
Qed.

Lemma registered_upd root path iname vals i :
  registered root path iname = Some i ->
  registered (upd_at root (segs_of path) iname vals) path iname =
  Some {| in_desc := in_desc i; in_tag := in_tag i; in_vals := vals |}.
Proof.
  unfold registered. generalize (segs_of path) as segs. intro segs. revert root.
  induction segs as [|s r IH]; intro root; cbn [get_child upd_at].
  - unfold find_inst. cbn [node_ifs]. apply upd_ifs_find.
  - destruct (find_kid s (node_kids root)) as [c|] eqn:Ek; [|discriminate].
    cbn [get_child node_kids]. rewrite find_kid_set_same. apply IH.
Qed.

(* ---------------------------------------------------------------- the cache as an association list *)
Lemma clook_cset_same n v c : clook n (cset n v c) = Some v.
Proof. exact (assoc_set_same n v c). Qed.

Lemma clook_cset_other n m v c : lbeq n m = false -> clook m (cset n v c) = clook m c.
Proof. exact (assoc_set_other n m v c). Qed.

(* no cached value for an uncached name: true of every cache the model builds *)
Definition cache_wf (d : idesc) (vals : list (bytes * option val)) : Prop :=
  forall n x, is_uncached d n = true -> clook n vals <> Some (Some x).

Lemma uncached_iff d p :
  nodupb (map pd_name (id_props d)) = true -> In p (id_props d) ->
  is_uncached d (pd_name p) = (readable p && match pd_emits p with EFalse => true | _ => false end).
Proof.
  intros Hnd Hin. unfold is_uncached, uncached.
  destruct (readable p && match pd_emits p with EFalse => true | _ => false end) eqn:E.
  - apply existsb_exists. exists (pd_name p). split; [|apply lbeq_refl].
    apply in_map. apply filter_In. auto.
  - destruct (existsb _ _) eqn:X; [|reflexivity]. exfalso.
    apply existsb_exists in X as (n & Hn & Hl). apply lbeq_eq in Hl. subst n.
    apply in_map_iff in Hn as (q & Hq & Hqin). apply filter_In in Hqin as [Hqin Hqf].
    assert (q = p) as -> by (eapply (nodup_names_distinct pd_name); eauto). congruence.
Qed.

Lemma cache_wf_cset d n v c : cache_wf d c -> is_uncached d n = false -> cache_wf d (cset n v c).
Proof.
  intros Hw Hn m x Hm. destruct (lbeq n m) eqn:E.
  - apply lbeq_eq in E. subst m. congruence.
  - rewrite (clook_cset_other _ _ _ _ E). now apply Hw.
Qed.

Lemma fold_left_inv {A C} (P : A -> Prop) (f : A -> C -> A) l :
  (forall a x, P a -> P (f a x)) -> forall a, P a -> P (fold_left f l a).
Proof. intro H. induction l; cbn; auto. Qed.

Lemma cache_wf_update d changed inval c : cache_wf d c -> cache_wf d (cache_update d changed inval c).
Proof.
  intro Hw. unfold cache_update. apply fold_left_inv; [|apply fold_left_inv; [|exact Hw]]; intros acc x Ha.
  - destruct (is_uncached d (fst x)) eqn:E; [exact Ha|now apply cache_wf_cset].
  - destruct (is_uncached d x) eqn:E; [exact Ha|]. destruct (clook x acc); [now apply cache_wf_cset|exact Ha].
Qed.

Definition pcache_wf (d : idesc) (c : pcache) : Prop := match c with COk vals => cache_wf d vals | _ => True end.

(* the invariant: what the cache task does to a cache keeps it free of uncached names *)
Lemma pcache_wf_apply d path c m : pcache_wf d c -> pcache_wf d (cache_apply d path c m).
Proof.
  destruct c as [| |vals]; cbn [cache_apply pcache_wf]; auto. intro Hw.
  destruct (_ && _); [|exact Hw].
  (* one value at a time: all three at once are 12^3 cases *)
  destruct (sg_body m) as [|v1 l]; [exact Hw|]. destruct v1; try exact Hw.
  destruct l as [|v2 l]; [exact Hw|]. destruct v2; try exact Hw.
  destruct l as [|v3 l]; [exact Hw|]. destruct v3; try exact Hw. destruct l; [|exact Hw].
  destruct (lbeq s (id_name d)); [|exact Hw]. cbn [pcache_wf]. now apply cache_wf_update.
Qed.

Lemma clook_in n (l : list (bytes * option val)) v : clook n l = Some v -> In (n, v) l.
Proof.
  induction l as [|[k w] r IH]; cbn; [discriminate|]. destruct (lbeq k n) eqn:E.
  - intro H. inversion H; subst. apply lbeq_eq in E. subst. now left.
  - intro H. right. auto.
Qed.

Lemma cache_wf_filtered d (m : list (bytes * val)) :
  cache_wf d (map (fun e => (fst e, Some (snd e))) (filter (fun e => negb (is_uncached d (fst e))) m)).
Proof.
  intros n x Hn Hl. apply clook_in in Hl. apply in_map_iff in Hl as ([k w] & E & Hin). inversion E; subst.
  apply filter_In in Hin as [_ Hf]. cbn in Hf. rewrite Hn in Hf. discriminate.
Qed.

Section P.
  Variable bh : behaviour.

  (* what a successful typed write does: reply, signals and state as C28's specification says *)
  Lemma write_effects root path i p v :
    state_ok root ->
    registered root path (id_name (in_desc i)) = Some i ->
    find_prop (in_desc i) (pd_name p) = Some p -> writable p = true -> tv p = false ->
    has_ty v (pd_ty p) = true -> setter_error bh i p v = None ->
    (eff_emits p = ETrue -> getter_error bh i p v = None) ->
    let '(r, ef, root') := proxy_set bh root path (in_desc i) p v in
    r = POk [] /\ ef_signals ef = spec_changed path i p v /\
    root' = upd_at root (segs_of path) (id_name (in_desc i)) (set_val (pd_name p) v (in_vals i)).
  Proof.
    intros [Hok _] Hr Fp Wp Htv Hty Hs Hg. unfold proxy_set.
    rewrite mk_call_props, (route_set _ _ _ _ _ _ _ Hok), (routed_registered _ _ _ _ _ _ Hok Hr).
    destruct (registered_valid _ _ _ _ Hok Hr) as (_ & (_ & _ & Hnd) & _).
    rewrite (props_set_registered _ _ _ _ _ _ _ Hr Hnd), Fp, Wp. cbn zeta.
    now rewrite (do_set_ok _ _ _ _ _ _ (convert_content _ _ Hty) Hs Hg), (content_id _ _ Hty Htv).
  Qed.

  (* a read that goes to the server (no usable cache entry) on the state after the write *)
  Lemma fresh_read_after_write root path i p v :
    state_ok root ->
    registered root path (id_name (in_desc i)) = Some i ->
    find_prop (in_desc i) (pd_name p) = Some p -> readable p = true ->
    has_ty v (pd_ty p) = true -> getter_error bh i p v = None ->
    let root' := upd_at root (segs_of path) (id_name (in_desc i)) (set_val (pd_name p) v (in_vals i)) in
    fst (fst (proxy_get bh root' path (in_desc i) p)) = POk [v].
  Proof.
    intros Hs Hr Fp Rp Hty Hg. cbn zeta.
    set (i' := {| in_desc := in_desc i; in_tag := in_tag i; in_vals := set_val (pd_name p) v (in_vals i) |}).
    pose proof (find_prop_name _ _ _ Fp) as [_ Hpin].
    assert (Hs' : state_ok (upd_at root (segs_of path) (iname i) (set_val (pd_name p) v (in_vals i))))
      by (apply state_ok_upd; auto).
    unfold iname in Hs'.
    pose proof (registered_upd root path _ (set_val (pd_name p) v (in_vals i)) i Hr) as Hr'. fold i' in Hr'.
    pose proof (proxy_get_agrees bh _ path i' p (proj1 Hs') Hr' Fp Rp) as K. cbn zeta in K.
    destruct (proxy_get bh _ path (in_desc i') p) as [[r ef] root2] eqn:E. cbn [in_desc i'] in E. rewrite E.
    destruct K as (K & _). cbn [fst]. rewrite K. unfold spec_proxy_get. cbn [in_vals i'].
    rewrite get_set_same. unfold getter_error in *. cbn [in_desc i']. now rewrite Hg.
  Qed.

  Theorem cached_read_after_write root path i p v vals :
    state_ok root ->
    registered root path (id_name (in_desc i)) = Some i ->
    find_prop (in_desc i) (pd_name p) = Some p -> readable p = true -> writable p = true -> tv p = false ->
    has_ty v (pd_ty p) = true -> setter_error bh i p v = None -> getter_error bh i p v = None ->
    pd_emits p <> EConst ->
    cache_wf (in_desc i) vals ->
    let '(r1, ef, root') := proxy_set bh root path (in_desc i) p v in
    let c' := fold_left (cache_apply (in_desc i) path) (ef_signals ef) (COk vals) in
    r1 = POk [] /\ fst (fst (fst (cached_get bh root' path (in_desc i) p c'))) = POk [v].
  Proof.
    intros Hs Hr Fp Rp Wp Htv Hty Hse Hge Hmode Hwf.
    pose proof (write_effects root path i p v Hs Hr Fp Wp Htv Hty Hse (fun _ => Hge)) as W.
    destruct (proxy_set bh root path (in_desc i) p v) as [[r1 ef] root'] eqn:E.
    destruct W as (-> & Hsig & ->). split; [reflexivity|]. rewrite Hsig.
    pose proof (fresh_read_after_write root path i p v Hs Hr Fp Rp Hty Hge) as Fresh. cbn zeta in Fresh.
    destruct (registered_valid _ _ _ _ (proj1 Hs) Hr) as (_ & (_ & _ & Hnd) & _ & _).
    pose proof (find_prop_name _ _ _ Fp) as [_ Hpin].
    pose proof (uncached_iff (in_desc i) p Hnd Hpin) as Hun. rewrite Rp in Hun. cbn [andb] in Hun.
    unfold spec_changed. rewrite Rp.
    (* the fallback: no usable entry, so the read goes to the server *)
    assert (Fall : forall c, (forall x, clook (pd_name p) c <> Some (Some x)) ->
              fst (fst (fst (cached_get bh
                   (upd_at root (segs_of path) (id_name (in_desc i)) (set_val (pd_name p) v (in_vals i)))
                   path (in_desc i) p (COk c)))) = POk [v]).
    { intros c Hc. unfold cached_get.
      destruct (clook (pd_name p) c) as [[x|]|] eqn:El; [exfalso; eapply Hc; eauto| |];
        destruct (proxy_get bh _ path (in_desc i) p) as [[r ef2] root2]; cbn [fst] in *; exact Fresh. }
    destruct (pd_emits p) eqn:Em; try congruence.
    - (* true: the signal carries the value into the cache *)
      cbn [fold_left cache_apply sg_path sg_iface sg_member sg_body]. rewrite !lbeq_refl. cbn [andb].
      unfold cache_update. cbn [fold_left fst snd]. rewrite Hun.
      unfold cached_get. rewrite clook_cset_same.
      unfold tv in Htv. rewrite (convert_typed _ _ Htv), Hty. reflexivity.
    - (* invalidates: the entry, if any, is dropped *)
      cbn [fold_left cache_apply sg_path sg_iface sg_member sg_body]. rewrite !lbeq_refl. cbn [andb].
      unfold cache_update. cbn [fold_left]. rewrite Hun. apply Fall. intros x.
      destruct (clook (pd_name p) vals) eqn:El; [rewrite clook_cset_same; discriminate|congruence].
    - (* false: never cached *)
      cbn [fold_left]. apply Fall. intros x. apply Hwf. exact Hun.
  Qed.

  (* cache_init builds such a cache too: with pcache_wf_apply, the hypothesis cache_wf of
     cached_read_after_write holds of every cache the model ever builds *)
  Lemma pcache_wf_init root path d : pcache_wf d (fst (fst (cache_init bh root path d))).
  Proof.
    unfold cache_init. destruct (dispatch bh root _) as [ef root']. cbn [fst].
    case_all; cbn [pcache_wf]; auto using cache_wf_filtered.
  Qed.
End P.
