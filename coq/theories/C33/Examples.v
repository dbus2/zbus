(* C33/Examples.v — concrete instances (non-vacuity) and the one class that shows through the proxy. *)
From ZV Require Import Base.Bytes Base.WinnowFacts C26.Desc C26.Tree C26.Msg C26.Std C26.Model C33.Model.
From ZV Require Import C28.Spec C33.Spec C26.StdFacts C28.Proofs C33.Proofs.
From ZV Require Import C26.Examples C28.Examples.

Definition ex_i : inst := new_inst ex_d ex_path.

Lemma ex_registered : registered ex_root ex_path (id_name (in_desc ex_i)) = Some ex_i.
Proof. reflexivity. Qed.

(* a single named structure return: on the wire two values, through the proxy the handler's structure again *)
Example ex_proxy_named :
  let md := mk (B "MNamed") [(B "a0", TU)] (OSingle TN) false false in
  exists n s,
    bh_method ex_bh (id_name ex_d) (B "MNamed") [VU 1] = HOk [VR n s] /\
    proxy_call ex_bh ex_root ex_path ex_d md [VU 1] =
      (POk [VR n s],
       {| ef_replies := [RRet [VU n; VS s]]; ef_log := [LMethod ex_path (B "MNamed") [VU 1]]; ef_signals := [] |}, ex_root).
Proof. cbn zeta. do 2 eexists. split; reflexivity. Qed.

Example ex_proxy_call_general :
  let md := mk (B "MTwo") [(B "a0", TU); (B "a1", TS)] (OTuple [TS; TU]) false false in
  let '(r, ef, root') := proxy_call ex_bh ex_root ex_path (in_desc ex_i) md [VU 5; VS (B "x")] in
  r = px_res (spec_proxy_call ex_bh ex_i md [VU 5; VS (B "x")]) /\ root' = ex_root.
Proof.
  cbn zeta.
  pose proof (proxy_call_agrees ex_bh ex_root ex_path ex_i
                (mk (B "MTwo") [(B "a0", TU); (B "a1", TS)] (OTuple [TS; TU]) false false) [VU 5; VS (B "x")]
                ex_registered eq_refl (std_respects ex_d eq_refl)) as K.
  cbn zeta in K. destruct (proxy_call _ _ _ _ _ _) as [[r ef] root'].
  destruct K as (K1 & _ & _ & K4); [repeat constructor|]. split; assumption.
Qed.

(* signals with a single structure argument, two arguments, none *)
Definition sg_d : idesc :=
  {| id_name := B "org.zv.Sg"; id_methods := []; id_props := [];
     id_signals := [{| sd_name := B "SPair"; sd_args := [(B "a0", TR)]; sd_doc := [] |};
                    {| sd_name := B "STwo"; sd_args := [(B "a0", TU); (B "a1", TS)]; sd_doc := [] |};
                    {| sd_name := B "SNone"; sd_args := []; sd_doc := [] |}] |}.

Example ex_signals :
  (exists m, emit_signal ex_path sg_d (B "SPair") [VR 1 (B "x")] = Some m /\ body_sig (sg_body m) = B "(us)" /\
             proxy_recv ex_path sg_d {| sd_name := B "SPair"; sd_args := [(B "a0", TR)]; sd_doc := [] |} m = Some (POk [VR 1 (B "x")])) /\
  (exists m, emit_signal ex_path sg_d (B "STwo") [VU 1; VS (B "x")] = Some m /\ body_sig (sg_body m) = B "us" /\
             proxy_recv ex_path sg_d {| sd_name := B "STwo"; sd_args := [(B "a0", TU); (B "a1", TS)]; sd_doc := [] |} m
             = Some (POk [VU 1; VS (B "x")])).
Proof. split; eexists; repeat split; reflexivity. Qed.

(* a signal of another path / interface / member is not delivered to the stream *)
Example ex_signal_filter :
  forall m, emit_signal (B "/other") sg_d (B "STwo") [VU 1; VS (B "x")] = Some m ->
            proxy_recv ex_path sg_d {| sd_name := B "STwo"; sd_args := [(B "a0", TU); (B "a1", TS)]; sd_doc := [] |} m = None.
Proof. intros m H. inversion H. reflexivity. Qed.

(* property write then read through the proxy observes the written value; a variant-typed property round-trips *)
Example ex_proxy_props :
  let p := mkp (B "PVar") TV ARW EFalse false false in
  let '(r1, _, st) := proxy_set px_bh px_root px_path px_d p (VV (VS (B "w"))) in
  let '(r2, _, _) := proxy_get px_bh st px_path px_d p in
  r1 = POk [] /\ r2 = POk [VV (VS (B "w"))].
Proof. vm_compute. split; reflexivity. Qed.

(* the class: the write took effect, the proxy reports an error *)
Lemma proxy_changed_getter_fails_refuted :
  exists (bh : behaviour) (root : node) (path : bytes) (i : inst) (p : pdesc) (v : val),
    root_ok root /\ registered root path (id_name (in_desc i)) = Some i /\
    find_prop (in_desc i) (pd_name p) = Some p /\ writable p = true /\ has_ty v (pd_ty p) = true /\
    setter_error bh i p v = None /\ eff_emits p = ETrue /\ getter_error bh i p v <> None /\
    fst (fst (proxy_set bh root path (in_desc i) p v)) <> px_res (spec_proxy_set bh i p v) /\
    exists i', registered (snd (proxy_set bh root path (in_desc i) p v)) path (id_name (in_desc i)) = Some i' /\
               get_val (pd_name p) (in_vals i') = Some v.
Proof.
  exists px_bh, px_root, px_path, px_i, (mkp (B "PGf") TU ARW ETrue true false), (VU 3).
  split; [apply px_state_ok|]. do 6 (split; [reflexivity|]). split; [discriminate|]. split; [now vm_compute|].
  eexists. split; reflexivity.
Qed.

(* ---------------------------------------------------------------- one proxy instance with the default cache *)
From ZV Require Import C33.Cache.

(* read (populates the cache) -> write -> read again through the SAME proxy, for the four modes: `true` is served from
   the updated cache, `invalidates` and `false` go back to the server, `const` keeps the first value *)
Definition px_read_write_read (pname : bytes) (t : ty) (e : emits) (v : val) : pres * pres :=
  let p := mkp pname t ARW e false false in
  let '(r0, _, root0, c0) := cached_get px_bh px_root px_path px_d p CNone in
  let '(_, ef, root1) := proxy_set px_bh root0 px_path px_d p v in
  let c1 := fold_left (cache_apply px_d px_path) (ef_signals ef) c0 in
  let '(r2, _, _, _) := cached_get px_bh root1 px_path px_d p c1 in
  (r0, r2).

Example ex_cached_modes :
  snd (px_read_write_read (B "PTrue") TU ETrue (VU 8)) = POk [VU 8] /\
  snd (px_read_write_read (B "PInval") TS EInval (VS (B "x"))) = POk [VS (B "x")] /\
  (exists old, px_read_write_read (B "PConst") TU EConst (VU 2) = (POk [old], POk [old]) /\ old <> VU 2) /\
  uncached px_d = [B "PVar"] /\
  snd (px_read_write_read (B "PVar") TV EFalse (VV (VS (B "w")))) = POk [VV (VS (B "w"))].
Proof. repeat split; try reflexivity. eexists. split; [reflexivity|discriminate]. Qed.

(* the hypotheses of C33_cached_read_after_write are satisfiable (non-vacuity) *)
Example ex_cached_theorem :
  let p := mkp (B "PTrue") TU ARW ETrue false false in
  let '(r1, ef, root') := proxy_set px_bh px_root px_path (in_desc px_i) p (VU 8) in
  r1 = POk [] /\
  fst (fst (fst (cached_get px_bh root' px_path (in_desc px_i) p
                   (fold_left (cache_apply (in_desc px_i) px_path) (ef_signals ef) (COk [(B "PTrue", Some (VU 1))]))))) = POk [VU 8].
Proof.
  apply (cached_read_after_write px_bh px_root px_path px_i (mkp (B "PTrue") TU ARW ETrue false false) (VU 8)
           [(B "PTrue", Some (VU 1))] px_state_ok); try reflexivity; try discriminate.
  (* the only uncached name is PVar *)
  intros n x Hn. apply existsb_exists in Hn as (m & Hm & E). apply lbeq_eq in E. subst m.
  destruct Hm as [<-|[]]. discriminate.
Qed.
