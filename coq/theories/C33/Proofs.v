(* C33/Proofs.v — generated proxies and interfaces agree on the wire: theorems over ALL interface descriptions,
   argument values and handler behaviours.  The content is that the two macros' conventions about body
   signatures (tuples, single structures, one-element tuples, unit) compose to the identity. *)
From ZV Require Import Base.Bytes Base.WinnowFacts C26.Desc C26.Tree C26.Msg C27.Model C28.Model C26.Model C33.Model.
From ZV Require Import C28.Spec C33.Spec C26.Facts C26.Proofs C28.Proofs.

Section P.
  Variable bh : behaviour.

  (* ================================================================ return values *)
  Lemma sg_text_of_ty t : sg_text (sg_of_ty t) = sigstr t.
  Proof. destruct t; reflexivity. Qed.

  (* a typed result, sent by the interface and decoded by the proxy at the declared return type, is the result *)
  Lemma reply_roundtrip o outs :
    typed outs (out_types o) ->
    dyn_sig_ok (sg_of_ret o) (sg_of_vals (wire_out o outs)) = true /\ repack o (wire_out o outs) = outs.
  Proof.
    intro Ht. pose proof (sigs_parse _ _ (typed_sigs _ _ Ht)) as Hp.
    destruct o as [|t|ts]; cbn [out_types sg_of_ret] in *.
    - inversion Ht. split; reflexivity.
    - inversion Ht as [|v t' r r' Hv Hr]; subst. inversion Hr; subst.
      destruct (struct_fields t) eqn:St.
      + (* a single structure travels as its fields and is put together again *)
        destruct (has_ty_struct v t Hv) as (n & s & ->); [congruence|]. split; [|reflexivity].
        unfold dyn_sig_ok, sg_of_ty. rewrite St. now apply struct_fields_us in St as [-> _].
      + rewrite (wire_out_id (OSingle t) [v] Ht) by (intros ? [= <-]; exact St).
        rewrite Hp. unfold dyn_sig_ok. cbn [sg_of_args]. rewrite sg_eqb_refl. split; [reflexivity|now destruct v].
    - split; [|reflexivity]. cbn [wire_out]. rewrite Hp. unfold dyn_sig_ok.
      destruct ts as [|t [|t2 ts]]; cbn [sg_of_args]; try (now rewrite sg_eqb_refl).
      (* a one-element tuple: the leniency for single-field structures *)
      cbn [sg_of_tys map]. now rewrite sg_text_of_ty, lbeq_refl, orb_true_r.
  Qed.

  (* ================================================================ method calls *)
  Theorem proxy_call_agrees root path i md args :
    registered root path (id_name (in_desc i)) = Some i ->
    find_method (in_desc i) (md_name md) = Some md ->
    bh_respects bh (in_desc i) ->
    typed args (in_tys md) ->
    let x := spec_proxy_call bh i md args in
    let '(r, ef, root') := proxy_call bh root path (in_desc i) md args in
    r = px_res x /\ ef_log ef = px_log x /\ ef_signals ef = [] /\ root' = root.
  Proof.
    intros Hr Fm Hres Hta. cbn zeta. unfold proxy_call.
    rewrite (dispatch_registered bh root (mk_call path _ _ args) _ _ _ i md eq_refl eq_refl eq_refl Hr Fm).
    rewrite run_method_typed by apply types_match_sigs, typed_sigs, Hta.
    pose proof (respected_result bh _ md args Hres (proj2 (find_method_name _ _ _ Fm))) as Hrs.
    unfold spec_proxy_call. cbn [mk_call c_args c_noreply finish ef_replies ef_log ef_signals px_res px_log].
    destruct (bh_method bh (id_name (in_desc i)) (md_name md) args) as [outs|e m].
    - now destruct (reply_roundtrip (md_out md) outs Hrs) as [-> ->].
    - now rewrite Hrs.
  Qed.

  (* ================================================================ properties *)
  Lemma mk_call_props path member args : mk_call path props_name member args = props_call path false member args.
  Proof. reflexivity. Qed.

  Lemma convert_content t v : has_ty v t = true -> convert t (content v) = Some v.
  Proof.
    intro H. unfold convert. destruct t; try (rewrite (content_id v _ H eq_refl), H; reflexivity).
    apply has_ty_sig in H. destruct v; cbn in H; try discriminate. reflexivity.
  Qed.

  Theorem proxy_get_agrees root path i p :
    root_ok root ->
    registered root path (id_name (in_desc i)) = Some i ->
    find_prop (in_desc i) (pd_name p) = Some p -> readable p = true ->
    let x := spec_proxy_get bh i p in
    let '(r, ef, root') := proxy_get bh root path (in_desc i) p in
    r = px_res x /\ ef_log ef = px_log x /\ ef_signals ef = [] /\ root' = root.
  Proof.
    intros Hok Hr Fp Rp. cbn zeta. unfold proxy_get.
    rewrite mk_call_props, (route_get _ _ _ _ _ _ Hok), (routed_registered _ _ _ _ _ _ Hok Hr).
    destruct (registered_valid _ _ _ _ Hok Hr) as (_ & (_ & _ & Hnd) & Hi & _).
    unfold of_presult, props_get, gen_get. rewrite lookup_registered, Hr, (getter_of_unique _ _ Hnd), Fp, Rp.
    pose proof (find_prop_name _ _ _ Fp) as [_ Hpin]. destruct (Hi p Hpin) as (v & Hgv & Hty).
    unfold run_getter, spec_proxy_get, getter_error, iname. rewrite Hgv.
    cbn [pr_log pr_reply pr_signals pr_root finish c_noreply props_call ef_replies ef_log ef_signals px_res px_log].
    destruct (if pd_gfall p then bh_gfail bh (id_name (in_desc i)) (pd_name p) v else None) as [[e m]|].
    - repeat split.
    - rewrite (convert_content _ _ Hty). repeat split.
  Qed.

  (* the class of C28 that shows through the proxy: the getter called for the change signal fails *)
  Theorem proxy_set_agrees_partial root path i p v :
    root_ok root ->
    registered root path (id_name (in_desc i)) = Some i ->
    find_prop (in_desc i) (pd_name p) = Some p -> writable p = true -> has_ty v (pd_ty p) = true ->
    ~ (setter_error bh i p v = None /\ eff_emits p = ETrue /\ getter_error bh i p v <> None) ->
    let x := spec_proxy_set bh i p v in
    let '(r, ef, root') := proxy_set bh root path (in_desc i) p v in
    r = px_res x /\ ef_log ef = px_log x /\
    (forall vals, px_vals x = Some vals ->
                  root' = (if match px_res x with POk _ => true | _ => false end
                           then upd_at root (segs_of path) (id_name (in_desc i)) vals else root)).
  Proof.
    intros Hok Hr Fp Wp Hty Hcl. cbn zeta. unfold proxy_set.
    rewrite mk_call_props, (route_set _ _ _ _ _ _ _ Hok), (routed_registered _ _ _ _ _ _ Hok Hr).
    destruct (registered_valid _ _ _ _ Hok Hr) as (_ & (_ & _ & Hnd) & _).
    rewrite (props_set_registered _ _ _ _ _ _ _ Hr Hnd), Fp, Wp. cbn zeta.
    pose proof (convert_content _ _ Hty) as Hc. unfold spec_proxy_set.
    destruct (setter_error bh i p v) as [[e m]|] eqn:Es.
    { rewrite (do_set_setter_fails _ _ _ _ _ _ _ _ Hc Es). cbn. repeat split. }
    rewrite (do_set_ok _ _ _ _ _ _ Hc Es).
    - cbn. repeat split. now intros vals [= <-].
    - intro Em. destruct (getter_error bh i p v) eqn:Eg; [|reflexivity]. destruct Hcl. repeat split; congruence.
  Qed.

  (* ================================================================ signals *)
  Theorem signal_agrees path d s args :
    find_signal d (sd_name s) = Some s -> typed args (map snd (sd_args s)) ->
    exists m, emit_signal path d (sd_name s) args = Some m /\
              proxy_recv path d s m = Some (spec_proxy_recv args).
  Proof.
    intros Fs Hta. unfold emit_signal. rewrite Fs. eexists. split; [reflexivity|].
    unfold proxy_recv, spec_proxy_recv. cbn [sg_path sg_iface sg_member sg_body]. rewrite !lbeq_refl. cbn [andb].
    pose proof (typed_sigs _ _ Hta) as Hs. destruct (map snd (sd_args s)) as [|t ts].
    - now destruct args.
    - now rewrite (sigs_accepted _ _ Hs), (sigs_unpack _ _ Hs).
  Qed.
End P.
