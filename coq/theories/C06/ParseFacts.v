(* C06/ParseFacts.v — facts about the model of the winnow grammar: what a successful parse returns
   (soundness / parse-then-format), that every formatted tree parses back (completeness), that the
   fuel of the model and winnow's consume-assertion are never hit, and that check_only mode accepts
   the same strings. *)
From ZV Require Import Base.Bytes Base.WinnowFacts C06.Model C06.Classes.
From Coq Require Import Lia.

(* ---------------------------------------------------------------- unfolding equations *)
Lemma ps_S : forall f co gv inp,
  parse_signature (S f) co gv inp =
  palt simple_type
 (palt (p_dict (parse_signature f co gv) co)
 (palt (p_array (parse_signature f co gv) co)
 (palt (p_struct (many f co gv false))
 (palt (if gv then p_maybe (parse_signature f co gv) co else pfail)
       p_fd)))) inp.
Proof. reflexivity. Qed.

Lemma many_S : forall f co gv top inp,
  many (S f) co gv top inp =
  match parse_signature f co gv inp with
  | PFail => PFail
  | PAbn x => PAbn x
  | POk t r =>
      match rep_loop f co gv r with
      | PFail => PFail
      | PAbn x => PAbn x
      | POk ts r' => POk (if co then TLeaf CUnit else sl_finish (fold_left (sl_step top) (t :: ts) SLUnit)) r'
      end
  end.
Proof. reflexivity. Qed.

Lemma loop_S : forall f co gv inp,
  rep_loop (S f) co gv inp =
  match parse_signature f co gv inp with
  | PFail => POk [] inp
  | PAbn x => PAbn x
  | POk t r =>
      if same_len r inp then PAbn Assert
      else match rep_loop f co gv r with
           | POk ts r' => POk (t :: ts) r'
           | PFail => PFail
           | PAbn x => PAbn x
           end
  end.
Proof. reflexivity. Qed.

Lemma ps_0 : forall co gv inp, parse_signature 0 co gv inp = PAbn Fuel.
Proof. reflexivity. Qed.
Lemma many_0 : forall co gv top inp, many 0 co gv top inp = PAbn Fuel.
Proof. reflexivity. Qed.
Lemma loop_0 : forall co gv inp, rep_loop 0 co gv inp = PAbn Fuel.
Proof. reflexivity. Qed.

Global Opaque parse_signature many rep_loop.

(* ---------------------------------------------------------------- small facts *)
Lemma lit1_some : forall c inp r, lit1 c inp = Some r -> inp = c :: r.
Proof.
  intros c [|x inp] r H; cbn in H; [discriminate|].
  destruct (beq x c) eqn:E; [|discriminate]. apply beq_eq in E. inversion H; subst. reflexivity.
Qed.

Lemma lit1_cons : forall c r, lit1 c (c :: r) = Some r.
Proof. intros. cbn. rewrite beq_refl. reflexivity. Qed.

Lemma simple_code_char : forall c k, simple_code c = Some k -> code_char k = [c] /\ code_eqb k CUnit = false.
Proof.
  intros c k H. unfold simple_code in H.
  repeat match type of H with
         | (if beq c ?x then _ else _) = _ =>
             let E := fresh "E" in
             destruct (beq c x) eqn:E;
             [apply beq_eq in E; subst c; inversion H; subst k; split; reflexivity|]
         end.
  discriminate.
Qed.

Lemma simple_code_of_char : forall k, code_eqb k CUnit = false -> code_eqb k CFd = false ->
  forall r, simple_type (code_char k ++ r) = POk (TLeaf k) r.
Proof. intros k H1 H2 r. destruct k; try discriminate; reflexivity. Qed.

Lemma same_len_iff : forall a b : bytes, same_len a b = true <-> length a = length b.
Proof.
  induction a as [|x a IH]; destruct b as [|y b]; cbn; split; intros H; try congruence; try discriminate.
  - apply IH in H. congruence.
  - apply IH. congruence.
Qed.

Lemma same_len_shorter : forall (p r : bytes), p <> [] -> same_len r (p ++ r) = false.
Proof.
  intros p r Hp. destruct (same_len r (p ++ r)) eqn:E; [|reflexivity].
  apply same_len_iff in E. rewrite app_length in E. destruct p; [congruence|cbn in E; lia].
Qed.

Lemma fold_sl_struct : forall top ts l, fold_left (sl_step top) ts (SLStruct l) = SLStruct (l ++ ts).
Proof.
  intros top ts. induction ts as [|t ts IH]; intros l; cbn.
  - rewrite app_nil_r. reflexivity.
  - rewrite IH. rewrite <- app_assoc. reflexivity.
Qed.

(* what the fold of [many] returns: one signature at the top level is returned as it is *)
Definition pack (top : bool) (ts : list tsig) : tsig :=
  match ts with
  | [t] => if top then t else TStruct Dynamic [t]
  | _ => TStruct Dynamic ts
  end.

Lemma pack_false : forall ts, pack false ts = TStruct Dynamic ts.
Proof. intros [|a [|b ts]]; reflexivity. Qed.

Lemma fold_sl : forall top t ts, sl_finish (fold_left (sl_step top) (t :: ts) SLUnit) = pack top (t :: ts).
Proof.
  intros top t ts. destruct ts as [|t2 ts]; cbn.
  - destruct top; reflexivity.
  - destruct top; cbn; rewrite fold_sl_struct; reflexivity.
Qed.

Definition all_dyn (t : tsig) : Prop := erase t = t.
Definition good (gv : bool) (t : tsig) : Prop := parseable gv t = true /\ all_dyn t.

Lemma good_forall : forall gv ts, Forall (good gv) ts -> forallb (parseable gv) ts = true /\ map erase ts = ts.
Proof.
  intros gv ts H. induction H as [|t ts [Hp Hd] _ [IH1 IH2]]; cbn; [split; reflexivity|].
  rewrite Hp, IH1. unfold all_dyn in Hd. rewrite Hd, IH2. split; reflexivity.
Qed.

Definition shows (ts : list tsig) : bytes := concat (map show ts).

Lemma shows_cons : forall t ts, shows (t :: ts) = show t ++ shows ts.
Proof. reflexivity. Qed.
Lemma show_struct : forall r fs, show (TStruct r fs) = "("%byte :: shows fs ++ [")"%byte].
Proof. reflexivity. Qed.
Lemma show_array : forall r c, show (TArray r c) = "a"%byte :: show c.
Proof. reflexivity. Qed.
Lemma show_maybe : forall r c, show (TMaybe r c) = "m"%byte :: show c.
Proof. reflexivity. Qed.
Lemma show_dict : forall rk k rv v, show (TDict rk k rv v) = "a"%byte :: "{"%byte :: (show k ++ show v) ++ ["}"%byte].
Proof. reflexivity. Qed.

Lemma show_nonempty : forall gv t, parseable gv t = true -> 1 <= length (show t).
Proof.
  intros gv t H. destruct t as [c| | | |]; cbn; try lia.
  destruct c; cbn in *; try lia; discriminate.
Qed.

Lemma shows_length_cons : forall t ts, length (shows (t :: ts)) = length (show t) + length (shows ts).
Proof. intros. rewrite shows_cons. apply app_length. Qed.

(* ---------------------------------------------------------------- soundness (parse, then format), and
   neither the model's fuel nor winnow's assertion is ever hit.
   [outcome P E res]: a success satisfies P, and an abnormal end happens only if E. *)
Definition outcome {A} (P : A -> bytes -> Prop) (E : Prop) (res : pres A) : Prop :=
  match res with POk a r => P a r | PFail => True | PAbn _ => E end.

Lemma outcome_weaken : forall {A} (P : A -> bytes -> Prop) (E E' : Prop) res,
  (E -> E') -> outcome P E res -> outcome P E' res.
Proof. intros A P E E' [a r| |x] HE H; cbn in *; auto. Qed.

(* a sub-parser, then the rest of the sequence *)
Lemma then_ok : forall {A B} (P : A -> bytes -> Prop) (Q : B -> bytes -> Prop) E (a : pres A) (K : A -> bytes -> pres B),
  outcome P E a -> (forall x r, P x r -> outcome Q E (K x r)) ->
  outcome Q E (match a with POk x r => K x r | PFail => PFail | PAbn e => PAbn e end).
Proof. intros A B P Q E [x r| |e] K H HK; [apply HK, H|exact I|exact H]. Qed.

(* a literal byte, then the rest of the sequence *)
Lemma lit_ok : forall {B} (Q : B -> bytes -> Prop) E c x (K : bytes -> pres B),
  (forall r, x = c :: r -> outcome Q E (K r)) ->
  outcome Q E (match lit1 c x with None => PFail | Some r => K r end).
Proof. intros B Q E c x K H. destruct (lit1 c x) as [r|] eqn:L; [apply H, lit1_some, L|exact I]. Qed.

Section Sound.
  Variable gv : bool.

  (* a success of [parse_signature] / [rep_loop] / [many] on [inp] *)
  Definition sound1 (inp : bytes) (t : tsig) (r : bytes) : Prop := inp = show t ++ r /\ good gv t.
  Definition soundl (inp : bytes) (ts : list tsig) (r : bytes) : Prop := inp = shows ts ++ r /\ Forall (good gv) ts.
  Definition soundm (top : bool) (inp : bytes) (t : tsig) (r : bytes) : Prop :=
    exists ts, ts <> [] /\ soundl inp ts r /\ t = pack top ts.

  Lemma sound1_consumes : forall inp t r, sound1 inp t r -> length r < length inp.
  Proof. intros inp t r [-> [Hp _]]. pose proof (show_nonempty _ _ Hp). rewrite app_length. lia. Qed.

  Lemma palt_ok : forall E (p q : pparser tsig) inp,
    outcome (sound1 inp) E (p inp) -> outcome (sound1 inp) E (q inp) -> outcome (sound1 inp) E (palt p q inp).
  Proof. intros E p q inp Hp Hq. unfold palt. revert Hp. destruct (p inp); intros Hp; assumption. Qed.

  Lemma simple_ok : forall E inp, outcome (sound1 inp) E (simple_type inp).
  Proof.
    intros E [|c inp]; [exact I|]. unfold simple_type.
    destruct (simple_code c) as [k|] eqn:Ek; [|exact I]. destruct (simple_code_char _ _ Ek) as [Hc Hu].
    split; [change (show (TLeaf k)) with (code_char k); rewrite Hc; reflexivity|].
    split; [cbn; rewrite Hu; reflexivity|reflexivity].
  Qed.

  Lemma fd_ok : forall E inp, outcome (sound1 inp) E (p_fd inp).
  Proof. intros E inp. unfold p_fd. apply lit_ok. intros r ->. repeat split. Qed.

  (* the alternatives with children: the children run on strictly shorter inputs, which is what an
     induction on the fuel knows about *)
  Lemma dict_ok : forall E (p : pparser tsig) inp,
    (forall r, length r < length inp -> outcome (sound1 r) E (p r)) ->
    outcome (sound1 inp) E (p_dict p false inp).
  Proof.
    intros E p inp Hp. unfold p_dict. apply lit_ok. intros r0 ->. apply lit_ok. intros r1 ->.
    eapply then_ok; [apply Hp; cbn; lia|]. intros k r2 Hk. pose proof (sound1_consumes _ _ _ Hk) as Ck.
    eapply then_ok; [apply Hp; cbn; lia|]. intros v r3 Hv.
    apply lit_ok. intros r4 ->. destruct Hk as [-> [Hk Dk]]. destruct Hv as [-> [Hv Dv]].
    split; [rewrite show_dict; cbn; rewrite <- !app_assoc; reflexivity|].
    split; [cbn; rewrite Hk, Hv; reflexivity|]. unfold all_dyn in *. cbn. rewrite Dk, Dv. reflexivity.
  Qed.

  Lemma array_ok : forall E (p : pparser tsig) inp,
    (forall r, length r < length inp -> outcome (sound1 r) E (p r)) ->
    outcome (sound1 inp) E (p_array p false inp).
  Proof.
    intros E p inp Hp. unfold p_array. apply lit_ok. intros r0 ->.
    eapply then_ok; [apply Hp; cbn; lia|]. intros c r1 [-> [Hc Dc]].
    split; [reflexivity|]. split; [exact Hc|]. unfold all_dyn in *. cbn. rewrite Dc. reflexivity.
  Qed.

  Lemma maybe_ok : forall E (p : pparser tsig) inp,
    (forall r, length r < length inp -> outcome (sound1 r) E (p r)) ->
    outcome (sound1 inp) E ((if gv then p_maybe p false else pfail) inp).
  Proof.
    intros E p inp Hp. destruct gv eqn:G; [|exact I]. unfold p_maybe. apply lit_ok. intros r0 ->.
    eapply then_ok; [apply Hp; cbn; lia|]. intros c r1 [-> [Hc Dc]].
    split; [reflexivity|]. split; [cbn; rewrite Hc, G; reflexivity|]. unfold all_dyn in *. cbn. rewrite Dc. reflexivity.
  Qed.

  Lemma struct_ok : forall E (m : pparser tsig) inp,
    (forall r, length r < length inp -> outcome (soundm false r) E (m r)) ->
    outcome (sound1 inp) E (p_struct m inp).
  Proof.
    intros E m inp Hm. unfold p_struct. apply lit_ok. intros r0 ->.
    eapply then_ok; [apply Hm; cbn; lia|]. intros t r1 (ts & Hne & [-> Hg] & ->).
    apply lit_ok. intros r2 ->. rewrite pack_false. destruct (good_forall _ _ Hg) as [Hfa Hmap].
    split; [rewrite show_struct; cbn [app]; rewrite <- app_assoc; reflexivity|].
    split; [cbn; destruct ts; [congruence|exact Hfa]|]. unfold all_dyn. cbn. rewrite Hmap. reflexivity.
  Qed.
End Sound.

(* an abnormal end is possible only below the fuel that [parse] provides *)
Theorem parse_ok_all : forall f gv,
  (forall inp, outcome (sound1 gv inp) (f < 2 * length inp + 1) (parse_signature f false gv inp)) /\
  (forall top inp, outcome (soundm gv top inp) (f < 2 * length inp + 2) (many f false gv top inp)) /\
  (forall inp, outcome (soundl gv inp) (f < 2 * length inp + 2) (rep_loop f false gv inp)).
Proof.
  induction f as [|f IH]; intros gv.
  - split; [|split]; intros; rewrite ?ps_0, ?many_0, ?loop_0; cbn; lia.
  - destruct (IH gv) as (IHp & IHm & IHl). split; [|split].
    + intros inp. rewrite ps_S.
      assert (Hp : forall r, length r < length inp ->
                outcome (sound1 gv r) (S f < 2 * length inp + 1) (parse_signature f false gv r)).
      { intros r Hr. eapply outcome_weaken; [|apply IHp]. lia. }
      apply palt_ok; [apply simple_ok|].
      apply palt_ok; [apply dict_ok, Hp|].
      apply palt_ok; [apply array_ok, Hp|].
      apply palt_ok; [apply struct_ok; intros r Hr; eapply outcome_weaken; [|apply IHm]; lia|].
      apply palt_ok; [apply maybe_ok, Hp|apply fd_ok].
    + intros top inp. rewrite many_S.
      eapply then_ok; [eapply outcome_weaken; [|apply IHp]; lia|]. intros t r1 H1.
      pose proof (sound1_consumes _ _ _ _ H1) as C1. destruct H1 as [-> Hg].
      eapply then_ok; [eapply outcome_weaken; [|apply IHl]; lia|]. intros ts r2 [-> Hgs].
      exists (t :: ts). split; [discriminate|]. split; [|apply fold_sl].
      split; [rewrite shows_cons, <- app_assoc; reflexivity|constructor; assumption].
    + intros inp. rewrite loop_S.
      generalize (IHp inp). destruct (parse_signature f false gv inp) as [t r1| |x]; [| |cbn; lia].
      2:{ intros _. split; [reflexivity|constructor]. }
      intros H1. pose proof (sound1_consumes _ _ _ _ H1) as C1. destruct H1 as [-> Hg].
      rewrite same_len_shorter by (intros Z; rewrite Z in C1; cbn in C1; lia).
      eapply then_ok; [eapply outcome_weaken; [|apply IHl]; lia|]. intros ts r2 [-> Hgs].
      split; [rewrite shows_cons, <- app_assoc; reflexivity|constructor; assumption].
Qed.

Lemma ps_sound : forall f gv inp t r, parse_signature f false gv inp = POk t r -> sound1 gv inp t r.
Proof.
  intros f gv inp t r H. destruct (parse_ok_all f gv) as (Hp & _). specialize (Hp inp). rewrite H in Hp. exact Hp.
Qed.

Lemma many_sound : forall f gv top inp t r, many f false gv top inp = POk t r -> soundm gv top inp t r.
Proof.
  intros f gv top inp t r H. destruct (parse_ok_all f gv) as (_ & Hm & _). specialize (Hm top inp). rewrite H in Hm. exact Hm.
Qed.

(* ---------------------------------------------------------------- check_only mode has the same control flow *)
Definition shape {A} (r : pres A) : pres unit :=
  match r with POk _ r => POk tt r | PFail => PFail | PAbn x => PAbn x end.

Lemma shape_cases : forall {A B} (a : pres A) (b : pres B), shape a = shape b ->
  (exists x y r, a = POk x r /\ b = POk y r) \/ (a = PFail /\ b = PFail) \/ (exists x, a = PAbn x /\ b = PAbn x).
Proof.
  intros A B [x r| |x] [y r'| |y] H; cbn in H; try discriminate.
  - inversion H; subst. left. eauto.
  - right; left; split; reflexivity.
  - inversion H; subst. right; right. eauto.
Qed.

Lemma palt_shape : forall {A B} (p1 p2 : pparser A) (q1 q2 : pparser B) inp,
  shape (p1 inp) = shape (q1 inp) -> shape (p2 inp) = shape (q2 inp) ->
  shape (palt p1 p2 inp) = shape (palt q1 q2 inp).
Proof.
  intros A B p1 p2 q1 q2 inp H1 H2. unfold palt.
  destruct (shape_cases _ _ H1) as [(x & y & r & -> & ->)|[[-> ->]|(x & -> & ->)]]; auto.
Qed.

(* two sequences that go on in the same way after sub-parsers of the same shape *)
Lemma then_shape : forall {A A' B B'} (a : pres A) (a' : pres A') (K : A -> bytes -> pres B) (K' : A' -> bytes -> pres B'),
  shape a = shape a' -> (forall x y r, shape (K x r) = shape (K' y r)) ->
  shape (match a with POk x r => K x r | PFail => PFail | PAbn e => PAbn e end) =
  shape (match a' with POk y r => K' y r | PFail => PFail | PAbn e => PAbn e end).
Proof.
  intros A A' B B' a a' K K' H HK.
  destruct (shape_cases _ _ H) as [(x & y & r & -> & ->)|[[-> ->]|(x & -> & ->)]]; auto.
Qed.

Section ShapeCombinators.
  Variables p q : pparser tsig.
  Hypothesis Hpq : forall x, shape (p x) = shape (q x).

  Lemma p_dict_shape : forall c1 c2 inp, shape (p_dict p c1 inp) = shape (p_dict q c2 inp).
  Proof.
    intros c1 c2 inp. unfold p_dict.
    destruct (lit1 "a" inp) as [r0|]; [|reflexivity].
    destruct (lit1 "{" r0) as [r1|]; [|reflexivity].
    apply then_shape; [apply Hpq|]. intros k k' r2. apply then_shape; [apply Hpq|]. intros v v' r3.
    destruct (lit1 "}" r3); reflexivity.
  Qed.

  Lemma p_array_shape : forall c1 c2 inp, shape (p_array p c1 inp) = shape (p_array q c2 inp).
  Proof.
    intros c1 c2 inp. unfold p_array.
    destruct (lit1 "a" inp) as [r0|]; [|reflexivity]. apply then_shape; [apply Hpq|reflexivity].
  Qed.

  Lemma p_maybe_shape : forall c1 c2 inp, shape (p_maybe p c1 inp) = shape (p_maybe q c2 inp).
  Proof.
    intros c1 c2 inp. unfold p_maybe.
    destruct (lit1 "m" inp) as [r0|]; [|reflexivity]. apply then_shape; [apply Hpq|reflexivity].
  Qed.

  Lemma p_struct_shape : forall inp, shape (p_struct p inp) = shape (p_struct q inp).
  Proof.
    intros inp. unfold p_struct.
    destruct (lit1 "(" inp) as [r0|]; [|reflexivity]. apply then_shape; [apply Hpq|]. intros t t' r.
    destruct (lit1 ")" r); reflexivity.
  Qed.
End ShapeCombinators.

Lemma shape_all : forall f gv co,
  (forall inp, shape (parse_signature f co gv inp) = shape (parse_signature f false gv inp)) /\
  (forall top inp, shape (many f co gv top inp) = shape (many f false gv top inp)) /\
  (forall inp, shape (rep_loop f co gv inp) = shape (rep_loop f false gv inp)).
Proof.
  induction f as [|f IH]; intros gv co.
  - split; [|split]; reflexivity.
  - destruct (IH gv co) as (IHp & IHm & IHl). split; [|split].
    + intros inp. rewrite !ps_S.
      apply palt_shape; [reflexivity|].
      apply palt_shape; [apply p_dict_shape; exact IHp|].
      apply palt_shape; [apply p_array_shape; exact IHp|].
      apply palt_shape; [apply p_struct_shape; intros x; apply IHm|].
      apply palt_shape; [|reflexivity].
      destruct gv; [apply p_maybe_shape; exact IHp|reflexivity].
    + intros top inp. rewrite !many_S.
      apply then_shape; [apply IHp|]. intros t t' r. apply then_shape; [apply IHl|reflexivity].
    + intros inp. rewrite !loop_S.
      destruct (shape_cases _ _ (IHp inp)) as [(x & y & r & -> & ->)|[[-> ->]|(x & -> & ->)]]; try reflexivity.
      destruct (same_len r inp); [reflexivity|]. apply then_shape; [apply IHl|reflexivity].
Qed.

(* ---------------------------------------------------------------- every success consumes input *)
Lemma consume_ps : forall f co gv inp t r, parse_signature f co gv inp = POk t r -> length r < length inp.
Proof.
  intros f co gv inp t r H.
  destruct (shape_all f gv co) as (Hs & _ & _). specialize (Hs inp). rewrite H in Hs.
  destruct (parse_signature f false gv inp) as [t' r'| |x] eqn:E; cbn in Hs; try discriminate.
  inversion Hs; subst r'. apply ps_sound in E. apply (sound1_consumes _ _ _ _ E).
Qed.

Lemma consume_loop : forall f co gv inp ts r, rep_loop f co gv inp = POk ts r -> length r <= length inp.
Proof.
  induction f as [|f IH]; intros co gv inp ts r H.
  - rewrite loop_0 in H. discriminate.
  - rewrite loop_S in H.
    destruct (parse_signature f co gv inp) as [t1 r1| |x] eqn:P1; try discriminate.
    + destruct (same_len r1 inp); [discriminate|].
      destruct (rep_loop f co gv r1) as [ts' r2| |x] eqn:P2; try discriminate.
      inversion H; subst. apply consume_ps in P1. apply IH in P2. lia.
    + inversion H; subst. lia.
Qed.

(* with the fuel of [parse], check_only or not *)
Lemma many_no_abn : forall f co gv top inp x, 2 * length inp + 2 <= f -> many f co gv top inp <> PAbn x.
Proof.
  intros f co gv top inp x Hf H.
  destruct (shape_all f gv co) as (_ & Hs & _). specialize (Hs top inp). rewrite H in Hs.
  destruct (parse_ok_all f gv) as (_ & Hm & _). specialize (Hm top inp).
  destruct (many f false gv top inp); try discriminate. cbn in Hm. lia.
Qed.

(* ---------------------------------------------------------------- induction on trees, fields by Forall *)
Section TsigInd.
  Variable P : tsig -> Prop.
  Hypothesis Hleaf : forall c, P (TLeaf c).
  Hypothesis Harr : forall r c, P c -> P (TArray r c).
  Hypothesis Hdict : forall rk k rv v, P k -> P v -> P (TDict rk k rv v).
  Hypothesis Hstruct : forall r fs, Forall P fs -> P (TStruct r fs).
  Hypothesis Hmaybe : forall r c, P c -> P (TMaybe r c).
  Fixpoint tsig_ind' (t : tsig) : P t :=
    match t with
    | TLeaf c => Hleaf c
    | TArray r c => Harr r c (tsig_ind' c)
    | TDict rk k rv v => Hdict rk k rv v (tsig_ind' k) (tsig_ind' v)
    | TStruct r fs => Hstruct r fs ((fix go (l : list tsig) : Forall P l :=
                                       match l with [] => Forall_nil P | x :: l' => Forall_cons x (tsig_ind' x) (go l') end) fs)
    | TMaybe r c => Hmaybe r c (tsig_ind' c)
    end.
End TsigInd.

(* ---------------------------------------------------------------- completeness (format, then parse) *)

(* inputs on which parse_signature backtracks at once: the end of the input and a closing parenthesis *)
Definition stops (gv : bool) (rest : bytes) : Prop :=
  forall g, parse_signature (S g) false gv rest = PFail.

Lemma stops_nil : forall gv, stops gv [].
Proof. intros gv g. rewrite ps_S. destruct gv; reflexivity. Qed.

Lemma stops_close : forall gv r, stops gv (")"%byte :: r).
Proof. intros gv r g. rewrite ps_S. destruct gv; reflexivity. Qed.

Lemma show_head : forall gv t, parseable gv t = true ->
  exists c r, show t = c :: r /\ beq c "{" = false.
Proof. intros gv t H. destruct t as [[]| | | |]; try discriminate; eexists _, _; split; reflexivity. Qed.

Definition complete_at (gv : bool) (t : tsig) : Prop :=
  parseable gv t = true -> forall f rest, 2 * length (show t) + 1 <= f ->
    parse_signature f false gv (show t ++ rest) = POk (erase t) rest.

Lemma loop_complete : forall gv ts, Forall (complete_at gv) ts -> forallb (parseable gv) ts = true ->
  forall f rest, stops gv rest -> 2 * length (shows ts) + 2 <= f ->
    rep_loop f false gv (shows ts ++ rest) = POk (map erase ts) rest.
Proof.
  intros gv ts H. induction H as [|t ts Hc Hts IH]; intros Hps f rest Hst Hf.
  - destruct f as [|[|g]]; [lia|lia|]. cbn [shows map concat app]. rewrite loop_S, Hst. reflexivity.
  - cbn in Hps. apply andb_prop in Hps. destruct Hps as [Hp Hps].
    destruct f as [|f]; [lia|]. rewrite shows_length_cons in Hf. pose proof (show_nonempty _ _ Hp) as Hne.
    rewrite shows_cons, <- app_assoc, loop_S, (Hc Hp) by lia.
    rewrite same_len_shorter by (intros E; rewrite E in Hne; cbn in Hne; lia).
    rewrite IH; [reflexivity|exact Hps|exact Hst|lia].
Qed.

Lemma many_complete : forall gv top t ts, Forall (complete_at gv) (t :: ts) -> forallb (parseable gv) (t :: ts) = true ->
  forall f rest, stops gv rest -> 2 * length (shows (t :: ts)) + 2 <= f ->
    many f false gv top (shows (t :: ts) ++ rest) = POk (pack top (map erase (t :: ts))) rest.
Proof.
  intros gv top t ts H Hps f rest Hst Hf. inversion H as [|? ? Hc Hts]; subst.
  cbn in Hps. apply andb_prop in Hps. destruct Hps as [Hp Hps].
  destruct f as [|f]; [lia|]. rewrite shows_length_cons in Hf. pose proof (show_nonempty _ _ Hp) as Hne.
  rewrite shows_cons, <- app_assoc, many_S, (Hc Hp) by lia.
  rewrite (loop_complete gv ts Hts Hps) by (assumption || lia).
  rewrite fold_sl. reflexivity.
Qed.

Lemma palt_fail : forall {A} (p q : pparser A) inp, p inp = PFail -> palt p q inp = q inp.
Proof. intros A p q inp H. unfold palt. rewrite H. reflexivity. Qed.

Lemma palt_first : forall {A} (p q : pparser A) inp t r, p inp = POk t r -> palt p q inp = POk t r.
Proof. intros A p q inp t r H. unfold palt. rewrite H. reflexivity. Qed.

(* in each case [cbn -[show]] evaluates the alternatives that fail on the first byte *)
Lemma ps_complete : forall gv t, complete_at gv t.
Proof.
  intros gv t. induction t as [c|r c IH|rk k rv v IHk IHv|r fs IH|r c IH] using tsig_ind'; intros Hp f rest Hf;
    (destruct f as [|f]; [lia|]); rewrite ps_S.
  - (* leaf *)
    unfold palt. destruct (code_eqb c CFd) eqn:Efd.
    + destruct c; try discriminate. destruct gv; reflexivity.
    + rewrite (simple_code_of_char c); [reflexivity| |exact Efd]. cbn in Hp. destruct (code_eqb c CUnit); [discriminate|reflexivity].
  - (* array: the dict alternative reads the code and fails on the next byte *)
    cbn in Hp. rewrite show_array in *. cbn [app length] in Hf.
    destruct (show_head _ _ Hp) as (c0 & r0 & Hsh & Hnb).
    cbn -[show]. rewrite palt_fail; [apply palt_first|].
    + unfold p_array. rewrite lit1_cons, (IH Hp) by lia. reflexivity.
    + unfold p_dict. rewrite lit1_cons, Hsh. cbn [app lit1]. rewrite Hnb. reflexivity.
  - (* dict *)
    cbn in Hp. apply andb_prop in Hp. destruct Hp as [Hpk Hpv].
    rewrite show_dict in *. cbn [app length] in *. rewrite <- !app_assoc. rewrite !app_length in Hf.
    cbn -[show]. apply palt_first. unfold p_dict.
    rewrite !lit1_cons, (IHk Hpk), (IHv Hpv), lit1_cons by lia. reflexivity.
  - (* struct *)
    destruct fs as [|t ts]; [discriminate|]. cbn [parseable] in Hp.
    rewrite show_struct in *. cbn [app length] in *. rewrite <- app_assoc. rewrite app_length in Hf. cbn [length] in Hf.
    cbn -[show shows]. apply palt_first. unfold p_struct.
    rewrite lit1_cons, (many_complete gv false t ts IH Hp) by (try apply stops_close; lia).
    cbn [app]. rewrite lit1_cons, pack_false. reflexivity.
  - (* maybe *)
    cbn in Hp. apply andb_prop in Hp. destruct Hp as [Hgv Hp]. subst gv.
    rewrite show_maybe in *. cbn [app length] in Hf.
    cbn -[show]. apply palt_first. unfold p_maybe. rewrite lit1_cons, (IH Hp) by lia. reflexivity.
Qed.

Lemma many_shows : forall gv top t ts, forallb (parseable gv) (t :: ts) = true ->
  forall f rest, stops gv rest -> 2 * length (shows (t :: ts)) + 2 <= f ->
    many f false gv top (shows (t :: ts) ++ rest) = POk (pack top (map erase (t :: ts))) rest.
Proof.
  intros gv top t ts. apply many_complete. apply Forall_forall. intros x _. apply ps_complete.
Qed.
