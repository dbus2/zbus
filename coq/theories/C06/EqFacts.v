(* C06/EqFacts.v — string_len, representation independence of Eq/Hash/Ord/Display/PartialEq<&str>,
   and what PartialEq<&str> decides. *)
From ZV Require Import Base.Bytes Base.Res Base.WinnowFacts C06.Model C06.Classes C06.ParseFacts.
From Coq Require Import Lia.

(* ---------------------------------------------------------------- string_len *)
Lemma fold_len : forall fs a,
  Forall (fun f => string_len f = length (show f)) fs ->
  fold_left (fun len f => len + string_len f) fs a = a + length (shows fs).
Proof.
  intros fs a H. revert a. induction H as [|f fs Hf _ IH]; intros a; cbn [fold_left].
  - cbn. lia.
  - rewrite IH, shows_length_cons, Hf. lia.
Qed.

Theorem string_len_show : forall t, string_len t = length (show t).
Proof.
  induction t as [c|r c IH|rk k rv v IHk IHv|r fs IH|r c IH] using tsig_ind'.
  - destruct c; reflexivity.
  - rewrite show_array. cbn [string_len length]. rewrite IH. reflexivity.
  - rewrite show_dict. cbn [string_len length]. rewrite !app_length, IHk, IHv. cbn. lia.
  - rewrite show_struct. cbn [string_len length]. rewrite fold_len by exact IH. rewrite app_length. cbn. lia.
  - rewrite show_maybe. cbn [string_len length]. rewrite IH. reflexivity.
Qed.

(* ---------------------------------------------------------------- erase *)
Lemma was_erase : forall o t, write_as_string o (erase t) = write_as_string o t.
Proof.
  intros o t. revert o. induction t as [c|r c IH|rk k rv v IHk IHv|r fs IH|r c IH] using tsig_ind'; intros o;
    cbn [erase write_as_string]; try rewrite ?IH, ?IHk, ?IHv; try reflexivity.
  rewrite map_map. rewrite (map_ext_Forall _ (write_as_string true)); [reflexivity|].
  eapply Forall_impl; [|exact IH]. intros f H. apply H.
Qed.

Lemma show_erase : forall t, show (erase t) = show t.
Proof. intros. apply was_erase. Qed.

Lemma string_len_erase : forall t, string_len (erase t) = string_len t.
Proof. intros. rewrite !string_len_show. rewrite show_erase. reflexivity. Qed.

Lemma hash_erase : forall t, sig_hash (erase t) = sig_hash t.
Proof.
  induction t as [c|r c IH|rk k rv v IHk IHv|r fs IH|r c IH] using tsig_ind';
    cbn [erase sig_hash]; try rewrite ?IH, ?IHk, ?IHv; try reflexivity.
  rewrite map_map. rewrite (map_ext_Forall _ sig_hash IH). reflexivity.
Qed.

Lemma code_eqb_eq : forall a b, code_eqb a b = true <-> a = b.
Proof. intros a b. split; [destruct a, b; cbn; intros H; try discriminate; reflexivity|intros ->; destruct b; reflexivity]. Qed.

Theorem sig_eq_iff : forall a b, sig_eq a b = true <-> erase a = erase b.
Proof.
  induction a as [c|r c IH|rk k rv v IHk IHv|r fs IH|r c IH] using tsig_ind'; intros b; destruct b as [c'|r' c'|rk' k' rv' v'|r' fs'|r' c'];
    cbn [sig_eq erase]; try (split; intros H; discriminate H).
  - rewrite code_eqb_eq. split; intros H; congruence.
  - rewrite IH. split; intros H; congruence.
  - rewrite andb_true_iff, IHk, IHv. split; [intros [H1 H2]; congruence|intros H; inversion H; split; reflexivity].
  - transitivity (map erase fs = map erase fs'); [|split; intros H; congruence].
    revert fs'. induction IH as [|x l1 Hx _ IHl]; intros [|y l2]; cbn [map]; try (split; intros H; discriminate H).
    + split; reflexivity.
    + rewrite andb_true_iff, Hx, IHl. split; [intros [H1 H2]; congruence|intros H; inversion H; split; reflexivity].
  - rewrite IH. split; intros H; congruence.
Qed.

Lemma code_num_inj : forall x y, code_num x = code_num y -> x = y.
Proof. intros x y H. destruct x, y; try reflexivity; discriminate H. Qed.

Lemma code_num_lt : forall x, (code_num x < 15)%N.
Proof. intros x. destruct x; reflexivity. Qed.

Lemma lex_eq : forall c1 c2 : comparison, match c1 with Eq => c2 | Lt => Lt | Gt => Gt end = Eq <-> c1 = Eq /\ c2 = Eq.
Proof. intros [] c2; intuition discriminate. Qed.

(* Ord (after fix 668536e1) calls two signatures equal exactly when they are equal up to representation *)
Theorem sig_cmp_eq_iff : forall a b, sig_cmp a b = Eq <-> erase a = erase b.
Proof.
  induction a as [c|r c IH|rk k rv v IHk IHv|r fs IH|r c IH] using tsig_ind'; intros b;
    destruct b as [c'|r' c'|rk' k' rv' v'|r' fs'|r' c']; cbn [sig_cmp erase kind_rank];
    try (split; [intros H; apply N.compare_eq in H; try discriminate H;
                 try pose proof (code_num_lt c) as L; try pose proof (code_num_lt c') as L'; lia
                |intros H; discriminate H]).
  - destruct (code_eqb c c') eqn:E.
    + apply code_eqb_eq in E. subst. split; reflexivity.
    + split; intros H.
      * apply N.compare_eq in H. apply code_num_inj in H. subst. congruence.
      * inversion H; subst. assert (code_eqb c' c' = true) by (apply code_eqb_eq; reflexivity). congruence.
  - rewrite IH. split; intros H; congruence.
  - rewrite lex_eq, IHk, IHv. split; [intros [H1 H2]; congruence|intros H; inversion H; split; reflexivity].
  - transitivity (map erase fs = map erase fs'); [|split; intros H; congruence].
    revert fs'. induction IH as [|x l1 Hx _ IHl]; intros [|y l2]; cbn [map]; try (split; intros H; discriminate H).
    + split; reflexivity.
    + rewrite lex_eq, Hx, IHl. split; [intros [H1 H2]; congruence|intros H; inversion H; split; reflexivity].
  - rewrite IH. split; intros H; congruence.
Qed.

(* ---------------------------------------------------------------- PartialEq<&str>: slices of strings without continuation bytes *)
Definition noc (s : bytes) : Prop := Forall (fun b => is_cont b = false) s.

Lemma noc_app : forall a b, noc (a ++ b) <-> noc a /\ noc b.
Proof. intros. unfold noc. apply Forall_app. Qed.

Lemma noc_boundary : forall s i, noc s -> i <= length s -> is_char_boundary s i = true.
Proof.
  intros s i Hn Hi. unfold is_char_boundary. destruct (Nat.eqb i 0); [reflexivity|].
  destruct (nth_error s i) as [b|] eqn:E.
  - apply nth_error_In in E. unfold noc in Hn. rewrite Forall_forall in Hn. rewrite (Hn _ E). reflexivity.
  - apply nth_error_None in E. apply Nat.eqb_eq. lia.
Qed.

Lemma slice_mid : forall p m q, noc (p ++ m ++ q) ->
  slice (p ++ m ++ q) (length p) (length p + length m) = Ok m.
Proof.
  intros p m q Hn. unfold slice.
  assert (L : length (p ++ m ++ q) = length p + length m + length q) by (rewrite !app_length; lia).
  rewrite !noc_boundary by (assumption || lia).
  rewrite !(proj2 (Nat.leb_le _ _)) by lia.
  cbn [andb]. f_equal.
  rewrite skipn_app. rewrite skipn_all. rewrite Nat.sub_diag. cbn [skipn app].
  replace (length p + length m - length p) with (length m) by lia.
  rewrite firstn_app. rewrite firstn_all. rewrite Nat.sub_diag. cbn. rewrite app_nil_r. reflexivity.
Qed.

Lemma noc_shows : forall ts, Forall (fun t => noc (show t)) ts -> noc (shows ts).
Proof.
  intros ts H. induction H as [|t ts Ht _ IH]; [constructor|]. rewrite shows_cons. apply noc_app. split; assumption.
Qed.

Lemma show_noc : forall t, noc (show t).
Proof.
  induction t as [c|r c IH|rk k rv v IHk IHv|r fs IH|r c IH] using tsig_ind'.
  - destruct c; repeat constructor.
  - rewrite show_array. constructor; [reflexivity|exact IH].
  - rewrite show_dict. repeat (constructor; [reflexivity|]). apply noc_app. split; [|repeat constructor].
    apply noc_app. split; assumption.
  - rewrite show_struct. constructor; [reflexivity|]. apply noc_app. split; [|repeat constructor].
    apply noc_shows, IH.
  - rewrite show_maybe. constructor; [reflexivity|exact IH].
Qed.

Lemma shows_noc : forall ts, noc (shows ts).
Proof. intros ts. apply noc_shows, Forall_forall. intros t _. apply show_noc. Qed.

Lemma ends_with1_snoc : forall c s, ends_with1 c (s ++ [c]) = true.
Proof.
  intros c s. induction s as [|x s IH]; cbn [app ends_with1].
  - apply beq_refl.
  - destruct (s ++ [c]) eqn:E; [destruct s; discriminate|]. exact IH.
Qed.

(* convenient shapes of slice_mid *)
Lemma slice_tail1 : forall x m, noc (x :: m) -> slice (x :: m) 1 (length (x :: m)) = Ok m.
Proof.
  intros x m Hn. pose proof (slice_mid [x] m [] ltac:(rewrite app_nil_r; exact Hn)) as H.
  rewrite app_nil_r in H. cbn [app length] in *. exact H.
Qed.

Lemma slice_inner1 : forall x m z, noc (x :: m ++ [z]) ->
  slice (x :: m ++ [z]) 1 (length (x :: m ++ [z]) - 1) = Ok m.
Proof.
  intros x m z Hn. pose proof (slice_mid [x] m [z] Hn) as H. cbn [app length] in *.
  rewrite app_length. cbn [length]. replace (S (length m + 1) - 1) with (1 + length m) by lia. exact H.
Qed.

Lemma slice_inner2 : forall x y m z, noc (x :: y :: m ++ [z]) ->
  slice (x :: y :: m ++ [z]) 2 (length (x :: y :: m ++ [z]) - 1) = Ok m.
Proof.
  intros x y m z Hn. pose proof (slice_mid [x; y] m [z] Hn) as H. cbn [app length] in *.
  rewrite app_length. cbn [length]. replace (S (S (length m + 1)) - 1) with (2 + length m) by lia. exact H.
Qed.

Lemma split_at_1 : forall x m, noc (x :: m) -> split_at (x :: m) 1 = Ok ([x], m).
Proof.
  intros x m Hn. unfold split_at. rewrite noc_boundary by (assumption || cbn; lia). reflexivity.
Qed.

Lemma slice_ok : forall s a b m, slice s a b = Ok m -> m = firstn (b - a) (skipn a s) /\ a <= b /\ b <= length s.
Proof.
  intros s a b m H. unfold slice in H.
  destruct (Nat.leb a b) eqn:E1; [|discriminate]. destruct (Nat.leb b (length s)) eqn:E2; [|discriminate].
  cbn [andb] in H. destruct (is_char_boundary s a && is_char_boundary s b); [|discriminate].
  inversion H. apply Nat.leb_le in E1. apply Nat.leb_le in E2. auto.
Qed.

Lemma split_at_ok : forall s n x y, split_at s n = Ok (x, y) -> s = x ++ y.
Proof.
  intros s n x y H. unfold split_at in H. destruct (Nat.leb n (length s) && is_char_boundary s n); [|discriminate].
  inversion H. symmetry. apply firstn_skipn.
Qed.

Lemma starts_with_inv : forall p s, starts_with p s = true -> exists r, s = p ++ r.
Proof. intros p s H. exists (skipn (length p) s). now apply starts_with_app. Qed.

Lemma ends_with1_inv : forall c s, ends_with1 c s = true -> exists p, s = p ++ [c].
Proof.
  intros c s. induction s as [|x s IH]; intros H; [discriminate|]. cbn [ends_with1] in H.
  destruct s as [|y s'].
  - apply beq_eq in H. subst x. exists []. reflexivity.
  - destruct (IH H) as (p & Hp). exists (x :: p). rewrite Hp. reflexivity.
Qed.

Lemma bind_ok_true : forall {A} (r : res unit A) (f : A -> res unit bool),
  bind r f = Ok true -> exists a, r = Ok a /\ f a = Ok true.
Proof. intros A [a|e|p] f H; cbn in H; try discriminate. eauto. Qed.

Lemma bind_ext : forall {E A B0} (r : res E A) (f g : A -> res E B0), (forall a, f a = g a) -> bind r f = bind r g.
Proof. intros E A B0 [a|e|p] f g H; cbn; [apply H|reflexivity|reflexivity]. Qed.

(* [eq_str] on an array and on a maybe: one byte, then the child on the rest *)
Section Prefixed.
  Variables (x : byte) (f g : bytes -> res unit bool).
  Hypothesis Hg : forall s, g s =
    if Nat.ltb (length s) 2 || negb (starts_with [x] s) then Ok false
    else let* o := slice s 1 (length s) in f o.

  Lemma prefixed_show : forall m, noc (x :: m) -> 1 <= length m -> g (x :: m) = f m.
  Proof.
    intros m Hn Hm. rewrite Hg, slice_tail1 by exact Hn.
    rewrite (proj2 (Nat.ltb_ge _ _)) by (cbn; lia). cbn [starts_with]. rewrite beq_refl. reflexivity.
  Qed.

  Lemma prefixed_sound : forall s, g s = Ok true -> exists m, s = x :: m /\ f m = Ok true.
  Proof.
    intros s H. rewrite Hg in H.
    destruct (Nat.ltb (length s) 2); [discriminate|].
    destruct (starts_with [x] s) eqn:E; [|discriminate]. cbn [orb negb] in H.
    destruct (starts_with_inv _ _ E) as (m & ->). exists m. split; [reflexivity|].
    destruct (bind_ok_true _ _ H) as (o & Ho & Hc). apply slice_ok in Ho. destruct Ho as (Ho & _ & _).
    cbn [app length skipn] in Ho. replace (S (length m) - 1) with (length m) in Ho by lia.
    rewrite firstn_all in Ho. subst o. exact Hc.
  Qed.
End Prefixed.

(* the loop over the fields of a struct *)
Definition fields_loop (fstr : bytes) : list tsig -> nat -> res unit bool :=
  fix go (l : list tsig) (start : nat) : res unit bool :=
    match l with
    | [] => Ok true
    | f :: l' =>
        let len := string_len f in
        let e := start + len in
        if Nat.ltb (length fstr) e then Ok false
        else
          let* piece := slice fstr start e in
          let* b := eq_str f piece in
          if b then go l' (start + len) else Ok false
    end.

Lemma eq_str_struct : forall r fs other,
  eq_str (TStruct r fs) other =
  let sl := string_len (TStruct r fs) in
  let ol := length other in
  if Nat.ltb sl ol || (negb (Nat.eqb sl ol) && negb (Nat.eqb sl (ol + 2))) then Ok false
  else if Nat.eqb sl ol then (let* fstr := slice other 1 (ol - 1) in fields_loop fstr fs 0)
  else if Nat.eqb ol 0 then Ok false
  else fields_loop other fs 0.
Proof. reflexivity. Qed.

Lemma fields_loop_complete : forall fstr fs pre,
  fstr = pre ++ shows fs -> noc fstr ->
  Forall (fun f => eq_str f (show f) = Ok true) fs ->
  fields_loop fstr fs (length pre) = Ok true.
Proof.
  intros fstr fs. induction fs as [|f fs IH]; intros pre Hf Hn Hall; [reflexivity|].
  inversion Hall as [|? ? Hf1 Hfs]; subst.
  cbn [fields_loop]. fold (fields_loop (pre ++ shows (f :: fs))).
  rewrite string_len_show.
  assert (E : pre ++ shows (f :: fs) = pre ++ show f ++ shows fs) by reflexivity.
  assert (L : length (pre ++ shows (f :: fs)) = length pre + length (show f) + length (shows fs)).
  { rewrite E. rewrite !app_length. lia. }
  rewrite (proj2 (Nat.ltb_ge _ _)) by lia.
  rewrite E. rewrite slice_mid by (rewrite <- E; exact Hn). cbn [bind]. rewrite Hf1. cbn [bind].
  replace (length pre + length (show f)) with (length (pre ++ show f)) by (rewrite app_length; reflexivity).
  apply IH.
  - rewrite <- app_assoc. reflexivity.
  - exact Hn.
  - exact Hfs.
Qed.

Theorem eq_str_show : forall gv t, parseable gv t = true -> basic_keys t = true -> eq_str t (show t) = Ok true.
Proof.
  intros gv t. induction t as [c|r c IH|rk k rv v IHk IHv|r fs IH|r c IH] using tsig_ind'; intros Hp Hb.
  - cbn [eq_str]. change (show (TLeaf c)) with (code_char c). rewrite lbeq_refl. reflexivity.
  - cbn [parseable basic_keys] in Hp, Hb. rewrite show_array.
    rewrite (prefixed_show "a" (eq_str c) (eq_str (TArray r c)) (fun _ => eq_refl)).
    + apply IH; assumption.
    + apply (show_noc (TArray r c)).
    + apply (show_nonempty gv), Hp.
  - cbn [parseable basic_keys] in Hp, Hb. apply andb_prop in Hp. destruct Hp as [Hpk Hpv]. apply andb_prop in Hb. destruct Hb as [Hbk Hbv].
    destruct k as [kc| | | |]; try discriminate Hbk.
    assert (Hkc : exists c0, code_char kc = [c0]) by (destruct kc; try discriminate Hbk; eexists; reflexivity).
    destruct Hkc as (c0 & Hkc). pose proof (show_noc (TDict rk (TLeaf kc) rv v)) as Hn.
    rewrite show_dict in *. change (show (TLeaf kc)) with (code_char kc) in *. rewrite Hkc in *. change ([c0] ++ show v) with (c0 :: show v) in *.
    assert (Hn2 : noc (c0 :: show v)).
    { inversion Hn as [|? ? _ Hn1]. inversion Hn1 as [|? ? _ Hn2]. inversion Hn2 as [|? ? Hc0 _].
      constructor; [exact Hc0|apply show_noc]. }
    cbn [eq_str]. rewrite (proj2 (Nat.ltb_ge _ _)) by (cbn; rewrite app_length; cbn; lia).
    change (starts_with (B "a{") ("a"%byte :: "{"%byte :: (c0 :: show v) ++ ["}"%byte])) with true.
    assert (Hew : ends_with1 "}" ("a"%byte :: "{"%byte :: (c0 :: show v) ++ ["}"%byte]) = true)
      by apply (ends_with1_snoc "}" ("a"%byte :: "{"%byte :: c0 :: show v)).
    rewrite Hew. cbn [orb negb].
    rewrite slice_inner2 by exact Hn. cbn [bind].
    rewrite split_at_1 by exact Hn2. cbn [bind fst snd eq_str]. rewrite Hkc, lbeq_refl. cbn [bind].
    apply IHv; assumption.
  - cbn [parseable] in Hp. destruct fs as [|t0 ts]; [discriminate|]. cbn [basic_keys] in Hb.
    assert (Hall : Forall (fun f => eq_str f (show f) = Ok true) (t0 :: ts)).
    { rewrite forallb_forall in Hp, Hb. rewrite Forall_forall in *. intros x Hx. apply IH; auto. }
    pose proof (show_noc (TStruct r (t0 :: ts))) as Hn.
    rewrite eq_str_struct. cbv zeta. rewrite string_len_show, Nat.ltb_irrefl, Nat.eqb_refl. cbn [orb negb andb].
    rewrite show_struct in *. rewrite slice_inner1 by exact Hn. cbn [bind].
    apply (fields_loop_complete (shows (t0 :: ts)) (t0 :: ts) []); [reflexivity|apply shows_noc|exact Hall].
  - cbn [parseable basic_keys] in Hp, Hb. apply andb_prop in Hp. destruct Hp as [_ Hp]. rewrite show_maybe.
    rewrite (prefixed_show "m" (eq_str c) (eq_str (TMaybe r c)) (fun _ => eq_refl)).
    + apply IH; assumption.
    + apply (show_noc (TMaybe r c)).
    + apply (show_nonempty gv), Hp.
Qed.

Theorem eq_str_show_noparens : forall gv r t0 ts,
  forallb (parseable gv) (t0 :: ts) = true -> forallb basic_keys (t0 :: ts) = true ->
  eq_str (TStruct r (t0 :: ts)) (shows (t0 :: ts)) = Ok true.
Proof.
  intros gv r t0 ts Hp Hb.
  assert (Hall : Forall (fun f => eq_str f (show f) = Ok true) (t0 :: ts)).
  { rewrite forallb_forall in Hp, Hb. rewrite Forall_forall. intros x Hx. apply (eq_str_show gv); auto. }
  assert (Hp0 : parseable gv t0 = true) by (cbn in Hp; apply andb_prop in Hp; tauto).
  pose proof (show_nonempty _ _ Hp0) as Hne.
  rewrite eq_str_struct. cbv zeta. rewrite string_len_show, show_struct. cbn [length]. rewrite app_length. cbn [length].
  set (n := length (shows (t0 :: ts))).
  assert (Hn1 : 1 <= n) by (unfold n; rewrite shows_length_cons; lia).
  rewrite (proj2 (Nat.ltb_ge _ _)) by lia.
  rewrite (proj2 (Nat.eqb_neq (S (n + 1)) n)) by lia.
  rewrite (proj2 (Nat.eqb_eq _ _)) by lia.
  rewrite (proj2 (Nat.eqb_neq n 0)) by lia.
  cbn [orb negb andb].
  apply (fields_loop_complete (shows (t0 :: ts)) (t0 :: ts) []); [reflexivity|apply shows_noc|exact Hall].
Qed.

(* ---------------------------------------------------------------- PartialEq<&str> does not depend on the representation *)
Lemma fields_loop_erase : forall fstr fs start,
  Forall (fun f => forall s, eq_str (erase f) s = eq_str f s) fs ->
  fields_loop fstr (map erase fs) start = fields_loop fstr fs start.
Proof.
  intros fstr fs start H. revert start. induction H as [|f fs Hf _ IH]; intros start; [reflexivity|].
  cbn [map fields_loop]. fold (fields_loop fstr). rewrite string_len_erase.
  destruct (Nat.ltb (length fstr) (start + string_len f)); [reflexivity|].
  apply bind_ext. intros piece. rewrite Hf. apply bind_ext. intros b. destruct b; [apply IH|reflexivity].
Qed.

Theorem eq_str_erase : forall t s, eq_str (erase t) s = eq_str t s.
Proof.
  induction t as [c|r c IH|rk k rv v IHk IHv|r fs IH|r c IH] using tsig_ind'; intros s.
  - reflexivity.
  - cbn [erase eq_str]. destruct (Nat.ltb (length s) 2 || negb (starts_with (B "a") s)); [reflexivity|].
    apply bind_ext. intros o. apply IH.
  - cbn [erase eq_str].
    destruct (Nat.ltb (length s) 4 || negb (starts_with (B "a{") s) || negb (ends_with1 "}" s)); [reflexivity|].
    apply bind_ext. intros inner. apply bind_ext. intros kv. rewrite IHk. apply bind_ext. intros a.
    destruct a; [apply IHv|reflexivity].
  - change (erase (TStruct r fs)) with (TStruct Dynamic (map erase fs)). rewrite !eq_str_struct. cbv zeta.
    change (TStruct Dynamic (map erase fs)) with (erase (TStruct r fs)). rewrite string_len_erase.
    destruct (Nat.ltb (string_len (TStruct r fs)) (length s)
              || negb (Nat.eqb (string_len (TStruct r fs)) (length s)) && negb (Nat.eqb (string_len (TStruct r fs)) (length s + 2)));
      [reflexivity|].
    destruct (Nat.eqb (string_len (TStruct r fs)) (length s)).
    + apply bind_ext. intros fstr. apply fields_loop_erase. exact IH.
    + destruct (Nat.eqb (length s) 0); [reflexivity|]. apply fields_loop_erase. exact IH.
  - cbn [erase eq_str]. destruct (Nat.ltb (length s) 2 || negb (starts_with (B "m") s)); [reflexivity|].
    apply bind_ext. intros o. apply IH.
Qed.

(* ---------------------------------------------------------------- PartialEq<&str> is sound on struct-free signatures *)
Theorem eq_str_sound : forall t s, has_struct t = false -> eq_str t s = Ok true -> s = show t.
Proof.
  induction t as [c|r c IH|rk k rv v IHk IHv|r fs IH|r c IH] using tsig_ind'; intros s Hs H.
  - cbn [eq_str] in H. inversion H as [H']. apply lbeq_eq in H'. exact H'.
  - destruct (prefixed_sound "a" (eq_str c) (eq_str (TArray r c)) (fun _ => eq_refl) s H) as (m & -> & Hm).
    rewrite show_array. f_equal. apply IH; assumption.
  - cbn [eq_str has_struct] in *. apply orb_false_iff in Hs. destruct Hs as [Hsk Hsv].
    destruct (Nat.ltb (length s) 4) eqn:E1; [discriminate|]. apply Nat.ltb_ge in E1.
    destruct (starts_with (B "a{") s) eqn:E2; [|discriminate].
    destruct (ends_with1 "}" s) eqn:E3; [|discriminate]. cbn [orb negb] in H.
    destruct (starts_with_inv _ _ E2) as (rest & ->). change (B "a{") with ["a"%byte; "{"%byte] in *. cbn [app] in *.
    destruct (ends_with1_inv _ _ E3) as (p & Hp).
    destruct p as [|x [|y p']].
    { cbn in Hp. inversion Hp. }
    { cbn in Hp. inversion Hp. }
    cbn [app] in Hp. inversion Hp as [[Hx Hy Hr]]. subst rest. clear Hp.
    destruct (bind_ok_true _ _ H) as (inner & Hi & H1). apply slice_ok in Hi. destruct Hi as (Hi & _ & _).
    cbn [length skipn] in Hi. rewrite app_length in Hi. cbn [length] in Hi.
    replace (S (S (length p' + 1)) - 1 - 2) with (length p' + 0) in Hi by lia.
    rewrite firstn_app_2 in Hi. cbn [firstn] in Hi. rewrite app_nil_r in Hi. subst inner.
    destruct (bind_ok_true _ _ H1) as ([ks vs] & Hkv & H2). apply split_at_ok in Hkv.
    destruct (bind_ok_true _ _ H2) as (a & Hk & H3). cbn [fst snd] in *.
    destruct a; [|discriminate].
    apply IHk in Hk; [|exact Hsk]. apply IHv in H3; [|exact Hsv].
    subst p' ks vs. reflexivity.
  - discriminate Hs.
  - destruct (prefixed_sound "m" (eq_str c) (eq_str (TMaybe r c)) (fun _ => eq_refl) s H) as (m & -> & Hm).
    rewrite show_maybe. f_equal. apply IH; assumption.
Qed.
