(* C06/SpecFacts.v — the decision procedure [valid_sigb] decides the inductive grammar [valid_signature]. *)
From ZV Require Import Base.Bytes Base.WinnowFacts C06.Spec.
From Coq Require Import Lia.

(* first byte of a complete type *)
Definition type_start (c : byte) : bool :=
  basic_code c || beq c "v" || beq c "a" || beq c "(" || beq c "m".

Lemma type_start_not_close : forall c, type_start c = true -> beq c ")" = false /\ beq c "{" = false.
Proof. intros c; destruct c; cbv; intros H; try discriminate H; split; reflexivity. Qed.

Lemma ctype_head : forall gv na ns p, ctype gv na ns p -> exists c r, p = c :: r /\ type_start c = true.
Proof.
  intros gv na ns p H. destruct H.
  - exists c, []. split; [reflexivity|]. unfold type_start. rewrite H. reflexivity.
  - exists "v"%byte, []. split; reflexivity.
  - exists "a"%byte, s. split; reflexivity.
  - eexists "a"%byte, _. split; reflexivity.
  - eexists "("%byte, _. split; reflexivity.
  - exists "m"%byte, s. split; reflexivity.
Qed.

Lemma cseq_head : forall gv na ns body, cseq gv na ns body -> body <> [] ->
  exists c r, body = c :: r /\ type_start c = true.
Proof.
  intros gv na ns body H. induction H as [|na ns s r Hs Hr IH]; intros Hne.
  - congruence.
  - destruct (ctype_head _ _ _ _ Hs) as (c & r' & -> & Hc). exists c, (r' ++ r). split; [reflexivity|exact Hc].
Qed.

Lemma scan_sound_both : forall fuel gv,
  (forall na ns s rest, scan fuel gv na ns s = Some rest -> exists p, s = p ++ rest /\ ctype gv na ns p) /\
  (forall na ns s rest, scan_seq fuel gv na ns s = Some rest ->
     exists body, s = body ++ rest /\ cseq gv na ns body /\ (rest = [] \/ exists r, rest = ")"%byte :: r)).
Proof.
  induction fuel as [|f IH]; intros gv.
  - split; intros; discriminate.
  - destruct (IH gv) as [IHs IHq]. split.
    + intros na ns s rest H. cbn [scan] in H.
      destruct s as [|c r]; [discriminate|].
      destruct (basic_code c || beq c "v") eqn:Hbv.
      { inversion H; subst rest. exists [c]. split; [reflexivity|].
        destruct (basic_code c) eqn:Hb.
        - apply CT_basic; exact Hb.
        - cbn in Hbv. apply beq_eq in Hbv. subst c. apply CT_variant. }
      destruct (beq c "a") eqn:Ha.
      { apply beq_eq in Ha. subst c. destruct na as [|na']; [discriminate|].
        destruct r as [|b r1]; [discriminate|].
        destruct (beq b "{") eqn:Hb.
        - apply beq_eq in Hb. subst b. destruct r1 as [|k r2]; [discriminate|].
          destruct (basic_code k) eqn:Hk; [|discriminate].
          destruct (scan f gv na' ns r2) as [[|e r3]|] eqn:Hsc; try discriminate.
          destruct (beq e "}") eqn:He; [|discriminate]. apply beq_eq in He. subst e.
          inversion H; subst rest.
          destruct (IHs _ _ _ _ Hsc) as (p & -> & Hp).
          exists (B "a{" ++ k :: p ++ B "}"). split.
          + cbn. rewrite <- app_assoc. reflexivity.
          + apply CT_dict; assumption.
        - destruct (IHs _ _ _ _ H) as (p & Hr & Hp). exists ("a"%byte :: p). split.
          + cbn. rewrite <- Hr. reflexivity.
          + apply CT_array; exact Hp. }
      destruct (beq c "(") eqn:Ho.
      { apply beq_eq in Ho. subst c. destruct ns as [|ns']; [discriminate|].
        destruct r as [|b r1]; [discriminate|].
        destruct (beq b ")") eqn:Hb; [discriminate|].
        destruct (scan_seq f gv na ns' (b :: r1)) as [[|e r2]|] eqn:Hsc; try discriminate.
        destruct (beq e ")") eqn:He; [|discriminate]. apply beq_eq in He. subst e.
        inversion H; subst rest.
        destruct (IHq _ _ _ _ Hsc) as (body & Hr & Hb' & _).
        exists ("("%byte :: body ++ B ")"). split.
        - cbn. rewrite <- app_assoc. cbn. rewrite <- Hr. reflexivity.
        - apply CT_struct; [exact Hb'|].
          intros ->. cbn in Hr. inversion Hr; subst b. rewrite beq_refl in Hb. discriminate. }
      destruct (beq c "m") eqn:Hm; [|discriminate].
      apply beq_eq in Hm. subst c. destruct gv eqn:Hgv; [|discriminate].
      destruct (IHs _ _ _ _ H) as (p & Hr & Hp). exists ("m"%byte :: p). split.
      * cbn. rewrite <- Hr. reflexivity.
      * apply CT_maybe; [reflexivity|exact Hp].
    + intros na ns s rest H. cbn [scan_seq] in H.
      destruct s as [|c r].
      { inversion H; subst rest. exists []. split; [reflexivity|]. split; [apply CS_nil|left; reflexivity]. }
      destruct (beq c ")") eqn:Hc.
      { apply beq_eq in Hc. subst c. inversion H; subst rest. exists []. split; [reflexivity|].
        split; [apply CS_nil|right; eexists; reflexivity]. }
      destruct (scan f gv na ns (c :: r)) as [r'|] eqn:Hsc; [|discriminate].
      destruct (IHs _ _ _ _ Hsc) as (p & Hp1 & Hp2).
      destruct (IHq _ _ _ _ H) as (body & Hb1 & Hb2 & Hb3).
      exists (p ++ body). split; [|split].
      * rewrite Hp1, Hb1. rewrite app_assoc. reflexivity.
      * apply CS_cons; assumption.
      * exact Hb3.
Qed.

Lemma scan_complete_both : forall gv,
  (forall na ns p, ctype gv na ns p ->
     forall fuel rest, 2 * length p <= fuel -> scan fuel gv na ns (p ++ rest) = Some rest) /\
  (forall na ns body, cseq gv na ns body ->
     forall fuel rest, 2 * length body + 1 <= fuel -> (rest = [] \/ exists r, rest = ")"%byte :: r) ->
     scan_seq fuel gv na ns (body ++ rest) = Some rest).
Proof.
  intros gv. apply ctype_cseq_mind.
  - (* basic *) intros na ns c Hc fuel rest Hf. destruct fuel as [|f]; [cbn in Hf; lia|].
    cbn [app scan]. rewrite Hc. reflexivity.
  - (* variant *) intros na ns fuel rest Hf. destruct fuel as [|f]; [cbn in Hf; lia|]. reflexivity.
  - (* array *) intros na ns s Hs IH fuel rest Hf. destruct fuel as [|f]; [cbn in Hf; lia|].
    destruct (ctype_head _ _ _ _ Hs) as (c & r & Hsr & Hc).
    destruct (type_start_not_close _ Hc) as [_ Hnb].
    assert (Hgo : scan f gv na ns (s ++ rest) = Some rest) by (apply IH; cbn in Hf; lia).
    cbn. rewrite Hsr in *. cbn [app] in *. rewrite Hnb. exact Hgo.
  - (* dict *) intros na ns k v Hk Hv IH fuel rest Hf. destruct fuel as [|f]; [cbn in Hf; lia|].
    cbn in *. rewrite Hk, <- app_assoc, IH by (rewrite app_length in Hf; cbn in Hf; lia). reflexivity.
  - (* struct *) intros na ns body Hb IH Hne fuel rest Hf. destruct fuel as [|f]; [cbn in Hf; lia|].
    destruct (cseq_head _ _ _ _ Hb Hne) as (c & r & Hbr & Hc).
    destruct (type_start_not_close _ Hc) as [Hnc _].
    assert (Hgo : scan_seq f gv na ns (body ++ ")"%byte :: rest) = Some (")"%byte :: rest)).
    { apply IH; [|right; eexists; reflexivity]. cbn in Hf. rewrite app_length in Hf. cbn in Hf. lia. }
    cbn. rewrite <- app_assoc. rewrite Hbr in *. cbn [app] in *. rewrite Hnc, Hgo. reflexivity.
  - (* maybe *) intros na ns s Hgv Hs IH fuel rest Hf. destruct fuel as [|f]; [cbn in Hf; lia|].
    subst gv. cbn. apply IH. cbn in Hf. lia.
  - (* nil *) intros na ns fuel rest Hf Hrest. destruct fuel as [|f]; [lia|]. cbn [app scan_seq].
    destruct Hrest as [->|(r & ->)]; reflexivity.
  - (* cons *) intros na ns s r Hs IHs Hr IHr fuel rest Hf Hrest. destruct fuel as [|f]; [lia|].
    destruct (ctype_head _ _ _ _ Hs) as (c & r' & Hsr & Hc).
    destruct (type_start_not_close _ Hc) as [Hnc _].
    rewrite app_length in Hf.
    assert (Hlen : 1 <= length s) by (rewrite Hsr; cbn; lia).
    rewrite <- app_assoc.
    assert (H1 : scan f gv na ns (s ++ r ++ rest) = Some (r ++ rest)) by (apply IHs; lia).
    assert (H2 : scan_seq f gv na ns (r ++ rest) = Some rest) by (apply IHr; [lia|exact Hrest]).
    cbn [scan_seq]. rewrite Hsr in *. cbn [app] in *. rewrite Hnc, H1. exact H2.
Qed.

Theorem valid_sigb_iff : forall gv s, valid_sigb gv s = true <-> valid_signature gv s.
Proof.
  intros gv s. unfold valid_sigb, valid_signature. split.
  - destruct (scan_seq (scan_fuel s) gv max_array_nesting max_struct_nesting s) as [[|? ?]|] eqn:H; try discriminate.
    intros Hl. apply Nat.leb_le in Hl. split; [|exact Hl].
    destruct (scan_sound_both (scan_fuel s) gv) as [_ Hq].
    destruct (Hq _ _ _ _ H) as (body & Hb & Hc & _). rewrite app_nil_r in Hb. subst body. exact Hc.
  - intros [Hc Hl].
    destruct (scan_complete_both gv) as [_ Hq].
    pose proof (Hq _ _ _ Hc (scan_fuel s) [] ltac:(unfold scan_fuel; lia) (or_introl eq_refl)) as H.
    rewrite app_nil_r in H. rewrite H. apply Nat.leb_le. exact Hl.
Qed.

Lemma valid_sigb_false_iff : forall gv s, valid_sigb gv s = false <-> ~ valid_signature gv s.
Proof.
  intros gv s. rewrite <- valid_sigb_iff. destruct (valid_sigb gv s); split; intros H; congruence.
Qed.
