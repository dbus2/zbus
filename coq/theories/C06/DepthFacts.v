(* C06/DepthFacts.v — the recursion depth of the parser grows with the input: no constant bounds it,
   and it is at most the length of the input plus one. *)
From ZV Require Import Base.Bytes C06.Model C06.Classes C06.ParseFacts.
From Coq Require Import Lia.

Lemma depth_open : forall f gv r,
  (N.succ (snd (depth_many f gv r)) <= snd (depth_ps (S f) gv ("("%byte :: r)))%N.
Proof.
  intros f gv r.
  assert (E : depth_ps (S f) gv ("("%byte :: r) =
     let d_st := match depth_many f gv r with (None, d1) => (None, dS d1) | (Some r1, d1) => (lit1 ")" r1, dS d1) end in
     match d_st with
     | (Some r', d) => (Some r', dmax (dmax 1 1) d)
     | (None, ds) => (None, dmax (dmax (dmax 1 1) ds) 1)
     end).
  { destruct gv; reflexivity. }
  rewrite E. clear E. destruct (depth_many f gv r) as [[r1|] d1]; cbn [snd].
  - destruct (lit1 ")" r1); cbn [snd]; unfold dmax, dS; lia.
  - unfold dmax, dS; lia.
Qed.

Lemma depth_many_ge : forall f gv r, (snd (depth_ps f gv r) <= snd (depth_many (S f) gv r))%N.
Proof.
  intros f gv r. cbn [depth_many]. destruct (depth_ps f gv r) as [[r1|] d]; cbn [snd]; [|lia].
  destruct (depth_loop f gv r1) as [o d']. cbn [snd]. unfold dmax. lia.
Qed.

Lemma deep_parens : forall n f gv rest, 2 * n <= f ->
  (N.of_nat n <= snd (depth_ps f gv (repeat "("%byte n ++ rest)))%N.
Proof.
  induction n as [|n IH]; intros f gv rest Hf; [lia|].
  destruct f as [|[|f]]; try lia. cbn [repeat app].
  pose proof (depth_open (S f) gv (repeat "("%byte n ++ rest)) as H1.
  pose proof (depth_many_ge f gv (repeat "("%byte n ++ rest)) as H2.
  pose proof (IH f gv rest ltac:(lia)) as H3. lia.
Qed.

(* n opening parentheses make the parser nest at least n activations of parse_signature *)
Theorem stack_unbounded : forall gv n, (N.of_nat n <= stack_used gv (repeat "("%byte n))%N.
Proof.
  intros gv n. destruct n as [|n]; [cbn; lia|].
  remember (repeat "("%byte (S n)) as s eqn:Es.
  unfold stack_used. destruct s as [|c s']; [discriminate Es|]. rewrite Es.
  assert (Hf : parse_fuel (repeat "("%byte (S n)) = S (2 * S n + 1)).
  { unfold parse_fuel. rewrite repeat_length. lia. }
  rewrite Hf.
  pose proof (depth_many_ge (2 * S n + 1) gv (repeat "("%byte (S n))) as H1.
  pose proof (deep_parens (S n) (2 * S n + 1) gv [] ltac:(lia)) as H2. rewrite app_nil_r in H2. lia.
Qed.

Definition C06_bounded_stack_statement : Prop :=
  exists bound : N, forall gv s, (stack_used gv s <= bound)%N.

Theorem bounded_stack_refuted : ~ C06_bounded_stack_statement.
Proof.
  intros (bound & H). pose proof (H false (repeat "("%byte (S (N.to_nat bound)))) as H1.
  pose proof (stack_unbounded false (S (N.to_nat bound))) as H2. lia.
Qed.

(* a 5001-byte string already exceeds the threshold of the deep_recursion class *)
Theorem deep_recursion_witness : exists s, N.of_nat (length s) = 5001%N /\ Known_deep false s = true.
Proof.
  exists (repeat "("%byte (N.to_nat 5001)). split; [rewrite repeat_length; apply N2Nat.id|].
  unfold Known_deep. apply N.ltb_lt. pose proof (stack_unbounded false (N.to_nat 5001)) as H.
  rewrite N2Nat.id in H. unfold deep_threshold. lia.
Qed.

(* ---------------------------------------------------------------- … but it is at most linear in the input:
   a string within the 255-byte limit of the D-Bus grammar needs at most 256 activations.
   [dbound k inp res]: the depth is at most |inp| + 1 and a returned rest is at least k bytes shorter than inp *)
Definition dbound (k : nat) (inp : bytes) (res : option bytes * N) : Prop :=
  (snd res <= N.of_nat (length inp) + 1)%N /\ (forall r, fst res = Some r -> length r + k <= length inp).

Lemma lit1_len : forall c inp r, lit1 c inp = Some r -> length inp = S (length r).
Proof. intros c inp r H. apply lit1_some in H. subst. reflexivity. Qed.

Lemma simple_type_len : forall inp t r, simple_type inp = POk t r -> length inp = S (length r).
Proof.
  intros [|c inp] t r H; [discriminate|]. cbn in H. destruct (simple_code c); [|discriminate].
  inversion H. reflexivity.
Qed.

Lemma dbound_fail : forall k inp, dbound k inp (None, 1%N).
Proof. intros k inp. split; [cbn; lia|discriminate]. Qed.

(* the alternatives of parse_signature run on the same input; the depths of those that failed are kept *)
Lemma dbound_alt : forall inp (s : pres tsig) a1 a2 a3 a4 o,
  (forall t r, s = POk t r -> length inp = S (length r)) ->
  dbound 1 inp a1 -> dbound 1 inp a2 -> dbound 1 inp a3 -> dbound 1 inp a4 ->
  (forall r, o = Some r -> length r + 1 <= length inp) ->
  dbound 1 inp
    match s with
    | POk _ r => (Some r, 1%N)
    | _ =>
      match a1 with
      | (Some r, d) => (Some r, d)
      | (None, d1) =>
        match a2 with
        | (Some r, d) => (Some r, dmax d1 d)
        | (None, d2) =>
          match a3 with
          | (Some r, d) => (Some r, dmax (dmax d1 d2) d)
          | (None, d3) =>
            match a4 with
            | (Some r, d) => (Some r, dmax (dmax (dmax d1 d2) d3) d)
            | (None, d4) => (o, dmax (dmax (dmax d1 d2) d3) d4)
            end
          end
        end
      end
    end.
Proof.
  intros inp s [[r1|] d1] [[r2|] d2] [[r3|] d3] [[r4|] d4] o Hs [H1 R1] [H2 R2] [H3 R3] [H4 R4] Ho.
  all: destruct s as [t r| |x]; [specialize (Hs t r eq_refl)| |].
  all: split; [cbn [snd] in *; unfold dmax; lia|cbn [fst]; auto].
  all: intros r0 E; inversion E; subst; lia.
Qed.

(* a type code, then a child *)
Lemma dbound_prefixed : forall (p : bytes -> option bytes * N) c inp,
  (forall x, dbound 1 x (p x)) ->
  dbound 1 inp
    match lit1 c inp with None => (None, 1%N) | Some r0 =>
    match p r0 with (o, d1) => (o, dS d1) end end.
Proof.
  intros p c inp Hp. destruct (lit1 c inp) as [r0|] eqn:L0; [apply lit1_len in L0|apply dbound_fail].
  destruct (Hp r0) as [D1 R1]. destruct (p r0) as [o d1]; cbn [fst snd] in *.
  split; [cbn; unfold dS; lia|]. cbn. intros r E. specialize (R1 r E). lia.
Qed.

(* many and its loop: one element, then the loop on what it left; [on] is what is returned when the element fails *)
Lemma dbound_rep : forall k inp a (l : bytes -> option bytes * N) on,
  dbound 1 inp a -> (forall x, dbound 0 x (l x)) ->
  (forall r, on = Some r -> length r + k <= length inp) -> k <= 1 ->
  dbound k inp
    match a with
    | (None, d) => (on, d)
    | (Some r, d) => match l r with (o, d') => (o, dmax d d') end
    end.
Proof.
  intros k inp [[r|] d] l on [D R] Hl Hon Hk; cbn [fst snd] in *; [|split; assumption].
  specialize (R r eq_refl). destruct (Hl r) as [D' R']. destruct (l r) as [o d']; cbn [fst snd] in *.
  split; [cbn; unfold dmax; lia|]. cbn. intros r' E. specialize (R' r' E). lia.
Qed.

Lemma depth_bound_all : forall f gv,
  (forall inp, dbound 1 inp (depth_ps f gv inp)) /\
  (forall inp, dbound 1 inp (depth_many f gv inp)) /\
  (forall inp, dbound 0 inp (depth_loop f gv inp)).
Proof.
  induction f as [|f IH]; intros gv.
  - repeat split; cbn; intros; try lia; discriminate.
  - destruct (IH gv) as (IHp & IHm & IHl). split; [|split]; intros inp.
    + cbn [depth_ps]. apply dbound_alt.
      * apply simple_type_len.
      * (* dict *)
        destruct (lit1 "a" inp) as [r0|] eqn:L0; [apply lit1_len in L0|apply dbound_fail].
        destruct (lit1 "{" r0) as [r1|] eqn:L1; [apply lit1_len in L1|apply dbound_fail].
        destruct (IHp r1) as [D1 R1]. destruct (depth_ps f gv r1) as [[r2|] d1]; cbn [fst snd] in *.
        2:{ split; [cbn; unfold dS; lia|discriminate]. }
        specialize (R1 r2 eq_refl).
        destruct (IHp r2) as [D2 R2]. destruct (depth_ps f gv r2) as [[r3|] d2]; cbn [fst snd] in *.
        2:{ split; [cbn; unfold dS, dmax; lia|discriminate]. }
        specialize (R2 r3 eq_refl). split; [cbn; unfold dS, dmax; lia|].
        cbn. intros r4 L2. apply lit1_len in L2. lia.
      * (* array *) apply dbound_prefixed. exact IHp.
      * (* struct *)
        destruct (lit1 "(" inp) as [r0|] eqn:L0; [apply lit1_len in L0|apply dbound_fail].
        destruct (IHm r0) as [D1 R1]. destruct (depth_many f gv r0) as [[r1|] d1]; cbn [fst snd] in *.
        2:{ split; [cbn; unfold dS; lia|discriminate]. }
        specialize (R1 r1 eq_refl). split; [cbn; unfold dS; lia|].
        cbn. intros r2 L1. apply lit1_len in L1. lia.
      * (* maybe *) destruct gv; [apply dbound_prefixed; exact IHp|apply dbound_fail].
      * (* fd *) intros r L. apply lit1_len in L. lia.
    + cbn [depth_many]. apply dbound_rep; [apply IHp|exact IHl|discriminate|lia].
    + cbn [depth_loop]. apply dbound_rep; [apply IHp|exact IHl| |lia]. intros r E. inversion E; subst. lia.
Qed.

Theorem stack_linear : forall gv s, (stack_used gv s <= N.of_nat (length s) + 1)%N.
Proof.
  intros gv s. unfold stack_used. destruct s as [|c s]; [cbn; lia|].
  destruct (depth_bound_all (parse_fuel (c :: s)) gv) as (_ & Hm & _). apply (Hm (c :: s)).
Qed.
