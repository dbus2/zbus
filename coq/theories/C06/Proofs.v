(* C06/Proofs.v — the theorems about [parse] that Properties/C06.v states: round trips, totality, check_only,
   acceptance vs the D-Bus grammar (full statement refuted, partial statement proved), representation
   independence, `parsed == string`, and concrete instances of the hypotheses ([ex_*]). *)
From ZV Require Import Base.Bytes Base.Res Base.Sig Base.WinnowFacts C06.Model C06.Spec C06.Classes C06.SpecFacts C06.ParseFacts C06.EqFacts.
From Coq Require Import Lia.

(* ---------------------------------------------------------------- [parse] in terms of [many] *)
Definition finish (r : pres tsig) : res perr tsig :=
  match r with
  | POk t [] => Ok t
  | POk _ (_ :: _) => Err InvalidSignature
  | PFail => Err InvalidSignature
  | PAbn Fuel => Err OutOfFuel
  | PAbn Assert => Panic PAssert
  end.

Lemma parse_nonempty : forall co gv s, s <> [] -> parse co gv s = finish (many (parse_fuel s) co gv true s).
Proof. intros co gv [|c s] H; [congruence|reflexivity]. Qed.

Lemma parse_nil : forall co gv, parse co gv [] = Ok (TLeaf CUnit).
Proof. reflexivity. Qed.

Lemma finish_ok : forall r t, finish r = Ok t -> r = POk t [].
Proof. intros [t' [|c r]| |[|]] t H; cbn in H; try discriminate. inversion H; reflexivity. Qed.

Lemma parse_ok_inv : forall gv s t, from_str gv s = Ok t ->
  (s = [] /\ t = TLeaf CUnit) \/
  (exists ts, ts <> [] /\ s = shows ts /\ Forall (good gv) ts /\ t = pack true ts).
Proof.
  intros gv s t H. unfold from_str in H. destruct s as [|c s].
  - left. rewrite parse_nil in H. inversion H. split; reflexivity.
  - right. rewrite parse_nonempty in H by discriminate. apply finish_ok, many_sound in H.
    destruct H as (ts & Hne & [Hs Hg] & Ht). rewrite app_nil_r in Hs. eauto.
Qed.

Lemma shows_nonempty : forall gv t ts, parseable gv t = true -> shows (t :: ts) <> [].
Proof.
  intros gv t ts Hp E. pose proof (show_nonempty _ _ Hp) as H.
  apply (f_equal (@length byte)) in E. rewrite shows_length_cons in E. cbn in E. lia.
Qed.

Lemma parse_shows : forall gv t ts, forallb (parseable gv) (t :: ts) = true ->
  from_str gv (shows (t :: ts)) = Ok (pack true (map erase (t :: ts))).
Proof.
  intros gv t ts H. unfold from_str.
  assert (Hp : parseable gv t = true) by (cbn in H; apply andb_prop in H; tauto).
  rewrite parse_nonempty by (eapply shows_nonempty; exact Hp).
  pose proof (many_shows gv true t ts H (parse_fuel (shows (t :: ts))) [] (stops_nil gv)) as Hm.
  rewrite app_nil_r in Hm. rewrite Hm; [reflexivity|]. unfold parse_fuel. lia.
Qed.

(* ---------------------------------------------------------------- round trips *)
Theorem parse_roundtrip : forall gv s t, from_str gv s = Ok t ->
  show t = s \/ (is_struct t = true /\ show_noparens t = s).
Proof.
  intros gv s t H. destruct (parse_ok_inv _ _ _ H) as [[-> ->]|(ts & Hne & -> & Hg & ->)].
  - left. reflexivity.
  - destruct ts as [|a [|b l]]; [congruence| |].
    + left. unfold shows. cbn. rewrite app_nil_r. reflexivity.
    + right. split; [reflexivity|]. unfold show_noparens, shows. cbn [pack write_as_string].
      rewrite app_nil_r. reflexivity.
Qed.

Theorem show_parse : forall gv t, t = TLeaf CUnit \/ parseable gv t = true ->
  from_str gv (show t) = Ok (erase t).
Proof.
  intros gv t [->|Hp]; [reflexivity|].
  pose proof (parse_shows gv t [] ltac:(cbn; rewrite Hp; reflexivity)) as H.
  unfold shows in H. cbn in H. rewrite app_nil_r in H. exact H.
Qed.

Theorem show_noparens_parse : forall gv r fs, 2 <= length fs -> forallb (parseable gv) fs = true ->
  from_str gv (show_noparens (TStruct r fs)) = Ok (erase (TStruct r fs)).
Proof.
  intros gv r fs Hl Hp. destruct fs as [|a [|b l]]; cbn in Hl; try lia.
  pose proof (parse_shows gv a (b :: l) Hp) as H.
  unfold show_noparens. cbn [write_as_string]. cbn [app]. rewrite app_nil_r. exact H.
Qed.

(* ---------------------------------------------------------------- totality: no fuel exhaustion, no panic *)
Theorem parse_total : forall co gv s, parse co gv s = Err InvalidSignature \/ exists t, parse co gv s = Ok t.
Proof.
  intros co gv s. destruct s as [|c s]; [right; eexists; reflexivity|].
  rewrite parse_nonempty by discriminate.
  pose proof (many_no_abn (parse_fuel (c :: s)) co gv true (c :: s)) as Hm.
  destruct (many (parse_fuel (c :: s)) co gv true (c :: s)) as [t [|x r]| |x]; cbn.
  - right. eexists; reflexivity.
  - left; reflexivity.
  - left; reflexivity.
  - exfalso. apply (Hm x); [unfold parse_fuel; lia|reflexivity].
Qed.

Corollary parse_never_out_of_fuel : forall co gv s, parse co gv s <> Err OutOfFuel.
Proof. intros co gv s. destruct (parse_total co gv s) as [->|(t & ->)]; discriminate. Qed.

Corollary parse_never_panics : forall co gv s, is_panic (parse co gv s) = false.
Proof. intros co gv s. destruct (parse_total co gv s) as [->|(t & ->)]; reflexivity. Qed.

(* ---------------------------------------------------------------- check_only accepts the same strings *)
Theorem validate_same : forall gv s, validate gv s = is_ok (from_str gv s).
Proof.
  intros gv s. unfold validate, from_str. destruct s as [|c s]; [reflexivity|].
  rewrite !parse_nonempty by discriminate.
  destruct (shape_all (parse_fuel (c :: s)) gv true) as (_ & Hm & _). specialize (Hm true (c :: s)).
  destruct (shape_cases _ _ Hm) as [(x & y & r & -> & ->)|[[-> ->]|(x & -> & ->)]]; try reflexivity.
  destruct r; reflexivity.
Qed.

(* ---------------------------------------------------------------- trees and the string grammar *)
Lemma basic_leaf_show : forall t, basic_leaf t = true -> exists c, show t = [c] /\ basic_code c = true.
Proof.
  intros t H. destruct t as [c| | | |]; try discriminate.
  destruct c; try discriminate; eexists; split; reflexivity.
Qed.

Lemma leaf_ctype : forall gv c na ns, code_eqb c CUnit = false -> ctype gv na ns (show (TLeaf c)).
Proof.
  intros gv c na ns H. destruct c; try discriminate; try (apply CT_basic; reflexivity). apply CT_variant.
Qed.

Lemma cseq_shows : forall gv na ns ts, Forall (fun t => ctype gv na ns (show t)) ts -> cseq gv na ns (shows ts).
Proof.
  intros gv na ns ts H. induction H as [|t ts Ht _ IH]; [apply CS_nil|]. rewrite shows_cons. apply CS_cons; assumption.
Qed.

Lemma tree_ctype : forall gv t, parseable gv t = true -> basic_keys t = true ->
  forall na ns, adepth t <= na -> sdepth t <= ns -> ctype gv na ns (show t).
Proof.
  intros gv t. induction t as [c|r c IH|rk k rv v IHk IHv|r fs IH|r c IH] using tsig_ind';
    intros Hp Hb na ns Ha Hs; cbn [parseable basic_keys adepth sdepth] in Hp, Hb, Ha, Hs.
  - apply leaf_ctype. destruct (code_eqb c CUnit); [discriminate|reflexivity].
  - destruct na as [|na]; [lia|]. rewrite show_array. apply CT_array. apply IH; try assumption; lia.
  - apply andb_prop in Hp. destruct Hp as [Hpk Hpv]. apply andb_prop in Hb. destruct Hb as [Hbk Hbv].
    destruct na as [|na]; [lia|].
    destruct (basic_leaf_show _ Hbk) as (c0 & Hc0 & Hbc).
    rewrite show_dict, Hc0. apply (CT_dict gv na ns c0 (show v)); [exact Hbc|]. apply IHv; try assumption; lia.
  - destruct fs as [|t0 ts]; [discriminate|]. destruct ns as [|ns]; [lia|].
    apply le_S_n in Hs. apply list_max_le in Ha. apply list_max_le in Hs.
    rewrite Forall_map in Ha, Hs. rewrite forallb_forall in Hp, Hb. rewrite Forall_forall in IH, Ha, Hs.
    rewrite show_struct. apply CT_struct; [|eapply shows_nonempty; apply Hp; left; reflexivity].
    apply cseq_shows, Forall_forall. intros x Hx. apply IH; auto.
  - apply andb_prop in Hp. destruct Hp as [Hgv Hp]. rewrite show_maybe.
    apply CT_maybe; [exact Hgv|]. apply IH; assumption.
Qed.

Lemma basic_code_leaf : forall c, basic_code c = true ->
  exists k, show (TLeaf k) = [c] /\ code_eqb k CUnit = false.
Proof.
  intros c H. destruct (simple_code c) as [k|] eqn:Ek.
  - exists k. apply simple_code_char. exact Ek.
  - exists CFd. destruct c; try discriminate H; try discriminate Ek. split; reflexivity.
Qed.

Lemma ctype_tree : forall gv,
  (forall na ns p, ctype gv na ns p -> exists t, parseable gv t = true /\ show t = p) /\
  (forall na ns body, cseq gv na ns body -> exists ts, forallb (parseable gv) ts = true /\ shows ts = body).
Proof.
  intros gv. apply ctype_cseq_mind.
  - intros na ns c Hc. destruct (basic_code_leaf _ Hc) as (k & Hk & Hu). exists (TLeaf k). split; [cbn; rewrite Hu; reflexivity|exact Hk].
  - intros na ns. exists (TLeaf CVariant). split; reflexivity.
  - intros na ns s _ (t & Hp & Hs). exists (TArray Dynamic t). split; [exact Hp|]. rewrite show_array, Hs. reflexivity.
  - intros na ns k v Hk _ (t & Hp & Hs). destruct (basic_code_leaf _ Hk) as (kc & Hkc & Hu).
    exists (TDict Dynamic (TLeaf kc) Dynamic t). split; [cbn; rewrite Hu, Hp; reflexivity|].
    rewrite show_dict, Hkc, Hs. reflexivity.
  - intros na ns body _ (ts & Hp & Hs) Hne. exists (TStruct Dynamic ts). split.
    + cbn. destruct ts; [cbn in Hs; congruence|exact Hp].
    + rewrite show_struct, Hs. reflexivity.
  - intros na ns s Hgv _ (t & Hp & Hs). exists (TMaybe Dynamic t). split; [cbn [parseable]; rewrite Hp, Hgv; reflexivity|].
    rewrite show_maybe, Hs. reflexivity.
  - intros na ns. exists []. split; reflexivity.
  - intros na ns s r _ (t & Hp & Hs) _ (ts & Hps & Hss). exists (t :: ts). split.
    + cbn. rewrite Hp, Hps. reflexivity.
    + rewrite shows_cons, Hs, Hss. reflexivity.
Qed.

(* ---------------------------------------------------------------- acceptance *)

Theorem accept_complete : forall gv s, valid_signature gv s -> exists t, from_str gv s = Ok t.
Proof.
  intros gv s [Hc _]. destruct (ctype_tree gv) as [_ Hq].
  destruct (Hq _ _ _ Hc) as (ts & Hp & <-). destruct ts as [|t ts].
  - eexists. reflexivity.
  - eexists. apply parse_shows. exact Hp.
Qed.

Lemma show_struct_neq_fields : forall r ts, lbeq (show (TStruct r ts)) (shows ts) = false.
Proof.
  intros r ts. destruct (lbeq (show (TStruct r ts)) (shows ts)) eqn:E; [|reflexivity].
  apply lbeq_eq in E. apply (f_equal (@length byte)) in E. rewrite show_struct in E. cbn [length] in E. rewrite app_length in E. cbn in E. lia.
Qed.

Lemma cseq_of_trees : forall gv ts,
  Forall (good gv) ts -> forallb basic_keys ts = true -> forallb within_limits ts = true ->
  cseq gv max_array_nesting max_struct_nesting (shows ts).
Proof.
  intros gv ts Hg Hb Hw. apply cseq_shows. rewrite forallb_forall in Hb, Hw. rewrite Forall_forall in *.
  intros t Ht. destruct (Hg t Ht) as [Hp _]. specialize (Hw t Ht).
  unfold within_limits in Hw. apply andb_prop in Hw. destruct Hw as [Ha Hs].
  apply Nat.leb_le in Ha. apply Nat.leb_le in Hs. apply tree_ctype; auto.
Qed.

(* outside the three known classes, acceptance is exactly the grammar *)
Theorem accept_partial : forall gv s, Known_C06 gv s = false ->
  (is_ok (from_str gv s) = true <-> valid_signature gv s).
Proof.
  intros gv s Hk. split.
  - intros Hok. unfold Known_C06, classify in Hk.
    destruct (from_str gv s) as [t| |] eqn:E; try discriminate.
    destruct (negb (basic_keys t)) eqn:Hb; [discriminate|]. apply negb_false_iff in Hb.
    destruct (negb (forallb within_limits (top_types s t))) eqn:Hw; [discriminate|]. apply negb_false_iff in Hw.
    destruct (Nat.ltb 255 (length s)) eqn:Hl; [discriminate|]. apply Nat.ltb_ge in Hl.
    split; [|exact Hl].
    destruct (parse_ok_inv _ _ _ E) as [[-> ->]|(ts & Hne & -> & Hg & ->)]; [apply CS_nil|].
    apply cseq_of_trees; [exact Hg| |]; (destruct ts as [|a [|b l]]; [congruence| |]); cbn [pack] in *.
    + cbn. rewrite Hb. reflexivity.
    + exact Hb.
    + (* a single complete type *)
      inversion Hg as [|? ? [Hpa _] _]; subst.
      replace (top_types (shows [a]) a) with [a] in Hw; [exact Hw|].
      unfold shows. cbn [map concat]. rewrite app_nil_r.
      destruct a as [[]| | |r fs|]; try reflexivity; [discriminate|]. cbn [top_types]. rewrite lbeq_refl. reflexivity.
    + (* several: the fields of the returned struct *)
      unfold top_types in Hw. rewrite show_struct_neq_fields in Hw. exact Hw.
  - intros Hv. destruct (accept_complete _ _ Hv) as (t & ->). reflexivity.
Qed.

(* the property without the known classes: refuted by each of the three witnesses below *)
Definition C06_accept_full_statement : Prop :=
  forall gv s, is_ok (from_str gv s) = true <-> valid_signature gv s.

Definition sig_33_arrays : bytes := repeat "a"%byte 33 ++ B "y".
Definition sig_33_structs : bytes := repeat "("%byte 33 ++ B "y" ++ repeat ")"%byte 33.
Definition sig_256_bytes : bytes := repeat "y"%byte 256.

Theorem nonbasic_key_refuted :
  exists s, is_ok (from_str false s) = true /\ ~ valid_signature false s /\ classify false s = KNonBasicKey.
Proof.
  exists (B "a{vs}"). split; [vm_compute; reflexivity|]. split; [|vm_compute; reflexivity].
  apply valid_sigb_false_iff. vm_compute. reflexivity.
Qed.

Theorem nesting_refuted :
  exists s1 s2, is_ok (from_str false s1) = true /\ ~ valid_signature false s1 /\ classify false s1 = KNesting /\
                is_ok (from_str false s2) = true /\ ~ valid_signature false s2 /\ classify false s2 = KNesting.
Proof.
  exists sig_33_arrays, sig_33_structs.
  repeat split; try (vm_compute; reflexivity); apply valid_sigb_false_iff; vm_compute; reflexivity.
Qed.

Theorem length_refuted :
  exists s, is_ok (from_str false s) = true /\ ~ valid_signature false s /\ classify false s = KLength.
Proof.
  exists sig_256_bytes. split; [vm_compute; reflexivity|]. split; [|vm_compute; reflexivity].
  apply valid_sigb_false_iff. vm_compute. reflexivity.
Qed.

Theorem accept_full_refuted : ~ C06_accept_full_statement.
Proof.
  intros H. destruct nonbasic_key_refuted as (s & Hok & Hnv & _). apply Hnv. apply H. exact Hok.
Qed.

(* ---------------------------------------------------------------- representation independence *)
Theorem repr_independent : forall t1 t2, erase t1 = erase t2 ->
  sig_eq t1 t2 = true /\ sig_hash t1 = sig_hash t2 /\ sig_cmp t1 t2 = Eq /\
  show t1 = show t2 /\ show_noparens t1 = show_noparens t2 /\ string_len t1 = string_len t2 /\
  (forall s, eq_str t1 s = eq_str t2 s).
Proof.
  intros t1 t2 H. repeat split.
  - apply sig_eq_iff. exact H.
  - rewrite <- (hash_erase t1), <- (hash_erase t2), H. reflexivity.
  - apply sig_cmp_eq_iff. exact H.
  - rewrite <- (show_erase t1), <- (show_erase t2), H. reflexivity.
  - unfold show_noparens. rewrite <- (was_erase false t1), <- (was_erase false t2), H. reflexivity.
  - rewrite <- (string_len_erase t1), <- (string_len_erase t2), H. reflexivity.
  - intros s. rewrite <- (eq_str_erase t1), <- (eq_str_erase t2), H. reflexivity.
Qed.

(* the formatter agrees with the plain-tree formatter of Base/Sig.v used by the codec properties *)
Theorem show_to_sig : forall t, show t = Sig.show (to_sig t).
Proof.
  induction t as [c|r c IH|rk k rv v IHk IHv|r fs IH|r c IH] using tsig_ind'.
  - destruct c; reflexivity.
  - rewrite show_array. cbn [to_sig Sig.show]. rewrite IH. reflexivity.
  - rewrite show_dict. cbn [to_sig Sig.show]. rewrite IHk, IHv, <- app_assoc. reflexivity.
  - rewrite show_struct. cbn [to_sig Sig.show]. rewrite map_map. unfold shows. rewrite (map_ext_Forall _ _ IH). reflexivity.
  - rewrite show_maybe. cbn [to_sig Sig.show]. rewrite IH. reflexivity.
Qed.

(* ---------------------------------------------------------------- parsed == its own string *)
Theorem eq_str_parsed_partial : forall gv s t, from_str gv s = Ok t -> basic_keys t = true -> eq_str t s = Ok true.
Proof.
  intros gv s t H Hb. destruct (parse_ok_inv _ _ _ H) as [[-> ->]|(ts & Hne & -> & Hg & ->)]; [reflexivity|].
  destruct (good_forall _ _ Hg) as [Hp _].
  destruct ts as [|a [|b l]]; [congruence| |].
  - cbn [pack] in *. unfold shows. cbn [map concat]. rewrite app_nil_r.
    apply (eq_str_show gv); [|exact Hb]. cbn in Hp. apply andb_prop in Hp. tauto.
  - cbn [pack] in *. apply (eq_str_show_noparens gv); [exact Hp|exact Hb].
Qed.

Definition C06_eq_str_full_statement : Prop :=
  forall gv s t, from_str gv s = Ok t -> eq_str t s = Ok true.

Theorem eq_str_parsed_refuted :
  exists s t, from_str false s = Ok t /\ eq_str t s = Ok false /\ classify false s = KNonBasicKey.
Proof. exists (B "a{(y)s}"). eexists. split; [vm_compute; reflexivity|]. split; vm_compute; reflexivity. Qed.

(* ---------------------------------------------------------------- what `parsed == other` means for another valid signature *)
Definition C06_eq_str_sound_statement : Prop :=
  forall gv s1 s2 t1 t2, from_str gv s1 = Ok t1 -> from_str gv s2 = Ok t2 ->
    eq_str t1 s2 = Ok true -> sig_eq t1 t2 = true.

Theorem eq_str_sound_refuted :
  exists s1 s2 t1 t2, valid_signature false s1 /\ valid_signature false s2 /\
    from_str false s1 = Ok t1 /\ from_str false s2 = Ok t2 /\ eq_str t1 s2 = Ok true /\ sig_eq t1 t2 = false /\
    has_struct t1 = true.
Proof.
  exists (B "(y)"), (B "ayb"). eexists. eexists.
  split; [apply valid_sigb_iff; vm_compute; reflexivity|].
  split; [apply valid_sigb_iff; vm_compute; reflexivity|].
  split; [vm_compute; reflexivity|]. split; [vm_compute; reflexivity|].
  split; [vm_compute; reflexivity|]. split; vm_compute; reflexivity.
Qed.

Theorem eq_str_sound_partial : forall gv s1 s2 t1 t2, has_struct t1 = false ->
  from_str gv s1 = Ok t1 -> from_str gv s2 = Ok t2 -> eq_str t1 s2 = Ok true ->
  sig_eq t1 t2 = true /\ s2 = s1.
Proof.
  intros gv s1 s2 t1 t2 Hs H1 H2 He. apply eq_str_sound in He; [|exact Hs]. subst s2.
  assert (Hg : (s1 = [] /\ t1 = TLeaf CUnit) \/ (s1 = show t1 /\ good gv t1)).
  { destruct (parse_ok_inv _ _ _ H1) as [[-> ->]|(ts & Hne & -> & Hg & ->)]; [left; split; reflexivity|right].
    destruct ts as [|a [|b l]]; [congruence| |discriminate Hs].
    cbn [pack]. inversion Hg; subst. split; [unfold shows; cbn; apply app_nil_r|assumption]. }
  destruct Hg as [[-> ->]|[Hs1 [Hp Hd]]].
  - cbn in H2. inversion H2. split; reflexivity.
  - rewrite show_parse in H2 by (right; exact Hp). inversion H2. split; [|congruence].
    apply sig_eq_iff. unfold all_dyn in Hd. congruence.
Qed.

(* ---------------------------------------------------------------- non-vacuity: concrete instances of the hypotheses *)
Example ex_roundtrip_multi :
  exists t, from_str false (B "a{sv}(ii)") = Ok t /\ is_struct t = true /\
            show_noparens t = B "a{sv}(ii)" /\ show t = B "(a{sv}(ii))".
Proof. eexists. split; [vm_compute; reflexivity|]. repeat split. Qed.

Example ex_roundtrip_single :
  exists t, from_str true (B "ma(ya{us})") = Ok t /\ show t = B "ma(ya{us})" /\ string_len t = 10.
Proof. eexists. split; [vm_compute; reflexivity|]. split; reflexivity. Qed.

Example ex_show_parse :
  let t := TArray Static (TStruct Static [TLeaf CU8; TDict Dynamic (TLeaf CStr) Static (TLeaf CVariant)]) in
  parseable false t = true /\ show t = B "a(ya{sv})" /\ from_str false (show t) = Ok (erase t) /\ erase t <> t.
Proof. cbv zeta. repeat split; try (vm_compute; reflexivity). discriminate. Qed.

Example ex_repr :
  let a := TStruct Static [TArray Static (TLeaf CU8); TDict Static (TLeaf CStr) Static (TLeaf CVariant)] in
  let b := TStruct Dynamic [TArray Dynamic (TLeaf CU8); TDict Dynamic (TLeaf CStr) Static (TLeaf CVariant)] in
  a <> b /\ erase a = erase b /\ sig_hash a = [17; 15; 1; 16; 10; 13]%N.
Proof. cbv zeta. split; [discriminate|]. split; reflexivity. Qed.

Example ex_accept_partial :
  Known_C06 false (B "a{sa(ii)}x") = false /\ valid_signature false (B "a{sa(ii)}x") /\
  Known_C06 true (B "mamy") = false /\ valid_signature true (B "mamy") /\ ~ valid_signature false (B "mamy") /\
  Known_C06 false (B "a{s}") = false /\ is_ok (from_str false (B "a{s}")) = false.
Proof.
  split; [vm_compute; reflexivity|]. split; [apply valid_sigb_iff; vm_compute; reflexivity|].
  split; [vm_compute; reflexivity|]. split; [apply valid_sigb_iff; vm_compute; reflexivity|].
  split; [apply valid_sigb_false_iff; vm_compute; reflexivity|].
  split; vm_compute; reflexivity.
Qed.

Example ex_eq_str :
  exists t, from_str false (B "a{s(ix)}ay") = Ok t /\ basic_keys t = true /\ eq_str t (B "a{s(ix)}ay") = Ok true /\
            eq_str t (B "(a{s(ix)}ay)") = Ok true /\ eq_str t (B "a{s(ix)}ab") = Ok false.
Proof. eexists. split; [vm_compute; reflexivity|]. repeat split; vm_compute; reflexivity. Qed.

Example ex_eq_str_sound :
  exists t1 t2, from_str false (B "a{say}") = Ok t1 /\ has_struct t1 = false /\ from_str false (B "a{say}") = Ok t2 /\
                eq_str t1 (B "a{say}") = Ok true.
Proof. eexists. eexists. split; [vm_compute; reflexivity|]. repeat split; vm_compute; reflexivity. Qed.

Example ex_eq_str_panic :   (* a slice off a char boundary: Signature::dict(Str, Str) == "a{é}" panics *)
  eq_str (TDict Dynamic (TLeaf CStr) Dynamic (TLeaf CStr)) (B "a{" ++ [xc3; xa9] ++ B "}") = Panic PSlice.
Proof. vm_compute. reflexivity. Qed.
