(* C23/Skeleton.v — both readers on a string of the shape  name ':' key '=' text ',' key '=' text ...
   (the model's winnow parser and the specification's split-based reader) recover the name and the
   key/text pairs. *)
From ZV Require Import Base.Bytes Base.Res Base.WinnowFacts C23.Model C23.Spec C23.Codec.
From Coq Require Import Lia.

Definition eqc : byte := "="%byte.
Definition colon : byte := ":"%byte.

(* ---- shapes ---- *)
Definition key_good (k : bytes) : Prop := key_ok k = true.
Definition text_good (t : bytes) : Prop := forallb text_byte t = true.
Definition item_good (kt : bytes * bytes) : Prop := key_good (fst kt) /\ text_good (snd kt).
Definition name_good (n : bytes) : Prop := n <> [] /\ Forall (fun c => beq c colon = false) n.

Lemma key_good_inv k : key_good k -> k <> [] /\ forallb is_alphanum k = true.
Proof. unfold key_good, key_ok. destruct k; [discriminate|]. intro H. split; [discriminate|exact H]. Qed.

Lemma text_good_not_comma t : text_good t -> forallb not_comma t = true.
Proof. apply forallb_impl. intros c H. unfold not_comma. now rewrite (class_excl text_byte comma c). Qed.

Definition tail_str (kts : list (bytes * bytes)) : bytes :=
  flat_map (fun kt => comma :: render_item kt) kts.

Lemma join_items kt kts : join [comma] (map render_item (kt :: kts)) = render_item kt ++ tail_str kts.
Proof.
  revert kt. induction kts as [|kt2 kts IH]; intro kt.
  - cbn. now rewrite app_nil_r.
  - change (join [comma] (map render_item (kt :: kt2 :: kts)))
      with (render_item kt ++ [comma] ++ join [comma] (map render_item (kt2 :: kts))).
    rewrite IH. reflexivity.
Qed.

Lemma tail_str_shape kts : tail_str kts = [] \/ exists r, tail_str kts = comma :: r.
Proof. destruct kts as [|kt kts]; [left; reflexivity|right; cbn; eauto]. Qed.

Lemma tail_str_length kts : length kts <= length (tail_str kts).
Proof.
  induction kts as [|kt kts IH]; [cbn; lia|].
  change (tail_str (kt :: kts)) with (comma :: render_item kt ++ tail_str kts).
  cbn [length]. rewrite app_length. lia.
Qed.

(* ---- the model's combinators ---- *)
Lemma span_app f p q : forallb f p = true ->
  match q with [] => True | c :: _ => f c = false end -> span f (p ++ q) = (p, q).
Proof.
  intros Hp Hq. induction p as [|c p IH]; cbn [app].
  - destruct q as [|c q]; cbn; [reflexivity|now rewrite Hq].
  - cbn in Hp. apply andb_true_iff in Hp as [H1 H2]. cbn [span]. now rewrite H1, IH.
Qed.

Definition item_ne (kt : bytes * bytes) : Prop := item_good kt /\ snd kt <> [].

Lemma kv_item kt rest : item_ne kt -> (rest = [] \/ exists r, rest = comma :: r) ->
  kv (render_item kt ++ rest) = Some (kt, rest).
Proof.
  destruct kt as [k t]. intros [[Hk Ht] Hne] Hr. cbn [fst snd] in *. apply key_good_inv in Hk as [Hk1 Hk2].
  unfold render_item. cbn [fst snd]. rewrite <- app_assoc. cbn [app].
  unfold kv, take_while1. rewrite (span_app is_alphanum k _ Hk2) by reflexivity.
  destruct k as [|k0 k]; [contradiction|]. rewrite beq_refl.
  rewrite (span_app not_comma t rest (text_good_not_comma t Ht)).
  - destruct t; [contradiction|reflexivity].
  - destruct Hr as [->|[r ->]]; [exact I|reflexivity].
Qed.

Lemma sep_loop_items kts : forall fuel acc, length kts < fuel -> Forall item_ne kts ->
  sep_loop fuel acc (tail_str kts) = Some (acc ++ kts, []).
Proof.
  induction kts as [|kt kts IH]; intros fuel acc Hf Hg; (destruct fuel; [cbn in Hf; lia|]).
  - cbn. now rewrite app_nil_r.
  - inversion Hg as [|? ? Hkt Hg']; subst.
    change (tail_str (kt :: kts)) with (comma :: render_item kt ++ tail_str kts).
    cbn [sep_loop]. rewrite beq_refl, (kv_item kt _ Hkt (tail_str_shape kts)).
    rewrite IH; [|cbn in Hf; lia|exact Hg']. now rewrite <- app_assoc.
Qed.

Lemma separated0_items kts : Forall item_ne kts ->
  separated0 (join [comma] (map render_item kts)) = Some (kts, []).
Proof.
  intro Hg. destruct kts as [|kt kts]; [reflexivity|]. inversion Hg as [|? ? Hkt Hg']; subst.
  rewrite join_items. unfold separated0. rewrite (kv_item kt _ Hkt (tail_str_shape kts)).
  rewrite sep_loop_items; [reflexivity| |exact Hg']. pose proof (tail_str_length kts). lia.
Qed.

Lemma find_byte_app b p q : Forall (fun c => beq c b = false) p -> find_byte b (p ++ b :: q) = Some (p, b :: q).
Proof.
  induction 1 as [|c p Hc _ IH]; cbn [app find_byte].
  - now rewrite beq_refl.
  - now rewrite Hc, IH.
Qed.

Definition guid_option (opts : list (bytes * bytes)) : res aerr (option bytes) :=
  match hm_get (B "guid") opts with
  | Some g => if validate_guid g then Ok (Some g) else Err EGuid
  | None => Ok None
  end.

Lemma parse_render name kts : name_good name -> Forall item_ne kts ->
  parse (render_addr name kts) =
  (let* guid := guid_option kts in
   let* t := transport_from_options name kts in
   Ok (mkAddr guid t)).
Proof.
  intros [Hn1 Hn2] Hg. unfold parse, render_addr, take_until1.
  rewrite (find_byte_app colon name _ Hn2). destruct name as [|n0 name]; [contradiction|].
  rewrite separated0_items by exact Hg. reflexivity.
Qed.

(* ---- the specification's reader ---- *)
Lemma split_first_app c p q : Forall (fun x => beq x c = false) p -> split_first c (p ++ c :: q) = Some (p, q).
Proof.
  induction 1 as [|x p Hx _ IH]; cbn [app split_first].
  - now rewrite beq_refl.
  - now rewrite Hx, IH.
Qed.

Lemma key_no_sep k sep : key_good k -> is_alphanum sep = false -> no_sep sep k.
Proof. intros Hk Hs. apply (not_sep_g is_alphanum); [exact Hs|apply key_good_inv, Hk]. Qed.

Lemma render_item_no_comma kt : item_good kt -> no_sep comma (render_item kt).
Proof.
  intros [Hk Ht]. apply Forall_app. split; [now apply key_no_sep|].
  constructor; [reflexivity|now apply (not_sep_g text_byte)].
Qed.

Lemma map_opt_items kts : Forall item_good kts -> map_opt (split_first eqc) (map render_item kts) = Some kts.
Proof.
  induction 1 as [|[k t] kts [Hk Ht] _ IH]; [reflexivity|]. cbn [map map_opt]. unfold render_item at 1.
  cbn [fst snd]. rewrite split_first_app by now apply key_no_sep. now rewrite IH.
Qed.

Lemma spec_items_render name kts : name_good name -> Forall item_good kts ->
  spec_items (render_addr name kts) = Some (name, kts).
Proof.
  intros [_ Hn] Hg. unfold spec_items, render_addr. rewrite split_first_app by exact Hn.
  destruct kts as [|kt kts]; [reflexivity|].
  assert (Hne : join [comma] (map render_item (kt :: kts)) <> []).
  { rewrite join_items. unfold render_item. destruct (fst kt); discriminate. }
  destruct (join [comma] (map render_item (kt :: kts))) eqn:E; [contradiction|]. rewrite <- E.
  rewrite split_join.
  - pose proof (map_opt_items _ Hg) as Hm. unfold eqc in Hm. now rewrite Hm.
  - discriminate.
  - clear E Hne. induction Hg; constructor; [now apply render_item_no_comma|assumption].
Qed.
