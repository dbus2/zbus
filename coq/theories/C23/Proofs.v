(* C23/Proofs.v — the specification's reader gives back the address from every string that denotes it; Display writes
   such a string; FromStr reads such a string back outside the known classes, and never panics; witnesses for the
   classes and concrete members outside them. *)
From ZV Require Import Base.Bytes Base.Res Base.WinnowFacts.
From ZV Require Import C23.Dec C23.Model C23.Spec C23.Known C23.Codec C23.Skeleton C23.Interp.
From Coq Require Import Lia FinFun.

(* ---------------------------------------------------------------- items *)
Definition EncItem (kv kt : bytes * bytes) : Prop := fst kt = fst kv /\ Enc (snd kv) (snd kt).

Lemma enc_items l : forall ts, Forall2 Enc (map snd l) ts -> Forall2 EncItem l (combine (map fst l) ts).
Proof.
  induction l as [|[k v] l IH]; intros ts H; inversion H; subst; cbn; constructor.
  - split; [reflexivity|assumption].
  - now apply IH.
Qed.

Lemma enc_items_keys l kts : Forall2 EncItem l kts -> map fst kts = map fst l.
Proof. induction 1 as [|kv kt l kts [Hk _] _ IH]; cbn; [reflexivity|]. now rewrite Hk, IH. Qed.

Lemma enc_items_good l kts : Forall key_good (map fst l) -> Forall2 EncItem l kts -> Forall item_good kts.
Proof.
  intros Hk H. induction H as [|kv kt l kts [Hkey Henc] _ IH]; [constructor|].
  inversion Hk; subst. constructor; [|now apply IH]. split; [now rewrite Hkey|].
  unfold text_good. now apply (Enc_text (snd kv)).
Qed.

Lemma enc_items_decode l kts : Forall2 EncItem l kts -> map_opt decode_item kts = Some l.
Proof.
  induction 1 as [|[k v] [k' t] l kts [Hk Henc] _ IH]; [reflexivity|]. cbn in Hk, Henc. subst k'.
  cbn [map_opt]. unfold decode_item at 1. cbn [fst snd]. apply Enc_spec_decode in Henc. now rewrite Henc, IH.
Qed.

Lemma tname_good t : name_good (tname t).
Proof.
  destruct t as [u|t| |x]; cbn; [| destruct (t_nonce t) | |]; (split; [discriminate|repeat constructor]).
Qed.

(* ---------------------------------------------------------------- the specification reads fields back *)
(* With the keys closed strings, [assoc_app] and [assoc_opt_field] turn a look-up in [fields a] into tests
   [lbeq key key'] that evaluate; the optional fields need no case analysis. *)
Lemma tfields_no_guid t : assoc (B "guid") (tfields t) = None.
Proof.
  destruct t as [[p|p|p|p]|[h b pt f n]|c p|[p a0 args]]; cbn [tfields]; try reflexivity.
  - now rewrite !assoc_app, !assoc_opt_field.
  - cbn [x_path x_arg0 x_args assoc]. change (lbeq (B "path") (B "guid")) with false. cbn iota.
    rewrite assoc_app, assoc_opt_field. apply assoc_args_none. discriminate.
Qed.

Lemma assoc_guid a : assoc (B "guid") (fields a) = a_guid a.
Proof. unfold fields. now rewrite assoc_app, tfields_no_guid, assoc_opt_field. Qed.

Lemma tcp_fields a t : a_transport a = TTcp t ->
  assoc (B "noncefile") (fields a) = t_nonce t /\ assoc (B "host") (fields a) = Some (t_host t) /\
  assoc (B "port") (fields a) = Some (show_dec (t_port t)) /\ assoc (B "bind") (fields a) = t_bind t /\
  assoc (B "family") (fields a) = option_map family_name (t_family t).
Proof.
  intro E. unfold fields. rewrite E. cbn [tfields].
  repeat split; rewrite !assoc_app, !assoc_opt_field; cbn; now rewrite ?opt_eta.
Qed.

Lemma wf_guid a g : wf a -> a_guid a = Some g -> is_guid g = true.
Proof. unfold wf, wfb. intros H E. rewrite E in H. now apply andb_true_iff in H as [H _]. Qed.

Lemma arg_fields_length args : forall i, length (arg_fields i args) = length args.
Proof. induction args as [|a r IH]; intro i; cbn; [reflexivity|now rewrite IH]. Qed.

Lemma args_lt_fields p a0 args g : length args < length (fields (mkAddr g (TUnixexec (mkExec p a0 args)))).
Proof. rewrite exec_fields_split, !app_length, arg_fields_length. cbn [length]. lia. Qed.

Lemma spec_transport_fields a : wf a -> spec_transport (tname (a_transport a)) (fields a) = Some (a_transport a).
Proof.
  intro Hwf. unfold wf, wfb in Hwf. apply andb_true_iff in Hwf as [_ Hwf].
  destruct a as [g t]. cbn [a_guid a_transport] in *.
  destruct t as [[p|p|p|p]|[h b pt f n]|c p|[p a0 args]].
  1-4: destruct g; reflexivity.
  - apply andb_true_iff in Hwf as [Hwf Hb]. apply andb_true_iff in Hwf as [Hp Hh]. cbn [t_port t_host t_bind] in *.
    destruct (tcp_fields (mkAddr g (TTcp (mkTcp h b pt f n))) _ eq_refl) as (Hn & Hh' & Hp' & Hb' & Hf').
    unfold spec_transport, sget. rewrite Hn, Hh', Hp', Hb', Hf'. cbn [tname t_nonce t_host t_port t_bind t_family].
    rewrite read_show_dec, Hp, Hh, Hb. destruct n, f as [[|]|]; reflexivity.
  - apply andb_true_iff in Hwf as [Hc Hp].
    destruct g; cbn; rewrite !read_show_dec, Hc, Hp; reflexivity.
  - unfold spec_transport, sget. cbn [tname].
    simpl (lbeq (B _) (B _)). cbn [orb]. cbn iota.
    rewrite exec_fields_argv0, exec_fields_args by apply args_lt_fields. reflexivity.
Qed.

Lemma spec_interp_fields a : wf a -> spec_interp (tname (a_transport a)) (fields a) = Some a.
Proof.
  intro Hwf. unfold spec_interp. rewrite assoc_guid, (spec_transport_fields a Hwf).
  destruct a as [[g|] t]; [cbn; rewrite (wf_guid _ g Hwf eq_refl)|]; reflexivity.
Qed.

Theorem encodes_denote a s : wf a -> Encodes a s -> spec_denote s = Some a.
Proof.
  intros Hwf [ts [Hts ->]]. unfold values, keys in *. apply enc_items in Hts.
  pose proof (enc_items_keys _ _ Hts) as Hkeys.
  pose proof (enc_items_good _ _ (keys_good a) Hts) as Hgood.
  unfold spec_denote. rewrite (spec_items_render _ _ (tname_good _) Hgood).
  assert (Hk : forallb (fun kt => key_ok (fst kt)) (combine (map fst (fields a)) ts) = true).
  { apply forallb_forall. intros kt Hin. rewrite Forall_forall in Hgood. now destruct (Hgood kt Hin). }
  rewrite Hk, Hkeys. pose proof (keys_nodup a) as Hnd. apply nodupb_NoDup in Hnd. unfold keys in Hnd.
  rewrite Hnd. cbn [andb]. rewrite (enc_items_decode _ _ Hts). now apply spec_interp_fields.
Qed.

(* ---------------------------------------------------------------- Display writes an address string for the value *)
Definition enc_item (kv : bytes * bytes) : bytes * bytes := (fst kv, encode_percents (snd kv)).

Lemma combine_display a : combine (keys a) (display_texts a) = map enc_item (fields a).
Proof.
  unfold keys, display_texts, values. induction (fields a) as [|[k v] l IH]; cbn; [reflexivity|]. now rewrite IH.
Qed.

Lemma tail_str_app l1 l2 : tail_str (l1 ++ l2) = tail_str l1 ++ tail_str l2.
Proof. unfold tail_str. now rewrite flat_map_app. Qed.

Lemma tail_str_cons x l : tail_str (x :: l) = comma :: render_item x ++ tail_str l.
Proof. reflexivity. Qed.

Lemma render_cons name kt kts : render_addr name (kt :: kts) = name ++ colon :: render_item kt ++ tail_str kts.
Proof. unfold render_addr. now rewrite join_items. Qed.

Lemma show_args_tail args : forall i, show_args i args = tail_str (map enc_item (arg_fields i args)).
Proof.
  induction args as [|a r IH]; intro i; [reflexivity|].
  cbn [show_args arg_fields map]. change (tail_str (?x :: ?l)) with (comma :: render_item x ++ tail_str l).
  rewrite IH. unfold render_item, enc_item. cbn [fst snd]. cbn [B list_byte_of_string app].
  rewrite <- !app_assoc. reflexivity.
Qed.

Lemma digit_unreserved c : is_digit c = true -> unreserved c = true.
Proof. revert c. apply class_incl. vm_compute. reflexivity. Qed.
Lemma hexdigit_unreserved c : is_hexdigit c = true -> unreserved c = true.
Proof. revert c. apply class_incl. vm_compute. reflexivity. Qed.

Lemma encode_show_dec n : encode_percents (show_dec n) = show_dec n.
Proof. apply encode_percents_id, (forallb_impl is_digit); [apply digit_unreserved|apply show_dec_digits]. Qed.

Lemma encode_guid g : is_guid g = true -> encode_percents g = g.
Proof.
  unfold is_guid. intro H. apply andb_true_iff in H as [_ H].
  apply encode_percents_id, (forallb_impl is_hexdigit); [apply hexdigit_unreserved|exact H].
Qed.

Lemma tail_opt k o : tail_str (map enc_item (opt_field k o)) =
  match o with Some v => comma :: k ++ "="%byte :: encode_percents v | None => [] end.
Proof. destruct o; [|reflexivity]. cbn. unfold render_item. cbn [fst snd]. now rewrite app_nil_r. Qed.

Lemma show_render a : wf a -> show a = render_addr (tname (a_transport a)) (map enc_item (fields a)).
Proof.
  intro Hwf. unfold show, fields. rewrite map_app.
  assert (Hg : match a_guid a with Some g => B ",guid=" ++ g | None => [] end
               = tail_str (map enc_item (opt_field (B "guid") (a_guid a)))).
  { rewrite tail_opt. destruct (a_guid a) as [g|] eqn:E; [|reflexivity]. now rewrite (encode_guid g (wf_guid a g Hwf E)). }
  rewrite Hg. clear Hg Hwf. generalize (map enc_item (opt_field (B "guid") (a_guid a))) as gl. intro gl.
  destruct (a_transport a) as [[p|p|p|p]|[h b pt f n]|c p|[p a0 args]].
  1-4: cbn [tfields map]; rewrite <- app_comm_cons, render_cons; cbn [app]; unfold render_item, enc_item; cbn;
       now rewrite <- ?app_assoc.
  - cbn [tfields t_nonce t_host t_port t_bind t_family tname]. unfold show_transport, show_tcp. cbn [t_nonce t_host t_port t_bind t_family].
    rewrite !map_app.
    destruct n as [n|]; cbn [opt_field map app]; rewrite render_cons, ?tail_str_cons, !tail_str_app, !tail_opt;
      unfold render_item, enc_item; cbn [fst snd]; rewrite encode_show_dec, <- !app_assoc;
      destruct f as [[|]|]; reflexivity.
  - cbn [tfields map app show_transport tname]. rewrite render_cons, !tail_str_cons.
    unfold render_item, enc_item. cbn [fst snd]. rewrite !encode_show_dec, <- !app_assoc. reflexivity.
  - cbn [tfields x_path x_arg0 x_args tname show_transport]. unfold show_unixexec. cbn [x_path x_arg0 x_args map].
    rewrite <- app_comm_cons, render_cons, !map_app, !tail_str_app, show_args_tail, tail_opt.
    unfold render_item, enc_item. cbn [fst snd]. rewrite <- !app_assoc. destruct a0; reflexivity.
Qed.

Lemma display_texts_enc a : Forall2 Enc (values a) (display_texts a).
Proof. unfold display_texts. induction (values a); cbn; constructor; [apply encode_percents_Enc|assumption]. Qed.

Theorem show_encodes a : wf a -> Encodes a (show a).
Proof.
  intro Hwf. exists (display_texts a). split; [apply display_texts_enc|].
  rewrite combine_display. now apply show_render.
Qed.

(* ---------------------------------------------------------------- FromStr on an address string, outside the known classes *)
Definition nonce_key : bytes := B "noncefile".
Definition bind_key : bytes := B "bind".

(* an item as the code can read it: non-empty text; literal unless it is the nonce file *)
Definition LitItem (kv kt : bytes * bytes) : Prop :=
  fst kt = fst kv /\ snd kt <> [] /\ Enc (snd kv) (snd kt) /\ (lbeq (fst kv) nonce_key = false -> snd kt = snd kv).

Lemma lit_items l : forall ts, Forall2 Enc (map snd l) ts ->
  k_empty_value (combine l ts) = false -> k_undecoded (combine l ts) = false ->
  Forall2 LitItem l (combine (map fst l) ts).
Proof.
  unfold k_empty_value, k_undecoded.
  induction l as [|[k v] l IH]; intros ts H; inversion H as [|? t ? ts' Henc H']; subst;
    cbn [map combine fst existsb]; [constructor|].
  intros He Hu. apply orb_false_iff in He as [He1 He2]. apply orb_false_iff in Hu as [Hu1 Hu2].
  constructor; [|now apply IH]. unfold i_text, i_key, i_val in *. cbn [fst snd] in *. repeat split.
  - now destruct t.
  - exact Henc.
  - intro Hk. cbn [fst] in Hk. unfold nonce_key in Hk. rewrite Hk in Hu1. apply negb_false_iff in Hu1. now apply lbeq_eq in Hu1.
Qed.

Lemma lit_assoc l kts k : Forall2 LitItem l kts -> lbeq k nonce_key = false -> assoc k kts = assoc k l.
Proof.
  induction 1 as [|[k1 v] [k2 t] l kts (Hk & _ & _ & Hl) _ IH]; intro Hn; [reflexivity|].
  cbn [fst snd] in *. subst k2. cbn [assoc]. destruct (lbeq k1 k) eqn:E; [|now apply IH].
  apply lbeq_eq in E. subst k1. now rewrite (Hl Hn).
Qed.

(* the one value the code unescapes *)
Lemma lit_nonce l kts : Forall2 LitItem l kts ->
  match assoc (B "noncefile") kts with
  | Some f => let* x := decode_percents f in Ok (Some x)
  | None => Ok None
  end = Ok (assoc (B "noncefile") l).
Proof.
  induction 1 as [|[k1 v] [k2 t] l kts (Hk & _ & He & _) _ IH]; [reflexivity|].
  cbn [fst snd] in *. subst k2. cbn [assoc]. destruct (lbeq k1 (B "noncefile")); [|exact IH].
  apply decode_percents_Enc in He. now rewrite He.
Qed.

Lemma lit_enc l kts : Forall2 LitItem l kts -> Forall2 EncItem l kts.
Proof. induction 1 as [|? ? ? ? (Hk & _ & He & _) _ IH]; constructor; [split; assumption|exact IH]. Qed.

Lemma lit_ne l kts : Forall key_good (map fst l) -> Forall2 LitItem l kts -> Forall item_ne kts.
Proof.
  intros Hk H. pose proof (enc_items_good _ _ Hk (lit_enc _ _ H)) as Hg.
  induction H as [|kv kt l kts (_ & Hne & _ & _) _ IH]; [constructor|].
  inversion Hg; subst. inversion Hk; subst. constructor; [split; assumption|now apply IH].
Qed.

Lemma existsb_key_combine (g : bytes -> bool) l : forall ts, length ts = length l ->
  existsb (fun i => g (i_key i)) (combine l ts) = existsb (fun kv => g (fst kv)) l.
Proof.
  induction l as [|kv l IH]; intros [|t ts] Hlen; try discriminate; [reflexivity|].
  cbn [combine existsb]. unfold i_key at 1. cbn [fst]. f_equal. apply IH. now injection Hlen.
Qed.

Definition no_bind (t : transport) : Prop := match t with TTcp t => t_bind t = None | _ => True end.

Lemma no_bind_of_class a ts : length ts = length (fields a) ->
  k_tcp_bind (tname (a_transport a)) (items_of a ts) = false -> no_bind (a_transport a).
Proof.
  intros Hlen H. unfold k_tcp_bind, items_of in H.
  rewrite (existsb_key_combine (fun k => lbeq k (B "bind")) _ _ Hlen) in H.
  destruct (a_transport a) as [u|[h b pt f n]| |x] eqn:E; cbn; try exact I.
  destruct b as [b|]; [|reflexivity]. exfalso. unfold fields in H. rewrite E in H.
  rewrite existsb_app in H. cbn [tfields t_nonce t_host t_port t_bind t_family tname] in H.
  destruct n; cbn in H; discriminate.
Qed.

Lemma digit_not_plus c : is_digit c = true -> beq c "+"%byte = false.
Proof. now apply class_excl. Qed.

Lemma parse_unsigned_show limit n : (n <? limit)%N = true -> parse_unsigned limit (show_dec n) = Some n.
Proof.
  intro H. unfold parse_unsigned. pose proof (show_dec_nonempty n) as Hne. pose proof (show_dec_digits n) as Hd.
  destruct (show_dec n) as [|c r] eqn:E; [contradiction|]. cbn in Hd. apply andb_true_iff in Hd as [Hc _].
  rewrite (digit_not_plus c Hc). rewrite <- E. unfold show_dec. rewrite uint_of_bytes_of_uint.
  rewrite DecimalN.Unsigned.of_to, H. reflexivity.
Qed.

(* FromStr's interpretation of options o that read like [fields a], the nonce file apart *)
Section FromFields.
  Variables (a : address) (o : list (bytes * bytes)).
  Hypothesis Hwf : wf a.
  Hypothesis Hget : forall k, lbeq k nonce_key = false -> hm_get k o = assoc k (fields a).
  Hypothesis Hnonce :
    match hm_get (B "noncefile") o with
    | Some f => let* x := decode_percents f in Ok (Some x)
    | None => Ok None
    end = Ok (assoc (B "noncefile") (fields a)).
  Hypothesis Hlen : length o = length (fields a).

  Lemma guid_of_fields : guid_option o = Ok (a_guid a).
  Proof.
    unfold guid_option. rewrite Hget, assoc_guid by reflexivity. destruct (a_guid a) as [g|] eqn:E; [|reflexivity].
    change (validate_guid g) with (is_guid g). now rewrite (wf_guid a g Hwf E).
  Qed.

  Lemma transport_of_fields : no_bind (a_transport a) ->
    transport_from_options (tname (a_transport a)) o = Ok (a_transport a).
  Proof.
    intro Hb. unfold wf, wfb in Hwf. apply andb_true_iff in Hwf as [_ Hwf'].
    destruct a as [g t]. cbn [a_guid a_transport] in *. unfold transport_from_options.
    destruct t as [[p|p|p|p]|[h b pt f n]|c p|[p a0 args]].
    1-4: unfold unix_from_options; rewrite !Hget by reflexivity; destruct g; reflexivity.
    - cbn in Hb. subst b. apply andb_true_iff in Hwf' as [Hwf' _]. apply andb_true_iff in Hwf' as [Hp _].
      destruct (tcp_fields (mkAddr g (TTcp (mkTcp h None pt f n))) _ eq_refl) as (Hn & Hh & Hpt & Hbd & Hf).
      cbn [t_nonce t_host t_port t_bind t_family tname] in *.
      destruct n; simpl (lbeq (B _) (B _)); cbn iota; unfold tcp_from_options, hm_contains;
        rewrite Hnonce, !Hget by reflexivity; rewrite Hn, Hh, Hpt, Hbd, Hf; unfold parse_u16;
        rewrite (parse_unsigned_show _ _ Hp); destruct f as [[|]|]; reflexivity.
    - apply andb_true_iff in Hwf' as [Hc Hp]. cbn [tname]. simpl (lbeq (B _) (B _)). cbn iota.
      unfold vsock_from_options. rewrite !Hget by reflexivity. unfold parse_u32.
      destruct g; cbn; rewrite (parse_unsigned_show _ _ Hc); cbn; rewrite (parse_unsigned_show _ _ Hp); reflexivity.
    - cbn [tname]. simpl (lbeq (B _) (B _)). cbn iota. unfold unixexec_from_options.
      assert (Hargs : spec_args (S (length o)) 1 (fields (mkAddr g (TUnixexec (mkExec p a0 args)))) = args)
        by (apply exec_fields_args; rewrite Hlen; apply Nat.lt_lt_succ_r, args_lt_fields).
      rewrite !Hget by reflexivity. rewrite (exec_spec_args o _ (fun j => Hget (akey j) eq_refl)), Hargs.
      + now rewrite exec_fields_argv0.
      + rewrite Hargs, Hlen. apply Nat.lt_lt_succ_r, args_lt_fields.
  Qed.
End FromFields.

Lemma known_class_none name its :
  known_class name its = None <-> k_tcp_bind name its || k_empty_value its || k_undecoded its = false.
Proof.
  unfold known_class. destruct (k_tcp_bind name its), (k_empty_value its), (k_undecoded its); cbn;
    split; intro H; try discriminate; reflexivity.
Qed.

Lemma Forall2_length' {A C} (R : A -> C -> Prop) l1 l2 : Forall2 R l1 l2 -> length l2 = length l1.
Proof. induction 1; cbn; congruence. Qed.

Theorem roundtrip_partial a ts : wf a -> Forall2 Enc (values a) ts -> ~ Known_C23 a ts ->
  parse (render_addr (tname (a_transport a)) (combine (keys a) ts)) = Ok a.
Proof.
  intros Hwf Henc Hk. unfold Known_C23 in Hk.
  destruct (known_class _ _) eqn:Hnone; [exfalso; apply Hk; discriminate|]. clear Hk.
  apply known_class_none, orb_false_iff in Hnone as [Hnone Hu]. apply orb_false_iff in Hnone as [Hb He].
  assert (Hlen : length ts = length (fields a))
    by (rewrite (Forall2_length' _ _ _ Henc); unfold values; apply map_length).
  apply (no_bind_of_class a ts Hlen) in Hb. unfold values, keys, items_of in *.
  pose proof (lit_items _ _ Henc He Hu) as Hlit. clear Henc He Hu Hlen.
  pose proof (lit_ne _ _ (keys_good a) Hlit) as Hne.
  pose proof (enc_items_keys _ _ (lit_enc _ _ Hlit)) as Hkeys.
  rewrite (parse_render _ _ (tname_good _) Hne).
  set (kts := combine (map fst (fields a)) ts) in *. clearbody kts.
  assert (Hnd : NoDup (map fst kts)) by (rewrite Hkeys; apply keys_nodup).
  assert (Hget : forall k, lbeq k nonce_key = false -> hm_get k kts = assoc k (fields a))
    by (intros k Hk; rewrite (hm_get_assoc _ _ Hnd); now apply lit_assoc).
  pose proof (lit_nonce _ _ Hlit) as Hnonce. rewrite <- (hm_get_assoc _ _ Hnd) in Hnonce.
  pose proof (Forall2_length' _ _ _ Hlit) as Hlen.
  rewrite (guid_of_fields a kts Hwf Hget), (transport_of_fields a kts Hwf Hget Hnonce Hlen Hb).
  destruct a; reflexivity.
Qed.

Corollary display_roundtrip_partial a : wf a -> ~ Known_C23_display a -> parse (show a) = Ok a.
Proof.
  intros Hwf Hk. rewrite (show_render a Hwf), <- combine_display.
  apply roundtrip_partial; [exact Hwf|apply display_texts_enc|exact Hk].
Qed.

(* ---------------------------------------------------------------- the fuel of the two loops is never exhausted: FromStr never panics *)
Lemma span_length f l : forall p q, span f l = (p, q) -> length q <= length l.
Proof.
  induction l as [|c l IH]; intros p q H; cbn in H.
  - injection H as <- <-. cbn. lia.
  - destruct (f c).
    + destruct (span f l) as [p' q'] eqn:E. injection H as <- <-. specialize (IH _ _ eq_refl). cbn. lia.
    + injection H as <- <-. lia.
Qed.

Lemma kv_length l p r : kv l = Some (p, r) -> length r <= length l.
Proof.
  unfold kv, take_while1. destruct (span is_alphanum l) as [k r0] eqn:E1. destruct k as [|k0 k]; [discriminate|].
  destruct r0 as [|e r1]; [discriminate|]. destruct (beq e "="%byte); [|discriminate].
  destruct (span not_comma r1) as [v r2] eqn:E2. destruct v; [discriminate|]. intro H. injection H as <- <-.
  apply span_length in E1, E2. cbn in *. lia.
Qed.

Lemma sep_loop_fuel fuel : forall acc inp, length inp < fuel -> sep_loop fuel acc inp <> None.
Proof.
  induction fuel as [|fuel IH]; intros acc inp Hf; [lia|]. cbn [sep_loop].
  destruct inp as [|c r]; [discriminate|]. destruct (beq c comma); [|discriminate].
  destruct (kv r) as [[p r']|] eqn:E; [|discriminate]. apply IH. apply kv_length in E. cbn in Hf. lia.
Qed.

Lemma separated0_total inp : separated0 inp <> None.
Proof. unfold separated0. destruct (kv inp) as [[p r]|]; [apply sep_loop_fuel; lia|discriminate]. Qed.

Lemma hm_get_in k o v : hm_get k o = Some v -> In k (map fst o).
Proof.
  unfold hm_get. destruct (find _ (rev o)) as [p|] eqn:E; [|discriminate]. intros _.
  apply find_some in E as [Hin Hk]. apply lbeq_eq in Hk. subst k. apply in_rev in Hin. now apply in_map.
Qed.

Lemma exec_args_none fuel : forall i o, exec_args fuel i o = None ->
  forall n, n < fuel -> In (akey (i + N.of_nat n)) (map fst o).
Proof.
  induction fuel as [|fuel IH]; intros i o H n Hn; [lia|]. cbn [exec_args] in H. fold (akey i) in H.
  destruct (hm_get (akey i) o) as [a|] eqn:E; [|discriminate].
  destruct (exec_args fuel (i + 1)%N o) eqn:E2; [discriminate|].
  destruct n as [|n].
  - replace (i + N.of_nat 0)%N with i by lia. now apply hm_get_in in E.
  - replace (i + N.of_nat (S n))%N with (i + 1 + N.of_nat n)%N by lia. apply (IH _ _ E2). lia.
Qed.

Lemma exec_args_total o : exec_args (S (length o)) 1%N o <> None.
Proof.
  intro H. pose proof (exec_args_none _ _ _ H) as Hin.
  set (ks := map (fun n => akey (1 + N.of_nat n)) (seq 0 (S (length o)))).
  assert (Hnd : NoDup ks).
  { apply FinFun.Injective_map_NoDup; [|apply seq_NoDup]. intros x y E. apply akey_inj in E. lia. }
  assert (Hincl : incl ks (map fst o)).
  { intros k Hk. apply in_map_iff in Hk as [n [<- Hn]]. apply in_seq in Hn. apply Hin. lia. }
  pose proof (NoDup_incl_length Hnd Hincl) as Hl. unfold ks in Hl. rewrite !map_length, seq_length in Hl. lia.
Qed.

Lemma bind_no_panic {E A C} (r : res E A) (f : A -> res E C) p :
  r <> Panic p -> (forall x, f x <> Panic p) -> bind r f <> Panic p.
Proof. intros Hr Hf. destruct r; cbn; [apply Hf|discriminate|congruence]. Qed.

Lemma tcp_no_panic o b p : tcp_from_options o b <> Panic p.
Proof.
  unfold tcp_from_options. destruct (hm_contains _ o); [discriminate|].
  destruct (hm_get (B "host") o); [|discriminate]. destruct (hm_get (B "port") o); [|discriminate].
  destruct (parse_u16 _); [|discriminate].
  apply bind_no_panic; [|intro fam; apply bind_no_panic; [|intro nonce; destruct (_ && _); discriminate]].
  - destruct (hm_get (B "family") o) as [f|]; [|discriminate]. unfold family_from_str.
    destruct (lbeq f _); [|destruct (lbeq f _)]; discriminate.
  - destruct (hm_get (B "noncefile") o) as [nf|]; [|discriminate].
    destruct (decode_percents_total nf) as [r [-> | ->]]; discriminate.
Qed.

Lemma transport_no_panic name o p : transport_from_options name o <> Panic p.
Proof.
  unfold transport_from_options.
  destruct (lbeq name (B "unix")).
  { apply bind_no_panic; [|discriminate]. unfold unix_from_options.
    destruct (hm_get (B "path") o), (hm_get (B "abstract") o), (hm_get (B "dir") o), (hm_get (B "tmpdir") o); discriminate. }
  destruct (lbeq name (B "unixexec")).
  { apply bind_no_panic; [|discriminate]. unfold unixexec_from_options. destruct (hm_get (B "path") o); [|discriminate].
    pose proof (exec_args_total o). destruct (exec_args (S (length o)) 1 o); [discriminate|contradiction]. }
  destruct (lbeq name (B "tcp")); [apply bind_no_panic; [apply tcp_no_panic|discriminate]|].
  destruct (lbeq name (B "nonce-tcp")); [apply bind_no_panic; [apply tcp_no_panic|discriminate]|].
  destruct (lbeq name (B "vsock")); [|discriminate].
  unfold vsock_from_options. destruct (hm_get (B "cid") o); [|discriminate]. destruct (parse_u32 _); [|discriminate].
  destruct (hm_get (B "port") o); [|discriminate]. destruct (parse_u32 _); discriminate.
Qed.

Theorem parse_no_panic s p : parse s <> Panic p.
Proof.
  unfold parse. destruct (take_until1 ":"%byte s) as [[name r]|]; [|discriminate].
  destruct r as [|c r1]; [discriminate|]. pose proof (separated0_total r1) as Ht.
  destruct (separated0 r1) as [[opts rest]|]; [|contradiction]. destruct rest; [|discriminate].
  apply bind_no_panic; [destruct (hm_get (B "guid") opts) as [g|]; [destruct (validate_guid g)|]; discriminate|].
  intro guid. apply bind_no_panic; [apply transport_no_panic|discriminate].
Qed.

(* ---------------------------------------------------------------- witnesses: the full statements fail *)
Definition w_undecoded : address := mkAddr None (TUnix (UFile (B "/tmp/a b"))).
Definition w_empty : address := mkAddr None (TUnixexec (mkExec (B "sh") None [B "-c"; []])).
Definition w_bind : address := mkAddr None (TTcp (mkTcp (B "h") (Some (B "b")) 80 None None)).

Lemma undecoded_value_refuted : exists a, wf a /\ parse (show a) <> Ok a.
Proof. exists w_undecoded. split; [reflexivity|]. vm_compute. discriminate. Qed.
Lemma empty_value_refuted : exists a, wf a /\ parse (show a) <> Ok a.
Proof. exists w_empty. split; [reflexivity|]. vm_compute. discriminate. Qed.
Lemma tcp_bind_refuted : exists a, wf a /\ parse (show a) <> Ok a.
Proof. exists w_bind. split; [reflexivity|]. vm_compute. discriminate. Qed.

(* what exactly happens on the witnesses *)
Lemma undecoded_value_witness :
  show w_undecoded = B "unix:path=/tmp/a%20b" /\
  parse (show w_undecoded) = Ok (mkAddr None (TUnix (UFile (B "/tmp/a%20b")))) /\
  Known_C23_display w_undecoded.
Proof. repeat split; try (vm_compute; reflexivity). vm_compute. discriminate. Qed.
Lemma empty_value_witness :
  show w_empty = B "unixexec:path=sh,argv1=-c,argv2=" /\ parse (show w_empty) = Err EAddress /\ Known_C23_display w_empty.
Proof. repeat split; try (vm_compute; reflexivity). vm_compute. discriminate. Qed.
Lemma tcp_bind_witness :
  show w_bind = B "tcp:host=h,port=80,bind=b" /\ parse (show w_bind) = Err EAddress /\ Known_C23_display w_bind.
Proof. repeat split; try (vm_compute; reflexivity). vm_compute. discriminate. Qed.

(* the decoding clause: an address string whose path is written with an escape *)
Lemma decoding_refuted : exists a s, wf a /\ Encodes a s /\ parse s <> Ok a.
Proof.
  exists w_undecoded, (B "unix:path=/tmp/a%20b"). split; [reflexivity|]. split.
  - exists [B "/tmp/a%20b"]. split; [|reflexivity]. constructor; [|constructor]. apply spec_decode_Enc. reflexivity.
  - vm_compute. discriminate.
Qed.

(* ---------------------------------------------------------------- non-vacuity *)
Definition ex_nonce : address :=
  mkAddr (Some (B "0123456789abcdef0123456789ABCDEF"))
         (TTcp (mkTcp (B "localhost") None 4142 (Some Ipv6) (Some (B "/a/file, with spaces%")))).
Definition ex_exec : address :=
  mkAddr None (TUnixexec (mkExec (B "/usr/bin/dbus-daemon") (Some (B "daemon"))
    [B "--session"; B "-x"; B "3"; B "4"; B "5"; B "6"; B "7"; B "8"; B "9"; B "10"; B "11"])).

Example ex_nonce_ok : wf ex_nonce /\ ~ Known_C23_display ex_nonce /\
  show ex_nonce = B "nonce-tcp:noncefile=/a/file%2c%20with%20spaces%25,host=localhost,port=4142,family=ipv6,guid=0123456789abcdef0123456789ABCDEF".
Proof. split; [reflexivity|]. split; [intro H; apply H; vm_compute; reflexivity|vm_compute; reflexivity]. Qed.
Example ex_exec_ok : wf ex_exec /\ ~ Known_C23_display ex_exec /\ parse (show ex_exec) = Ok ex_exec.
Proof. split; [reflexivity|]. split; [intro H; apply H; vm_compute; reflexivity|vm_compute; reflexivity]. Qed.
(* an alternative escaping of the same address (upper-case hex, escaped safe bytes) is still read back *)
Example ex_alt_encoding :
  let ts := [B "%2Fa/file%2C%20with%20spaces%25"; B "localhost"; B "4142"; B "ipv6"; B "0123456789abcdef0123456789ABCDEF"] in
  Forall2 Enc (values ex_nonce) ts /\ ~ Known_C23 ex_nonce ts.
Proof.
  split.
  - repeat constructor; apply spec_decode_Enc; reflexivity.
  - intro H; apply H; vm_compute; reflexivity.
Qed.
Example ex_percent : decode_percents (encode_percents [x00; "%"; "a"; xff; ","; " "]%byte) = Ok [x00; "%"; "a"; xff; ","; " "]%byte
  /\ encode_percents [x00; "%"; "a"; xff; ","; " "]%byte = B "%00%25a%ff%2c%20".
Proof. split; vm_compute; reflexivity. Qed.

(* ---------------------------------------------------------------- the class of Display's output, read off the value *)
Lemma existsb_ext {A} (f g : A -> bool) l : (forall x, f x = g x) -> existsb f l = existsb g l.
Proof. intro H. induction l as [|x l IH]; cbn; [reflexivity|]. now rewrite H, IH. Qed.
Lemma existsb_map' {A C} (f : C -> bool) (h : A -> C) l : existsb f (map h l) = existsb (fun x => f (h x)) l.
Proof. induction l as [|x l IH]; cbn; [reflexivity|]. now rewrite IH. Qed.

Lemma display_items a :
  items_of a (display_texts a) = map (fun kv => (kv, encode_percents (snd kv))) (fields a).
Proof.
  unfold items_of, display_texts, values. induction (fields a) as [|kv l IH]; cbn; [reflexivity|]. now rewrite IH.
Qed.

Lemma encode_empty v : match encode_percents v with [] => true | _ => false end = match v with [] => true | _ => false end.
Proof.
  destruct v as [|c v]; [reflexivity|]. pose proof (proj1 (encode_percents_nil (c :: v))) as H.
  destruct (encode_percents (c :: v)); [specialize (H eq_refl); discriminate|reflexivity].
Qed.

Lemma encode_same v : lbeq (encode_percents v) v = forallb unreserved v.
Proof.
  destruct (forallb unreserved v) eqn:E.
  - rewrite (encode_percents_id v E). apply lbeq_refl.
  - apply WinnowFacts.lbeq_false. intro H. apply encode_percents_fixed in H. congruence.
Qed.

Lemma known_display_exact a : Known_C23_display a <-> display_known a = true.
Proof.
  unfold Known_C23_display, Known_C23, display_known.
  assert (H1 : k_tcp_bind (tname (a_transport a)) (items_of a (display_texts a)) = dk_bind a).
  { unfold k_tcp_bind, dk_bind. rewrite display_items, existsb_map'. reflexivity. }
  assert (H2 : k_empty_value (items_of a (display_texts a)) = dk_empty a).
  { unfold k_empty_value, dk_empty. rewrite display_items, existsb_map'. apply existsb_ext. intro kv.
    unfold i_text. cbn [snd]. apply encode_empty. }
  assert (H3 : k_undecoded (items_of a (display_texts a)) = dk_undecoded a).
  { unfold k_undecoded, dk_undecoded. rewrite display_items, existsb_map'. apply existsb_ext. intro kv.
    unfold i_text, i_key, i_val. cbn [fst snd]. now rewrite encode_same. }
  rewrite <- H1, <- H2, <- H3, <- not_false_iff_true, <- known_class_none. reflexivity.
Qed.

Corollary display_denotes a : wf a -> spec_denote (show a) = Some a.
Proof. intro H. apply encodes_denote; [exact H|now apply show_encodes]. Qed.
