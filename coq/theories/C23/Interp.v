(* C23/Interp.v — looking keys up in the key/value pairs of an address value: the model's HashMap
   reads and the specification's association-list reads agree on [fields a] and give back a. *)
From ZV Require Import Base.Bytes Base.WinnowFacts C23.Dec C23.Model C23.Spec C23.Codec C23.Skeleton.
From Coq Require Import Lia.

(* ---- association lists ---- *)
Lemma assoc_app k l1 l2 : assoc k (l1 ++ l2) = match assoc k l1 with Some v => Some v | None => assoc k l2 end.
Proof. induction l1 as [|[k' v] l1 IH]; cbn; [reflexivity|]. destruct (lbeq k' k); [reflexivity|exact IH]. Qed.

Lemma assoc_notin k l : ~ In k (map fst l) -> assoc k l = None.
Proof.
  induction l as [|[k' v] l IH]; cbn; [reflexivity|]. intro H.
  rewrite (proj2 (lbeq_false _ _)) by (intro E; apply H; left; exact E). apply IH. intro E. apply H. now right.
Qed.

Lemma assoc_in k l v : assoc k l = Some v -> In k (map fst l).
Proof.
  induction l as [|[k' v'] l IH]; cbn; [discriminate|]. destruct (lbeq k' k) eqn:E.
  - apply lbeq_eq in E. now left.
  - intro H. right. now apply IH.
Qed.

Lemma assoc_opt_field k k' o : assoc k (opt_field k' o) = if lbeq k' k then o else None.
Proof. destruct o; cbn; destruct (lbeq k' k); reflexivity. Qed.

Lemma opt_eta {A} (o : option A) : match o with Some v => Some v | None => None end = o.
Proof. destruct o; reflexivity. Qed.

Lemma find_app {A} (f : A -> bool) l1 l2 :
  find f (l1 ++ l2) = match find f l1 with Some x => Some x | None => find f l2 end.
Proof. induction l1 as [|x l1 IH]; cbn; [reflexivity|]. destruct (f x); [reflexivity|exact IH]. Qed.

(* HashMap built by inserts in order = first-match lookup, when no key repeats *)
Lemma hm_get_assoc k l : NoDup (map fst l) -> hm_get k l = assoc k l.
Proof.
  unfold hm_get. induction l as [|[k' v] l IH]; intro Hnd; [reflexivity|].
  cbn [rev map fst] in *. inversion Hnd as [|? ? Hni Hnd']; subst. rewrite find_app. cbn [assoc].
  destruct (lbeq k' k) eqn:E.
  - apply lbeq_eq in E. subst k'. specialize (IH Hnd'). rewrite (assoc_notin _ _ Hni) in IH.
    destruct (find (fun p => lbeq (fst p) k) (rev l)); [discriminate|]. cbn. now rewrite lbeq_refl.
  - rewrite <- (IH Hnd'). destruct (find (fun p => lbeq (fst p) k) (rev l)); [reflexivity|].
    cbn. now rewrite E.
Qed.

Lemma nodupb_NoDup l : nodupb l = true <-> NoDup l.
Proof.
  induction l as [|k l IH]; cbn; [split; [constructor|reflexivity]|].
  rewrite andb_true_iff, negb_true_iff, IH, NoDup_cons_iff, <- not_true_iff_false, existsb_exists.
  enough (H : (exists x, In x l /\ lbeq k x = true) <-> In k l) by now rewrite H.
  split; [intros (x & Hx & E); apply lbeq_eq in E; now subst|].
  intro H. exists k. split; [exact H|apply lbeq_refl].
Qed.

Lemma NoDup_app' {A} (l1 l2 : list A) :
  NoDup l1 -> NoDup l2 -> (forall x, In x l1 -> ~ In x l2) -> NoDup (l1 ++ l2).
Proof.
  induction l1 as [|x l1 IH]; intros H1 H2 Hd; [exact H2|]. inversion H1 as [|? ? Hni H1']; subst.
  cbn. constructor.
  - intro Hin. apply in_app_or in Hin as [Hin|Hin]; [contradiction|]. apply (Hd x); [now left|exact Hin].
  - apply IH; [exact H1'|exact H2|]. intros y Hy. apply Hd. now right.
Qed.

(* ---- argv keys ---- *)
Definition akey (i : N) : bytes := B "argv" ++ show_dec i.

Lemma akey_inj i j : akey i = akey j -> i = j.
Proof. unfold akey. intro H. apply app_inv_head in H. now apply show_dec_inj. Qed.
Lemma akey_argv0 i : akey i = B "argv0" -> i = 0%N.
Proof. intro H. apply (akey_inj i 0). exact H. Qed.

Lemma akey_good i : key_good (akey i).
Proof.
  change (forallb is_alphanum (B "argv" ++ show_dec i) = true). rewrite forallb_app.
  apply andb_true_iff. split; [reflexivity|]. apply (forallb_impl is_digit); [|apply show_dec_digits].
  intros c H. unfold is_alphanum. now rewrite H, orb_true_r.
Qed.

Lemma arg_keys_in k i args : In k (map fst (arg_fields i args)) -> exists j, (i <= j)%N /\ k = akey j.
Proof.
  revert i. induction args as [|a r IH]; intros i H; [destruct H|]. cbn in H. destruct H as [H|H].
  - exists i. split; [lia|]. now rewrite <- H.
  - apply IH in H as [j [Hj ->]]. exists j. split; [lia|reflexivity].
Qed.

Lemma arg_keys_nodup i args : NoDup (map fst (arg_fields i args)).
Proof.
  revert i. induction args as [|a r IH]; intro i; cbn; constructor; [|apply IH].
  intro H. apply arg_keys_in in H as [j [Hj E]]. apply akey_inj in E. lia.
Qed.

Lemma assoc_args_none k i args : (forall j, (i <= j)%N -> k <> akey j) -> assoc k (arg_fields i args) = None.
Proof.
  intro H. apply assoc_notin. intro Hin. apply arg_keys_in in Hin as [j [Hj E]]. exact (H j Hj E).
Qed.

(* ---- keys of an address value ---- *)
Lemma opt_key_in x k o : In x (map fst (opt_field k o)) -> x = k.
Proof. destruct o; [intros [<-|[]]; reflexivity|intros []]. Qed.

Lemma opt_key_nodup k o : NoDup (map fst (opt_field k o)).
Proof. destruct o; repeat constructor. intros []. Qed.

Lemma exec_keys_nodup p a0 args g :
  NoDup (map fst ((B "path", p) :: opt_field (B "argv0") a0 ++ arg_fields 1 args ++ opt_field (B "guid") g)).
Proof.
  cbn [map fst]. rewrite !map_app. constructor.
  - intro H. apply in_app_or in H as [H|H]; [apply opt_key_in in H; discriminate|].
    apply in_app_or in H as [H|H]; [apply arg_keys_in in H as [j [_ E]]|apply opt_key_in in H]; discriminate.
  - apply NoDup_app'; [apply opt_key_nodup| |].
    + apply NoDup_app'; [apply arg_keys_nodup|apply opt_key_nodup|].
      intros x Hx Hg. apply arg_keys_in in Hx as [j [_ ->]]. apply opt_key_in in Hg. discriminate.
    + intros x Hx Hin. apply opt_key_in in Hx. subst x. apply in_app_or in Hin as [Hin|Hin].
      * apply arg_keys_in in Hin as [j [Hj E]]. symmetry in E. apply akey_argv0 in E. lia.
      * apply opt_key_in in Hin. discriminate.
Qed.

Lemma keys_nodup a : NoDup (keys a).
Proof.
  unfold keys, fields. destruct a as [g t]. cbn [a_guid a_transport].
  destruct t as [[p|p|p|p]|[h b pt f n]|c p|[p a0 args]]; cbn [tfields].
  1-4: destruct g; cbn; repeat constructor; cbn; intuition discriminate.
  - cbn [t_nonce t_host t_port t_bind t_family]. apply nodupb_NoDup.
    destruct n, b, f as [[|]|], g; reflexivity.
  - destruct g; cbn; repeat constructor; cbn; intuition discriminate.
  - cbn [x_path x_arg0 x_args]. rewrite <- app_comm_cons, <- !app_assoc. apply exec_keys_nodup.
Qed.

Lemma keys_good a : Forall key_good (keys a).
Proof.
  unfold keys, fields. destruct a as [g t]. cbn [a_guid a_transport].
  assert (Hg : Forall key_good (map fst (opt_field (B "guid") g))) by (destruct g; repeat constructor).
  rewrite map_app. apply Forall_app. split; [|exact Hg]. clear Hg.
  destruct t as [[p|p|p|p]|[h b pt f n]|c p|[p a0 args]]; cbn [tfields].
  1-4: repeat constructor.
  - cbn [t_nonce t_host t_port t_bind t_family]. destruct n, b, f as [[|]|]; repeat constructor.
  - repeat constructor.
  - cbn [x_path x_arg0 x_args map fst]. constructor; [reflexivity|]. rewrite map_app. apply Forall_app. split.
    + destruct a0; repeat constructor.
    + generalize 1%N. induction args as [|a r IH]; intro i; cbn; constructor; [apply akey_good|apply IH].
Qed.

(* ---- the argv loops ---- *)
(* argv<i>, argv<i+1>, ... are read off a list that holds them in order, no such key before or after *)
Lemma spec_args_fields post args : (forall j, assoc (akey j) post = None) -> forall i pre o fuel,
  o = pre ++ arg_fields i args ++ post ->
  (forall j, (i <= j)%N -> assoc (akey j) pre = None) ->
  length args < fuel ->
  spec_args fuel i o = args.
Proof.
  intro Hpost. induction args as [|a r IH]; intros i pre o fuel Ho Hpre Hf; (destruct fuel; [cbn in Hf; lia|]);
    cbn [spec_args]; fold (akey i); rewrite Ho, assoc_app, (Hpre i) by lia; cbn [arg_fields app assoc].
  - now rewrite Hpost.
  - rewrite lbeq_refl. f_equal. apply (IH (i + 1)%N (pre ++ [(akey i, a)])).
    + now rewrite <- app_assoc.
    + intros j Hj. rewrite assoc_app, (Hpre j) by lia. cbn [assoc].
      rewrite (proj2 (lbeq_false _ _)); [reflexivity|]. intro E. apply akey_inj in E. lia.
    + cbn in Hf. lia.
Qed.

(* the model's loop finds what the specification's finds, when the two look-ups agree on argv keys *)
Lemma exec_spec_args o o' : (forall j, hm_get (akey j) o = assoc (akey j) o') ->
  forall fuel i, length (spec_args fuel i o') < fuel -> exec_args fuel i o = Some (spec_args fuel i o').
Proof.
  intro Hget. induction fuel as [|fuel IH]; intros i Hl; [cbn in Hl; lia|].
  cbn [exec_args spec_args] in *. fold (akey i) in *. rewrite Hget.
  destruct (assoc (akey i) o'); [|reflexivity]. rewrite IH; [reflexivity|cbn in Hl; lia].
Qed.

(* ---- the key/value pairs of a unixexec address ---- *)
Section ExecFields.
  Variables (p : bytes) (a0 : option bytes) (args : list bytes) (g : option bytes).
  Local Notation o := (fields (mkAddr g (TUnixexec (mkExec p a0 args)))).
  Local Notation pre := ((B "path", p) :: opt_field (B "argv0") a0).

  Lemma exec_fields_split : o = pre ++ arg_fields 1 args ++ opt_field (B "guid") g.
  Proof. unfold fields. cbn [a_transport a_guid tfields x_path x_arg0 x_args app]. now rewrite <- app_assoc. Qed.

  Lemma pre_no_args j : (1 <= j)%N -> assoc (akey j) pre = None.
  Proof.
    intro Hj. cbn [assoc]. rewrite (proj2 (lbeq_false _ _)) by discriminate.
    rewrite assoc_opt_field, (proj2 (lbeq_false _ _)); [reflexivity|]. intro E. symmetry in E. apply akey_argv0 in E. lia.
  Qed.

  Lemma exec_fields_argv0 : assoc (B "argv0") o = a0.
  Proof.
    rewrite exec_fields_split. cbn [app assoc]. change (lbeq (B "path") (B "argv0")) with false. cbn iota.
    rewrite assoc_app, assoc_opt_field. change (lbeq (B "argv0") (B "argv0")) with true. cbn iota.
    destruct a0; [reflexivity|]. rewrite assoc_app, assoc_args_none, assoc_opt_field; [reflexivity|].
    intros j Hj E. symmetry in E. apply akey_argv0 in E. lia.
  Qed.

  Lemma exec_fields_args fuel : length args < fuel -> spec_args fuel 1%N o = args.
  Proof.
    apply (spec_args_fields (opt_field (B "guid") g)) with (pre := pre).
    - intro j. now rewrite assoc_opt_field.
    - exact exec_fields_split.
    - exact pre_no_args.
  Qed.
End ExecFields.

Lemma lbeq_false a b : lbeq a b = false -> a <> b.
Proof. apply WinnowFacts.lbeq_false. Qed.
