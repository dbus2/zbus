(* C23/Dec.v — decimal numerals as byte strings, through Coq's own Decimal library
   ([N.to_uint] / [N.of_uint]); used by the model (Display of integers, FromStr of integers) and by
   the specification (the numeral that denotes a port / cid / argv index). *)
From ZV Require Import Base.Bytes.
From Coq Require Import Decimal DecimalN DecimalPos.

Fixpoint bytes_of_uint (u : Decimal.uint) : bytes :=
  match u with
  | Nil => []
  | D0 r => "0"%byte :: bytes_of_uint r | D1 r => "1"%byte :: bytes_of_uint r
  | D2 r => "2"%byte :: bytes_of_uint r | D3 r => "3"%byte :: bytes_of_uint r
  | D4 r => "4"%byte :: bytes_of_uint r | D5 r => "5"%byte :: bytes_of_uint r
  | D6 r => "6"%byte :: bytes_of_uint r | D7 r => "7"%byte :: bytes_of_uint r
  | D8 r => "8"%byte :: bytes_of_uint r | D9 r => "9"%byte :: bytes_of_uint r
  end.
Definition show_dec (n : N) : bytes := bytes_of_uint (N.to_uint n).

Fixpoint uint_of_bytes (l : bytes) : option Decimal.uint :=
  match l with
  | [] => Some Nil
  | c :: r =>
      match uint_of_bytes r with
      | None => None
      | Some u =>
          match c with
          | "0"%byte => Some (D0 u) | "1"%byte => Some (D1 u) | "2"%byte => Some (D2 u)
          | "3"%byte => Some (D3 u) | "4"%byte => Some (D4 u) | "5"%byte => Some (D5 u)
          | "6"%byte => Some (D6 u) | "7"%byte => Some (D7 u) | "8"%byte => Some (D8 u)
          | "9"%byte => Some (D9 u) | _ => None
          end
      end
  end.

(* a numeral: at least one digit, nothing else (leading zeros allowed) *)
Definition read_dec (l : bytes) : option N :=
  match l with
  | [] => None
  | _ => match uint_of_bytes l with Some u => Some (N.of_uint u) | None => None end
  end.

Lemma uint_of_bytes_of_uint u : uint_of_bytes (bytes_of_uint u) = Some u.
Proof. induction u; cbn; try rewrite IHu; reflexivity. Qed.

Lemma bytes_of_uint_digits u : forallb is_digit (bytes_of_uint u) = true.
Proof. induction u; cbn; try rewrite IHu; reflexivity. Qed.

Lemma to_uint_not_nil n : N.to_uint n <> Nil.
Proof. destruct n as [|p]; cbn; [discriminate|]. apply DecimalPos.Unsigned.to_uint_nonnil. Qed.

Lemma show_dec_nonempty n : show_dec n <> [].
Proof.
  unfold show_dec. pose proof (to_uint_not_nil n) as H. destruct (N.to_uint n); [contradiction|..]; discriminate.
Qed.

Lemma show_dec_digits n : forallb is_digit (show_dec n) = true.
Proof. apply bytes_of_uint_digits. Qed.

Lemma read_show_dec n : read_dec (show_dec n) = Some n.
Proof.
  unfold read_dec. pose proof (show_dec_nonempty n) as Hn. destruct (show_dec n) eqn:E; [contradiction|].
  rewrite <- E. unfold show_dec. rewrite uint_of_bytes_of_uint. now rewrite DecimalN.Unsigned.of_to.
Qed.

Lemma show_dec_inj a b : show_dec a = show_dec b -> a = b.
Proof.
  intro H. pose proof (read_show_dec a) as Ha. rewrite H, read_show_dec in Ha. congruence.
Qed.
