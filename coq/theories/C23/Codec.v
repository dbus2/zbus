(* C23/Codec.v — the percent codec: the model's encoder and decoder against the specification's
   escaping relation [Enc].  Facts about a single byte that come from a table or from the extent of a
   character class are decided by one evaluation over [all_bytes]. *)
From ZV Require Import Base.Bytes Base.BytesFacts Base.Res Base.WinnowFacts C23.Model C23.Spec.
From Coq Require Import Lia.

(* ---- bytes and their codes ---- *)
Lemma bn_lt c : (bn c < 256)%N.
Proof. apply BytesFacts.bn_lt. Qed.

Lemma nb_hi_lo c : nb (16 * (bn c / 16) + bn c mod 16) = c.
Proof. rewrite <- N.div_mod by discriminate. apply nb_bn. Qed.

Lemma hi_lo_of x y : (x < 16)%N -> (y < 16)%N ->
  (bn (nb (16 * x + y)) / 16 = x /\ bn (nb (16 * x + y)) mod 16 = y)%N.
Proof.
  intros Hx Hy. rewrite bn_nb by lia. split.
  - symmetry. apply (N.div_unique (16 * x + y) 16 x y); lia.
  - symmetry. apply (N.mod_unique (16 * x + y) 16 x y); lia.
Qed.

(* ---- deciding a fact about every byte ---- *)
Definition bits : list bool := [false; true].
Definition all_bytes : bytes :=
  map Byte.of_bits
    (list_prod bits (list_prod bits (list_prod bits (list_prod bits
      (list_prod bits (list_prod bits (list_prod bits bits))))))).

Lemma in_all_bytes c : In c all_bytes.
Proof.
  rewrite <- (Byte.of_bits_to_bits c). apply in_map.
  destruct (Byte.to_bits c) as (b0 & b1 & b2 & b3 & b4 & b5 & b6 & b7).
  repeat apply in_prod; match goal with |- In ?b bits => destruct b; cbn; auto end.
Qed.

Lemma byte_ext {A} (f g : byte -> A) : map f all_bytes = map g all_bytes -> forall c, f c = g c.
Proof. intros H c. rewrite map_ext_in_iff in H. apply H, in_all_bytes. Qed.

Lemma class_incl (P Q : byte -> bool) :
  forallb (fun c => implb (P c) (Q c)) all_bytes = true -> forall c, P c = true -> Q c = true.
Proof. intros H c Hp. rewrite forallb_forall in H. specialize (H c (in_all_bytes c)). now rewrite Hp in H. Qed.

(* a class that leaves out x holds no byte equal to x: no sweep needed *)
Lemma class_excl (P : byte -> bool) x c : P x = false -> P c = true -> beq c x = false.
Proof. intros Hx Hc. destruct (beq c x) eqn:E; [apply beq_eq in E; congruence|reflexivity]. Qed.

Lemma lookup_entry c : lookup c = [percent; hexdigit (bn c / 16); hexdigit (bn c mod 16)].
Proof. revert c. apply byte_ext. vm_compute. reflexivity. Qed.

Lemma unreserved_opt_escaped c : unreserved c = opt_escaped c.
Proof. revert c. apply byte_ext. vm_compute. reflexivity. Qed.

Lemma decode_hex_hexval c : decode_hex c = match hexval c with Some n => Ok n | None => Err EAddress end.
Proof. revert c. apply byte_ext. vm_compute. reflexivity. Qed.

Definition is_hex (c : byte) : bool := match hexval c with Some _ => true | None => false end.
Lemma is_hex_of c n : hexval c = Some n -> is_hex c = true.
Proof. unfold is_hex. now intros ->. Qed.

Lemma hexval_lt16 c n : hexval c = Some n -> (n < 16)%N.
Proof.
  intro H. assert (E : match hexval c with Some n => (n <? 16)%N | None => false end = true).
  { apply is_hex_of in H. revert c H. apply class_incl. vm_compute. reflexivity. }
  rewrite H in E. now apply N.ltb_lt.
Qed.

(* every n < 16 is [bn c mod 16] for the byte c = nb n *)
Lemma hexval_hexdigit n : (n < 16)%N -> hexval (hexdigit n) = Some n.
Proof.
  intro H. rewrite <- (N.mod_small n 16 H), <- (bn_nb n) by lia. generalize (nb n).
  apply byte_ext. vm_compute. reflexivity.
Qed.

(* ---- the specification's decoder and the relation ---- *)
Lemma Enc_spec_decode r t : Enc r t -> spec_decode t = Some r.
Proof.
  induction 1 as [|c r t Hc _ IH|c h l r t Hh Hl _ IH]; cbn [spec_decode].
  - reflexivity.
  - now rewrite Hc, IH.
  - change (opt_escaped percent) with false. rewrite beq_refl, Hh, Hl, IH, nb_hi_lo. reflexivity.
Qed.

(* both decoders step over one byte or over an escape of three: induction along those steps *)
Lemma escape_ind (P : bytes -> Prop) :
  P [] -> (forall c t, P t -> (forall h l t', t = h :: l :: t' -> P t') -> P (c :: t)) -> forall t, P t.
Proof.
  intros H0 Hs t. enough (H : P t /\ P (tl t) /\ P (tl (tl t))) by apply H.
  induction t as [|c t (I0 & I1 & I2)]; cbn [tl]; [auto|]. repeat split; try assumption.
  apply Hs; [exact I0|]. intros h l t' ->. exact I2.
Qed.

Lemma spec_decode_Enc t r : spec_decode t = Some r <-> Enc r t.
Proof.
  split; [|apply Enc_spec_decode]. revert r. induction t as [|c t IH IH3] using escape_ind; intros r H.
  - injection H as <-. constructor.
  - cbn [spec_decode] in H. destruct (opt_escaped c) eqn:Ec.
    + destruct (spec_decode t) as [d|]; [|discriminate]. injection H as <-.
      apply Enc_lit; [exact Ec|exact (IH d eq_refl)].
    + destruct (beq c percent) eqn:Ep; [|discriminate]. apply beq_eq in Ep. subst c.
      destruct t as [|h [|l t]]; try discriminate.
      destruct (hexval h) as [x|] eqn:Eh; [|discriminate].
      destruct (hexval l) as [y|] eqn:El; [|discriminate].
      destruct (spec_decode t) as [d|] eqn:Ed; [|discriminate]. injection H as <-.
      destruct (hi_lo_of x y (hexval_lt16 _ _ Eh) (hexval_lt16 _ _ El)) as [H1 H2].
      apply Enc_esc; [now rewrite <- H1 in Eh|now rewrite <- H2 in El|exact (IH3 h l t eq_refl d Ed)].
Qed.

(* ---- the model's decoder is the specification's ---- *)
Lemma decode_percents_spec t :
  decode_percents t = match spec_decode t with Some r => Ok r | None => Err EAddress end.
Proof.
  induction t as [|c t IH IH3] using escape_ind; [reflexivity|]. cbn [decode_percents spec_decode].
  rewrite unreserved_opt_escaped. destruct (opt_escaped c).
  - rewrite IH. destruct (spec_decode t); reflexivity.
  - change (beq c "%"%byte) with (beq c percent). destruct (beq c percent); [|reflexivity].
    destruct t as [|h [|l t]]; try reflexivity.
    rewrite !decode_hex_hexval, (IH3 h l t eq_refl). destruct (hexval h); [|reflexivity].
    destruct (hexval l); [|reflexivity]. destruct (spec_decode t); reflexivity.
Qed.

Lemma decode_percents_Enc t r : decode_percents t = Ok r <-> Enc r t.
Proof.
  rewrite decode_percents_spec, <- spec_decode_Enc. destruct (spec_decode t); split; intro H; try discriminate; congruence.
Qed.

(* the decoder never panics and fails only with Error::Address *)
Lemma decode_percents_total t : exists r, decode_percents t = Ok r \/ decode_percents t = Err EAddress.
Proof. rewrite decode_percents_spec. destruct (spec_decode t) as [r|]; [exists r|exists []]; auto. Qed.

(* ---- the encoder produces an escaped form ---- *)
Lemma encode_percents_Enc bs : Enc bs (encode_percents bs).
Proof.
  induction bs as [|c bs IH]; cbn [encode_percents]; [constructor|].
  rewrite unreserved_opt_escaped. destruct (opt_escaped c) eqn:Ec.
  - apply Enc_lit; assumption.
  - rewrite lookup_entry. apply Enc_esc; [| |exact IH]; apply hexval_hexdigit.
    + apply N.div_lt_upper_bound; [discriminate|apply bn_lt].
    + now apply N.mod_lt.
Qed.

Theorem percent_roundtrip bs : decode_percents (encode_percents bs) = Ok bs.
Proof. apply decode_percents_Enc, encode_percents_Enc. Qed.

(* an escaped form determines the raw value *)
Lemma Enc_functional r1 r2 t : Enc r1 t -> Enc r2 t -> r1 = r2.
Proof. intros H1 H2. apply Enc_spec_decode in H1, H2. congruence. Qed.

(* escaped text consists of optionally-escaped bytes, '%' and hex digits only *)
Definition text_byte (c : byte) : bool := opt_escaped c || beq c percent.
Lemma hexval_text_byte c n : hexval c = Some n -> text_byte c = true.
Proof. intro H. apply is_hex_of in H. revert c H. apply class_incl. vm_compute. reflexivity. Qed.
Lemma Enc_text r t : Enc r t -> forallb text_byte t = true.
Proof.
  induction 1 as [|c r t Hc _ IH|c h l r t Hh Hl _ IH]; cbn [forallb].
  - reflexivity.
  - unfold text_byte at 1. now rewrite Hc, IH.
  - rewrite (hexval_text_byte _ _ Hh), (hexval_text_byte _ _ Hl), IH. reflexivity.
Qed.

(* what Display writes equals the raw value exactly when every byte is in the safe set *)
Lemma encode_percents_id bs : forallb unreserved bs = true -> encode_percents bs = bs.
Proof.
  induction bs as [|c bs IH]; cbn [forallb encode_percents]; [reflexivity|]. intro H.
  apply andb_true_iff in H as [H1 H2]. now rewrite H1, IH.
Qed.
Lemma encode_percents_length bs : length bs <= length (encode_percents bs).
Proof.
  induction bs as [|c bs IH]; cbn [encode_percents]; [lia|]. rewrite app_length.
  destruct (unreserved c); [cbn; lia|rewrite lookup_entry; cbn; lia].
Qed.
Lemma encode_percents_fixed bs : encode_percents bs = bs -> forallb unreserved bs = true.
Proof.
  induction bs as [|c bs IH]; cbn [encode_percents forallb]; [reflexivity|].
  destruct (unreserved c) eqn:Ec.
  - cbn. intro H. injection H as H. now apply IH.
  - rewrite lookup_entry. cbn. intro H. injection H as H1 H2.
    pose proof (encode_percents_length bs) as Hl.
    apply (f_equal (@length byte)) in H2. cbn in H2. lia.
Qed.
Lemma encode_percents_nil bs : encode_percents bs = [] <-> bs = [].
Proof.
  split; [|intros ->; reflexivity]. destruct bs as [|c bs]; [reflexivity|]. cbn [encode_percents].
  destruct (unreserved c); [discriminate|rewrite lookup_entry; discriminate].
Qed.
