(* C14/Proofs.v — the reader delivers exactly the messages that were sent, for every split of the stream. *)
From ZV Require Import Base.Bytes Base.BytesFacts Base.Res C14.Model C14.Spec C14.Fields.
From ZV Require C11.Model C11.Invariants.
From Coq Require Import Lia ZifyBool ZifyN ZifyNat.
Open Scope N_scope.

Lemma lenN_app {A} (a b : list A) : lenN (a ++ b) = lenN a + lenN b.
Proof. unfold lenN. rewrite app_length. lia. Qed.

Lemma lenN_nil {A} : lenN (@nil A) = 0.
Proof. reflexivity. Qed.

Lemma firstn_app_le {A} n (l1 l2 : list A) : (n <= length l1)%nat -> firstn n (l1 ++ l2) = firstn n l1.
Proof. intros H. rewrite firstn_app. replace (n - length l1)%nat with 0%nat by lia. apply app_nil_r. Qed.

Lemma takeN_lenN_app {A} (a b : list A) : takeN (lenN a) (a ++ b) = a.
Proof. unfold takeN, lenN. rewrite Nat2N.id, firstn_app, firstn_all, Nat.sub_diag. apply app_nil_r. Qed.

Lemma dropN_lenN_app {A} (a b : list A) : dropN (lenN a) (a ++ b) = b.
Proof. unfold dropN, lenN. now rewrite Nat2N.id, skipn_app, skipn_all, Nat.sub_diag. Qed.

(* whatever the oracle answers, a read loop that succeeds has appended a prefix of the stream *)
Lemma read_to_sound o : forall fuel target buf fds st st' b' f',
  read_to o fuel target buf fds st = (st', Ok (b', f')) ->
  exists got, strm st = got ++ strm st' /\ b' = buf ++ map fst got /\ f' = fds ++ flat_map snd got /\
              arb st' = arb st /\ arfds st' = arfds st /\ (lenN buf <= target -> lenN b' = target).
Proof.
  induction fuel as [|fuel IH]; intros target buf fds st st' b' f' H; cbn [read_to] in H;
    destruct (target <=? lenN buf) eqn:Ht.
  1, 3: injection H as <- <- <-; exists []; cbn; rewrite !app_nil_r; repeat split; lia.
  - discriminate.
  - unfold recvmsg in H. destruct (o (calls st)) as [k| |]; try discriminate.
    set (n := N.to_nat _) in H.
    destruct (map fst (firstn n (strm st))) as [|x xs] eqn:Hb; [discriminate|].
    rewrite <- Hb in H. apply IH in H as (got & Hs & -> & -> & Ha & Haf & Hlen). cbn [strm arb arfds] in *.
    exists (firstn n (strm st) ++ got).
    rewrite <- app_assoc, <- Hs, firstn_skipn, map_app, flat_map_app, !app_assoc.
    repeat split; try assumption.
    intros Hle. apply Hlen. rewrite lenN_app. unfold lenN at 2. rewrite map_length, firstn_length.
    unfold n, lenN in *. lia.
Qed.

(* oracles that deliver bytes as long as there are any: the loop then gets exactly what it still needs *)
Definition all_bytes (o : oracle) : Prop := forall c, exists k, o c = ABytes k.

Lemma all_bytes_oracle k : all_bytes (bytes_oracle k).
Proof. intros c. now exists (k c). Qed.

Lemma read_to_complete o (Ho : all_bytes o) : forall fuel rest tail target buf fds a af c,
  lenN buf + lenN rest = target -> (length rest < fuel)%nat ->
  exists c', read_to o fuel target buf fds {| arb := a; arfds := af; strm := rest ++ tail; calls := c |} =
             ({| arb := a; arfds := af; strm := tail; calls := c' |},
              Ok (buf ++ map fst rest, fds ++ flat_map snd rest)).
Proof.
  induction fuel as [|fuel IH]; intros rest tail target buf fds a af c Ht Hf; [lia|].
  cbn [read_to]. destruct (target <=? lenN buf) eqn:Hdone.
  - assert (rest = []) as -> by (apply length_zero_iff_nil; unfold lenN in *; lia).
    exists c. cbn. now rewrite !app_nil_r.
  - unfold recvmsg. cbn [calls strm arb arfds]. destruct (Ho c) as [k ->].
    set (n := N.to_nat _).
    assert (Hn : (1 <= n <= length rest)%nat) by (unfold n, lenN in *; rewrite app_length; lia).
    rewrite firstn_app_le, skipn_app by lia. replace (n - length rest)%nat with 0%nat by lia. cbn [skipn].
    destruct (map fst (firstn n rest)) as [|x xs] eqn:Hb.
    { apply (f_equal (@length _)) in Hb. rewrite map_length, firstn_length in Hb. cbn [length] in Hb. lia. }
    rewrite <- Hb.
    destruct (IH (skipn n rest) tail target (buf ++ map fst (firstn n rest)) (fds ++ flat_map snd (firstn n rest))
                 a af (S c)) as [c' ->].
    + rewrite lenN_app. unfold lenN in *. rewrite map_length, firstn_length, skipn_length. lia.
    + rewrite skipn_length. lia.
    + exists c'. now rewrite <- !app_assoc, <- map_app, <- flat_map_app, firstn_skipn.
Qed.

Lemma beq_bn a b : beq a b = (bn a =? bn b).
Proof.
  unfold beq. destruct (Byte.eqb a b) eqn:E; symmetry.
  - apply Byte.byte_dec_bl in E as ->. apply N.eqb_refl.
  - apply N.eqb_neq. intros Hn. apply Byte.eqb_false in E. apply E, bn_inj, Hn.
Qed.

Lemma land_248 x : x < 256 -> (N.land x 248 =? 0) = (x <? 8).
Proof.
  intros H.
  (* 248 is the complement of 7 on 8 bits: the mask clears the three low bits *)
  assert (E : N.land x 248 = 8 * (x / 8)).
  { destruct (N.eq_dec x 0) as [->|Hx]; [reflexivity|].
    change 248 with (N.lnot (N.ones 3) 8). rewrite <- N.ldiff_land_low by (apply N.log2_lt_pow2; lia).
    rewrite N.ldiff_ones_r, N.shiftr_div_pow2, N.shiftl_mul_pow2. apply N.mul_comm. }
  rewrite E. lia.
Qed.

Lemma bn_lt b : bn b < 256.
Proof. apply BytesFacts.bn_lt. Qed.

Lemma round8_pad8 n : n + pad8 n = round8 n.
Proof. unfold pad8, round8. lia. Qed.

Lemma Some_eq {A} (x y : A) : Some x = Some y -> x = y.
Proof. now intros [= ->]. Qed.

(* the frame of the specification is the one PrimaryHeader::read computes *)
Lemma frame_parse b f : frame_of b = Some f ->
  exists ph, parse_primary (firstn 16 b) = Ok ph /\ ph_big ph = f_big f /\
             header_len ph = f_header_end f /\ total_len ph = f_total f /\ 16 <= lenN b.
Proof.
  do 16 (destruct b as [|? b]; [discriminate|]).
  cbv [frame_of Nat.ltb Nat.leb spec_u32 byte_at parse_primary lenN nth Nat.add firstn skipn length u32_of u32le].
  rewrite !beq_bn. change (bn "l") with 108. change (bn "B") with 66.
  destruct (bn b0 =? 108) eqn:El, (bn b0 =? 66) eqn:EB; try discriminate.
  { apply N.eqb_eq in El, EB. rewrite El in EB. discriminate EB. }
  (* little and big endian alike: both sides test the same booleans on the same numbers
     ([injection] on the frames would try to evaluate their products) *)
  all: cbn [orb negb]; destruct (_ && _) eqn:Hc; [|discriminate]; intros <-%Some_eq.
  all: apply andb_prop in Hc as [-> Hserial]; apply negb_true_iff in Hserial; rewrite Hserial.
  all: eexists; split; [reflexivity|]; unfold total_len, header_len.
  all: cbn [ph_big ph_fields_len ph_body_len f_big f_header_end f_total].
  all: rewrite round8_pad8; repeat split; lia.
Qed.

Lemma tag_fst m : map fst (tag m) = sm_bytes m.
Proof.
  unfold tag. destruct (sm_bytes m) as [|b r]; [reflexivity|]. cbn. f_equal.
  rewrite map_map. apply map_id.
Qed.
Lemma tag_length m : length (tag m) = length (sm_bytes m).
Proof. now rewrite <- (tag_fst m), map_length. Qed.
Lemma tag_fds m : sm_bytes m <> [] -> flat_map snd (tag m) = sm_fds m.
Proof.
  unfold tag. destruct (sm_bytes m) as [|b r]; [congruence|]. intros _. cbn.
  rewrite flat_map_concat_map, map_map. cbn. induction r; [apply app_nil_r | assumption].
Qed.

(* the connection when the first [d] bytes of what the peer sent, [w], were read ahead *)
Definition buffered (d : nat) (w : list (byte * list fd)) (af : list fd) (k : nat) : rstate :=
  {| arb := map fst (firstn d w); arfds := af; strm := skipn d w; calls := k |}.

Lemma split_buffered c w k : split_state c w k = buffered c w (flat_map snd (firstn c w)) k.
Proof. reflexivity. Qed.

(* [phase2] takes the message [X] off the front of what the peer sent, wherever the read-ahead ended *)
Lemma phase2_split o (Ho : all_bytes o) (X W : list (byte * list fd)) hdr fds d af k total :
  total = lenN hdr + lenN X ->
  exists k', phase2 o total hdr fds (buffered d (X ++ W) af k) =
    (buffered (d - length X) W af k', Ok (hdr ++ map fst X, fds ++ flat_map snd (skipn d X))).
Proof.
  intros ->. unfold phase2, buffered, set_arb. cbn [arb arfds strm calls].
  rewrite firstn_app, skipn_app, map_app.
  set (A := map fst (firstn d X)). set (B := map fst (firstn (d - length X) W)).
  replace (N.min _ _) with (lenN A).
  2:{ rewrite lenN_app. unfold A, B, lenN. rewrite !map_length, !firstn_length. lia. }
  rewrite takeN_lenN_app, dropN_lenN_app.
  destruct (read_to_complete o Ho (S (length (skipn d X ++ skipn (d - length X) W))) (skipn d X)
              (skipn (d - length X) W) (lenN hdr + lenN X) (hdr ++ A) fds B af k) as [k' ->].
  - rewrite lenN_app. unfold A, lenN. rewrite map_length, firstn_length, skipn_length. lia.
  - rewrite app_length. lia.
  - exists k'. unfold A. now rewrite <- app_assoc, <- map_app, firstn_skipn.
Qed.

(* the first block is the second one started with nothing in hand *)
Lemma phase1_phase2 o st : phase1 o st = phase2 o MIN_MESSAGE_SIZE [] [] st.
Proof.
  unfold phase1, phase2, takeN, dropN, lenN, MIN_MESSAGE_SIZE. cbn [length app].
  destruct (N.of_nat (length (arb st)) <? 16) eqn:E.
  - replace (N.to_nat _) with (length (arb st)) by lia. now rewrite firstn_all, skipn_all.
  - replace (N.to_nat _) with 16%nat by lia. cbn [read_to].
    now replace (16 <=? lenN (firstn 16 (arb st))) with true by (unfold lenN; rewrite firstn_length; lia).
Qed.

Lemma phase1_split o (Ho : all_bytes o) (H W : list (byte * list fd)) d af k :
  length H = 16%nat ->
  exists k', phase1 o (buffered d (H ++ W) af k) =
    (buffered (d - 16) W af k', Ok (map fst H, flat_map snd (skipn d H))).
Proof.
  intros HH. rewrite phase1_phase2, <- HH. apply (phase2_split o Ho H W [] []).
  unfold lenN. now rewrite HH.
Qed.

(* [A]: buffered descriptors of this message, [L]: buffered ones of later messages, [B]: those just read *)
Lemma fds_block_split pf ph bytes st u (A B L : list fd) :
  pf (ph_big ph) (slice PRIMARY_HEADER_SIZE (header_len ph) bytes) = Ok u -> optN u = lenN (A ++ B) ->
  arfds st = A ++ L ->
  fds_block pf ph bytes B st = (set_arfds L st, Ok (A ++ B)).
Proof.
  intros Hpf Hu Hst. unfold fds_block. rewrite Hst, Hpf. fold (optN u). rewrite Hu.
  destruct (A ++ L) as [|x l] eqn:E.
  - apply app_eq_nil in E as [-> ->]. destruct st. cbn in Hst. now subst.
  - rewrite <- E, !lenN_app.
    replace (lenN A + lenN B <? lenN B) with false by lia.
    replace (lenN A + lenN B - lenN B) with (lenN A) by lia.
    replace (lenN A + lenN L <? lenN A) with false by lia.
    now rewrite takeN_lenN_app, dropN_lenN_app.
Qed.

Lemma valid_nonempty pf m : valid_msg pf m -> (16 <= length (sm_bytes m))%nat.
Proof.
  intros (f & u & Hf & _). apply frame_parse in Hf as (ph & _ & _ & _ & _ & Hl).
  unfold lenN in Hl. lia.
Qed.

Lemma receive_valid pf o (Ho : all_bytes o) m W c k seq :
  valid_msg pf m ->
  exists k', receive_message pf o seq (split_state c (tag m ++ W) k) =
    (split_state (c - length (sm_bytes m)) W k',
     Ok {| m_bytes := sm_bytes m; m_fds := sm_fds m; m_seq := seq |}).
Proof.
  intros (f & u & Hf & Htot & Hmax & Hpf & Hu).
  apply frame_parse in Hf as (ph & Hpp & Hbig & Hhl & Htl & Hlen).
  rewrite <- Hbig, <- Hhl in Hpf. fold PRIMARY_HEADER_SIZE in Hpf. rewrite <- Htl in Htot, Hmax.
  clear f Hbig Hhl Htl.
  assert (Hfds : flat_map snd (tag m) = sm_fds m) by (apply tag_fds; intros E; rewrite E in Hlen; now apply Hlen).
  pose proof (tag_length m) as HT. pose proof (tag_fst m) as HTb.
  unfold receive_message. rewrite split_buffered. set (AF := flat_map snd (firstn c (tag m ++ W))).
  (* the 16 bytes that the first loop reads, and the rest of the message *)
  set (H := firstn 16 (tag m)). set (R := skipn 16 (tag m)).
  assert (HHR : tag m = H ++ R) by (symmetry; apply firstn_skipn).
  assert (HH : length H = 16%nat) by (unfold H, lenN in *; rewrite firstn_length; lia).
  assert (HR : (16 + length R = length (sm_bytes m))%nat) by (unfold R, lenN in *; rewrite skipn_length; lia).
  rewrite HHR, <- app_assoc.
  destruct (phase1_split o Ho H (R ++ W) c AF k HH) as [k1 ->].
  replace (map fst H) with (firstn 16 (sm_bytes m)) by (unfold H; now rewrite <- HTb, firstn_map).
  rewrite Hpp. replace (MAX_MESSAGE_SIZE <? total_len ph) with false by lia.
  destruct (phase2_split o Ho R W (firstn 16 (sm_bytes m)) (flat_map snd (skipn c H)) (c - 16) AF k1
              (total_len ph)) as [k2 ->].
  { unfold lenN in *. rewrite firstn_length. lia. }
  replace (map fst R) with (skipn 16 (sm_bytes m)) by (unfold R; now rewrite <- HTb, skipn_map).
  rewrite firstn_skipn, <- Nat.sub_add_distr, HR.
  replace (flat_map snd (skipn c H) ++ flat_map snd (skipn (c - 16) R)) with (flat_map snd (skipn c (tag m)))
    by (now rewrite HHR, skipn_app, flat_map_app, HH).
  (* the descriptors: those that the handshake read ahead come first *)
  rewrite (fds_block_split pf ph (sm_bytes m) _ u (flat_map snd (firstn c (tag m)))
             (flat_map snd (skipn c (tag m))) (flat_map snd (firstn (c - length (sm_bytes m)) W)) Hpf).
  - unfold from_raw_parts. rewrite Hpf, <- flat_map_app, firstn_skipn, Hfds. now exists k2.
  - now rewrite <- flat_map_app, firstn_skipn, Hfds.
  - unfold AF. cbn [buffered arfds]. now rewrite firstn_app, flat_map_app, HT.
Qed.

(* end of the stream *)
Lemma receive_eof pf o (Ho : all_bytes o) c k seq :
  exists k', receive_message pf o seq (split_state c [] k) = (split_state 0 [] k', Err EIo).
Proof.
  unfold receive_message, phase1, split_state. rewrite firstn_nil, skipn_nil. cbn. unfold recvmsg. cbn.
  destruct (Ho k) as [kk ->]. rewrite N.min_0_r. now exists (S k).
Qed.

Lemma reader_frames pf o (Ho : all_bytes o) : forall ms, Forall (valid_msg pf) ms ->
  forall fuel c k n, (length ms < fuel)%nat ->
  exists k', reader pf o fuel n (split_state c (wire ms) k) = (number (n + 1) ms ++ [OErr EIo], split_state 0 [] k').
Proof.
  induction 1 as [|m r Hm Hr IH]; intros fuel c k n Hf; (destruct fuel as [|fuel]; [cbn in Hf; lia|]);
    cbn [reader wire flat_map].
  - destruct (receive_eof pf o Ho c k (n + 1)) as [k' ->]. now exists k'.
  - fold (wire r). destruct (receive_valid pf o Ho m (wire r) c k (n + 1) Hm) as [k1 ->].
    destruct (IH fuel (c - length (sm_bytes m))%nat k1 (n + 1)) as [k' ->]; [cbn [length] in Hf; lia|].
    now exists k'.
Qed.

Lemma wire_length pf ms : Forall (valid_msg pf) ms -> (length ms <= length (wire ms))%nat.
Proof.
  induction 1 as [|m r Hm _ IH]; [cbn; lia|]. cbn [wire flat_map length]. fold (wire r).
  rewrite app_length, tag_length. pose proof (valid_nonempty pf m Hm). lia.
Qed.

Lemma run_reader_frames pf ms cut k : Forall (valid_msg pf) ms ->
  exists k', run_reader pf (bytes_oracle k) (wire ms) cut = (expected ms, split_state 0 [] k').
Proof.
  intros Hv. apply (reader_frames pf _ (all_bytes_oracle k) ms Hv).
  pose proof (wire_length pf ms Hv). lia.
Qed.

Theorem frames : forall (pf : parse_fields) (ms : list smsg) (cut : nat) (k : nat -> N),
  Forall (valid_msg pf) ms ->
  fst (run_reader pf (bytes_oracle k) (wire ms) cut) = expected ms.
Proof. intros pf ms cut k Hv. now destruct (run_reader_frames pf ms cut k Hv) as [k' ->]. Qed.

(* the whole stream is consumed and the reader is left with empty buffers *)
Theorem frames_state : forall (pf : parse_fields) (ms : list smsg) (cut : nat) (k : nat -> N),
  Forall (valid_msg pf) ms ->
  let st := snd (run_reader pf (bytes_oracle k) (wire ms) cut) in
  arb st = [] /\ arfds st = [] /\ strm st = [].
Proof. intros pf ms cut k Hv. destruct (run_reader_frames pf ms cut k Hv) as [k' ->]. now cbn. Qed.

Lemma phase1_consumes o st st1 hdr f :
  phase1 o st = (st1, Ok (hdr, f)) ->
  length hdr = 16%nat /\
  (length (arb st1) + length (strm st1) + 16 = length (arb st) + length (strm st))%nat /\
  arfds st1 = arfds st.
Proof.
  unfold phase1. destruct (lenN (arb st) <? MIN_MESSAGE_SIZE) eqn:E; intros H.
  - apply read_to_sound in H as (got & Hs & -> & _ & Ha & Haf & Hl). cbn [set_arb arb arfds strm] in *.
    rewrite Hs, Ha. unfold lenN, MIN_MESSAGE_SIZE in *. rewrite !app_length, map_length in *. cbn [length].
    repeat split; [lia | lia | exact Haf].
  - assert (st1 = set_arb (skipn 16 (arb st)) st) as -> by congruence.
    assert (hdr = firstn 16 (arb st)) as -> by congruence.
    unfold set_arb, lenN, MIN_MESSAGE_SIZE in *. cbn [arb arfds strm].
    rewrite firstn_length, skipn_length. repeat split; lia.
Qed.

(* the reader never panics, whatever the peer sends and however the stream is split (any oracle, any field parser
   that does not panic itself): the only panic site of the pinned tree, drain(..num_pending), is gone *)
Lemma read_to_no_panic o : forall fuel target buf fds st st' p, read_to o fuel target buf fds st <> (st', Panic p).
Proof.
  induction fuel as [|fuel IH]; intros target buf fds st st' p; cbn [read_to]; destruct (target <=? lenN buf);
    try discriminate.
  unfold recvmsg. destruct (o (calls st)) as [k| |]; try discriminate.
  destruct (map fst (firstn _ (strm st))) as [|x xs]; [discriminate | apply IH].
Qed.

Lemma phase2_no_panic o total hdr fds st st' p : phase2 o total hdr fds st <> (st', Panic p).
Proof. apply read_to_no_panic. Qed.

Lemma phase1_no_panic o st st' p : phase1 o st <> (st', Panic p).
Proof. rewrite phase1_phase2. apply phase2_no_panic. Qed.

Lemma parse_primary_no_panic hdr p : hdr <> [] -> parse_primary hdr <> Panic p.
Proof.
  unfold parse_primary. destruct hdr as [|e rest]; [congruence|]. intros _.
  destruct (beq e "l"), (beq e "B"), rest as [|ty [|fl [|ver tl]]]; try discriminate.
  all: destruct (lenN tl <? 12); [discriminate|]; destruct (negb _); [discriminate|]; destruct (_ =? 0); discriminate.
Qed.

Section FieldsNoPanic.
  Variable pf : parse_fields.
  Hypothesis Hpf : forall big b q, pf big b <> Panic q.

  Lemma fds_block_no_panic ph bytes fds st st' p : fds_block pf ph bytes fds st <> (st', Panic p).
  Proof.
    unfold fds_block. destruct (arfds st); [discriminate|].
    destruct (pf _ _) as [u|e|q] eqn:E; [|discriminate|destruct (Hpf _ _ _ E)].
    destruct (_ <? _); [discriminate|]. destruct (_ <? _); discriminate.
  Qed.

  Lemma from_raw_parts_no_panic ph bytes fds seq p : from_raw_parts pf ph bytes fds seq <> Panic p.
  Proof.
    unfold from_raw_parts. destruct (pf _ _) as [u|e|q] eqn:E; [discriminate|discriminate|destruct (Hpf _ _ _ E)].
  Qed.
End FieldsNoPanic.

Theorem receive_no_panic : forall (pf : parse_fields) (o : oracle) (seq : N) (st : rstate) (p : panic),
  (forall big b q, pf big b <> Panic q) -> snd (receive_message pf o seq st) <> Panic p.
Proof.
  intros pf o seq st p Hpf. unfold receive_message.
  destruct (phase1 o st) as [st1 [[hdr fds1]|e|q]] eqn:E1; [|discriminate|destruct (phase1_no_panic _ _ _ _ E1)].
  apply phase1_consumes in E1 as [Hl _].
  destruct (parse_primary hdr) as [ph|e|q] eqn:E2; [|discriminate|].
  2:{ apply parse_primary_no_panic in E2; [destruct E2 | intros ->; discriminate Hl]. }
  destruct (MAX_MESSAGE_SIZE <? total_len ph); [discriminate|].
  destruct (phase2 o (total_len ph) hdr fds1 st1) as [st3 [[bytes fds]|e|q]] eqn:E3;
    [|discriminate|destruct (phase2_no_panic _ _ _ _ _ _ _ E3)].
  destruct (fds_block pf ph bytes fds st3) as [st4 [fds'|e|q]] eqn:E4;
    [|discriminate|destruct (fds_block_no_panic pf Hpf _ _ _ _ _ _ E4)].
  apply from_raw_parts_no_panic, Hpf.
Qed.

(* the driver's field parser (C11's model of message::Fields) satisfies the hypothesis of receive_no_panic *)
Lemma c11_fields_no_panic big b q : c11_fields big b <> Panic q.
Proof.
  unfold c11_fields. destruct (C11.Model.de_fields _ _) as [[fs n]|e|p] eqn:E;
    [discriminate | destruct e; discriminate | destruct (C11.Invariants.de_fields_no_panic _ _ _ E)].
Qed.
Theorem receive_no_panic_std : forall (o : oracle) (seq : N) (st : rstate) (p : panic),
  snd (receive_message c11_fields o seq st) <> Panic p.
Proof. intros. apply receive_no_panic. intros. apply c11_fields_no_panic. Qed.

Theorem limit : forall (pf : parse_fields) (o : oracle) (seq : N) (st st1 : rstate) (hdr : bytes) (f : list fd) (ph : phdr),
  phase1 o st = (st1, Ok (hdr, f)) -> parse_primary hdr = Ok ph -> MAX_MESSAGE_SIZE < total_len ph ->
  receive_message pf o seq st = (st1, Err EExcess) /\
  length hdr = 16%nat /\
  (length (arb st1) + length (strm st1) + 16 = length (arb st) + length (strm st))%nat.
Proof.
  intros pf o seq st st1 hdr f ph H1 Hp Hm. split.
  - unfold receive_message. rewrite H1, Hp. now replace (MAX_MESSAGE_SIZE <? total_len ph) with true by lia.
  - apply phase1_consumes in H1. tauto.
Qed.

(* with the header already buffered, not a single recvmsg call is made *)
Theorem limit_buffered : forall (pf : parse_fields) (o : oracle) (seq : N) (st : rstate) (ph : phdr),
  (16 <= length (arb st))%nat -> parse_primary (firstn 16 (arb st)) = Ok ph -> MAX_MESSAGE_SIZE < total_len ph ->
  exists st1, receive_message pf o seq st = (st1, Err EExcess) /\ calls st1 = calls st /\ strm st1 = strm st.
Proof.
  intros pf o seq st ph Hl Hp Hm. exists (set_arb (skipn 16 (arb st)) st).
  unfold receive_message, phase1.
  replace (lenN (arb st) <? MIN_MESSAGE_SIZE) with false by (unfold lenN, MIN_MESSAGE_SIZE; lia).
  rewrite Hp. now replace (MAX_MESSAGE_SIZE <? total_len ph) with true by lia.
Qed.

(* fuel is never the reason for an outcome: the read loop only stops for an oracle reason *)
Lemma read_to_fuel o : forall fuel target buf fds st,
  (length (strm st) < fuel)%nat -> snd (read_to o fuel target buf fds st) <> Err EFuel.
Proof.
  induction fuel as [|fuel IH]; intros target buf fds st Hf; [lia|].
  cbn [read_to]. destruct (target <=? lenN buf); [discriminate|].
  unfold recvmsg. destruct (o (calls st)) as [k| |]; try discriminate.
  set (n := N.to_nat _).
  destruct (map fst (firstn n (strm st))) as [|x xs] eqn:Hb; [discriminate|].
  apply IH. cbn [strm]. rewrite skipn_length.
  destruct n, (strm st); try discriminate Hb. cbn [length] in *. lia.
Qed.

Lemma valid_msgb_ok pf m : valid_msgb pf m = true -> valid_msg pf m.
Proof.
  unfold valid_msgb, valid_msg. destruct (frame_of (sm_bytes m)) as [f|]; [|discriminate].
  destruct (pf (f_big f) (slice 12 (f_header_end f) (sm_bytes m))) as [u| |] eqn:E; rewrite ?andb_false_r;
    try discriminate.
  intros H. exists f, u. repeat split; try assumption; lia.
Qed.

(* the former finding (fixed by e5b20c34):
   descriptors read ahead during the handshake while the first buffered message has none *)
Definition hx (s : string) : bytes := match bytes_of_hex (B s) with Some b => b | None => [] end.

(* a 16-byte message (no header fields, empty body) and a 24-byte one whose only field is UNIX_FDS = 1 *)
Definition w_plain : smsg := {| sm_bytes := hx "6c010001000000000100000000000000"; sm_fds := [] |}.
Definition w_fd (h : fd) : smsg :=
  {| sm_bytes := hx "6c0100010000000002000000080000000901750001000000"; sm_fds := [h] |}.

Lemma w_plain_valid : valid_msg c11_fields w_plain.
Proof. apply valid_msgb_ok. vm_compute. reflexivity. Qed.
Lemma w_fd_valid h : valid_msg c11_fields (w_fd h).
Proof. apply valid_msgb_ok. vm_compute. reflexivity. Qed.

Example former_witness :
  Forall (valid_msg c11_fields) [w_plain; w_fd 7] /\
  fst (run_reader c11_fields (bytes_oracle (fun _ => 5)) (wire [w_plain; w_fd 7]) 17) = expected [w_plain; w_fd 7].
Proof.
  split; [repeat constructor; [apply w_plain_valid | apply w_fd_valid] | vm_compute; reflexivity].
Qed.

(* three messages, the handshake has read 20 bytes (all of the first and 4 of the second), reads of 3, 1, 7, ... bytes *)
Example frames_instance :
  let ms := [w_fd 7; w_plain; w_fd 9] in
  let k := fun c : nat => match c with 0%nat => 3 | 1%nat => 1 | 2%nat => 7 | _ => N.of_nat c end in
  Forall (valid_msg c11_fields) ms /\
  fst (run_reader c11_fields (bytes_oracle k) (wire ms) 30) = expected ms /\
  expected ms = [OMsg {| m_bytes := sm_bytes (w_fd 7); m_fds := [7]; m_seq := 1 |};
                 OMsg {| m_bytes := sm_bytes w_plain; m_fds := []; m_seq := 2 |};
                 OMsg {| m_bytes := sm_bytes (w_fd 9); m_fds := [9]; m_seq := 3 |}; OErr EIo].
Proof.
  cbv zeta. split; [|split].
  - repeat constructor; [apply w_fd_valid | apply w_plain_valid | apply w_fd_valid].
  - vm_compute. reflexivity.
  - vm_compute. reflexivity.
Qed.

(* unknown flag bits (0x89) and an unknown header field (code 0x20, a string) are tolerated: such a message is valid
   and is delivered like any other (fixes 0d33c3d1, 9e1c6e56) *)
Definition w_tolerant : smsg :=
  {| sm_bytes := hx "6c01890100000000030000000b0000002001730002000000686900" ++ hx "0000000000"; sm_fds := [] |}.
Example tolerant_instance :
  valid_msg c11_fields w_tolerant /\
  fst (run_reader c11_fields (bytes_oracle (fun _ => 3)) (wire [w_tolerant; w_plain]) 5) = expected [w_tolerant; w_plain].
Proof. split; [apply valid_msgb_ok; vm_compute; reflexivity | vm_compute; reflexivity]. Qed.

(* a header that declares a 128 MiB + 1 byte body *)
Example limit_instance :
  let st := {| arb := hx "6c010001010000080100000000000000" ++ hx "aabb"; arfds := []; strm := []; calls := 0 |} in
  exists ph, parse_primary (firstn 16 (arb st)) = Ok ph /\ MAX_MESSAGE_SIZE < total_len ph /\
             fst (receive_message c11_fields (fun _ => AEof) 1 st) = set_arb (hx "aabb") st.
Proof. cbv zeta. eexists. split; [vm_compute; reflexivity|]. split; vm_compute; reflexivity. Qed.
