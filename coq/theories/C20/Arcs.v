(* C20/Arcs.v — list facts about the table of shared rules (Arc<OwnedMatchRule>) of C20/Model.v: idx_of, leave, join, release. *)
From ZV Require Import Base.Bytes Base.Res C20.Model C20.Lemmas C20.Count.
From Coq Require Import Lia.

Lemma holds_in sid p : holds sid p = true <-> In sid (snd p).
Proof.
  unfold holds. rewrite existsb_exists. split.
  - intros (x & Hx & E). apply Nat.eqb_eq in E. now subst.
  - intros H. exists sid. split; [assumption | apply Nat.eqb_refl].
Qed.
Lemma holds_false sid p : holds sid p = false <-> ~ In sid (snd p).
Proof. rewrite <- holds_in. destruct (holds sid p); split; congruence. Qed.

Lemma in_remove_nat x y l : In x (remove_nat y l) <-> In x l /\ x <> y.
Proof.
  induction l as [|z l IH]; cbn; [tauto|]. destruct (Nat.eqb y z) eqn:E.
  - apply Nat.eqb_eq in E. subst z. rewrite IH. split; [tauto|]. intros [[H|H] Hn]; [congruence | tauto].
  - apply Nat.eqb_neq in E. cbn. rewrite IH. split; [intros [H|H]; [subst; split; [now left | congruence] | tauto] | tauto].
Qed.

Lemma holds_leave sid sid' p : sid' <> sid -> holds sid' (fst p, remove_nat sid (snd p)) = holds sid' p.
Proof.
  intros Hne. destruct (holds sid' p) eqn:E.
  - apply holds_in. cbn. apply in_remove_nat. split; [now apply holds_in | assumption].
  - apply holds_false. cbn. rewrite in_remove_nat. apply holds_false in E. tauto.
Qed.
Lemma holds_leave_self sid p : holds sid (fst p, remove_nat sid (snd p)) = false.
Proof. apply holds_false. cbn. rewrite in_remove_nat. tauto. Qed.

Lemma idx_of_some a sid i : idx_of a sid = Some i -> exists p, nth_error a i = Some p /\ holds sid p = true.
Proof.
  revert i. induction a as [|p a IH]; intros i H; cbn in H; [discriminate|]. destruct (holds sid p) eqn:E.
  - inversion H; subst. exists p. split; [reflexivity | assumption].
  - destruct (idx_of a sid) as [j|] eqn:Ej; [|discriminate]. inversion H; subst. cbn. now apply IH.
Qed.
Lemma idx_of_none a sid : idx_of a sid = None -> forall p, In p a -> holds sid p = false.
Proof.
  induction a as [|q a IH]; intros H p Hin; [destruct Hin|]. cbn in H. destruct (holds sid q) eqn:E; [discriminate|].
  destruct (idx_of a sid) eqn:Ej; [discriminate|]. destruct Hin as [<-|Hin]; [assumption | now apply IH].
Qed.
Lemma idx_of_none_intro a sid : (forall p, In p a -> holds sid p = false) -> idx_of a sid = None.
Proof.
  induction a as [|q a IH]; intros H; [reflexivity|]. cbn. rewrite (H q (or_introl eq_refl)). rewrite IH; [reflexivity|]. intros p Hp. apply H. now right.
Qed.

Lemma idx_of_app a p sid :
  idx_of (a ++ [p]) sid = match idx_of a sid with Some i => Some i | None => if holds sid p then Some (length a) else None end.
Proof.
  induction a as [|q a IH]; cbn; [destruct (holds sid p); reflexivity|]. destruct (holds sid q); [reflexivity|]. rewrite IH.
  destruct (idx_of a sid); [reflexivity|]. destruct (holds sid p); reflexivity.
Qed.

Lemma cnt_map_pres {A} (P : A -> bool) (f : A -> A) l : (forall x, P (f x) = P x) -> cnt P (map f l) = cnt P l.
Proof.
  intros H. unfold cnt. induction l as [|x l IH]; [reflexivity|]. cbn. rewrite H. destruct (P x); cbn; now rewrite IH.
Qed.

Definition is_rule (r : nat) (p : nat * list nat) : bool := Nat.eqb (fst p) r.

Lemma cnt_leave r a sid : cnt (is_rule r) (leave a sid) = cnt (is_rule r) a.
Proof. apply cnt_map_pres. intros p. reflexivity. Qed.
Lemma cnt_join r a sid sid2 : cnt (is_rule r) (join a sid sid2) = cnt (is_rule r) a.
Proof. apply cnt_map_pres. intros p. destruct (holds sid p); reflexivity. Qed.

Lemma cnt_rule_one r0 r ms : cnt (is_rule r0) [(r, ms)] = b2n (Nat.eqb r r0).
Proof. exact (cnt_one (is_rule r0) (r, ms)). Qed.

Lemma nth_error_leave a sid i : nth_error (leave a sid) i = option_map (fun p => (fst p, remove_nat sid (snd p))) (nth_error a i).
Proof. apply nth_error_map. Qed.

Lemma release_spec a sid a' b : release a sid = (a', b) ->
  (idx_of a sid = None /\ a' = a /\ b = true) \/
  (exists i r ms, idx_of a sid = Some i /\ nth_error a i = Some (r, ms) /\ In sid ms /\
     ((remove_nat sid ms = [] /\ a' = del_nth (leave a sid) i /\ b = true) \/ (remove_nat sid ms <> [] /\ a' = leave a sid /\ b = false))).
Proof.
  unfold release. destruct (idx_of a sid) as [i|] eqn:Ei; [|intros H; inversion H; left; tauto].
  destruct (idx_of_some _ _ _ Ei) as ([r ms] & Hn & Hh). apply holds_in in Hh. rewrite nth_error_leave, Hn. cbn [option_map fst snd].
  destruct (remove_nat sid ms) as [|x l] eqn:Er; intros H; inversion H; subst; right; exists i, r, ms; (split; [reflexivity|]); (split; [assumption|]); (split; [assumption|]).
  - left. tauto.
  - right. split; [congruence | tauto].
Qed.

(* ---- who is listed as holder of a shared rule of rule r ---- *)
Definition listed (a : list (nat * list nat)) (r sid : nat) : Prop := exists ms, In (r, ms) a /\ In sid ms.

Lemma listed_app a r0 ms0 r sid : listed (a ++ [(r0, ms0)]) r sid <-> listed a r sid \/ (r = r0 /\ In sid ms0).
Proof.
  unfold listed. split.
  - intros (ms & Hin & Hm). apply in_app_iff in Hin. destruct Hin as [Hin|[E|[]]]; [left; eauto | inversion E; subst; tauto].
  - intros [(ms & Hin & Hm)|[-> Hm]]; [exists ms | exists ms0]; (split; [apply in_app_iff; cbn; tauto | assumption]).
Qed.

Lemma listed_leave a x r sid : listed (leave a x) r sid <-> listed a r sid /\ sid <> x.
Proof.
  unfold listed, leave. split.
  - intros (ms' & Hin & Hm). apply in_map_iff in Hin. destruct Hin as ([r1 ms] & E & Hin). inversion E; subst.
    apply in_remove_nat in Hm. split; [exists ms; tauto | tauto].
  - intros [(ms & Hin & Hm) Hne]. exists (remove_nat x ms). split; [apply in_map_iff; exists (r, ms); tauto | apply in_remove_nat; tauto].
Qed.

Lemma listed_join a x y r sid : listed (join a x y) r sid <-> listed a r sid \/ (sid = y /\ listed a r x).
Proof.
  unfold listed, join. split.
  - intros (ms' & Hin & Hm). apply in_map_iff in Hin. destruct Hin as ([r1 ms] & E & Hin).
    destruct (holds x (r1, ms)) eqn:Eh; inversion E; subst; [|left; eauto]. apply holds_in in Eh.
    apply in_app_iff in Hm. destruct Hm as [Hm|[<-|[]]]; [left | right; split; [reflexivity|]]; eauto.
  - assert (Hf : forall ms, In (r, ms) a -> exists ms', In (r, ms') (map (fun p => if holds x p then (fst p, snd p ++ [y]) else p) a) /\
                   (forall z, In z ms -> In z ms') /\ (In x ms -> In y ms')).
    { intros ms Hin. destruct (holds x (r, ms)) eqn:Eh.
      - exists (ms ++ [y]). split; [apply in_map_iff; exists (r, ms); rewrite Eh; tauto|]. split; intros; apply in_app_iff; cbn; tauto.
      - exists ms. split; [apply in_map_iff; exists (r, ms); rewrite Eh; tauto|]. split; [tauto|]. intros Hx. apply holds_false in Eh. tauto. }
    intros [(ms & Hin & Hm)|(-> & ms & Hin & Hx)]; destruct (Hf ms Hin) as (ms' & H1 & H2 & H3); exists ms'; auto.
Qed.

(* the entry release takes away lists nobody *)
Lemma listed_release a x a' b : release a x = (a', b) -> forall r sid, listed a' r sid <-> listed a r sid /\ sid <> x.
Proof.
  intros Hrel r sid. destruct (release_spec _ _ _ _ Hrel) as [(Hn & -> & _)|(i & r1 & ms1 & _ & Hn & _ & [(He & -> & _)|(_ & -> & _)])].
  - split; [|tauto]. intros (ms & Hin & Hm). split; [exists ms; tauto|]. intros ->.
    pose proof (idx_of_none _ _ Hn _ Hin) as Hf. apply holds_false in Hf. tauto.
  - rewrite <- listed_leave. unfold listed. split; intros (ms & Hin & Hm); exists ms; (split; [|assumption]).
    + eapply in_del_nth; eassumption.
    + eapply in_del_nth_keep; [|exact Hin|].
      * rewrite nth_error_leave, Hn. cbn. rewrite He. reflexivity.
      * intros E. inversion E; subst. destruct Hm.
  - apply listed_leave.
Qed.
