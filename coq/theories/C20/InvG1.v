(* C20/InvG1.v — preservation of the table part of the invariant (msg_senders, subscriptions, who holds `subscriptions`). *)
From ZV Require Import Base.Bytes Base.Res C19.Broadcast C19.BroadcastFacts C20.Model C20.Lemmas C20.Steps C20.Inv.
From Coq Require Import Lia Permutation.

Lemma a2_ext s s' sid r c : adds s' = adds s -> a2 s' sid r c -> a2 s sid r c.
Proof. unfold a2. intros ->. tauto. Qed.
Lemma r1_ext s s' r c : drops s' = drops s -> streams s' = streams s -> tasks s' = tasks s -> r1 s' r c -> r1 s r c.
Proof. unfold r1. intros -> -> ->. tauto. Qed.

(* a stream record replaced by one with the same rule, or a new stream under an unused id, makes no new r1 *)
Lemma r1_put_stream s s' sid st' r c :
  drops s' = drops s -> tasks s' = tasks s -> streams s' = put (streams s) sid st' ->
  (forall st, lookup (streams s) sid = Some st -> s_rule st = s_rule st') ->
  (lookup (streams s) sid = None -> lookup (drops s) sid = None) ->
  r1 s' r c -> r1 s r c.
Proof.
  unfold r1. intros -> -> -> Hsame Hnone [(sid' & st & Hd & Hs & Hr)|Hin]; [|now right]. left.
  apply lookup_put_inv in Hs as [[-> ->]|[_ Hs]]; [|eauto]. destruct (lookup (streams s) sid) as [st0|] eqn:E.
  - exists sid, st0. rewrite (Hsame st0 eq_refl). auto.
  - rewrite (Hnone eq_refl) in Hd. discriminate.
Qed.

Lemma r1_del_stream s s' sid r c :
  drops s' = drops s -> tasks s' = tasks s -> streams s' = del (streams s) sid ->
  r1 s' r c -> r1 s r c.
Proof.
  unfold r1. intros -> -> -> [(sid' & st & Hd & Hs & Hr)|Hin]; [|now right]. left.
  exists sid', st. apply lookup_del_some in Hs. tauto.
Qed.

Lemma a2_put_other s s' sid a sid' r c : adds s' = put (adds s) sid a -> (forall c', a_pc a <> A2 c') -> a2 s' sid' r c -> a2 s sid' r c.
Proof.
  unfold a2. intros -> Hpc (a' & Ha & Hr & Hp). apply lookup_put_inv in Ha as [[_ ->]|[_ Ha]]; [now destruct (Hpc c) | exists a'; tauto].
Qed.
Lemma a2_del s s' sid sid' r c : adds s' = del (adds s) sid -> a2 s' sid' r c -> a2 s sid' r c /\ sid' <> sid.
Proof.
  unfold a2. intros -> (a' & Ha & Hr & Hp). apply lookup_del_inv in Ha as [Hne Ha]. split; [exists a'; tauto | assumption].
Qed.

(* projections of updated states, and of states that went through rm_sender (the rewriting is slow, so it is only tried where
   rm_sender occurs) *)
Ltac simp :=
  repeat match goal with x := _ |- _ => subst x end;
  cbn [chans senders subs streams adds drops tasks reader socket incoming dead arcs
       with_chans with_senders with_subs with_streams with_adds with_drops with_tasks with_reader with_socket with_incoming
       with_dead with_arcs set_chan bury mk_stream got_more add_at s_rule s_ch s_from s_got a_rule a_q a_pc] in *;
  try match goal with
      | |- context [rm_sender] => autorewrite with rms in *
      | _ : context [rm_sender] |- _ => autorewrite with rms in *
      end.

Lemma rm_spec_tables s r s1 o : rm_spec s r s1 o ->
  senders s1 = senders s /\ streams s1 = streams s /\ adds s1 = adds s /\ drops s1 = drops s /\ tasks s1 = tasks s /\
  length (chans s1) = length (chans s) /\
  (forall r', r' <> r -> lookup (subs s1) r' = lookup (subs s) r') /\
  match o with
  | None => match lookup (subs s) r with
            | None => lookup (subs s1) r = None
            | Some e => exists e', lookup (subs s1) r = Some e' /\ e_ch e' = e_ch e
            end
  | Some c => lookup (subs s1) r = None /\ exists e, lookup (subs s) r = Some e /\ e_ch e = c
  end.
Proof.
  intros H. destruct H; simp; rewrite ?length_upd; repeat split; try reflexivity;
    try (intros r' Hne; first [reflexivity | now apply lookup_put_other | now apply lookup_del_other]).
  - now rewrite H.
  - rewrite H. eexists. split; [apply lookup_put_same | reflexivity].
  - apply lookup_del_same.
  - now exists e.
  - apply lookup_del_same.
  - now exists e.
Qed.

Lemma rm_entry_back s r s1 o : rm_apply s r = (s1, o) ->
  forall r' e', lookup (subs s1) r' = Some e' -> exists e, lookup (subs s) r' = Some e /\ e_ch e' = e_ch e.
Proof.
  intros H r' e' He'. apply rm_apply_spec, rm_spec_tables in H. destruct H as (_ & _ & _ & _ & _ & _ & Eoth & Erm).
  destruct (Nat.eq_dec r' r) as [->|Hne]; [|rewrite (Eoth _ Hne) in He'; eauto].
  destruct o; [destruct Erm; congruence|]. destruct (lookup (subs s) r) as [e|]; [|congruence].
  destruct Erm as (e2 & He2 & Hc). rewrite He2 in He'. inversion He'; subst. eauto.
Qed.

Ltac rm_tables :=
  match goal with Hr : rm_apply _ _ = _ |- _ =>
    let Hs := fresh "Esnd" in let Hst := fresh "Estr" in let Ha := fresh "Eadd" in let Hd := fresh "Edrp" in
    let Ht := fresh "Etsk" in let Hl := fresh "Elen" in let Ho := fresh "Eoth" in let Hm := fresh "Erm" in
    apply rm_apply_spec, rm_spec_tables in Hr; destruct Hr as (Hs & Hst & Ha & Hd & Ht & Hl & Ho & Hm)
  end.
(* in the goal, the state after remove_match's first step as an update of the state before: its other fields compute *)
Ltac rm_eq := match goal with Hr : rm_apply _ _ = _ |- _ => rewrite (rm_apply_eq _ _ _ _ Hr) end.

(* r1 reads the stream records of the streams under async drop, and the tasks in state R1 *)
Lemma r1_same s s' : drops s' = drops s ->
  (forall sid pc, lookup (drops s) sid = Some pc -> lookup (streams s') sid = lookup (streams s) sid) ->
  (forall r c, In (r, R1 c) (tasks s') <-> In (r, R1 c) (tasks s)) ->
  forall r c, r1 s' r c <-> r1 s r c.
Proof.
  unfold r1. intros -> Hag Ht r c. rewrite Ht.
  split; (intros [(sid & st & Hd & Hs & Hr)|Hin]; [left|now right]); exists sid, st.
  - rewrite (Hag _ _ Hd) in Hs. tauto.
  - rewrite (Hag _ _ Hd). tauto.
Qed.
Lemma in_app_r0 (l : list (nat * rmpc)) r r' c : In (r', R1 c) (l ++ [(r, R0)]) <-> In (r', R1 c) l.
Proof. rewrite in_app_iff. cbn. split; [intros [H|[H|[]]]; [assumption | discriminate] | tauto]. Qed.

Lemma in_del_nth_r0 (l : list (nat * rmpc)) n r r' c : nth_error l n = Some (r, R0) -> (In (r', R1 c) (del_nth l n) <-> In (r', R1 c) l).
Proof. intros Hn. split; [apply in_del_nth | intros H; eapply in_del_nth_keep; eauto; discriminate]. Qed.

Lemma fresh_spec s sid : fresh s sid = true -> lookup (streams s) sid = None /\ lookup (adds s) sid = None /\ lookup (dead s) sid = None.
Proof. unfold fresh. destruct (lookup (streams s) sid), (lookup (adds s) sid), (lookup (dead s) sid); try discriminate. tauto. Qed.

Section G1.
Variable matches : nat -> msg -> bool.
Notation tstep := (Steps.tstep matches).
Notation Inv := (Inv.Inv matches).

Lemma len_mono s l s' : tstep s l s' -> length (chans s) <= length (chans s').
Proof.
  intros Hs. destruct Hs; try apply Nat.le_refl; try rm_tables; simp;
    rewrite ?length_upd, ?length_chans_rm, ?length_close_all, ?app_length; cbn [length]; lia.
Qed.

Lemma no_stream_no_drop s sid : Inv s -> lookup (streams s) sid = None -> lookup (drops s) sid = None.
Proof.
  intros I Hs. destruct (lookup (drops s) sid) as [pc|] eqn:E; [|reflexivity].
  destruct (inv_drops _ _ I _ _ E) as (st & r & Hst & _). congruence.
Qed.
Lemma fresh_no_drop s sid : Inv s -> fresh s sid = true -> lookup (drops s) sid = None.
Proof. intros I Hf. apply no_stream_no_drop; [assumption | apply fresh_spec, Hf]. Qed.
Lemma add_no_drop s sid a : Inv s -> lookup (adds s) sid = Some a -> lookup (drops s) sid = None.
Proof. intros I Ha. apply no_stream_no_drop; [assumption | eapply inv_ids; eassumption]. Qed.

(* ---- msg_senders ---- *)

(* the table shrinks, or LAddSender appends the sender of a call in A2 *)
Lemma senders_step s l s' : tstep s l s' ->
  ((forall p, In p (senders s') -> In p (senders s)) /\ (NoDup (map fst (senders s)) -> NoDup (map fst (senders s')))) \/
  (exists sid a c, lookup (adds s) sid = Some a /\ a_pc a = A2 c /\ senders s' = senders s ++ [(KRule (a_rule a), c)]).
Proof.
  assert (Hrm : forall r, (forall p, In p (senders (rm_sender s r)) -> In p (senders s)) /\
                          (NoDup (map fst (senders s)) -> NoDup (map fst (senders (rm_sender s r))))).
  { intros r. rewrite senders_rm. split; [intros p Hp; now apply in_del_key in Hp | apply nodup_del_key]. }
  intros Hs. destruct Hs; try (left; split; intros; assumption); try (left; rm_eq; split; intros; assumption); try (left; apply Hrm).
  - left. split; [intros p [] | constructor].
  - right. exists sid, a, c. repeat split; assumption.
Qed.

Lemma a2_no_sender s sid r c c' : Inv s -> a2 s sid r c -> ~ In (KRule r, c') (senders s).
Proof.
  intros I Ha Hin. destruct (inv_a2 _ _ I _ _ _ Ha) as ((e & He & Hc) & Hno & _).
  destruct (inv_reg _ _ I _ _ Hin) as [(e' & He' & Hc')|Hr1].
  - rewrite He in He'. inversion He'; subst e'. apply (Hno (KRule r)). congruence.
  - exact (inv_excl _ _ I _ _ _ _ _ Ha Hr1).
Qed.

Lemma g_keys_step s l s' : tstep s l s' -> Inv s -> NoDup (map fst (senders s')).
Proof.
  intros Hs I. destruct (senders_step _ _ _ Hs) as [[_ Hnd]|(sid & a & c & Ha & Hpc & E)]; [exact (Hnd (inv_keys _ _ I))|].
  rewrite E, map_app. apply NoDup_app_one; [exact (inv_keys _ _ I)|]. intros Hin. apply in_map_iff in Hin. destruct Hin as ([k c'] & Ek & Hin).
  cbn in Ek. subst k. eapply (a2_no_sender s sid (a_rule a) c c' I); [exists a; tauto | exact Hin].
Qed.

Lemma g_shape_step s l s' : tstep s l s' -> Inv s -> forall k c, In (k, c) (senders s') ->
  c < length (chans s') /\ match k with KAll => c = 0 | KRet | KErr => c = 1 | KRule _ => 2 <= c end.
Proof.
  intros Hs I k c Hin. pose proof (len_mono _ _ _ Hs) as Hl.
  assert (Hold : In (k, c) (senders s) -> c < length (chans s') /\ match k with KAll => c = 0 | KRet | KErr => c = 1 | KRule _ => 2 <= c end).
  { intros H. destruct (inv_shape _ _ I _ _ H). split; [lia | assumption]. }
  destruct (senders_step _ _ _ Hs) as [[Hsub _]|(sid & a & c0 & Ha & Hpc & E)]; [now apply Hold, Hsub|].
  rewrite E in Hin. apply in_app_iff in Hin. destruct Hin as [Hin|[Hin|[]]]; [now apply Hold|]. inversion Hin; subst.
  destruct (inv_a2 _ _ I sid (a_rule a) c) as (_ & _ & _ & _ & _ & Hc & _); [exists a; tauto|]. split; lia.
Qed.

Lemma g_inj_step s l s' : tstep s l s' -> Inv s -> forall r r' c, In (KRule r, c) (senders s') -> In (KRule r', c) (senders s') -> r = r'.
Proof.
  intros Hs I r r' c H1 H2.
  destruct (senders_step _ _ _ Hs) as [[Hsub _]|(sid & a & c0 & Ha & Hpc & E)]; [eapply inv_inj; eauto|].
  destruct (inv_a2 _ _ I sid (a_rule a) c0) as (_ & Hno & _); [exists a; tauto|].
  rewrite E in H1, H2. apply in_app_iff in H1, H2. destruct H1 as [H1|[H1|[]]], H2 as [H2|[H2|[]]].
  - eapply inv_inj; eassumption.
  - inversion H2; subst. destruct (Hno _ H1).
  - inversion H1; subst. destruct (Hno _ H2).
  - congruence.
Qed.

(* ---- who holds `subscriptions` ---- *)

(* the body of Inv.inv_a2: the call's channel is fresh, unregistered, empty, open, and only the call has a receiver there *)
Definition a2_facts (s : sys) (sid r c : nat) : Prop :=
  (exists e, lookup (subs s) r = Some e /\ e_ch e = c) /\ (forall k, ~ In (k, c) (senders s)) /\
  log (chan_at s c) = [] /\ closed (chan_at s c) = false /\ cursor (chan_at s c) sid = Some 0 /\
  2 <= c < length (chans s) /\ (forall sid' st, lookup (streams s) sid' = Some st -> s_ch st <> c).

(* a call in A2 was there before, or this step is its LAddSubs on the vacant path *)
Lemma a2_step s l s' : tstep s l s' -> Inv s ->
  (forall sid r c, a2 s' sid r c -> a2 s sid r c) \/
  (subs_busy s = false /\ exists sid0, forall sid r c, a2 s' sid r c ->
     sid = sid0 /\ lookup (subs s') r = Some {| e_ref := 1; e_ch := c |} /\ a2_facts s' sid r c).
Proof.
  intros Hs I. destruct Hs; try (left; intros sid0 r0 c0 Ha; exact Ha);
    try (rm_tables; left; intros sid0 r0 c0; apply a2_ext; exact Eadd);
    try (left; intros sid0 r0 c0; apply a2_ext; simp; reflexivity);
    try (left; intros sid0 r0 c0 Ha; eapply a2_del in Ha; [apply Ha | reflexivity]).
  - left. intros sid0 r0 c0. eapply a2_put_other; [reflexivity | discriminate].
  - left. intros sid0 r0 c0. eapply a2_put_other; [reflexivity | discriminate].
  - (* vacant *) right. split; [assumption|]. exists sid. intros sid0 r0 c0 (a' & Ha' & Hr' & Hpc'). simp.
    destruct (Nat.eq_dec sid0 sid) as [->|Hne].
    + rewrite lookup_put_same in Ha'. inversion Ha'; subst a'. cbn in Hr', Hpc'. inversion Hpc'; subst.
      split; [reflexivity|]. split; [apply lookup_put_same|]. unfold a2_facts. simp. autorewrite with chat. rewrite lookup_put_same, app_length, chan_at_app_new. cbn [length]. pose proof (inv_len _ _ I). repeat split; try lia.
      * eauto.
      * intros k Hk. destruct (inv_shape _ _ I _ _ Hk). lia.
      * unfold cursor, subscribe, with_rcv, new_chan. cbn. now rewrite Nat.eqb_refl.
      * intros sid' st Hst. destruct (inv_stream _ _ I _ _ Hst). lia.
    + rewrite lookup_put_other in Ha' by assumption. exfalso. eapply (not_busy_a2 s sid0); [eassumption | exists a'; eauto].
Qed.

(* the remove_match calls that hold `subscriptions` stay the same, except in the first step of a call (nobody held `subscriptions`
   before it, and it may come to hold it) and in its second step, which removes the sender and ends it *)
Lemma r1_step s l s' : tstep s l s' -> Inv s ->
  (forall r c, r1 s' r c <-> r1 s r c) \/
  (subs_busy s = false /\ adds s' = adds s) \/
  (exists r0 c0, r1 s r0 c0 /\ senders s' = del_key (senders s) (KRule r0) /\
                 (forall r c, r1 s' r c -> r1 s r c) /\ (forall r c, r1 s r c -> r <> r0 -> r1 s' r c)).
Proof.
  intros Hs I.
  (* the stream table changes at an id that is not under async drop *)
  assert (Hstr : forall s1 sid, drops s1 = drops s -> lookup (drops s) sid = None ->
                   (forall sid', sid' <> sid -> lookup (streams s1) sid' = lookup (streams s) sid') ->
                   (forall r c, In (r, R1 c) (tasks s1) <-> In (r, R1 c) (tasks s)) -> forall r c, r1 s1 r c <-> r1 s r c).
  { intros s1 sid Ed Hnd Hoth Ht. apply r1_same; try assumption. intros sid' pc Hd. apply Hoth. congruence. }
  destruct Hs; try (left; intros r0 c0; reflexivity); try (rm_tables; right; left; split; assumption);
    try (left; apply (Hstr _ sid); try reflexivity; try (intros; apply in_app_r0);
         [apply H | intros; first [now apply lookup_del_other | now apply lookup_put_other]]).
  - (* occupied *) left. apply (Hstr _ sid); try reflexivity; [|intros; now apply lookup_put_other].
    eapply add_no_drop; eassumption.
  - (* add sender *) left. apply (Hstr _ sid); try reflexivity; [|intros; now apply lookup_put_other].
    eapply add_no_drop; eassumption.
  - (* unfiltered *) left. apply (Hstr _ sid); try reflexivity; [now apply fresh_no_drop | intros; now apply lookup_put_other].
  - (* clone *) left. apply (Hstr _ sid2); try reflexivity; [now apply fresh_no_drop | intros; now apply lookup_put_other].
  - (* async drop, sender step *) right. right. exists r, c. split; [left; exists sid, st; tauto|]. split; [exact (senders_rm s r)|].
    unfold r1. simp. split.
    + intros r0 c0 [(sid' & st' & Hd' & Hs' & Hr')|Hr]; [left | now right]. apply lookup_del_some in Hd', Hs'. eauto.
    + intros r0 c0 [(sid' & st' & Hd' & Hs' & Hr')|Hr] Hne; [left | now right].
      assert (sid' <> sid) by (intros ->; congruence). exists sid', st'. now rewrite !lookup_del_other.
  - (* task, sender step *) right. right. exists r, c. split; [right; eapply nth_error_In; eassumption|]. split; [exact (senders_rm s r)|].
    unfold r1. simp. split.
    + intros r0 c0 [Hr|Hr]; [now left | right; eapply in_del_nth; eassumption].
    + intros r0 c0 [Hr|Hr] Hne; [now left | right]. eapply in_del_nth_keep; eauto. congruence.
Qed.

Lemma g_a2_uniq_step s l s' : tstep s l s' -> Inv s -> forall sid r c sid' r' c', a2 s' sid r c -> a2 s' sid' r' c' -> sid = sid'.
Proof.
  intros Hs I sid r c sid' r' c' Ha Ha'. destruct (a2_step _ _ _ Hs I) as [Hback|(_ & sid0 & H0)].
  - eapply inv_a2_uniq; eauto.
  - destruct (H0 _ _ _ Ha) as [-> _]. destruct (H0 _ _ _ Ha') as [-> _]. reflexivity.
Qed.

Lemma g_excl_step s l s' : tstep s l s' -> Inv s -> forall sid r c r' c', a2 s' sid r c -> r1 s' r' c' -> False.
Proof.
  intros Hs I sid r c r' c' Ha Hr.
  destruct (r1_step _ _ _ Hs I) as [Hsame|[(Hb & Eadd)|(r0 & c0 & Hr0 & _ & Hback & _)]].
  - apply Hsame in Hr. destruct (a2_step _ _ _ Hs I) as [Hback|(Hb & _)]; [|exact (not_busy_r1 _ _ _ Hb Hr)].
    exact (inv_excl _ _ I _ _ _ _ _ (Hback _ _ _ Ha) Hr).
  - exact (not_busy_a2 _ _ _ _ Hb (a2_ext _ _ _ _ _ Eadd Ha)).
  - destruct (a2_step _ _ _ Hs I) as [Haback|(Hb & _)]; [|exact (not_busy_r1 _ _ _ Hb Hr0)].
    exact (inv_excl _ _ I _ _ _ _ _ (Haback _ _ _ Ha) (Hback _ _ Hr)).
Qed.

(* ---- subscriptions ---- *)

(* an entry keeps its channel; LAddSubs on the vacant path makes one for a new channel; an entry goes when remove_match takes
   the last reference (and goes on to remove the sender), or when add_match gives up because there are no senders *)
Definition subs_change (s s' : sys) : Prop :=
  (forall r, option_map e_ch (lookup (subs s') r) = option_map e_ch (lookup (subs s) r)) \/
  (exists r0, lookup (subs s) r0 = None /\ option_map e_ch (lookup (subs s') r0) = Some (length (chans s)) /\
              length (chans s') = S (length (chans s)) /\ forall r, r <> r0 -> lookup (subs s') r = lookup (subs s) r) \/
  (exists r0 e0, lookup (subs s) r0 = Some e0 /\ lookup (subs s') r0 = None /\
                 (forall r, r <> r0 -> lookup (subs s') r = lookup (subs s) r) /\ (senders s' = [] \/ r1 s' r0 (e_ch e0))).

Lemma subs_step s l s' : tstep s l s' -> Inv s -> subs_change s s'.
Proof.
  intros Hs I.
  assert (Hrm : forall r s1 s2 o, rm_apply s r = (s1, o) -> subs s2 = subs s1 -> (forall c, o = Some c -> r1 s2 r c) -> subs_change s s2).
  { intros r s1 s2 o Hr E Hr1. unfold subs_change. rewrite E.
    apply rm_apply_spec, rm_spec_tables in Hr. destruct Hr as (_ & _ & _ & _ & _ & _ & Eoth & Erm). destruct o as [c|].
    - right. right. destruct Erm as (En & e & He & <-). exists r, e. repeat split; auto.
    - left. intros r'. destruct (Nat.eq_dec r' r) as [->|Hne]; [|now rewrite Eoth].
      destruct (lookup (subs s) r) as [e|]; [destruct Erm as (e' & -> & E'); cbn; now rewrite E' | now rewrite Erm]. }
  destruct Hs; try (left; intros r0; reflexivity); try (left; intros r0; simp; reflexivity);
    try (eapply Hrm; [eassumption | reflexivity | discriminate]).
  - (* occupied *) left. intros r0. simp. destruct (Nat.eq_dec r0 (a_rule a)) as [->|Hne].
    + now rewrite lookup_put_same, H2.
    + now rewrite lookup_put_other.
  - (* vacant *) right. left. exists (a_rule a). simp. rewrite lookup_put_same, app_length. cbn. repeat split; try assumption; try lia.
    intros r Hne. now apply lookup_put_other.
  - (* async drop takes the last reference *) eapply Hrm; [eassumption | reflexivity|].
    intros c0 E. inversion E; subst c0. left. exists sid, st. simp. rewrite lookup_put_same.
    destruct (rm_apply_frame _ _ _ _ H3) as (_ & -> & _). tauto.
  - (* a task takes the last reference *) eapply Hrm; [eassumption | reflexivity|].
    intros c0 E. inversion E; subst c0. right. simp. clear - H.
    revert n H. induction (tasks s) as [|t ts IH]; intros [|n] Hn; cbn in *; try discriminate; [now left | right; eauto].
  - (* add sender, failed: the entry is taken back *)
    destruct (inv_a2 _ _ I sid (a_rule a) c) as ((e & He & _) & _); [exists a; tauto|].
    right. right. exists (a_rule a), e. simp. rewrite lookup_del_same. repeat split; try assumption; [|now left].
    intros r Hne. now apply lookup_del_other.
Qed.

Lemma subs_back s l s' : tstep s l s' -> Inv s -> exists r0, forall r e', lookup (subs s') r = Some e' ->
  (exists e, lookup (subs s) r = Some e /\ e_ch e' = e_ch e) \/
  (r = r0 /\ e_ch e' = length (chans s) /\ length (chans s') = S (length (chans s))).
Proof.
  intros Hs I. destruct (subs_step _ _ _ Hs I) as [Hsame|[(r0 & Hn & E0 & Hlen & Hoth)|(r0 & e0 & _ & Hn & Hoth & _)]].
  - exists 0. intros r e' He'. left. specialize (Hsame r). rewrite He' in Hsame. destruct (lookup (subs s) r) as [e|]; inversion Hsame. eauto.
  - exists r0. intros r e' He'. destruct (Nat.eq_dec r r0) as [->|Hne].
    + right. rewrite He' in E0. injection E0 as E0. tauto.
    + left. rewrite (Hoth _ Hne) in He'. eauto.
  - exists 0. intros r e' He'. left. destruct (Nat.eq_dec r r0) as [->|Hne]; [congruence|]. rewrite (Hoth _ Hne) in He'. eauto.
Qed.

Lemma g_entry_step s l s' : tstep s l s' -> Inv s -> forall r e, lookup (subs s') r = Some e -> 2 <= e_ch e < length (chans s').
Proof.
  intros Hs I r e He. pose proof (len_mono _ _ _ Hs) as Hl. pose proof (inv_len _ _ I) as H2.
  destruct (subs_back _ _ _ Hs I) as (r0 & Hback). destruct (Hback _ _ He) as [(e1 & He1 & Hc)|(_ & Hc & Hlen)]; [|lia].
  pose proof (inv_entry _ _ I _ _ He1). lia.
Qed.

Lemma g_entry_inj_step s l s' : tstep s l s' -> Inv s ->
  forall r r' e e', lookup (subs s') r = Some e -> lookup (subs s') r' = Some e' -> e_ch e = e_ch e' -> r = r'.
Proof.
  intros Hs I r r' e e' He He' Hc. destruct (subs_back _ _ _ Hs I) as (r0 & Hback).
  destruct (Hback _ _ He) as [(e1 & He1 & Hc1)|(-> & Hc1 & _)], (Hback _ _ He') as [(e2 & He2 & Hc2)|(-> & Hc2 & _)].
  - eapply inv_entry_inj; try eassumption. congruence.
  - pose proof (inv_entry _ _ I _ _ He1). lia.
  - pose proof (inv_entry _ _ I _ _ He2). lia.
  - reflexivity.
Qed.

Lemma g_reg_step s l s' : tstep s l s' -> Inv s -> forall r c, In (KRule r, c) (senders s') ->
  (exists e, lookup (subs s') r = Some e /\ e_ch e = c) \/ r1 s' r c.
Proof.
  intros Hs I r c Hin.
  assert (Hbefore : (exists e, lookup (subs s) r = Some e /\ e_ch e = c) \/ r1 s r c).
  { destruct (senders_step _ _ _ Hs) as [[Hsub _]|(sid & a & c0 & Ha & Hpc & E)]; [exact (inv_reg _ _ I _ _ (Hsub _ Hin))|].
    rewrite E in Hin. apply in_app_iff in Hin. destruct Hin as [Hin0|[Hin0|[]]]; [exact (inv_reg _ _ I _ _ Hin0)|]. inversion Hin0; subst.
    left. apply (inv_a2 _ _ I sid). exists a; tauto. }
  destruct Hbefore as [(e & He & Hc)|Hr].
  - destruct (subs_step _ _ _ Hs I) as [Hsame|[(r0 & Hn & _ & _ & Hoth)|(r0 & e0 & He0 & _ & Hoth & Hgone)]].
    + left. specialize (Hsame r). rewrite He in Hsame. destruct (lookup (subs s') r) as [e'|]; inversion Hsame. exists e'. split; congruence.
    + left. exists e. rewrite Hoth; [tauto | congruence].
    + destruct (Nat.eq_dec r r0) as [->|Hne]; [right | left; exists e; rewrite Hoth by assumption; tauto].
      destruct Hgone as [E|Hr]; [rewrite E in Hin; destruct Hin|]. replace c with (e_ch e0) by congruence. exact Hr.
  - right. destruct (r1_step _ _ _ Hs I) as [Hsame|[(Hb & _)|(r0 & c0 & _ & E & _ & Hfwd)]].
    + now apply Hsame.
    + destruct (not_busy_r1 _ _ _ Hb Hr).
    + apply Hfwd; [assumption|]. rewrite E in Hin. apply in_del_key in Hin. intros ->. now apply (proj2 Hin).
Qed.

(* ---- stream ids ---- *)
Lemma g_drops_step s l s' : tstep s l s' -> Inv s -> forall sid pc, lookup (drops s') sid = Some pc ->
  exists st r, lookup (streams s') sid = Some st /\ s_rule st = Some r.
Proof.
  intros Hs I sid0 pc Hd. pose proof (inv_drops _ _ I) as Hold.
  (* the stream table changes at an id that is not under async drop *)
  assert (Hput : forall sid st', lookup (drops s) sid = None -> lookup (drops s) sid0 = Some pc ->
                   exists st r, lookup (put (streams s) sid st') sid0 = Some st /\ s_rule st = Some r).
  { intros sid st' Hn Hd0. rewrite lookup_put_other by (intros ->; congruence). exact (Hold _ _ Hd0). }
  assert (Hdel : forall sid, lookup (drops s) sid = None -> lookup (drops s) sid0 = Some pc ->
                   exists st r, lookup (del (streams s) sid) sid0 = Some st /\ s_rule st = Some r).
  { intros sid Hn Hd0. rewrite lookup_del_other by (intros ->; congruence). exact (Hold _ _ Hd0). }
  destruct Hs; try exact (Hold _ _ Hd); try (apply Hdel; [apply H | exact Hd]); try rm_tables; simp;
    try rewrite Edrp in *; try rewrite Estr in *; try exact (Hold _ _ Hd).
  - (* occupied *) apply Hput; [eapply add_no_drop; eassumption | assumption].
  - (* add sender *) apply Hput; [eapply add_no_drop; eassumption | assumption].
  - (* unfiltered *) apply Hput; [now apply fresh_no_drop | assumption].
  - (* poll *) apply Hput; [apply H | assumption].
  - (* clone *) apply Hput; [now apply fresh_no_drop | assumption].
  - (* async drop, subs step: both records go *) apply lookup_del_inv in Hd as [Hne Hd]. rewrite lookup_del_other by assumption. exact (Hold _ _ Hd).
  - apply lookup_put_inv in Hd as [[-> _]|[_ Hd]]; [eauto | exact (Hold _ _ Hd)].
  - (* async drop, sender step *) apply lookup_del_inv in Hd as [Hne Hd]. rewrite lookup_del_other by assumption. exact (Hold _ _ Hd).
Qed.

Lemma g_ids_step s l s' : tstep s l s' -> Inv s -> forall sid a, lookup (adds s') sid = Some a -> lookup (streams s') sid = None.
Proof.
  intros Hs I sid0 a0 Ha. pose proof (inv_ids _ _ I) as Hold.
  destruct Hs; try exact (Hold _ _ Ha); try rm_tables; simp; try rewrite Eadd in *; try rewrite Estr in *;
    try exact (Hold _ _ Ha); try (apply lookup_del_none; exact (Hold _ _ Ha)); try exact (Hold _ _ (lookup_del_some _ _ _ _ Ha)).
  - (* add start *) apply lookup_put_inv in Ha as [[-> _]|[_ Ha]]; [apply fresh_spec, H | exact (Hold _ _ Ha)].
  - apply lookup_put_inv in Ha as [[-> _]|[_ Ha]]; eapply Hold; eassumption.
  - (* occupied *) apply lookup_del_inv in Ha as [Hne Ha]. rewrite lookup_put_other by assumption. exact (Hold _ _ Ha).
  - (* vacant *) apply lookup_put_inv in Ha as [[-> _]|[_ Ha]]; eapply Hold; eassumption.
  - (* add sender *) apply lookup_del_inv in Ha as [Hne Ha]. rewrite lookup_put_other by assumption. exact (Hold _ _ Ha).
  - (* unfiltered *) apply fresh_spec in H. rewrite lookup_put_other; [exact (Hold _ _ Ha) | intros ->; destruct H as (_ & Hn & _); congruence].
  - (* poll *) rewrite lookup_put_other; [exact (Hold _ _ Ha)|]. intros ->. destruct H as [Hl _]. rewrite (Hold _ _ Ha) in Hl. discriminate.
  - (* clone *) apply fresh_spec in H0. rewrite lookup_put_other; [exact (Hold _ _ Ha) | intros ->; destruct H0 as (_ & Hn & _); congruence].
Qed.

Theorem G1_step s l s' : tstep s l s' -> Inv s -> G1 s'.
Proof.
  intros Hs I. constructor.
  - pose proof (len_mono _ _ _ Hs). pose proof (inv_len _ _ I). lia.
  - eapply g_keys_step; eassumption.
  - eapply g_shape_step; eassumption.
  - eapply g_inj_step; eassumption.
  - eapply g_reg_step; eassumption.
  - eapply g_entry_step; eassumption.
  - eapply g_entry_inj_step; eassumption.
  - eapply g_excl_step; eassumption.
  - eapply g_a2_uniq_step; eassumption.
  - eapply g_drops_step; eassumption.
  - eapply g_ids_step; eassumption.
Qed.

End G1.
