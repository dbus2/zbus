(* C20/Progress.v — the socket reader is never stuck unless some stream the application holds has unread messages:
   capacities are positive, receiver ids are unique per channel, a full queue has a receiver that lags, and that receiver
   belongs to a live stream (when no async_drop is in progress). *)
From ZV Require Import Base.Bytes Base.Res C19.Broadcast C19.BroadcastFacts C20.Model C20.Lemmas C20.Steps C20.Inv C20.InvG1 C20.InvG2 C20.InvG3 C20.Proofs.
From Coq Require Import Lia Permutation.

Definition chok (x : chan item) : Prop := 1 <= cap x /\ NoDup (map fst (rcv x)).
Definition chans_ok (s : sys) : Prop := forall c, c < length (chans s) -> chok (chan_at s c).
Definition aq_ok (s : sys) : Prop := forall sid a, lookup (adds s) sid = Some a -> a_q a <> Some 0.

Lemma chok_grow x n : chok x -> chok (grow n x).  Proof. intros [H1 H2]. split; [cbn; lia | exact H2]. Qed.
Lemma chok_drop x id : chok x -> chok (drop_rcv id x).
Proof. intros [H1 H2]. split; [exact H1 | cbn; now apply nodup_del_cursor]. Qed.
Lemma chok_subscribe x id : chok x -> cursor x id = None -> chok (subscribe id x).
Proof.
  intros [H1 H2] Hc. split; [exact H1|]. cbn. rewrite map_app. cbn. apply NoDup_app_one; [exact H2|]. now apply cursor_in_none_iff.
Qed.
Lemma chok_clone x a b : chok x -> cursor x b = None -> chok (clone_rcv a b x).
Proof.
  intros [H1 H2] Hc. unfold clone_rcv. destruct (cursor x a); [|split; assumption]. split; [exact H1|]. cbn. rewrite map_app. cbn.
  apply NoDup_app_one; [exact H2|]. now apply cursor_in_none_iff.
Qed.

Lemma chans_upd s s' c x : chans_ok s -> chans s' = upd (chans s) c x -> (c < length (chans s) -> chok x) -> chans_ok s'.
Proof.
  intros Hc Ech Hx c' Hlt. rewrite Ech, length_upd in Hlt. unfold chan_at. rewrite Ech.
  destruct (Nat.eq_dec c' c) as [->|Hne]; [rewrite nth_upd_same by assumption; now apply Hx | rewrite nth_upd_other by assumption; now apply Hc].
Qed.

(* some channels are closed *)
Lemma chans_soc s s' : chans_ok s -> length (chans s') = length (chans s) ->
  (forall c, c < length (chans s) -> chan_at s' c = chan_at s c \/ chan_at s' c = close (chan_at s c)) -> chans_ok s'.
Proof. intros Hc El Hch c Hlt. rewrite El in Hlt. destruct (Hch c Hlt) as [E|E]; rewrite E; now apply Hc. Qed.

Lemma strict_set_close s s1 c0 : chans s1 = upd (chans s) c0 (close (chan_at s c0)) ->
  forall c, c < length (chans s) -> chan_at s1 c = chan_at s c \/ chan_at s1 c = close (chan_at s c).
Proof.
  intros E c Hlt. unfold chan_at at 1 3. rewrite E.
  destruct (Nat.eq_dec c c0) as [->|Hne]; [right; now apply nth_upd_same | left; now apply nth_upd_other].
Qed.
Lemma chans_rm_apply s r s1 o : rm_apply s r = (s1, o) -> chans_ok s -> chans_ok s1.
Proof.
  intros H Hc. apply (chans_soc s); [exact Hc | apply rm_apply_spec, rm_spec_tables in H; apply H|].
  apply rm_apply_spec in H. destruct H; try (left; reflexivity). now apply (strict_set_close s _ (e_ch e)).
Qed.
Lemma chans_rm_sender s r : chans_ok s -> chans_ok (rm_sender s r).
Proof.
  intros Hc. apply (chans_soc s); [exact Hc | apply length_chans_rm|].
  unfold rm_sender. destruct (chan_of_key (senders s) (KRule r)) as [c0|]; [now apply (strict_set_close s _ c0) | now left].
Qed.
Lemma chans_close_all s : chans_ok s -> chans_ok (with_chans s (close_all s)).
Proof.
  intros Hc. apply (chans_soc s); [exact Hc | apply length_close_all|].
  intros c Hlt. rewrite chan_at_close_all by assumption. destruct (mem_nat c (map snd (senders s))); [now right | now left].
Qed.

Lemma chans_bury s sid st : chans_ok s -> chans_ok (bury s sid st).
Proof. intros H. eapply (chans_upd s _ (s_ch st)); [exact H | apply chans_bury | intros Hlt; now apply chok_drop, H]. Qed.

Section Progress.
Variable matches : nat -> msg -> bool.
Notation step := (Model.step matches).
Notation tstep := (Steps.tstep matches).
Notation Inv := (Inv.Inv matches).
Notation reach := (Model.reach matches).

(* add_match calls come with a queue length other than 0 (LAddStart) and keep it *)
Lemma aq_step s l s' : tstep s l s' -> aq_ok s -> aq_ok s'.
Proof.
  intros Hs Ha sid' a' Hl. destruct Hs; try (exact (Ha _ _ Hl)); simp;
    try (match goal with Hx : rm_apply _ _ = _ |- _ => rewrite (rm_apply_eq _ _ _ _ Hx) in Hl end);
    try (apply lookup_del_some in Hl); try (apply lookup_put_inv in Hl; destruct Hl as [[-> ->]|[_ Hl]]; [cbn [a_q add_at]|]);
    first [assumption | eapply Ha; eassumption].
Qed.

Lemma chans_step s l s' : tstep s l s' -> Inv s -> drops s = [] -> aq_ok s -> chans_ok s -> chans_ok s'.
Proof.
  intros Hs I Hd Ha Hc. destruct Hs; try exact Hc; try (dead_drop Hd); try (exact (chans_bury s sid st Hc)).
  - (* push *) apply try_push_pushed_cap in H0. destruct H0 as [Hcap Hrcv]. eapply (chans_upd s _ c ch'); [exact Hc | reflexivity|].
    intros Hlt. destruct (Hc _ Hlt). split; [lia | now rewrite Hrcv].
  - (* next, failure *) exact (chans_close_all s Hc).
  - (* occupied *) subst c ch1 s1 s2. destruct (inv_entry _ _ I _ _ H2) as [_ Hlt]. eapply (chans_upd s _ (e_ch e)); [exact Hc | reflexivity|]. intros _.
    assert (Hnc : cursor (chan_at s (e_ch e)) sid = None).
    { apply (own_no_cursor s _ sid (Inv_own _ _ I) Hlt); [eapply inv_ids; eassumption | eapply no_a2_pc; [eassumption | intros c0; congruence]]. }
    apply chok_subscribe; destruct (a_q a); try apply chok_grow; first [exact Hnc | now apply Hc].
  - (* vacant *) intros c0 Hlt. simp. autorewrite with chat. rewrite app_length in Hlt. cbn [length] in Hlt. destruct (Nat.eq_dec c0 (length (chans s))) as [->|Hne].
    + rewrite chan_at_app_new. split; [|cbn; repeat constructor; tauto]. cbn. specialize (Ha _ _ H).
      destruct (a_q a) as [[|n]|]; [congruence | lia | unfold default_max_queued; lia].
    + rewrite chan_at_app_old by lia. apply Hc. lia.
  - (* unfiltered *) eapply (chans_upd s _ 0); [exact Hc | reflexivity|].
    intros Hlt. apply chok_subscribe; [now apply Hc|]. exact (fresh_no_cursor s sid 0 (Inv_own _ _ I) H Hlt).
  - (* poll *) apply try_recv_got_shape in H0. destruct H0 as [Hcap Hrcv]. eapply (chans_upd s _ (s_ch st) ch'); [exact Hc | reflexivity|].
    intros Hlt. destruct (Hc _ Hlt). split; [lia | now rewrite Hrcv].
  - (* clone *) eapply (chans_upd s _ (s_ch st)); [exact Hc | reflexivity|].
    intros Hlt. apply chok_clone; [now apply Hc|]. exact (fresh_no_cursor s sid2 _ (Inv_own _ _ I) H0 Hlt).
  - (* set capacity *) eapply (chans_upd s _ (s_ch st)); [exact Hc | reflexivity|]. intros Hlt. now apply chok_grow, Hc.
  - exact (chans_rm_apply _ _ _ _ H1 Hc).
  - exact (chans_rm_apply _ _ _ _ H1 Hc).
  - exact (chans_rm_sender s r Hc).
  - (* add sender, failed *) eapply (chans_upd s _ c); [exact Hc | reflexivity|]. intros Hlt. now apply chok_drop, Hc.
Qed.

Lemma chans_ok_reach : forall tr s, reach tr s -> aq_ok s /\ chans_ok s.
Proof.
  apply (reach_inv_ind matches).
  - split; [intros sid a H; discriminate|]. intros [|[|c]] Hlt; [| |cbn in Hlt; lia]; split; cbn; repeat constructor; tauto.
  - intros s l s' Hs I Hd [Ha Hc]. split; [eapply aq_step | eapply chans_step]; eassumption.
Qed.

(* ------------------------------------------------------------------ the reader is blocked only behind a stream the application
   can poll *)
Theorem progress tr s it c todo : reach tr s -> drops s = [] -> reader s = RPush it (c :: todo) -> try_push it (chan_at s c) = PFull ->
  exists sid st s', lookup (streams s) sid = Some st /\ s_ch st = c /\ step (LPoll sid) s = Some s'.
Proof.
  intros Hr Hd Hrd Hfull. pose proof (Inv_reach _ _ _ Hr) as I. pose proof (chans_ok_reach _ _ Hr) as [_ Hshape].
  destruct (inv_todo _ _ I _ _ Hrd) as [Htd _]. destruct (Htd c (or_introl eq_refl)) as (k & Hk & _). destruct (inv_shape _ _ I _ _ Hk) as [Hlt _].
  destruct (Hshape _ Hlt) as [Hcap Hnd].
  (* full: the queue is not empty, so some receiver lags *)
  assert (Hq : 0 < qlen (chan_at s c)).
  { unfold try_push in Hfull. destruct (closed (chan_at s c)); [discriminate|]. destruct (rcv (chan_at s c)); [discriminate|].
    destruct (cap (chan_at s c) <=? qlen (chan_at s c)) eqn:E; [|discriminate]. apply Nat.leb_le in E. lia. }
  destruct (qlen_pos_receiver _ Hq) as (id & p & Hin & Hp).
  assert (Hcur : cursor (chan_at s c) id = Some p) by (unfold cursor; now apply cursor_in_nodup).
  destruct (inv_cur _ _ I _ _ _ Hlt Hcur) as [_ [(st & Hst & Hch)|(r & Ha)]].
  - exists id, st. unfold Model.step. rewrite Hst, Hd. cbn [lookup]. rewrite Hch. unfold try_recv. rewrite Hcur.
    destruct (nth_error (log (chan_at s c)) p) as [x|] eqn:En; [eexists; repeat split; reflexivity|].
    apply nth_error_None in En. unfold tail in Hp. lia.
  - (* a call in A2 owns a receiver only on an unregistered channel *)
    destruct (inv_a2 _ _ I _ _ _ Ha) as (_ & Hno & _). destruct (Hno _ Hk).
Qed.

End Progress.
