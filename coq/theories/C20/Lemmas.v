(* C20/Lemmas.v — elementary facts about the association lists, the channel table, the permutation test and the senders table
   of C20/Model.v. *)
From ZV Require Import Base.Bytes Base.Res C19.Broadcast C20.Model.
From Coq Require Import Lia Permutation.

(* ---- association lists ---- *)
Lemma lookup_del_same {A} (l : list (nat * A)) k : lookup (del l k) k = None.
Proof.
  induction l as [|[i x] l IH]; cbn; [reflexivity|]. destruct (Nat.eqb i k) eqn:E; [exact IH|]. cbn. now rewrite E.
Qed.
Lemma lookup_del_other {A} (l : list (nat * A)) k k' : k' <> k -> lookup (del l k) k' = lookup l k'.
Proof.
  intros Hne. induction l as [|[i x] l IH]; cbn; [reflexivity|]. destruct (Nat.eqb i k) eqn:E.
  - apply Nat.eqb_eq in E. subst i. now replace (Nat.eqb k k') with false by (symmetry; apply Nat.eqb_neq; congruence).
  - cbn. destruct (Nat.eqb i k'); [reflexivity | exact IH].
Qed.
Lemma lookup_app {A} (l1 l2 : list (nat * A)) k :
  lookup (l1 ++ l2) k = match lookup l1 k with Some x => Some x | None => lookup l2 k end.
Proof. induction l1 as [|[i x] l1 IH]; cbn; [reflexivity|]. destruct (Nat.eqb i k); [reflexivity | exact IH]. Qed.
Lemma lookup_put_same {A} (l : list (nat * A)) k x : lookup (put l k x) k = Some x.
Proof. unfold put. rewrite lookup_app, lookup_del_same. cbn. now rewrite Nat.eqb_refl. Qed.
Lemma lookup_put_other {A} (l : list (nat * A)) k k' x : k' <> k -> lookup (put l k x) k' = lookup l k'.
Proof.
  intros Hne. unfold put. rewrite lookup_app, lookup_del_other by assumption. destruct (lookup l k'); [reflexivity|].
  cbn. now replace (Nat.eqb k k') with false by (symmetry; apply Nat.eqb_neq; congruence).
Qed.
Lemma lookup_del_inv {A} (l : list (nat * A)) k k' x : lookup (del l k) k' = Some x -> k' <> k /\ lookup l k' = Some x.
Proof.
  destruct (Nat.eq_dec k' k) as [->|Hne]; [now rewrite lookup_del_same | now rewrite lookup_del_other].
Qed.
Lemma lookup_del_some {A} (l : list (nat * A)) k k' x : lookup (del l k) k' = Some x -> lookup l k' = Some x.
Proof. intros H. now apply lookup_del_inv in H. Qed.
Lemma lookup_put_inv {A} (l : list (nat * A)) k k' x y : lookup (put l k x) k' = Some y -> (k' = k /\ y = x) \/ (k' <> k /\ lookup l k' = Some y).
Proof.
  destruct (Nat.eq_dec k' k) as [->|Hne]; [rewrite lookup_put_same; intros E; inversion E; now left | rewrite lookup_put_other by assumption; now right].
Qed.
Lemma lookup_del_none {A} (l : list (nat * A)) k k' : lookup l k' = None -> lookup (del l k) k' = None.
Proof.
  destruct (Nat.eq_dec k' k) as [->|Hne]; [intros _; apply lookup_del_same | now rewrite lookup_del_other].
Qed.
Lemma lookup_in {A} (l : list (nat * A)) k x : lookup l k = Some x -> In (k, x) l.
Proof.
  induction l as [|[i y] l IH]; cbn; [discriminate|]. destruct (Nat.eqb i k) eqn:E.
  - intros H; inversion H; subst. apply Nat.eqb_eq in E. subst. now left.
  - intros H. right. now apply IH.
Qed.
Lemma in_del {A} (l : list (nat * A)) k p : In p (del l k) <-> In p l /\ fst p <> k.
Proof.
  induction l as [|[i y] l IH]; cbn; [tauto|]. destruct (Nat.eqb i k) eqn:E.
  - apply Nat.eqb_eq in E. subst i. rewrite IH. split; [tauto|]. intros [[H|H] Hne]; [subst p; cbn in Hne; congruence | tauto].
  - apply Nat.eqb_neq in E. cbn. rewrite IH. split; [intros [H|H]; [subst p; cbn; tauto | tauto] | tauto].
Qed.
Lemma in_put {A} (l : list (nat * A)) k x p : In p (put l k x) <-> (In p l /\ fst p <> k) \/ p = (k, x).
Proof. unfold put. rewrite in_app_iff, in_del. cbn. intuition. Qed.

(* ---- lists ---- *)
Lemma nth_error_upd_same {A} (l : list A) i x y : nth_error l i = Some y -> nth_error (upd l i x) i = Some x.
Proof. revert i; induction l as [|a l IH]; intros [|i] H; cbn in *; try discriminate; [reflexivity | now apply IH]. Qed.
Lemma nth_error_upd_other {A} (l : list A) i j x : j <> i -> nth_error (upd l i x) j = nth_error l j.
Proof. revert i j; induction l as [|a l IH]; intros [|i] [|j] H; cbn; try reflexivity; try lia. apply IH. lia. Qed.
Lemma length_upd {A} (l : list A) i x : length (upd l i x) = length l.
Proof. revert i; induction l as [|a l IH]; intros [|i]; cbn; try reflexivity. now rewrite IH. Qed.
Lemma upd_nth {A} (l : list A) i d : upd l i (nth i l d) = l.
Proof. revert i; induction l as [|a l IH]; intros [|i]; cbn; try reflexivity. now rewrite IH. Qed.
Lemma nth_upd_same {A} (l : list A) i x d : i < length l -> nth i (upd l i x) d = x.
Proof. revert i; induction l as [|a l IH]; intros [|i] H; cbn in *; try lia; [reflexivity | apply IH; lia]. Qed.
Lemma nth_upd_other {A} (l : list A) i j x d : j <> i -> nth j (upd l i x) d = nth j l d.
Proof. revert i j; induction l as [|a l IH]; intros [|i] [|j] H; cbn; try reflexivity; try lia. apply IH. lia. Qed.
Lemma in_del_nth {A} (l : list A) n x : In x (del_nth l n) -> In x l.
Proof.
  revert n; induction l as [|a l IH]; intros [|n]; cbn; try tauto.
  intros [H|H]; [left; exact H | right; eapply IH; eassumption].
Qed.
Lemma in_upd {A} (l : list A) n x y : In y (upd l n x) -> y = x \/ In y l.
Proof.
  revert n; induction l as [|a l IH]; intros [|n]; cbn; try tauto.
  - intros [H|H]; [left; now symmetry | right; right; exact H].
  - intros [H|H]; [right; left; exact H | destruct (IH _ H) as [E|E]; [left; exact E | right; right; exact E]].
Qed.
Lemma in_upd_keep {A} (l : list A) n x y z : nth_error l n = Some z -> In y l -> y <> z -> In y (upd l n x).
Proof.
  revert n; induction l as [|a l IH]; intros [|n] Hn Hin Hne; cbn in *; try discriminate.
  - inversion Hn; subst. destruct Hin; [congruence | tauto].
  - destruct Hin; [tauto | right; eapply IH; eassumption].
Qed.
Lemma in_del_nth_keep {A} (l : list A) n y z : nth_error l n = Some z -> In y l -> y <> z -> In y (del_nth l n).
Proof.
  revert n; induction l as [|a l IH]; intros [|n] Hn Hin Hne; cbn in *; try discriminate.
  - inversion Hn; subst. destruct Hin; [congruence | tauto].
  - destruct Hin; [tauto | right; eapply IH; eassumption].
Qed.

Lemma NoDup_app_one {A} (l : list A) x : NoDup l -> ~ In x l -> NoDup (l ++ [x]).
Proof.
  induction 1 as [|y l Hy Hl IH]; intros Hx; cbn.
  - constructor; [tauto | constructor].
  - constructor.
    + rewrite in_app_iff. cbn. intros [H|[H|[]]]; [tauto | subst; apply Hx; now left].
    + apply IH. intros H. apply Hx. now right.
Qed.
Lemma mem_nat_in x l : mem_nat x l = true <-> In x l.
Proof.
  unfold mem_nat. rewrite existsb_exists. split.
  - intros (y & Hin & E). apply Nat.eqb_eq in E. now subst.
  - intros H. exists x. split; [assumption | apply Nat.eqb_refl].
Qed.

(* the shape of the channel table after senders.clear() (LNext after a failure, Steps.close_all) *)
Lemma nth_map_combine_seq {A B} (f : nat * A -> B) (l : list A) c d d' :
  c < length l -> nth c (map f (combine (seq 0 (length l)) l)) d' = f (c, nth c l d).
Proof.
  intros H. assert (G : forall (l : list A) k c, c < length l -> nth c (map f (combine (seq k (length l)) l)) d' = f (k + c, nth c l d)).
  { clear. induction l as [|a l IH]; intros k c H; cbn in *; [lia|]. destruct c as [|c]; [now rewrite Nat.add_0_r|].
    rewrite IH by lia. f_equal. f_equal. lia. }
  now rewrite G.
Qed.

(* ---- is_perm ---- *)
Lemma remove_one_perm x l l' : remove_one x l = Some l' -> Permutation l (x :: l').
Proof.
  revert l'; induction l as [|y l IH]; intros l' H; cbn in H; [discriminate|]. destruct (Nat.eqb x y) eqn:E.
  - apply Nat.eqb_eq in E. inversion H; subst. reflexivity.
  - destruct (remove_one x l) as [r|]; [|discriminate]. inversion H; subst. rewrite (IH r eq_refl). apply perm_swap.
Qed.
Lemma is_perm_spec a : forall b, is_perm a b = true -> Permutation a b.
Proof.
  induction a as [|x a IH]; intros b H; cbn in H.
  - destruct b; [constructor | discriminate].
  - destruct (remove_one x b) as [b'|] eqn:E; [|discriminate]. apply remove_one_perm in E. rewrite E. constructor. now apply IH.
Qed.

(* ---- the channel table ---- *)
Lemma chan_at_set_same s c x : c < length (chans s) -> chan_at (set_chan s c x) c = x.
Proof. intros H. unfold chan_at, set_chan. cbn. now apply nth_upd_same. Qed.
Lemma chan_at_set_other s c c' x : c' <> c -> chan_at (set_chan s c x) c' = chan_at s c'.
Proof. intros H. unfold chan_at, set_chan. cbn. now apply nth_upd_other. Qed.
Lemma length_set_chan s c x : length (chans (set_chan s c x)) = length (chans s).
Proof. unfold set_chan. cbn. apply length_upd. Qed.
Lemma chan_at_upd s s' c x : chans s' = upd (chans s) c x -> c < length (chans s) ->
  forall c', chan_at s' c' = if Nat.eqb c' c then x else chan_at s c'.
Proof.
  intros E H c'. unfold chan_at. rewrite E. destruct (Nat.eqb_spec c' c) as [->|Hne]; [now apply nth_upd_same | now apply nth_upd_other].
Qed.
Lemma chan_at_app_old s x c : c < length (chans s) -> chan_at (with_chans s (chans s ++ [x])) c = chan_at s c.
Proof. intros H. unfold chan_at. cbn. now rewrite app_nth1. Qed.
Lemma chan_at_app_new s x : chan_at (with_chans s (chans s ++ [x])) (length (chans s)) = x.
Proof. unfold chan_at. cbn. rewrite app_nth2 by lia. now rewrite Nat.sub_diag. Qed.

Lemma chan_at_ext s s' c : chans s' = chans s -> chan_at s' c = chan_at s c.
Proof. unfold chan_at. now intros ->. Qed.
Lemma chan_at_with_senders s x c : chan_at (with_senders s x) c = chan_at s c.  Proof. now apply chan_at_ext. Qed.
Lemma chan_at_with_subs s x c : chan_at (with_subs s x) c = chan_at s c.  Proof. now apply chan_at_ext. Qed.
Lemma chan_at_with_streams s x c : chan_at (with_streams s x) c = chan_at s c.  Proof. now apply chan_at_ext. Qed.
Lemma chan_at_with_adds s x c : chan_at (with_adds s x) c = chan_at s c.  Proof. now apply chan_at_ext. Qed.
Lemma chan_at_with_drops s x c : chan_at (with_drops s x) c = chan_at s c.  Proof. now apply chan_at_ext. Qed.
Lemma chan_at_with_tasks s x c : chan_at (with_tasks s x) c = chan_at s c.  Proof. now apply chan_at_ext. Qed.
Lemma chan_at_with_reader s x c : chan_at (with_reader s x) c = chan_at s c.  Proof. now apply chan_at_ext. Qed.
Lemma chan_at_with_socket s x c : chan_at (with_socket s x) c = chan_at s c.  Proof. now apply chan_at_ext. Qed.
Lemma chan_at_with_incoming s x c : chan_at (with_incoming s x) c = chan_at s c.  Proof. now apply chan_at_ext. Qed.
Lemma chan_at_with_dead s x c : chan_at (with_dead s x) c = chan_at s c.  Proof. now apply chan_at_ext. Qed.
Lemma chan_at_with_arcs s x c : chan_at (with_arcs s x) c = chan_at s c.  Proof. now apply chan_at_ext. Qed.
Lemma chan_at_bury s sid st c : chan_at (bury s sid st) c = chan_at (set_chan s (s_ch st) (drop_rcv sid (chan_at s (s_ch st)))) c.
Proof. reflexivity. Qed.
#[export] Hint Rewrite chan_at_with_senders chan_at_with_subs chan_at_with_streams chan_at_with_adds chan_at_with_drops
  chan_at_with_tasks chan_at_with_reader chan_at_with_socket chan_at_with_incoming chan_at_with_dead chan_at_with_arcs
  chan_at_bury : chat.

Lemma chans_bury s sid st : chans (bury s sid st) = upd (chans s) (s_ch st) (drop_rcv sid (chan_at s (s_ch st))).
Proof. reflexivity. Qed.
Lemma streams_bury s sid st : streams (bury s sid st) = del (streams s) sid.  Proof. reflexivity. Qed.

(* ---- senders table ---- *)
Lemma key_eqb_eq a b : key_eqb a b = true <-> a = b.
Proof.
  destruct a, b; cbn; try (split; [discriminate | congruence]); try tauto.
  rewrite Nat.eqb_eq. split; congruence.
Qed.
Lemma in_del_key l k p : In p (del_key l k) <-> In p l /\ fst p <> k.
Proof.
  unfold del_key. rewrite filter_In. split; intros [H1 H2]; split; try assumption.
  - intros E. rewrite <- key_eqb_eq in E. now rewrite E in H2.
  - destruct (key_eqb (fst p) k) eqn:E; [apply key_eqb_eq in E; congruence | reflexivity].
Qed.
Lemma in_del_key_or l k p : In p l -> In p (del_key l k) \/ fst p = k.
Proof.
  intros Hin. destruct (key_eqb (fst p) k) eqn:E; [right; now apply key_eqb_eq|]. left. apply in_del_key. split; [assumption|].
  intros E'. apply key_eqb_eq in E'. congruence.
Qed.
Lemma nodup_del_key l k : NoDup (map fst l) -> NoDup (map fst (del_key l k)).
Proof.
  unfold del_key. induction l as [|[k' c] l IH]; cbn; intros H; [constructor|]. inversion H; subst.
  destruct (negb (key_eqb k' k)); [|now apply IH]. cbn. constructor; [|now apply IH].
  intros Hin. apply H2. apply in_map_iff in Hin. destruct Hin as (p & E & Hp). apply filter_In in Hp. apply in_map_iff. exists p. tauto.
Qed.
