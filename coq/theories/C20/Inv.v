(* C20/Inv.v — the invariant of the stream system (it holds in every reachable state: Proofs.Inv_reach), its part about the
   tables alone (G1), and Model.rm_apply as a relation. *)
From ZV Require Import Base.Bytes Base.Res C19.Broadcast C20.Model C20.Lemmas.
From Coq Require Import Lia.

Section Inv.
Variable matches : nat -> msg -> bool.
Notation key_matches := (Model.key_matches matches).

(* an add_match call between its two steps on the Vacant path: it holds `subscriptions` *)
Definition a2 (s : sys) (sid r c : nat) : Prop := exists a, lookup (adds s) sid = Some a /\ a_rule a = r /\ a_pc a = A2 c.
(* a remove_match call between its two steps on the last-reference path: it holds `subscriptions` *)
Definition r1 (s : sys) (r c : nat) : Prop :=
  (exists sid st, lookup (drops s) sid = Some (R1 c) /\ lookup (streams s) sid = Some st /\ s_rule st = Some r) \/
  In (r, R1 c) (tasks s).

Definition skey (st : stream) : key := match s_rule st with Some r => KRule r | None => KAll end.
Definition msgs (l : list item) : list msg := flat_map (fun it => match it with IMsg m => [m] | IFail _ => [] end) l.
Definition accepts (k : key) (m : msg) : bool := key_matches k (IMsg m).
(* the incoming messages that have been decided for the stream's channel since it subscribed *)
Definition window (s : sys) (st : stream) : list msg := skipn (s_from st) (firstn (seen s (s_ch st)) (incoming s)).

Record Inv (s : sys) : Prop := {
  inv_len : 2 <= length (chans s);
  inv_keys : NoDup (map fst (senders s));
  inv_shape : forall k c, In (k, c) (senders s) ->
      c < length (chans s) /\ match k with KAll => c = 0 | KRet | KErr => c = 1 | KRule _ => 2 <= c end;
  inv_inj : forall r r' c, In (KRule r, c) (senders s) -> In (KRule r', c) (senders s) -> r = r';
  inv_reg : forall r c, In (KRule r, c) (senders s) -> (exists e, lookup (subs s) r = Some e /\ e_ch e = c) \/ r1 s r c;
  inv_entry : forall r e, lookup (subs s) r = Some e -> 2 <= e_ch e < length (chans s);
  inv_entry_inj : forall r r' e e', lookup (subs s) r = Some e -> lookup (subs s) r' = Some e' -> e_ch e = e_ch e' -> r = r';
  inv_excl : forall sid r c r' c', a2 s sid r c -> r1 s r' c' -> False;
  inv_a2_uniq : forall sid r c sid' r' c', a2 s sid r c -> a2 s sid' r' c' -> sid = sid';
  inv_a2 : forall sid r c, a2 s sid r c ->
      (exists e, lookup (subs s) r = Some e /\ e_ch e = c) /\ (forall k, ~ In (k, c) (senders s)) /\
      log (chan_at s c) = [] /\ closed (chan_at s c) = false /\ cursor (chan_at s c) sid = Some 0 /\
      2 <= c < length (chans s) /\ (forall sid' st, lookup (streams s) sid' = Some st -> s_ch st <> c);
  inv_cur : forall c id p, c < length (chans s) -> cursor (chan_at s c) id = Some p ->
      p <= tail (chan_at s c) /\ ((exists st, lookup (streams s) id = Some st /\ s_ch st = c) \/ (exists r, a2 s id r c));
  inv_stream : forall sid st, lookup (streams s) sid = Some st ->
      s_ch st < length (chans s) /\ (exists p, cursor (chan_at s (s_ch st)) sid = Some p) /\ (s_rule st = None -> s_ch st = 0);
  inv_ids : forall sid a, lookup (adds s) sid = Some a -> lookup (streams s) sid = None;
  inv_todo : forall it todo, reader s = RPush it todo ->
      (forall c, In c todo -> exists k, In (k, c) (senders s) /\ key_matches k it = true) /\ (forall m, it = IMsg m -> NoDup todo);
  inv_last : forall m, reader s = RHave (IMsg m) \/ (exists todo, reader s = RPush (IMsg m) todo) -> exists pre, incoming s = pre ++ [m];
  inv_closed : forall k c, In (k, c) (senders s) -> closed (chan_at s c) = true ->
      2 <= c /\ rcv (chan_at s c) = [] /\ (forall r e, lookup (subs s) r = Some e -> e_ch e <> c);
  inv_drops : forall sid pc, lookup (drops s) sid = Some pc -> exists st r, lookup (streams s) sid = Some st /\ s_rule st = Some r;
  inv_from : forall sid st, lookup (streams s) sid = Some st -> s_from st <= seen s (s_ch st);
  inv_deliv : forall sid st, lookup (streams s) sid = Some st -> In (skey st, s_ch st) (senders s) ->
      msgs (s_got st) ++ msgs (unread (chan_at s (s_ch st)) sid) = filter (accepts (skey st)) (window s st)
}.

Lemma not_busy_a2 s sid r c : subs_busy s = false -> ~ a2 s sid r c.
Proof.
  unfold subs_busy. rewrite !orb_false_iff, <- !Bool.not_true_iff_false, !existsb_exists. intros [[Hb _] _] (a & Ha & _ & Hpc).
  apply Hb. exists (sid, a). split; [now apply lookup_in | cbn; now rewrite Hpc].
Qed.
Lemma not_busy_r1 s r c : subs_busy s = false -> ~ r1 s r c.
Proof.
  unfold subs_busy. rewrite !orb_false_iff, <- !Bool.not_true_iff_false, !existsb_exists. intros [[_ Hb2] Hb3] [(sid & st & Hd & _)|Hin].
  - apply Hb2. exists (sid, R1 c). split; [now apply lookup_in | reflexivity].
  - apply Hb3. exists (r, R1 c). split; [assumption | reflexivity].
Qed.

Lemma seen_le s c : seen s c <= length (incoming s).
Proof. unfold seen. lia. Qed.

(* Model.rm_apply, one constructor per way it can go *)
Inductive rm_spec (s : sys) (r : nat) : sys -> option nat -> Prop :=
  | rm_absent : lookup (subs s) r = None -> rm_spec s r s None
  | rm_dec e n : lookup (subs s) r = Some e -> e_ref e = S (S n) ->
      rm_spec s r (with_subs s (put (subs s) r {| e_ref := S n; e_ch := e_ch e |})) None
  | rm_last_open e : lookup (subs s) r = Some e -> e_ref e <= 1 -> rcv (chan_at s (e_ch e)) <> [] ->
      rm_spec s r (with_subs s (del (subs s) r)) (Some (e_ch e))
  | rm_last_close e : lookup (subs s) r = Some e -> e_ref e <= 1 -> rcv (chan_at s (e_ch e)) = [] ->
      rm_spec s r (set_chan (with_subs s (del (subs s) r)) (e_ch e) (close (chan_at s (e_ch e)))) (Some (e_ch e)).

Lemma rm_apply_spec s r s1 o : rm_apply s r = (s1, o) -> rm_spec s r s1 o.
Proof.
  unfold rm_apply. destruct (lookup (subs s) r) as [e|] eqn:El; [|intros H; inversion H; subst; now constructor].
  destruct (e_ref e) as [|[|n]] eqn:Er; [| |intros H; inversion H; subst; eapply rm_dec; eauto].
  all: change (chan_at (with_subs s (del (subs s) r)) (e_ch e)) with (chan_at s (e_ch e)).
  all: destruct (rcv (chan_at s (e_ch e))) eqn:Erc; intros H; inversion H; subst;
    [eapply rm_last_close | eapply rm_last_open]; eauto; try lia; congruence.
Qed.

(* the fields of Inv that speak of the tables alone *)
Record G1 (s : sys) : Prop := {
  g_len : 2 <= length (chans s);
  g_keys : NoDup (map fst (senders s));
  g_shape : forall k c, In (k, c) (senders s) ->
      c < length (chans s) /\ match k with KAll => c = 0 | KRet | KErr => c = 1 | KRule _ => 2 <= c end;
  g_inj : forall r r' c, In (KRule r, c) (senders s) -> In (KRule r', c) (senders s) -> r = r';
  g_reg : forall r c, In (KRule r, c) (senders s) -> (exists e, lookup (subs s) r = Some e /\ e_ch e = c) \/ r1 s r c;
  g_entry : forall r e, lookup (subs s) r = Some e -> 2 <= e_ch e < length (chans s);
  g_entry_inj : forall r r' e e', lookup (subs s) r = Some e -> lookup (subs s) r' = Some e' -> e_ch e = e_ch e' -> r = r';
  g_excl : forall sid r c r' c', a2 s sid r c -> r1 s r' c' -> False;
  g_a2_uniq : forall sid r c sid' r' c', a2 s sid r c -> a2 s sid' r' c' -> sid = sid';
  g_drops : forall sid pc, lookup (drops s) sid = Some pc -> exists st r, lookup (streams s) sid = Some st /\ s_rule st = Some r;
  g_ids : forall sid a, lookup (adds s) sid = Some a -> lookup (streams s) sid = None
}.

Lemma Inv_G1 s : Inv s -> G1 s.
Proof. intros I. constructor; apply I. Qed.

End Inv.
