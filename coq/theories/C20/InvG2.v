(* C20/InvG2.v — preservation of the channel part of the invariant (cursors, who owns which receiver, the reader's to-do list,
   closed channels). *)
From ZV Require Import Base.Bytes Base.Res C19.Broadcast C19.BroadcastFacts C20.Model C20.Lemmas C20.Steps C20.Inv C20.InvG1.
From Coq Require Import Lia Permutation.

(* as simp, but set_chan and bury stay folded *)
Ltac tsimp :=
  repeat match goal with x := _ |- _ => subst x end;
  cbn [chans senders subs streams adds drops tasks reader socket incoming dead arcs
       with_chans with_senders with_subs with_streams with_adds with_drops with_tasks with_reader with_socket with_incoming
       with_dead with_arcs mk_stream got_more add_at s_rule s_ch s_from s_got a_rule a_q a_pc] in *.

Lemma chans_set_chan s c x : chans (set_chan s c x) = upd (chans s) c x.  Proof. reflexivity. Qed.

(* ---- channel contents after the steps that close channels ---- *)
Lemma chan_at_close_all s c : c < length (chans s) ->
  chan_at (with_chans s (close_all s)) c = if mem_nat c (map snd (senders s)) then close (chan_at s c) else chan_at s c.
Proof.
  intros H. unfold chan_at, close_all. cbn [chans with_chans]. rewrite (nth_map_combine_seq _ _ _ (new_chan 1)) by assumption. reflexivity.
Qed.

(* same receivers and same log: only the capacity or the closed flag may differ *)
Definition same_or_closed (a b : chan item) : Prop := rcv b = rcv a /\ log b = log a.

Lemma soc_cursor a b id : same_or_closed a b -> cursor b id = cursor a id.
Proof. intros [H _]. unfold cursor. now rewrite H. Qed.
Lemma soc_log a b : same_or_closed a b -> log b = log a.
Proof. intros [_ H]. exact H. Qed.
Lemma soc_rcv a b : same_or_closed a b -> rcv b = rcv a.
Proof. intros [H _]. exact H. Qed.
Lemma soc_tail a b : same_or_closed a b -> tail b = tail a.
Proof. intros [_ H]. unfold tail. now rewrite H. Qed.
Lemma soc_refl a : same_or_closed a a.  Proof. split; reflexivity. Qed.
Lemma soc_close a : same_or_closed a (close a).  Proof. split; reflexivity. Qed.
Lemma soc_grow a n : same_or_closed a (grow n a).  Proof. split; reflexivity. Qed.

Lemma soc_set s c x c' : same_or_closed (chan_at s c) x -> same_or_closed (chan_at s c') (chan_at (set_chan s c x) c').
Proof.
  intros H. destruct (Nat.eq_dec c' c) as [->|Hne]; [|rewrite chan_at_set_other by assumption; apply soc_refl].
  destruct (Nat.lt_ge_cases c (length (chans s))) as [Hlt|Hge]; [now rewrite chan_at_set_same|].
  unfold chan_at, set_chan. cbn. rewrite !nth_overflow; rewrite ?length_upd; try lia. apply soc_refl.
Qed.

Lemma rm_apply_chan s r s1 o c : rm_apply s r = (s1, o) -> same_or_closed (chan_at s c) (chan_at s1 c).
Proof. intros H. apply rm_apply_spec in H. destruct H; try apply soc_refl. apply (soc_set (with_subs s _)), soc_close. Qed.

Lemma rm_sender_chan s r c' : same_or_closed (chan_at s c') (chan_at (rm_sender s r) c').
Proof.
  unfold rm_sender. destruct (chan_of_key (senders s) (KRule r)) as [c|]; [|apply soc_refl].
  apply (soc_set (with_senders s _)), soc_close.
Qed.

Lemma close_all_chan s c : same_or_closed (chan_at s c) (chan_at (with_chans s (close_all s)) c).
Proof.
  destruct (Nat.lt_ge_cases c (length (chans s))) as [Hlt|Hge].
  - rewrite chan_at_close_all by assumption. destruct (mem_nat c (map snd (senders s))); [apply soc_close | apply soc_refl].
  - unfold chan_at. cbn. rewrite !nth_overflow; rewrite ?length_close_all; try lia. apply soc_refl.
Qed.

(* ---- calls in A2 when the table of calls changes at one id ---- *)
Lemma no_a2_pc s sid a : lookup (adds s) sid = Some a -> (forall c, a_pc a <> A2 c) -> forall r c, ~ a2 s sid r c.
Proof. intros Ha Hpc r c (a' & Ha' & _ & Hp). rewrite Ha in Ha'. inversion Ha'; subst. exact (Hpc _ Hp). Qed.
Lemma no_a2_none s sid : lookup (adds s) sid = None -> forall r c, ~ a2 s sid r c.
Proof. intros Ha r c (a' & Ha' & _). congruence. Qed.

Lemma a2_fwd_put s s' sid a sid' r c : adds s' = put (adds s) sid a -> (forall a0, lookup (adds s) sid = Some a0 -> forall c0, a_pc a0 <> A2 c0) ->
  a2 s sid' r c -> a2 s' sid' r c.
Proof.
  unfold a2. intros -> Hpc (a' & Ha & Hr & Hp). exists a'. rewrite lookup_put_other; [tauto|]. intros ->. exact (Hpc _ Ha c Hp).
Qed.
Lemma a2_fwd_del s s' sid sid' r c : adds s' = del (adds s) sid -> (forall a0, lookup (adds s) sid = Some a0 -> forall c0, a_pc a0 <> A2 c0) ->
  a2 s sid' r c -> a2 s' sid' r c.
Proof.
  unfold a2. intros -> Hpc (a' & Ha & Hr & Hp). exists a'. rewrite lookup_del_other; [tauto|]. intros ->. exact (Hpc _ Ha c Hp).
Qed.

(* ---- who owns the receivers ---- *)
Definition own_cur (s : sys) : Prop :=
  forall c id p, c < length (chans s) -> cursor (chan_at s c) id = Some p ->
    p <= tail (chan_at s c) /\ ((exists st, lookup (streams s) id = Some st /\ s_ch st = c) \/ (exists r, a2 s id r c)).
Definition own_stream (s : sys) : Prop :=
  forall sid st, lookup (streams s) sid = Some st ->
    s_ch st < length (chans s) /\ (exists p, cursor (chan_at s (s_ch st)) sid = Some p) /\ (s_rule st = None -> s_ch st = 0).
Definition own (s : sys) : Prop := own_cur s /\ own_stream s.

(* an id that stands for nothing has no receiver *)
Lemma own_no_cursor s c id : own s -> c < length (chans s) -> lookup (streams s) id = None -> (forall r c', ~ a2 s id r c') ->
  cursor (chan_at s c) id = None.
Proof.
  intros [Icur _] Hc Hn Hna. destruct (cursor (chan_at s c) id) as [p|] eqn:E; [|reflexivity].
  destruct (Icur _ _ _ Hc E) as [_ [(st & Hs & _)|(r & Ha)]]; [congruence | destruct (Hna _ _ Ha)].
Qed.
Lemma fresh_no_cursor s sid c : own s -> fresh s sid = true -> c < length (chans s) -> cursor (chan_at s c) sid = None.
Proof. intros O Hf Hc. apply fresh_spec in Hf. destruct Hf as (Hn1 & Hn2 & _). apply own_no_cursor; try assumption. now apply no_a2_none. Qed.

(* steps that move no cursor and touch neither the stream table nor the calls in A2 *)
Lemma own_frame s s' : own s -> length (chans s') = length (chans s) ->
  (forall c id, c < length (chans s) -> cursor (chan_at s' c) id = cursor (chan_at s c) id /\ tail (chan_at s c) <= tail (chan_at s' c)) ->
  streams s' = streams s -> (forall sid r c, a2 s sid r c -> a2 s' sid r c) -> own s'.
Proof.
  intros [Icur Istr] Hlen Hch Hst Ha2. split.
  - intros c id p Hc Hcur. rewrite Hlen in Hc. destruct (Hch c id Hc) as [E Ht]. rewrite E in Hcur.
    destruct (Icur _ _ _ Hc Hcur) as [Hp Ho]. split; [lia|]. rewrite Hst. destruct Ho as [Ho|(r & Ho)]; [now left | right; eauto].
  - intros sid st Hl. rewrite Hst in Hl. destruct (Istr _ _ Hl) as (Hc & (p & Hp) & Hn). rewrite Hlen. split; [assumption|]. split; [|assumption].
    exists p. now rewrite (proj1 (Hch _ sid Hc)).
Qed.

Lemma own_soc s s' : own s -> length (chans s') = length (chans s) -> (forall c, same_or_closed (chan_at s c) (chan_at s' c)) ->
  streams s' = streams s -> adds s' = adds s -> own s'.
Proof.
  intros O El Hch Es Ea. apply (own_frame s); try assumption.
  - intros c id _. rewrite (soc_cursor _ _ id (Hch c)), (soc_tail _ _ (Hch c)). split; [reflexivity | lia].
  - intros sid r c. now apply a2_ext.
Qed.

Lemma own_rm_apply s r s1 o : rm_apply s r = (s1, o) -> own s -> own s1.
Proof.
  intros H O. pose proof (fun c => rm_apply_chan _ _ _ _ c H) as Hch. rm_tables. now apply (own_soc s).
Qed.
Lemma own_rm_sender s r : own s -> own (rm_sender s r).
Proof. intros O. apply (own_soc s); [assumption | apply length_chans_rm | intros c; apply rm_sender_chan | apply streams_rm | apply adds_rm]. Qed.

Lemma own_bury s sid st : own s -> lookup (streams s) sid = Some st -> own (bury s sid st).
Proof.
  intros [Icur Istr] Hl. destruct (Istr _ _ Hl) as (Hc & _ & _).
  pose proof (chan_at_upd s (bury s sid st) _ _ eq_refl Hc) as Hat. split.
  - intros c id p Hlt Hcur. rewrite chans_bury, length_upd in Hlt. rewrite streams_bury, Hat in *.
    assert (Hown : id <> sid \/ c <> s_ch st -> (exists st', lookup (streams s) id = Some st' /\ s_ch st' = c) \/ (exists r, a2 s id r c) ->
                   (exists st', lookup (del (streams s) sid) id = Some st' /\ s_ch st' = c) \/ (exists r, a2 (bury s sid st) id r c)).
    { intros Hne [(st' & Hs' & Hc')|Ha]; [left | now right]. exists st'. split; [|assumption].
      rewrite lookup_del_other; [assumption|]. intros ->. rewrite Hl in Hs'. inversion Hs'; subst. tauto. }
    destruct (Nat.eqb_spec c (s_ch st)) as [->|Hne].
    + destruct (Nat.eq_dec id sid) as [->|Hid]; [now rewrite cursor_drop_same in Hcur|].
      rewrite cursor_drop_other in Hcur by assumption. destruct (Icur _ _ _ Hlt Hcur) as [Hp Ho]. split; [exact Hp | apply Hown; [now left | exact Ho]].
    + destruct (Icur _ _ _ Hlt Hcur) as [Hp Ho]. split; [exact Hp | apply Hown; [now right | exact Ho]].
  - intros sid' st' Hl'. rewrite streams_bury in Hl'. rewrite chans_bury, length_upd, Hat.
    destruct (Nat.eq_dec sid' sid) as [->|Hid]; [now rewrite lookup_del_same in Hl'|].
    rewrite lookup_del_other in Hl' by assumption. destruct (Istr _ _ Hl') as (Hc' & (p & Hp) & Hn).
    split; [assumption|]. split; [|assumption]. exists p. destruct (Nat.eqb_spec (s_ch st') (s_ch st)) as [E|_]; [|assumption].
    rewrite cursor_drop_other by assumption. now rewrite <- E.
Qed.

(* the receiver of [sid] on channel [c] is new, or moves, and belongs to the stream record put under [sid] *)
Lemma own_put s s' sid c x q stn : own s -> c < length (chans s) -> chans s' = upd (chans s) c x -> streams s' = put (streams s) sid stn ->
  s_ch stn = c -> (s_rule stn = None -> c = 0) ->
  (forall id, id <> sid -> cursor x id = cursor (chan_at s c) id) -> cursor x sid = Some q -> q <= tail x -> tail x = tail (chan_at s c) ->
  (forall st, lookup (streams s) sid = Some st -> s_ch st = c) -> (forall r c', a2 s sid r c' -> c' = c) ->
  (forall sid' r' c', sid' <> sid -> a2 s sid' r' c' -> a2 s' sid' r' c') ->
  own s'.
Proof.
  intros [Icur Istr] Hc Ech Estr Hch Hr0 Hoth Hsid Hq Htail Hst Ha Ha2. pose proof (chan_at_upd s s' c x Ech Hc) as Hat.
  assert (Hlen : length (chans s') = length (chans s)) by (rewrite Ech; apply length_upd).
  assert (Hown : forall id c', id <> sid -> (exists st, lookup (streams s) id = Some st /\ s_ch st = c') \/ (exists r, a2 s id r c') ->
                   (exists st, lookup (streams s') id = Some st /\ s_ch st = c') \/ (exists r, a2 s' id r c')).
  { intros id c' Hid [(st' & Hs' & Hc')|(r' & Ha')]; [left; exists st'; now rewrite Estr, lookup_put_other | right; exists r'; now apply Ha2]. }
  split.
  - intros c' id p Hlt Hcur. rewrite Hlen in Hlt. rewrite Hat in *. destruct (Nat.eqb_spec c' c) as [->|Hne].
    + destruct (Nat.eq_dec id sid) as [->|Hid].
      * rewrite Hsid in Hcur. inversion Hcur; subst p. split; [exact Hq|]. left. exists stn. now rewrite Estr, lookup_put_same.
      * rewrite (Hoth _ Hid) in Hcur. rewrite Htail. destruct (Icur _ _ _ Hlt Hcur) as [Hp Ho]. split; [exact Hp | now apply Hown].
    + destruct (Icur _ _ _ Hlt Hcur) as [Hp Ho]. split; [exact Hp|]. apply Hown; [|exact Ho].
      intros ->. destruct Ho as [(st' & Hs' & Hc')|(r' & Ha')]; [rewrite (Hst _ Hs') in Hc' | apply Ha in Ha']; congruence.
  - intros sid' st' Hl'. rewrite Estr in Hl'. rewrite Hlen, Hat. destruct (Nat.eq_dec sid' sid) as [->|Hne].
    + rewrite lookup_put_same in Hl'. inversion Hl'; subst st'. rewrite Hch, Nat.eqb_refl. eauto.
    + rewrite lookup_put_other in Hl' by assumption. destruct (Istr _ _ Hl') as (Hc' & (p & Hp) & Hn). split; [assumption|]. split; [|assumption].
      destruct (Nat.eqb_spec (s_ch st') c) as [E|_]; [|eauto]. rewrite Hoth by assumption. rewrite <- E. eauto.
Qed.

(* ---- a registered channel that is closed has no receiver and belongs to no subscription ---- *)
Definition closed_ok (s : sys) : Prop :=
  forall k c, In (k, c) (senders s) -> closed (chan_at s c) = true ->
    2 <= c /\ rcv (chan_at s c) = [] /\ (forall r e, lookup (subs s) r = Some e -> e_ch e <> c).

Lemma closed_bury s sid st : closed_ok s -> own_stream s -> lookup (streams s) sid = Some st -> closed_ok (bury s sid st).
Proof.
  intros Hc Hos Hl k c Hin Hcl. destruct (Hos _ _ Hl) as (Hlt & (p & Hp) & _).
  change (senders (bury s sid st)) with (senders s) in Hin. change (subs (bury s sid st)) with (subs s).
  autorewrite with chat in *. destruct (Nat.eq_dec c (s_ch st)) as [->|Hne].
  - rewrite chan_at_set_same in * by assumption. rewrite closed_drop in Hcl. destruct (Hc _ _ Hin Hcl) as (_ & Hr & _).
    exfalso. eapply cursor_some_rcv; eassumption.
  - rewrite chan_at_set_other in * by assumption. exact (Hc _ _ Hin Hcl).
Qed.

(* a channel whose receivers or capacity change, but not its closed flag *)
Lemma closed_upd s c x : closed_ok s -> c < length (chans s) -> closed x = closed (chan_at s c) ->
  (closed (chan_at s c) = true -> forall k, In (k, c) (senders s) -> False) ->
  forall s', chans s' = upd (chans s) c x -> senders s' = senders s -> (forall r e', lookup (subs s') r = Some e' -> exists e, lookup (subs s) r = Some e /\ e_ch e' = e_ch e) ->
  closed_ok s'.
Proof.
  intros Hc Hlt Hx Hno s' Ech Esnd Esub k c0 Hin Hcl. rewrite Esnd in Hin. pose proof (chan_at_upd s s' c x Ech Hlt c0) as Hat.
  rewrite Hat in *. destruct (Nat.eqb c0 c) eqn:E.
  - apply Nat.eqb_eq in E. subst c0. rewrite Hx in Hcl. destruct (Hno Hcl _ Hin).
  - destruct (Hc _ _ Hin Hcl) as (H2 & Hr & He). split; [assumption|]. split; [assumption|]. intros r e' He'. destruct (Esub _ _ He') as (e & He0 & Hch). rewrite Hch. eauto.
Qed.

Lemma closed_same s s' : closed_ok s -> chans s' = chans s -> senders s' = senders s ->
  (forall r e', lookup (subs s') r = Some e' -> exists e, lookup (subs s) r = Some e /\ e_ch e' = e_ch e) -> closed_ok s'.
Proof.
  intros Hc Ech Esnd Esub k c Hin Hcl. rewrite Esnd in Hin. unfold chan_at in *. rewrite Ech in *.
  destruct (Hc _ _ Hin Hcl) as (H2 & Hr & He). split; [assumption|]. split; [assumption|]. intros r e' He'.
  destruct (Esub _ _ He') as (e & He0 & Hch). rewrite Hch. eauto.
Qed.

Lemma chan_of_key_in l k c : chan_of_key l k = Some c -> In (k, c) l.
Proof.
  unfold chan_of_key. destruct (find (fun p => key_eqb (fst p) k) l) as [[k' c']|] eqn:E; [|discriminate]. cbn. intros H; inversion H; subst.
  apply find_some in E. destruct E as [Hin Hk]. cbn in Hk. apply key_eqb_eq in Hk. now subst.
Qed.

Section G2.
Variable matches : nat -> msg -> bool.
Notation tstep := (Steps.tstep matches).
Notation Inv := (Inv.Inv matches).
Notation targets := (Model.targets matches).
Notation key_matches := (Model.key_matches matches).

(* ---- the last message read is the last of `incoming` ---- *)
Lemma g_last_step s l s' : tstep s l s' -> Inv s ->
  forall m, reader s' = RHave (IMsg m) \/ (exists todo, reader s' = RPush (IMsg m) todo) -> exists pre, incoming s' = pre ++ [m].
Proof.
  intros Hs I m. pose proof (inv_last _ _ I m) as Hold.
  destruct Hs; try exact Hold; try (rm_eq; exact Hold); try (rewrite rm_sender_eq; exact Hold); intros Hrd; simp.
  - (* read *) destruct Hrd as [E|(todo & E)]; [inversion E; subst; eauto | discriminate].
  - destruct Hrd as [E|(todo & E)]; discriminate.
  - (* fan *) destruct Hrd as [E|(todo' & E)]; [discriminate|]. inversion E; subst. apply Hold. now left.
  - (* push *) destruct Hrd as [E|(todo' & E)]; [discriminate|]. inversion E; subst. apply Hold. right. eauto.
  - destruct Hrd as [E|(todo' & E)]; [discriminate|]. inversion E; subst. apply Hold. right. eauto.
  - destruct Hrd as [E|(todo' & E)]; discriminate.
  - destruct Hrd as [E|(todo' & E)]; discriminate.
Qed.

(* ---- the channels a message has to go to are pairwise different ---- *)
Lemma targets_in senders it c : In c (targets senders it) -> exists k, In (k, c) senders /\ key_matches k it = true.
Proof.
  unfold Model.targets. intros H. apply in_map_iff in H. destruct H as ([k c'] & E & H). cbn in E. subst c'.
  apply filter_In in H. exists k. tauto.
Qed.

Lemma targets_nodup s m : Inv s -> NoDup (targets (senders s) (IMsg m)).
Proof.
  intros I. pose proof (inv_keys _ _ I) as Hk. pose proof (inv_shape _ _ I) as Hsh. pose proof (inv_inj _ _ I) as Hinj.
  unfold Model.targets.
  assert (G : forall l, NoDup (map fst l) -> (forall k c, In (k, c) l -> In (k, c) (senders s)) ->
                NoDup (map snd (filter (fun p => key_matches (fst p) (IMsg m)) l))).
  { induction l as [|[k c] l IH]; intros Hnd Hsub; cbn [filter map fst snd]; [constructor|]. inversion Hnd as [|? ? H1 Hnd']; subst.
    assert (IH' := IH Hnd' (fun k0 c0 H => Hsub k0 c0 (or_intror H))).
    destruct (key_matches k (IMsg m)) eqn:Em; [|exact IH']. cbn [filter map fst snd]. constructor; [|exact IH'].
    intros Hin. apply in_map_iff in Hin. destruct Hin as ([k' c'] & Ec & Hin). cbn in Ec. subst c'. apply filter_In in Hin.
    destruct Hin as [Hin Em']. cbn in Em'. apply H1. apply in_map_iff. exists (k', c). split; [|assumption]. cbn.
    pose proof (Hsub k c (or_introl eq_refl)) as Hkc. pose proof (Hsub k' c (or_intror Hin)) as Hkc'.
    destruct (Hsh _ _ Hkc) as [_ S1]. destruct (Hsh _ _ Hkc') as [_ S2].
    destruct k, k'; try reflexivity; try lia; cbn in Em, Em'.
    - destruct (m_type m); discriminate.
    - destruct (m_type m); discriminate.
    - f_equal. eapply Hinj; eassumption. }
  apply G; [assumption | tauto].
Qed.

Lemma g_todo_step s l s' : tstep s l s' -> Inv s -> forall it todo, reader s' = RPush it todo ->
  (forall c, In c todo -> exists k, In (k, c) (senders s') /\ key_matches k it = true) /\ (forall m, it = IMsg m -> NoDup todo).
Proof.
  intros Hs I it0 todo0. pose proof (inv_todo _ _ I) as Hold.
  assert (Hheld : forall it t, reader s = RPush it t -> senders_held s = false -> False).
  { intros it t E. unfold senders_held. rewrite E. discriminate. }
  destruct Hs; try exact (Hold it0 todo0); try (rm_eq; exact (Hold it0 todo0)); intros Hrd; simp; try discriminate;
    try (exfalso; eapply Hheld; eassumption).
  - (* fan *) inversion Hrd; subst. apply is_perm_spec in H0. split.
    + intros c Hc. apply targets_in. eapply Permutation_in; eassumption.
    + intros m ->. eapply Permutation_NoDup; [symmetry; eassumption | now apply targets_nodup].
  - (* push *) inversion Hrd; subst. destruct (Hold _ _ H) as [H1 H2]. split.
    + intros c0 Hc0. apply H1. now right.
    + intros m ->. specialize (H2 m eq_refl). now inversion H2.
  - inversion Hrd; subst. destruct (Hold _ _ H) as [H1 H2]. split.
    + intros c0 Hc0. apply H1. now right.
    + intros m ->. specialize (H2 m eq_refl). now inversion H2.
Qed.

Lemma Inv_own s : Inv s -> own s.
Proof. intros I. split; [exact (inv_cur _ _ I) | exact (inv_stream _ _ I)]. Qed.

Lemma g_own_step s l s' : tstep s l s' -> Inv s -> own s'.
Proof.
  intros Hs I. pose proof (Inv_own _ I) as O. pose proof (inv_len _ _ I) as Hlen2.
  assert (Hsame : forall s1, chans s1 = chans s -> streams s1 = streams s -> (forall sid r c, a2 s sid r c -> a2 s1 sid r c) -> own s1).
  { intros s1 Ec Es Ha. apply (own_frame s); try assumption; [now rewrite Ec|]. intros c id _. unfold chan_at. rewrite Ec. split; [reflexivity | lia]. }
  (* a call that is not in A2 *)
  assert (Hpc : forall sid a, lookup (adds s) sid = Some a -> (forall c, a_pc a <> A2 c) ->
                  forall a0, lookup (adds s) sid = Some a0 -> forall c0, a_pc a0 <> A2 c0).
  { intros sid a Ha Hp a0 Ha0. rewrite Ha in Ha0. inversion Ha0; subst. exact Hp. }
  pose proof (fun sid c => fresh_no_cursor s sid c O) as Hfresh.
  destruct Hs; try exact O; try exact (own_bury s sid st O (proj1 H));
    try match goal with Hr : rm_apply _ _ = _ |- _ => exact (own_rm_apply _ _ _ _ Hr O) end.
  - (* push *) apply try_push_pushed in H0. destruct H0 as (Hl & Hr & _). apply (own_frame s); try assumption; try reflexivity; try tauto.
    + apply length_upd.
    + intros c0 id Hc0. change (chan_at (with_reader (set_chan s c ch') (RPush it todo)) c0) with (chan_at (set_chan s c ch') c0).
      destruct (Nat.eq_dec c0 c) as [->|Hne]; [|rewrite chan_at_set_other by assumption; split; [reflexivity | lia]].
      rewrite chan_at_set_same by assumption. unfold cursor, tail. rewrite Hr, Hl, app_length. split; [reflexivity | lia].
  - (* next, failure *) apply (own_soc s); try reflexivity; [exact O | apply length_close_all | apply close_all_chan].
  - (* add start *) apply Hsame; try reflexivity. intros sid' r' c'. eapply a2_fwd_put; [reflexivity|]. intros a0 Ha0.
    apply fresh_spec in H. destruct H as (_ & Hn & _). congruence.
  - apply Hsame; try reflexivity. intros sid' r' c'. eapply a2_fwd_del; [reflexivity|]. eapply Hpc; [eassumption | congruence].
  - apply Hsame; try reflexivity. intros sid' r' c'. eapply a2_fwd_put; [reflexivity|]. eapply Hpc; [eassumption | congruence].
  - (* occupied *) destruct (inv_entry _ _ I _ _ H2) as [_ Hc]. pose proof (inv_ids _ _ I _ _ H) as Hn.
    assert (Hna : forall r' c', ~ a2 s sid r' c') by (eapply no_a2_pc; [eassumption | congruence]).
    pose proof (own_no_cursor s c sid O Hc Hn Hna) as Hnc.
    eapply (own_put s _ sid c (subscribe sid ch1) (tail ch1)); try exact O; try reflexivity; try assumption; try discriminate.
    + intros id Hid. rewrite cursor_subscribe. replace (cursor ch1 id) with (cursor (chan_at s c) id) by (unfold ch1; now destruct (a_q a)).
      destruct (cursor (chan_at s c) id); [reflexivity|]. now rewrite (proj2 (Nat.eqb_neq sid id)) by congruence.
    + rewrite cursor_subscribe. replace (cursor ch1 sid) with (cursor (chan_at s c) sid) by (unfold ch1; now destruct (a_q a)).
      now rewrite Hnc, Nat.eqb_refl.
    + unfold ch1. now destruct (a_q a).
    + congruence.
    + intros r' c' Ha'. destruct (Hna _ _ Ha').
    + intros sid' r' c' _. eapply a2_fwd_del; [reflexivity|]. eapply Hpc; [eassumption | congruence].
  - (* vacant *) destruct O as [Icur Istr]. subst c capacity s1 s2. split.
    + intros c id p Hlt Hcur. tsimp. rewrite app_length in Hlt. cbn [length] in Hlt. autorewrite with chat in *.
      destruct (Nat.eq_dec c (length (chans s))) as [->|Hne].
      * rewrite chan_at_app_new in *. unfold cursor, subscribe, with_rcv, new_chan in Hcur. cbn in Hcur.
        destruct (Nat.eqb sid id) eqn:E; [|discriminate]. apply Nat.eqb_eq in E. subst id. inversion Hcur; subst p. split; [lia|].
        right. exists (a_rule a), (add_at a (A2 (length (chans s)))). tsimp. now rewrite lookup_put_same.
      * assert (Hc' : c < length (chans s)) by lia. rewrite chan_at_app_old in * by assumption. destruct (Icur _ _ _ Hc' Hcur) as [Hp Ho]. split; [exact Hp|].
        destruct Ho as [Ho|(r' & Ha)]; [now left | right]. exists r'. revert Ha. eapply a2_fwd_put; [reflexivity|].
        eapply Hpc; [eassumption | congruence].
    + intros sid' st' Hl'. tsimp. destruct (Istr _ _ Hl') as (Hc' & (p & Hp) & Hn). rewrite app_length. cbn [length]. split; [lia|]. split; [|assumption].
      autorewrite with chat. rewrite chan_at_app_old by assumption. eauto.
  - (* add sender: the call's receiver passes to the stream *)
    assert (Hme : a2 s sid (a_rule a) c) by (exists a; tauto).
    destruct (inv_a2 _ _ I _ _ _ Hme) as (_ & _ & _ & _ & Hcur0 & [_ Hc] & _).
    eapply (own_put s _ sid c (chan_at s c) 0); try exact O; try reflexivity; try assumption; try discriminate; try lia.
    + symmetry. apply upd_nth.
    + intros st Hst. pose proof (inv_ids _ _ I _ _ H). congruence.
    + intros r' c' (a' & Ha' & _ & Hp'). rewrite H in Ha'. inversion Ha'; subst a'. congruence.
    + intros sid' r' c' Hne (a' & Ha' & Hx). exists a'. tsimp. now rewrite lookup_del_other.
  - (* unfiltered *) assert (Hc : 0 < length (chans s)) by lia.
    eapply (own_put s _ sid 0 (subscribe sid (chan_at s 0)) (tail (chan_at s 0))); try exact O; try reflexivity; try assumption.
    + intros id Hid. rewrite cursor_subscribe. destruct (cursor (chan_at s 0) id); [reflexivity|]. now rewrite (proj2 (Nat.eqb_neq sid id)) by congruence.
    + now rewrite cursor_subscribe, Hfresh, Nat.eqb_refl.
    + intros st Hst. apply fresh_spec in H. destruct H; congruence.
    + intros r' c' Ha'. apply fresh_spec in H. destruct H as (_ & Hn & _). destruct (no_a2_none _ _ Hn _ _ Ha').
    + intros sid' r' c' _ Ha'. exact Ha'.
  - (* poll *) destruct H as [Hl Hd]. apply try_recv_got in H0. destruct H0 as (p0 & Hc0 & Hn0 & Hlog & _ & Hci & Hco).
    destruct (proj2 O _ _ Hl) as (Hc & _ & Hnone).
    eapply (own_put s _ sid (s_ch st) ch' (S p0)); try exact O; try reflexivity; try assumption.
    + unfold tail. rewrite Hlog. apply nth_error_Some. congruence.
    + unfold tail. now rewrite Hlog.
    + congruence.
    + intros r' c' (a' & Ha' & _). pose proof (inv_ids _ _ I _ _ Ha'). congruence.
    + intros sid' r' c' _ Ha'. exact Ha'.
  - (* clone *) destruct H as [Hl Hd]. destruct (proj2 O _ _ Hl) as (Hc & (p0 & Hp0) & Hnone). destruct (proj1 O _ _ _ Hc Hp0) as [Hle _].
    pose proof (Hfresh _ _ H0 Hc) as Hnc.
    eapply (own_put s _ sid2 (s_ch st) (clone_rcv sid sid2 (chan_at s (s_ch st))) p0); try exact O; try reflexivity; try assumption.
    + intros id Hid. rewrite cursor_clone. destruct (cursor (chan_at s (s_ch st)) id); [reflexivity|]. now rewrite (proj2 (Nat.eqb_neq sid2 id)) by congruence.
    + now rewrite cursor_clone, Hnc, Nat.eqb_refl.
    + unfold tail. now rewrite log_clone.
    + unfold tail. now rewrite log_clone.
    + intros st0 Hst. apply fresh_spec in H0. destruct H0; congruence.
    + intros r' c' Ha'. apply fresh_spec in H0. destruct H0 as (_ & Hn & _). destruct (no_a2_none _ _ Hn _ _ Ha').
    + intros sid' r' c' _ Ha'. exact Ha'.
  - (* set capacity *) apply (own_soc s); try reflexivity; [exact O | apply length_upd|]. intros c. apply soc_set, soc_grow.
  - (* async drop, subs step *) apply own_bury; [eapply own_rm_apply; [eassumption | exact O]|].
    destruct (rm_apply_frame _ _ _ _ H3) as (_ & -> & _). exact H.
  - (* async drop, sender step *) apply own_bury; [now apply own_rm_sender | now rewrite streams_rm].
  - now apply own_rm_sender.
  - (* add sender, failed: the call's receiver goes, nothing else is touched *)
    destruct O as [Icur Istr]. assert (Hme : a2 s sid (a_rule a) c) by (exists a; tauto).
    destruct (inv_a2 _ _ I _ _ _ Hme) as (_ & _ & _ & _ & Hcur0 & [Hc2 Hclt] & Hnost).
    pose proof (chan_at_upd s (with_adds (with_subs (set_chan s c (drop_rcv sid (chan_at s c))) (del (subs s) (a_rule a))) (del (adds s) sid)) _ _ eq_refl Hclt) as Hat.
    split.
    + intros c' id p Hlt Hcur. rewrite Hat in *. tsimp. rewrite chans_set_chan, length_upd in Hlt.
      assert (Hone : forall r', a2 s id r' c' -> id = sid /\ c' = c).
      { intros r' Ha. pose proof (inv_a2_uniq _ _ I _ _ _ _ _ _ Ha Hme) as ->. destruct Ha as (a' & Ha' & _ & Hp').
        rewrite H in Ha'. inversion Ha'; subst a'. split; congruence. }
      destruct (Nat.eqb_spec c' c) as [->|Hne].
      * destruct (Nat.eq_dec id sid) as [->|Hid]; [now rewrite cursor_drop_same in Hcur|]. rewrite cursor_drop_other in Hcur by assumption.
        destruct (Icur _ _ _ Hlt Hcur) as [Hp [Ho|(r' & Ha)]]; [now split; [|left] | destruct (Hone _ Ha); contradiction].
      * destruct (Icur _ _ _ Hlt Hcur) as [Hp [Ho|(r' & Ha)]]; [now split; [|left] | destruct (Hone _ Ha); contradiction].
    + intros sid' st' Hl'. rewrite Hat. tsimp. rewrite chans_set_chan, length_upd. destruct (Istr _ _ Hl') as (Hc' & Hp & Hn).
      rewrite (proj2 (Nat.eqb_neq _ _) (Hnost _ _ Hl')). auto.
Qed.

(* ---- a call in A2 keeps its fresh channel to itself ---- *)
Lemma g_a2_step s l s' : tstep s l s' -> Inv s -> forall sid r c, a2 s' sid r c -> a2_facts s' sid r c.
Proof.
  intros Hs I sid0 r0 c0 Ha'. destruct (a2_step _ _ _ _ Hs I) as [Hback|(_ & sid1 & Hnew)]; [|apply Hnew, Ha'].
  pose proof (Hback _ _ _ Ha') as Ha. pose proof (inv_a2 _ _ I _ _ _ Ha) as F. destruct F as (F1 & F2 & F3 & F4 & F5 & F6 & F7).
  (* one channel other than the call's changes, the tables stay *)
  assert (Hupd : forall s1 c x, c <> c0 -> chans s1 = upd (chans s) c x -> subs s1 = subs s -> senders s1 = senders s ->
                   (forall sid' st', lookup (streams s1) sid' = Some st' -> s_ch st' <> c0) -> a2_facts s1 sid0 r0 c0).
  { intros s1 c x Hne Ec Esub Esnd Hstr. unfold a2_facts, chan_at. rewrite Ec, Esub, Esnd, length_upd, nth_upd_other by congruence.
    repeat split; try assumption; lia. }
  assert (Hputs : forall sid st', s_ch st' <> c0 -> forall sid' st'', lookup (put (streams s) sid st') sid' = Some st'' -> s_ch st'' <> c0).
  { intros sid st' Hne sid' st'' Hl. destruct (Nat.eq_dec sid' sid) as [->|Hid]; [rewrite lookup_put_same in Hl; now inversion Hl; subst|].
    rewrite lookup_put_other in Hl by assumption. eauto. }
  assert (Hdels : forall sid sid' st', lookup (del (streams s) sid) sid' = Some st' -> s_ch st' <> c0).
  { intros sid sid' st' Hl. apply lookup_del_some in Hl. eauto. }
  destruct Hs; try exact (conj F1 (conj F2 (conj F3 (conj F4 (conj F5 (conj F6 F7))))));
    try (exfalso; eapply not_busy_a2; eassumption);
    try (apply (Hupd _ (s_ch st) (drop_rcv sid (chan_at s (s_ch st)))); try reflexivity; [apply (F7 sid), H | apply Hdels]).
  - (* push: not to an unregistered channel *)
    destruct (inv_todo _ _ I _ _ H) as [Htd _]. destruct (Htd c (or_introl eq_refl)) as (k & Hk & _).
    apply (Hupd _ c ch'); try reflexivity; [intros ->; exact (F2 _ Hk) | exact F7].
  - (* next, failure: only registered channels are closed *)
    unfold a2_facts. tsimp. autorewrite with chat. rewrite length_close_all, chan_at_close_all by apply F6.
    replace (mem_nat c0 (map snd (senders s))) with false; [repeat split; try assumption; apply F6 || intros k []|].
    symmetry. apply Bool.not_true_is_false. intros E. apply mem_nat_in, in_map_iff in E. destruct E as ([k c1] & <- & E). exact (F2 _ E).
  - (* add sender: the only call in A2 is over *) exfalso. eapply a2_del in Ha'; [|reflexivity]. destruct Ha' as [_ Hne]. apply Hne.
    eapply (inv_a2_uniq _ _ I); [exact Ha | exists a; eauto].
  - (* unfiltered *) apply (Hupd _ 0 (subscribe sid (chan_at s 0))); try reflexivity; [lia|]. apply Hputs. cbn. lia.
  - (* poll *) apply (Hupd _ (s_ch st) ch'); try reflexivity; [apply (F7 sid), H | apply Hputs; exact (F7 sid st (proj1 H))].
  - (* clone *) apply (Hupd _ (s_ch st) (clone_rcv sid sid2 (chan_at s (s_ch st)))); try reflexivity; [apply (F7 sid), H | apply Hputs; exact (F7 sid st (proj1 H))].
  - (* set capacity *) apply (Hupd _ (s_ch st) (grow n (chan_at s (s_ch st)))); try reflexivity; [apply (F7 sid), H | exact F7].
  - (* the sender steps of remove_match are made by somebody who holds `subscriptions` *)
    exfalso. eapply (inv_excl _ _ I); [exact Ha | left; exists sid, st; eauto].
  - exfalso. eapply (inv_excl _ _ I); [exact Ha | right; eapply nth_error_In; eassumption].
  - (* add sender, failed *) exfalso. eapply a2_del in Ha'; [|reflexivity]. destruct Ha' as [_ Hne]. apply Hne.
    eapply (inv_a2_uniq _ _ I); [exact Ha | exists a; eauto].
Qed.

Lemma closed_rm_apply s r s1 o : Inv s -> rm_apply s r = (s1, o) -> closed_ok s1.
Proof.
  intros I H. pose proof (inv_closed _ _ I) as Hold. pose proof (rm_entry_back _ _ _ _ H) as Hback. apply rm_apply_spec in H. destruct H.
  - exact Hold.
  - eapply closed_same; [exact Hold | reflexivity | reflexivity | exact Hback].
  - eapply closed_same; [exact Hold | reflexivity | reflexivity | exact Hback].
  - (* the entry's channel has no receiver left: it closes *)
    destruct (inv_entry _ _ I _ _ H) as [He2 Helt]. intros k c Hin Hcl. cbn [senders set_chan with_chans with_subs] in Hin.
    cbn [subs set_chan with_chans with_subs]. destruct (Nat.eq_dec c (e_ch e)) as [->|Hne].
    + rewrite chan_at_set_same by assumption. split; [assumption|]. split; [now rewrite rcv_close|].
      intros r' e' He'. destruct (Nat.eq_dec r' r) as [->|Hne']; [now rewrite lookup_del_same in He'|]. rewrite lookup_del_other in He' by assumption.
      intros E. apply Hne'. eapply (inv_entry_inj _ _ I); eassumption.
    + rewrite chan_at_set_other in * by assumption. destruct (Hold _ _ Hin Hcl) as (H2' & Hr & He'). split; [assumption|]. split; [assumption|].
      intros r' e' Hl'. apply lookup_del_some in Hl'. eauto.
Qed.

Lemma closed_rm_sender s r : Inv s -> closed_ok (rm_sender s r).
Proof.
  intros I k c Hin Hcl. pose proof (inv_closed _ _ I) as Hold. rewrite senders_rm in Hin. rewrite subs_rm. apply in_del_key in Hin. destruct Hin as [Hin Hk].
  cbn in Hk. unfold rm_sender in Hcl |- *. destruct (chan_of_key (senders s) (KRule r)) as [c0|] eqn:E.
  - apply chan_of_key_in in E. assert (Hne : c <> c0).
    { intros ->. destruct (inv_shape _ _ I _ _ E) as [_ S0]. destruct (inv_shape _ _ I _ _ Hin) as [_ S1].
      destruct k; try lia. apply Hk. f_equal. eapply (inv_inj _ _ I); eassumption. }
    autorewrite with chat in *. rewrite chan_at_set_other in * by assumption. exact (Hold _ _ Hin Hcl).
  - autorewrite with chat in *. exact (Hold _ _ Hin Hcl).
Qed.

Lemma g_closed_step s l s' : tstep s l s' -> Inv s -> closed_ok s'.
Proof.
  intros Hs I. pose proof (inv_closed _ _ I) as Hold. pose proof (Inv_own _ I) as O. destruct (Inv_own _ I) as [Icur Istr].
  assert (Hnorcv : forall sid st, lookup (streams s) sid = Some st -> closed (chan_at s (s_ch st)) = true -> forall k, In (k, s_ch st) (senders s) -> False).
  { intros sid st Hl Hcl k Hin. destruct (Hold _ _ Hin Hcl) as (_ & Hr & _). destruct (Istr _ _ Hl) as (_ & (p & Hp) & _). eapply cursor_some_rcv; eassumption. }
  assert (Hsubs_same : forall r e', lookup (subs s) r = Some e' -> exists e, lookup (subs s) r = Some e /\ e_ch e' = e_ch e) by eauto.
  destruct Hs; try exact Hold; try exact (closed_bury s sid st Hold Istr (proj1 H));
    try match goal with Hr : rm_apply _ _ = _ |- _ => exact (closed_rm_apply _ _ _ _ I Hr) end.
  - (* push *) apply try_push_pushed in H0. destruct H0 as (_ & _ & _ & Hc1 & Hc2). destruct (inv_todo _ _ I _ _ H) as [Htd _].
    destruct (Htd c (or_introl eq_refl)) as (k0 & Hk0 & _). destruct (inv_shape _ _ I _ _ Hk0) as [Hlt _].
    apply (closed_upd s c ch' Hold Hlt); try reflexivity; [congruence | congruence | exact Hsubs_same].
  - (* next, failure *) intros k c0 [].
  - (* occupied *) destruct (inv_entry _ _ I _ _ H2) as [_ Hlt].
    apply (closed_upd s c (subscribe sid ch1) Hold Hlt); try reflexivity.
    + unfold ch1. now destruct (a_q a).
    + intros Hcl k Hin. destruct (Hold _ _ Hin Hcl) as (_ & _ & He). exact (He _ _ H2 eq_refl).
    + intros r' e' He'. tsimp. destruct (Nat.eq_dec r' (a_rule a)) as [->|Hne]; [rewrite lookup_put_same in He'; inversion He'; subst; eauto | rewrite lookup_put_other in He' by assumption; eauto].
  - (* vacant *) subst c capacity s1 s2. intros k c Hin Hcl. tsimp. destruct (inv_shape _ _ I _ _ Hin) as [Hlt _].
    autorewrite with chat in *. rewrite chan_at_app_old in * by assumption. destruct (Hold _ _ Hin Hcl) as (H2' & Hr & He). split; [assumption|]. split; [assumption|].
    intros r' e' He'. destruct (Nat.eq_dec r' (a_rule a)) as [->|Hne].
    + rewrite lookup_put_same in He'. inversion He'; subst. cbn. lia.
    + rewrite lookup_put_other in He' by assumption. eauto.
  - (* add sender *) intros k c0 Hin Hcl. tsimp. autorewrite with chat in *. apply in_app_iff in Hin. destruct Hin as [Hin|[Hin|[]]].
    + exact (Hold _ _ Hin Hcl).
    + inversion Hin; subst. destruct (inv_a2 _ _ I sid (a_rule a) c0) as (_ & _ & _ & Hop & _); [exists a; tauto | congruence].
  - (* unfiltered *) assert (Hlt : 0 < length (chans s)) by (pose proof (inv_len _ _ I); lia).
    apply (closed_upd s 0 (subscribe sid (chan_at s 0)) Hold Hlt); try reflexivity; [|exact Hsubs_same].
    intros Hcl k Hin. destruct (Hold _ _ Hin Hcl). lia.
  - (* poll *) destruct H as [Hl Hd]. apply try_recv_got in H0. destruct H0 as (p0 & _ & _ & _ & Hcl0 & _). destruct (Istr _ _ Hl) as (Hlt & _).
    apply (closed_upd s (s_ch st) ch' Hold Hlt Hcl0 (Hnorcv _ _ Hl)); [reflexivity | reflexivity | exact Hsubs_same].
  - (* clone *) destruct H as [Hl Hd]. destruct (Istr _ _ Hl) as (Hlt & _).
    apply (closed_upd s (s_ch st) (clone_rcv sid sid2 (chan_at s (s_ch st))) Hold Hlt (closed_clone _ _ _ _) (Hnorcv _ _ Hl)); [reflexivity | reflexivity | exact Hsubs_same].
  - (* set capacity *) destruct H as [Hl Hd]. destruct (Istr _ _ Hl) as (Hlt & _).
    apply (closed_upd s (s_ch st) (grow n (chan_at s (s_ch st))) Hold Hlt eq_refl (Hnorcv _ _ Hl)); [reflexivity | reflexivity | exact Hsubs_same].
  - (* async drop, subs step *) apply closed_bury; [exact (closed_rm_apply _ _ _ _ I H3) | exact (proj2 (own_rm_apply _ _ _ _ H3 O))|].
    destruct (rm_apply_frame _ _ _ _ H3) as (_ & -> & _). exact H.
  - (* async drop, sender step *) apply closed_bury; [exact (closed_rm_sender s r I) | exact (proj2 (own_rm_sender s r O)) | now rewrite streams_rm].
  - exact (closed_rm_sender s r I).
  - (* add sender, failed: no senders *) intros k c0 Hin. change (In (k, c0) (senders s)) in Hin. rewrite H2 in Hin. destruct Hin.
Qed.

End G2.
