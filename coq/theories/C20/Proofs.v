(* C20/Proofs.v — the invariant holds in every reachable state (Inv_reach), and what follows at once: delivery for a registered
   stream, the table `drops` stays empty, exec is inside reach.  reach_inv_ind is the induction the later files use. *)
From ZV Require Import Base.Bytes Base.Res C19.Broadcast C19.BroadcastFacts C20.Model C20.Lemmas C20.Steps C20.Inv C20.InvG1 C20.InvG2 C20.InvG3.
From Coq Require Import Lia Permutation.

(* the pre-fix async_drop transitions cannot fire when the table of such drops is empty (drops_nil below) *)
Ltac dead_drop Hd := exfalso; match goal with H : lookup (drops _) _ = Some _ |- _ => rewrite Hd in H; discriminate end.

Section Proofs.
Variable matches : nat -> msg -> bool.
Notation step := (Model.step matches).
Notation exec := (Model.exec matches).
Notation tstep := (Steps.tstep matches).
Notation Inv := (Inv.Inv matches).
Notation reach := (Model.reach matches).
Notation accepts := (Inv.accepts matches).

Theorem Inv_step s l s' : tstep s l s' -> Inv s -> Inv s'.
Proof.
  intros Hs I. pose proof (G1_step _ _ _ _ Hs I) as G. destruct (g_own_step _ _ _ _ Hs I) as [Oc Os].
  constructor.
  - apply G. - apply G. - apply G. - apply G. - apply G. - apply G. - apply G. - apply G. - apply G.
  - intros sid r c Ha. exact (g_a2_step _ _ _ _ Hs I sid r c Ha).
  - exact Oc.
  - exact Os.
  - apply G.
  - eapply g_todo_step; eassumption.
  - eapply g_last_step; eassumption.
  - eapply g_closed_step; eassumption.
  - apply G.
  - eapply g_from_step; eassumption.
  - intros sid st Hl. exact (g_deliv_step _ _ _ _ Hs I sid st Hl).
Qed.

Theorem Inv_init : Inv init.
Proof.
  constructor; unfold init; cbn [chans senders subs streams adds drops tasks reader socket incoming dead arcs].
  - cbn. lia.
  - cbn. repeat constructor; cbn; intuition discriminate.
  - intros k c [H|[H|[H|[]]]]; inversion H; subst; cbn; split; lia.
  - intros r r' c [H|[H|[H|[]]]]; discriminate.
  - intros r c [H|[H|[H|[]]]]; discriminate.
  - intros r e H. discriminate.
  - intros r r' e e' H. discriminate.
  - intros sid r c r' c' (a & Ha & _). discriminate.
  - intros sid r c sid' r' c' (a & Ha & _). discriminate.
  - intros sid r c (a & Ha & _). discriminate.
  - intros c id p Hc Hcur. unfold chan_at in Hcur. cbn in Hcur. destruct c as [|[|c]]; cbn in Hcur; try discriminate. cbn in Hc. lia.
  - intros sid st H. discriminate.
  - intros sid a H. discriminate.
  - intros it todo H. discriminate.
  - intros m [H|(todo & H)]; discriminate.
  - intros k c Hin Hcl. exfalso. destruct Hin as [H|[H|[H|[]]]]; inversion H; subst; unfold chan_at in Hcl; cbn in Hcl; discriminate.
  - intros sid pc H. discriminate.
  - intros sid st H. discriminate.
  - intros sid st H. discriminate.
Qed.

Theorem Inv_reach tr s : reach tr s -> Inv s.
Proof.
  induction 1 as [|tr s l s' Hr IH Hs]; [exact Inv_init|]. eapply Inv_step; [apply step_tstep; eassumption | assumption].
Qed.

(* ------------------------------------------------------------------ C20_delivery: the equation, for every stream whose channel
   is registered under the stream's rule *)
Theorem delivery tr s sid st : reach tr s -> lookup (streams s) sid = Some st -> In (skey st, s_ch st) (senders s) ->
  msgs (s_got st) ++ msgs (unread (chan_at s (s_ch st)) sid) =
  filter (accepts (skey st)) (skipn (s_from st) (firstn (seen s (s_ch st)) (incoming s))).
Proof. intros Hr Hl Hreg. exact (inv_deliv _ _ (Inv_reach _ _ Hr) _ _ Hl Hreg). Qed.

(* when nothing is under way and the stream has been polled to the end, it has yielded exactly the matching messages read since
   it subscribed *)
Corollary delivery_quiescent tr s sid st : reach tr s -> lookup (streams s) sid = Some st -> In (skey st, s_ch st) (senders s) ->
  reader s = RIdle -> unread (chan_at s (s_ch st)) sid = [] ->
  msgs (s_got st) = filter (accepts (skey st)) (skipn (s_from st) (incoming s)).
Proof.
  intros Hr Hl Hreg Hrd Hu. pose proof (delivery _ _ _ _ Hr Hl Hreg) as H. rewrite Hu in H. cbn in H. rewrite app_nil_r in H.
  unfold seen, pending_on in H. rewrite Hrd, Nat.sub_0_r, firstn_all in H. exact H.
Qed.

(* ------------------------------------------------------------------ since fix 90a1ccff async_drop gives up its receiver before it
   calls remove_match: no stream is ever "being dropped asynchronously while still holding its receiver".  The table `drops` of the
   model (and the labels LDropSubs / LDropSender that work on it) described exactly that state; it stays empty for ever, the
   two labels are never enabled. *)
Lemma drops_step s l s' : tstep s l s' -> drops s = [] -> drops s' = [].
Proof.
  intros Hs Hd. destruct Hs; try exact Hd; try (rewrite Hd in *; discriminate).
  - pose proof (rm_apply_frame _ _ _ _ H1) as (_ & _ & _ & Edrp & _). cbn [drops with_tasks]. now rewrite Edrp.
  - pose proof (rm_apply_frame _ _ _ _ H1) as (_ & _ & _ & Edrp & _). cbn [drops with_tasks]. now rewrite Edrp.
  - cbn [drops with_tasks]. now rewrite drops_rm.
Qed.

Theorem drops_nil tr s : reach tr s -> drops s = [].
Proof. induction 1 as [|tr s l s' Hr IH Hs]; [reflexivity|]. eapply drops_step; [apply step_tstep; eassumption | assumption]. Qed.

(* induction over the reachable states, with what is known of each of them at hand *)
Lemma reach_inv_ind (P : sys -> Prop) : P init -> (forall s l s', tstep s l s' -> Inv s -> drops s = [] -> P s -> P s') ->
  forall tr s, reach tr s -> P s.
Proof.
  intros H0 HS tr s Hr. induction Hr as [|tr s l s' Hr IH Hs]; [exact H0|].
  apply (HS s l s'); [apply step_tstep; assumption | eapply Inv_reach; eassumption | eapply drops_nil; eassumption | assumption].
Qed.

Corollary async_drop_labels_dead tr s sid : reach tr s -> step (LDropSubs sid) s = None /\ step (LDropSender sid) s = None.
Proof.
  intros Hr. pose proof (drops_nil _ _ Hr) as Hd. unfold Model.step. rewrite Hd. cbn [lookup]. split; destruct (lookup (streams s) sid); reflexivity.
Qed.

Lemma exec_reach_gen : forall tr tr0 s0 s, reach tr0 s0 -> exec tr s0 = Some s -> reach (tr0 ++ tr) s.
Proof.
  induction tr as [|l tr IH]; intros tr0 s0 s Hr He; cbn [Model.exec] in He.
  - inversion He; subst. now rewrite app_nil_r.
  - destruct (step l s0) as [s1|] eqn:E; [|discriminate].
    replace (tr0 ++ l :: tr) with ((tr0 ++ [l]) ++ tr) by (now rewrite <- app_assoc).
    apply (IH _ s1); [econstructor; eassumption | assumption].
Qed.
Theorem exec_reach tr s : exec tr init = Some s -> reach tr s.
Proof. intros H. apply (exec_reach_gen tr [] init s); [constructor | assumption]. Qed.

End Proofs.
