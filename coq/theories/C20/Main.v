(* C20/Main.v — the theorems of C20 in the form in which Properties/C20.v states them. *)
From ZV Require Import Base.Bytes Base.Res C19.Broadcast C19.BroadcastFacts C20.Model C20.Lemmas C20.Steps C20.Inv C20.Proofs C20.Count
  C20.Arcs C20.Progress C20.Share C20.Examples.
From Coq Require Import Lia.

Section Main.
Variable matches : nat -> msg -> bool.
Notation reach := (Model.reach matches).
Notation step := (Model.step matches).

Theorem delivery_full tr s sid st : reach tr s -> lookup (streams s) sid = Some st -> reader s <> RStopped ->
  msgs (s_got st) ++ msgs (unread (chan_at s (s_ch st)) sid) =
  filter (accepts matches (skey st)) (skipn (s_from st) (firstn (seen s (s_ch st)) (incoming s))).
Proof. exact (delivery_all matches tr s sid st). Qed.

Theorem registered tr s sid st : reach tr s -> lookup (streams s) sid = Some st ->
  In (skey st, s_ch st) (senders s) \/ reader s = RStopped.
Proof. exact (registered_live matches tr s sid st). Qed.

Theorem delivery_full_quiescent tr s sid st : reach tr s -> lookup (streams s) sid = Some st ->
  reader s = RIdle -> unread (chan_at s (s_ch st)) sid = [] ->
  msgs (s_got st) = filter (accepts matches (skey st)) (skipn (s_from st) (incoming s)).
Proof.
  intros Hr Hl Hrd Hu. destruct (registered tr s sid st Hr Hl) as [Hreg|Hst]; [|congruence].
  exact (delivery_quiescent matches tr s sid st Hr Hl Hreg Hrd Hu).
Qed.

Theorem share_full tr s : reach tr s ->
  (forall r, match lookup (subs s) r with Some e => e_ref e = holders s r | None => holders s r = 0 end) /\
  (forall sid st r e, lookup (streams s) sid = Some st -> s_rule st = Some r -> lookup (subs s) r = Some e -> s_ch st = e_ch e) /\
  (forall sid st r, lookup (streams s) sid = Some st -> s_rule st = Some r ->
     exists i ms, idx_of (arcs s) sid = Some i /\ nth_error (arcs s) i = Some (r, ms)) /\
  (forall r ms sid, In (r, ms) (arcs s) -> In sid ms -> exists st, lookup (streams s) sid = Some st /\ s_rule st = Some r).
Proof.
  intros Hr. destruct (share_ok_reach matches tr s Hr) as (_ & G & _ & C & A). split; [exact C|]. split; [exact A|]. split.
  - intros sid st r. now apply grp_idx.
  - intros r ms sid Hin Hm. apply G. exists ms. tauto.
Qed.

(* back-pressure, at full strength: a reader waiting for room waits behind a stream that the application can poll *)
Theorem progress_full tr s it c todo : reach tr s -> reader s = RPush it (c :: todo) -> try_push it (chan_at s c) = PFull ->
  exists sid st s', lookup (streams s) sid = Some st /\ s_ch st = c /\ step (LPoll sid) s = Some s'.
Proof. intros Hr. apply (progress matches tr); [assumption|]. exact (drops_nil matches tr s Hr). Qed.

Theorem no_async_drop tr s sid : reach tr s -> drops s = [] /\ step (LDropSubs sid) s = None /\ step (LDropSender sid) s = None.
Proof. intros Hr. split; [exact (drops_nil matches tr s Hr) | exact (async_drop_labels_dead matches tr s sid Hr)]. Qed.

End Main.

(* ---- non-vacuity: a history with two rules and three messages, rule r matches the messages whose member is r ---- *)
Definition by_member : nat -> msg -> bool := fun r m => Nat.eqb (m_member m) r.
Definition sg (k mem : nat) : msg := {| m_id := k; m_type := TSignal; m_iface := 0; m_member := mem |}.
Definition ex_trace : list label :=
  [LAddStart 0 1 None; LAddCheck 0; LAddSubs 0; LAddSender 0;
   LArrive (IMsg (sg 1 1)); LArrive (IMsg (sg 2 0)); LArrive (IMsg (sg 3 1));
   LRead; LFan [0; 2]; LPush; LPush; LNext;
   LRead; LFan [0]; LPush; LNext;
   LAddStart 1 1 None; LAddCheck 1; LAddSubs 1;
   LRead; LFan [2; 0]; LPush; LPush; LNext;
   LPoll 0; LPoll 0; LPoll 1].
Definition ex_state : sys := match Model.exec by_member ex_trace init with Some s => s | None => init end.
Lemma ex_exec : Model.exec by_member ex_trace init = Some ex_state.
Proof. vm_compute. reflexivity. Qed.
Lemma ex_facts :
  Model.reach by_member ex_trace ex_state /\ reader ex_state = RIdle /\
  incoming ex_state = [sg 1 1; sg 2 0; sg 3 1] /\
  (exists st, lookup (streams ex_state) 0 = Some st /\ s_from st = 0 /\ s_got st = [IMsg (sg 1 1); IMsg (sg 3 1)]) /\
  (exists st, lookup (streams ex_state) 1 = Some st /\ s_from st = 2 /\ s_got st = [IMsg (sg 3 1)]) /\
  lookup (subs ex_state) 1 = Some {| e_ref := 2; e_ch := 2 |} /\ holders ex_state 1 = 2.
Proof.
  split; [apply exec_reach, ex_exec|]. vm_compute. repeat split; try reflexivity; eexists; repeat split; reflexivity.
Qed.

(* ---- the history that used to end in the async_drop deadlock (queue of 1 full, the reader waiting for room in it, then
   async_drop of that stream) now runs on: the drop releases the receiver, the reader's push goes ahead, remove_match completes ---- *)
Definition former_deadlock_trace : list label :=
  [LAddStart 0 0 (Some 1); LAddCheck 0; LAddSubs 0; LAddSender 0;
   LArrive (IMsg (sig 1)); LRead; LFan [0; 2]; LPush; LPush; LNext;
   LArrive (IMsg (sig 2)); LRead; LFan [0; 2]; LPush;
   LDropStart 0; LPush; LNext; LTaskSubs 0; LTaskSender 0].
Lemma former_deadlock_runs :
  exists s, Model.exec all_match former_deadlock_trace init = Some s /\ reader s = RIdle /\ tasks s = [] /\ subs s = [] /\
            subs_busy s = false /\ senders s = [(KAll, 0); (KRet, 1); (KErr, 1)].
Proof. eexists. split; [vm_compute; reflexivity|]. vm_compute. repeat split; reflexivity. Qed.
