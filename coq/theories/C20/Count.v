(* C20/Count.v — counting entries of association lists and plain lists (for the reference-count invariant). *)
From ZV Require Import Base.Bytes Base.Res C20.Model C20.Lemmas.
From Coq Require Import Lia.

Definition b2n (b : bool) : nat := if b then 1 else 0.
Definition cnt {A} (P : A -> bool) (l : list A) : nat := length (filter P l).

Lemma cnt_app {A} (P : A -> bool) l1 l2 : cnt P (l1 ++ l2) = cnt P l1 + cnt P l2.
Proof. unfold cnt. now rewrite filter_app, app_length. Qed.
Lemma cnt_one {A} (P : A -> bool) x : cnt P [x] = b2n (P x).
Proof. unfold cnt. cbn. now destruct (P x). Qed.
Lemma cnt_ext {A} (P Q : A -> bool) l : (forall x, In x l -> P x = Q x) -> cnt P l = cnt Q l.
Proof.
  unfold cnt. induction l as [|x l IH]; intros H; [reflexivity|]. cbn. rewrite (H x (or_introl eq_refl)).
  destruct (Q x); cbn; rewrite IH; auto; intros y Hy; apply H; now right.
Qed.
Lemma cnt_zero_iff {A} (P : A -> bool) l : cnt P l = 0 <-> forall x, In x l -> P x = false.
Proof.
  unfold cnt. induction l as [|x l IH]; cbn; [tauto|]. destruct (P x) eqn:E; cbn.
  - split; [discriminate|]. intros H. rewrite (H x (or_introl eq_refl)) in E. discriminate.
  - rewrite IH. split; [intros H y [->|Hy]; auto | intros H y Hy; apply H; now right].
Qed.
Lemma cnt_pos {A} (P : A -> bool) l x : In x l -> P x = true -> 1 <= cnt P l.
Proof.
  intros Hin Hp. destruct (cnt P l) eqn:E; [|lia]. rewrite cnt_zero_iff in E. rewrite (E _ Hin) in Hp. discriminate.
Qed.

(* ---- keyed lists ---- *)
Definition keys_nodup {A} (l : list (nat * A)) : Prop := NoDup (map fst l).

Lemma del_notin {A} (l : list (nat * A)) k : ~ In k (map fst l) -> del l k = l.
Proof.
  induction l as [|[i x] l IH]; cbn; intros H; [reflexivity|]. destruct (Nat.eqb i k) eqn:E.
  - apply Nat.eqb_eq in E. subst. tauto.
  - f_equal. apply IH. tauto.
Qed.
Lemma del_del {A} (l : list (nat * A)) k : del (del l k) k = del l k.
Proof. induction l as [|[i x] l IH]; cbn; [reflexivity|]. destruct (Nat.eqb i k) eqn:E; [exact IH|]. cbn. rewrite E. now rewrite IH. Qed.
Lemma del_app {A} (l1 l2 : list (nat * A)) k : del (l1 ++ l2) k = del l1 k ++ del l2 k.
Proof. induction l1 as [|[i x] l1 IH]; cbn; [reflexivity|]. destruct (Nat.eqb i k); [exact IH | cbn; now rewrite IH]. Qed.
Lemma del_put {A} (l : list (nat * A)) k x : del (put l k x) k = del l k.
Proof. unfold put. rewrite del_app, del_del. cbn. rewrite Nat.eqb_refl. apply app_nil_r. Qed.
Lemma keys_del {A} (l : list (nat * A)) k : keys_nodup l -> keys_nodup (del l k).
Proof.
  unfold keys_nodup. induction l as [|[i x] l IH]; cbn; intros H; [constructor|]. inversion H; subst.
  destruct (Nat.eqb i k); [now apply IH|]. cbn. constructor; [|now apply IH].
  intros Hin. apply H2. apply in_map_iff in Hin. destruct Hin as (p & E & Hp). apply in_del in Hp. apply in_map_iff. exists p. tauto.
Qed.
Lemma keys_put {A} (l : list (nat * A)) k x : keys_nodup l -> keys_nodup (put l k x).
Proof.
  intros H. unfold put, keys_nodup. rewrite map_app. cbn. apply NoDup_app_one; [now apply keys_del|].
  intros Hin. apply in_map_iff in Hin. destruct Hin as (p & E & Hp). apply in_del in Hp. tauto.
Qed.
Lemma lookup_none_notin {A} (l : list (nat * A)) k : lookup l k = None -> ~ In k (map fst l).
Proof.
  induction l as [|[i x] l IH]; cbn; [tauto|]. destruct (Nat.eqb i k) eqn:E; [discriminate|]. apply Nat.eqb_neq in E. intros H [H1|H1]; [congruence | now apply IH].
Qed.

Lemma cnt_split {A} (P : nat * A -> bool) (l : list (nat * A)) k : keys_nodup l ->
  cnt P l = cnt P (del l k) + match lookup l k with Some x => b2n (P (k, x)) | None => 0 end.
Proof.
  unfold keys_nodup, cnt. induction l as [|[i x] l IH]; cbn; intros H; [reflexivity|]. inversion H; subst.
  destruct (Nat.eqb i k) eqn:E.
  - apply Nat.eqb_eq in E. subst i. rewrite (del_notin l k H2). destruct (P (k, x)); cbn; lia.
  - cbn. specialize (IH H3). destruct (P (i, x)); cbn; lia.
Qed.
Lemma cnt_put {A} (P : nat * A -> bool) (l : list (nat * A)) k x : cnt P (put l k x) = cnt P (del l k) + b2n (P (k, x)).
Proof. unfold put. now rewrite cnt_app, cnt_one. Qed.

(* ---- plain lists ---- *)
Lemma cnt_del_nth {A} (P : A -> bool) (l : list A) n y : nth_error l n = Some y -> cnt P (del_nth l n) + b2n (P y) = cnt P l.
Proof.
  unfold cnt. revert n; induction l as [|a l IH]; intros [|n] H; cbn in *; try discriminate.
  - inversion H; subst. destruct (P y); cbn; lia.
  - specialize (IH _ H). destruct (P a); cbn; lia.
Qed.
Lemma cnt_upd {A} (P : A -> bool) (l : list A) n x y : nth_error l n = Some y -> cnt P (upd l n x) + b2n (P y) = cnt P l + b2n (P x).
Proof.
  unfold cnt. revert n; induction l as [|a l IH]; intros [|n] H; cbn in *; try discriminate.
  - inversion H; subst. destruct (P y), (P x); cbn; lia.
  - specialize (IH _ H). destruct (P a); cbn; lia.
Qed.
