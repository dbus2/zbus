(* C20/InvG3.v — preservation of the delivery equation: for every stream whose channel is registered in msg_senders,
   what it has yielded ++ what is queued for it = the matching messages among those decided for its channel since it
   subscribed. *)
From ZV Require Import Base.Bytes Base.Res C19.Broadcast C19.BroadcastFacts C20.Model C20.Lemmas C20.Steps C20.Inv C20.InvG1 C20.InvG2.
From Coq Require Import Lia Permutation.

Lemma msgs_app a b : msgs (a ++ b) = msgs a ++ msgs b.
Proof. unfold msgs. apply flat_map_app. Qed.

Lemma skipn_firstn_same {A} (l : list A) n : skipn n (firstn n l) = [].
Proof. revert l; induction n as [|n IH]; intros [|x l]; cbn; auto. Qed.

Lemma unread_soc (a b : chan item) id : same_or_closed a b -> unread b id = unread a id.
Proof. intros H. unfold unread. rewrite (soc_cursor _ _ id H), (soc_log _ _ H). reflexivity. Qed.

Lemma unread_at_tail (c : chan item) id : cursor c id = Some (tail c) -> unread c id = [].
Proof. intros H. unfold unread. rewrite H. unfold tail. apply skipn_all. Qed.

Lemma unread_step (c : chan item) id p x : cursor c id = Some p -> nth_error (log c) p = Some x ->
  unread c id = x :: skipn (S p) (log c).
Proof.
  intros Hc Hn. unfold unread. rewrite Hc. clear Hc. revert p Hn. generalize (log c). induction l as [|y l IH]; intros [|p] Hn; cbn in *; try discriminate.
  - now inversion Hn.
  - now apply IH.
Qed.

Lemma seen_eq s s' c : reader s' = reader s -> incoming s' = incoming s -> seen s' c = seen s c.
Proof. unfold seen, pending_on. intros -> ->. reflexivity. Qed.

Definition window_of (s : sys) (c from : nat) : list msg := skipn from (firstn (seen s c) (incoming s)).

Lemma window_eq s s' c from : reader s' = reader s -> incoming s' = incoming s -> window_of s' c from = window_of s c from.
Proof. intros Hr Hi. unfold window_of. now rewrite (seen_eq s s' c Hr Hi), Hi. Qed.

(* the last message read becomes decided for the channel *)
Lemma window_decided s s' c from m : (exists pre, incoming s = pre ++ [m]) -> incoming s' = incoming s ->
  pending_on s c = true -> pending_on s' c = false -> from <= seen s c -> window_of s' c from = window_of s c from ++ [m].
Proof.
  intros (pre & Hi) Hi' Hp Hp'. unfold window_of, seen. rewrite Hp, Hp', Hi', Hi, app_length, Nat.sub_0_r, Nat.add_sub. cbn [length]. intros Hf.
  change (length pre + 1) with (length pre + length [m]). rewrite <- app_length, firstn_all, firstn_app, firstn_all, Nat.sub_diag. cbn [firstn].
  rewrite app_nil_r, skipn_app. replace (from - length pre) with 0 by lia. reflexivity.
Qed.

Lemma window_new s s' c : reader s' = reader s -> incoming s' = incoming s -> window_of s' c (seen s c) = [].
Proof. intros Hr Hi. unfold window_of. rewrite (seen_eq s s' c Hr Hi), Hi. apply skipn_firstn_same. Qed.

Lemma window_pending s s' c from : incoming s' = incoming s -> pending_on s' c = pending_on s c -> window_of s' c from = window_of s c from.
Proof. intros Hi Hp. unfold window_of, seen. now rewrite Hi, Hp. Qed.

Lemma window_read s s' m c from : reader s = RIdle -> reader s' = RHave (IMsg m) -> incoming s' = incoming s ++ [m] ->
  window_of s' c from = window_of s c from.
Proof.
  intros Hr Hr' Hi. unfold window_of, seen, pending_on. rewrite Hr, Hr', Hi, app_length. cbn [length].
  replace (length (incoming s) + 1 - 1) with (length (incoming s)) by lia. rewrite Nat.sub_0_r.
  rewrite firstn_app, firstn_all, Nat.sub_diag. cbn [firstn]. now rewrite app_nil_r.
Qed.

Lemma mem_nat_perm a b x : Permutation a b -> mem_nat x a = mem_nat x b.
Proof.
  intros Hp. destruct (mem_nat x b) eqn:E.
  - apply mem_nat_in. apply mem_nat_in in E. eapply Permutation_in; [symmetry; eassumption | assumption].
  - destruct (mem_nat x a) eqn:E2; [|reflexivity]. apply mem_nat_in in E2. assert (In x b) by (eapply Permutation_in; eassumption).
    apply mem_nat_in in H. congruence.
Qed.

Section G3.
Variable matches : nat -> msg -> bool.
Notation tstep := (Steps.tstep matches).
Notation Inv := (Inv.Inv matches).
Notation targets := (Model.targets matches).
Notation key_matches := (Model.key_matches matches).
Notation accepts := (Inv.accepts matches).

Definition deliv_ok (s : sys) (sid : nat) (st : stream) : Prop :=
  In (skey st, s_ch st) (senders s) ->
  msgs (s_got st) ++ msgs (unread (chan_at s (s_ch st)) sid) = filter (accepts (skey st)) (window_of s (s_ch st) (s_from st)).

Lemma Inv_deliv s sid st : Inv s -> lookup (streams s) sid = Some st -> deliv_ok s sid st.
Proof. intros I Hl. exact (inv_deliv _ _ I _ _ Hl). Qed.

(* the key under which a channel is registered is unique (for the keys streams use) *)
Lemma key_of_chan s st k c : Inv s -> In (skey st, c) (senders s) -> In (k, c) (senders s) -> (k = KRet \/ k = KErr -> False) -> k = skey st.
Proof.
  intros I H1 H2 Hk. destruct (inv_shape _ _ I _ _ H1) as [_ S1]. destruct (inv_shape _ _ I _ _ H2) as [_ S2].
  unfold skey in *. destruct (s_rule st) as [r|], k as [| | |r']; try reflexivity; try lia; try (exfalso; apply Hk; tauto).
  f_equal. eapply (inv_inj _ _ I); eassumption.
Qed.

Lemma deliv_keep s s' sid st : deliv_ok s sid st ->
  (In (skey st, s_ch st) (senders s') -> In (skey st, s_ch st) (senders s)) ->
  unread (chan_at s' (s_ch st)) sid = unread (chan_at s (s_ch st)) sid ->
  window_of s' (s_ch st) (s_from st) = window_of s (s_ch st) (s_from st) -> deliv_ok s' sid st.
Proof. intros H Hs Hu Hw Hin. rewrite Hu, Hw. apply H. now apply Hs. Qed.

(* an operation on one channel that keeps the log and the cursors of the other receivers *)
Lemma unread_upd s s' c x sid st : chans s' = upd (chans s) c x -> c < length (chans s) ->
  (s_ch st = c -> cursor x sid = cursor (chan_at s c) sid /\ log x = log (chan_at s c)) ->
  unread (chan_at s' (s_ch st)) sid = unread (chan_at s (s_ch st)) sid.
Proof.
  intros Ech Hlt Hx. unfold chan_at at 1. rewrite Ech. destruct (Nat.eq_dec (s_ch st) c) as [E|Hne].
  - rewrite E in *. rewrite nth_upd_same by assumption. destruct (Hx eq_refl) as [Hc Hl]. unfold unread. now rewrite Hc, Hl.
  - now rewrite nth_upd_other.
Qed.

(* an operation on one channel that keeps the log and the stream's cursor; tables and reader as they are *)
Lemma deliv_upd s s' c x sid st : deliv_ok s sid st -> c < length (chans s) -> chans s' = upd (chans s) c x ->
  (In (skey st, s_ch st) (senders s') -> In (skey st, s_ch st) (senders s)) -> reader s' = reader s -> incoming s' = incoming s ->
  (s_ch st = c -> cursor x sid = cursor (chan_at s c) sid /\ log x = log (chan_at s c)) -> deliv_ok s' sid st.
Proof.
  intros H Hlt Ech Hsn Hr Hi Hx. apply (deliv_keep s); [assumption | assumption | | now apply window_eq]. now apply (unread_upd s s' c x).
Qed.

Lemma deliv_bury s sid st sid0 st0 : s_ch st < length (chans s) -> sid0 <> sid -> deliv_ok s sid0 st0 -> deliv_ok (bury s sid st) sid0 st0.
Proof.
  intros Hlt Hne H. apply (deliv_upd s _ (s_ch st) (drop_rcv sid (chan_at s (s_ch st)))); try reflexivity; try assumption; [tauto|].
  intros _. split; [now apply cursor_drop_other | reflexivity].
Qed.

(* channels closed or grown, senders removed *)
Lemma deliv_soc s s' sid st : deliv_ok s sid st -> (forall c, same_or_closed (chan_at s c) (chan_at s' c)) ->
  (In (skey st, s_ch st) (senders s') -> In (skey st, s_ch st) (senders s)) -> reader s' = reader s -> incoming s' = incoming s ->
  deliv_ok s' sid st.
Proof. intros H Hch Hsn Hr Hi. apply (deliv_keep s); [assumption | assumption | now apply unread_soc | now apply window_eq]. Qed.

Lemma deliv_rm_apply s r s1 o sid st : rm_apply s r = (s1, o) -> deliv_ok s sid st -> deliv_ok s1 sid st.
Proof.
  intros Hr H. destruct (rm_apply_frame _ _ _ _ Hr) as (Esnd & _ & _ & _ & _ & Erd & _ & Einc & _).
  apply (deliv_soc s); try assumption; [intros c; eapply rm_apply_chan; eassumption | now rewrite Esnd].
Qed.
Lemma deliv_rm_sender s r sid st : deliv_ok s sid st -> deliv_ok (rm_sender s r) sid st.
Proof.
  intros H. apply (deliv_soc s); [assumption | intros c; apply rm_sender_chan | | apply reader_rm | apply incoming_rm].
  rewrite senders_rm. intros Hin. now apply in_del_key in Hin.
Qed.

Lemma seen_mono s l s' c : tstep s l s' -> seen s c <= seen s' c.
Proof.
  intros Hs. unfold seen, pending_on. destruct Hs; try apply Nat.le_refl; try (rm_eq; apply Nat.le_refl); try (rewrite rm_sender_eq; apply Nat.le_refl); simp.
  all: rewrite ?H, ?app_length; cbn [length]; try lia.
  all: try (destruct it as [m|e]); unfold mem_nat; cbn; try lia.
  all: try (destruct (Nat.eqb c c0)); try (destruct (existsb (Nat.eqb c) todo)); cbn; lia.
Qed.

Lemma g_from_step s l s' : tstep s l s' -> Inv s -> forall sid st, lookup (streams s') sid = Some st -> s_from st <= seen s' (s_ch st).
Proof.
  intros Hs I sid0 st0 Hl. pose proof (inv_from _ _ I) as Hold. pose proof (fun c => seen_mono _ _ _ c Hs) as Hmono.
  (* the record is the one of the state before, up to what the stream has yielded *)
  assert (Hgen : forall st1, lookup (streams s) sid0 = Some st1 -> s_from st0 = s_from st1 -> s_ch st0 = s_ch st1 -> s_from st0 <= seen s' (s_ch st0)).
  { intros st1 Hl1 Ef Ec. rewrite Ef, Ec. pose proof (Hold _ _ Hl1). pose proof (Hmono (s_ch st1)). lia. }
  destruct Hs; try (eapply Hgen; [exact Hl | reflexivity | reflexivity]);
    try match goal with Hr : rm_apply _ _ = _ |- _ => rewrite (rm_apply_eq _ _ _ _ Hr) in Hl end; simp;
    try apply lookup_del_some in Hl; try (eapply Hgen; [exact Hl | reflexivity | reflexivity]);
    (apply lookup_put_inv in Hl as [[-> ->]|[_ Hl]]; [|eapply Hgen; [exact Hl | reflexivity | reflexivity]]).
  - (* occupied *) apply Hmono.
  - (* add sender *) apply Hmono.
  - (* unfiltered *) apply Hmono.
  - (* poll *) eapply Hgen; [apply H | reflexivity | reflexivity].
  - (* clone *) pose proof (Hold _ _ (proj1 H)). pose proof (Hmono (s_ch st)). lia.
Qed.

Lemma targets_has l it k c : In (k, c) l -> key_matches k it = true -> In c (targets l it).
Proof.
  intros Hin Hk. unfold Model.targets. apply in_map_iff. exists (k, c). split; [reflexivity|]. apply filter_In. split; assumption.
Qed.

Lemma skey_not_reply st : skey st = KRet \/ skey st = KErr -> False.
Proof. unfold skey. destruct (s_rule st); intros [H|H]; discriminate. Qed.

Lemma g_deliv_step s l s' : tstep s l s' -> Inv s -> forall sid st, lookup (streams s') sid = Some st -> deliv_ok s' sid st.
Proof.
  intros Hs I sid0 st0 Hl. pose proof (Inv_own _ _ I) as O. destruct O as [Icur Istr]. pose proof (fun sid st => Inv_deliv s sid st I) as Hold.
  pose proof (fun sid c => fresh_no_cursor s sid c (conj Icur Istr)) as Hfresh.
  (* the reader moves on, the channels stay *)
  assert (Hrd : forall rd, pending_on (with_reader s rd) (s_ch st0) = pending_on s (s_ch st0) ->
                  lookup (streams s) sid0 = Some st0 -> deliv_ok (with_reader s rd) sid0 st0).
  { intros rd Hp Hl0. apply (deliv_keep s); [now apply Hold | tauto | reflexivity | now apply window_pending]. }
  destruct Hs; try exact (Hold _ _ Hl);
    try (apply lookup_del_inv in Hl as [Hne Hl]; exact (deliv_bury s sid st sid0 st0 (proj1 (Istr _ _ (proj1 H))) Hne (Hold _ _ Hl)));
    try match goal with Hr : rm_apply _ _ = _ |- _ =>
          rewrite (rm_apply_eq _ _ _ _ Hr) in Hl; exact (deliv_rm_apply _ _ _ _ _ _ Hr (Hold _ _ Hl)) end.
  - (* read a message *) apply (deliv_keep s); [now apply Hold | tauto | reflexivity|]. eapply window_read; try eassumption; reflexivity.
  - (* read a failure *) apply (deliv_keep s); [now apply Hold | tauto | reflexivity|]. apply window_pending; [reflexivity|].
    unfold pending_on. cbn [reader with_reader with_socket]. now rewrite H.
  - (* fan: the message is decided for the channels it does not go to *)
    apply is_perm_spec in H0. destruct it as [m|e]; [|apply Hrd; [unfold pending_on; cbn [reader with_reader]; now rewrite H | exact Hl]].
    destruct (mem_nat (s_ch st0) todo) eqn:Em; [apply Hrd; [unfold pending_on; cbn [reader with_reader]; now rewrite H, Em | exact Hl]|].
    intros Hreg. pose proof (Hold _ _ Hl Hreg) as IH. change (chan_at (with_reader s (RPush (IMsg m) todo)) (s_ch st0)) with (chan_at s (s_ch st0)).
    rewrite (window_decided s (with_reader s (RPush (IMsg m) todo)) (s_ch st0) (s_from st0) m (inv_last _ _ I m (or_introl H)) eq_refl);
      [|unfold pending_on; now rewrite H | exact Em | exact (inv_from _ _ I _ _ Hl)].
    rewrite filter_app. cbn [filter]. replace (accepts (skey st0) m) with false; [now rewrite app_nil_r|].
    symmetry. apply Bool.not_true_is_false. intros Ea. rewrite (mem_nat_perm _ _ (s_ch st0) H0) in Em.
    apply Bool.not_true_iff_false in Em. apply Em, mem_nat_in. eapply targets_has; eassumption.
  - (* push *) intros Hreg. change (In (skey st0, s_ch st0) (senders s)) in Hreg. change (lookup (streams s) sid0 = Some st0) in Hl.
    pose proof (Hold _ _ Hl Hreg) as IH. destruct (inv_todo _ _ I _ _ H) as [Htd Hnd].
    destruct (Htd c (or_introl eq_refl)) as (k0 & Hk0 & Hm0). destruct (inv_shape _ _ I _ _ Hk0) as [Hlt _].
    apply try_push_pushed in H0. destruct H0 as (Hlog & Hrcv & _).
    change (chan_at (with_reader (set_chan s c ch') (RPush it todo)) (s_ch st0)) with (chan_at (set_chan s c ch') (s_ch st0)).
    assert (Hpend : s_ch st0 <> c \/ (exists e, it = IFail e) -> pending_on (with_reader (set_chan s c ch') (RPush it todo)) (s_ch st0) = pending_on s (s_ch st0)).
    { intros Hc. unfold pending_on. cbn [reader with_reader set_chan with_chans]. rewrite H. destruct it as [m|e]; [|reflexivity]. cbn [mem_nat existsb].
      destruct Hc as [Hc|(e & E)]; [|discriminate]. now rewrite (proj2 (Nat.eqb_neq _ _) Hc). }
    destruct (Nat.eq_dec (s_ch st0) c) as [Ec|Hne].
    + subst c. rewrite chan_at_set_same by assumption. destruct (Istr _ _ Hl) as (_ & (p & Hp) & _).
      destruct (Icur _ _ _ Hlt Hp) as [Hple _]. rewrite (unread_push _ _ _ it sid0 p Hp Hple Hlog Hrcv), msgs_app.
      destruct it as [m|e].
      * (* a message: one more decided for this channel, and it matches the key the channel is registered under *)
        specialize (Hnd m eq_refl). inversion Hnd as [|? ? Hnotin _]; subst.
        assert (Ek : k0 = skey st0).
        { eapply key_of_chan; try eassumption. destruct (inv_shape _ _ I _ _ Hk0) as [_ S0]. destruct (inv_shape _ _ I _ _ Hreg) as [_ S1].
          unfold skey in S1. intros [-> | ->]; destruct (s_rule st0); lia. }
        subst k0.
        rewrite (window_decided s (with_reader (set_chan s (s_ch st0) ch') (RPush (IMsg m) todo)) (s_ch st0) (s_from st0) m (inv_last _ _ I m (or_intror (ex_intro _ _ H))) eq_refl);
          [|unfold pending_on; rewrite H; cbn; now rewrite Nat.eqb_refl | | exact (inv_from _ _ I _ _ Hl)].
        -- rewrite filter_app. cbn [filter]. unfold Inv.accepts at 2. rewrite Hm0. cbn [msgs flat_map app]. rewrite app_assoc. f_equal. exact IH.
        -- unfold pending_on. cbn [reader with_reader]. apply Bool.not_true_is_false. intros E. now apply mem_nat_in in E.
      * (* the failure item: not a message *)
        cbn [msgs flat_map app]. rewrite app_nil_r. rewrite (window_pending s _ (s_ch st0) (s_from st0)); [exact IH | reflexivity | eauto].
    + rewrite chan_at_set_other by assumption. rewrite (window_pending s _ (s_ch st0) (s_from st0)); [exact IH | reflexivity | auto].
  - (* push skipped: no receiver / closed — then no stream sits on that channel *)
    intros Hreg. refine (Hrd _ _ Hl Hreg). destruct (Istr _ _ Hl) as (_ & (p & Hp) & _).
    unfold pending_on. cbn [reader with_reader]. rewrite H. destruct it as [m|e]; [|reflexivity]. cbn [mem_nat existsb].
    destruct (Nat.eqb_spec (s_ch st0) c) as [Ec|_]; [|reflexivity]. exfalso. rewrite Ec in *. destruct H0 as [H0|H0].
    + apply try_push_noreceiver in H0. eapply cursor_some_rcv; eassumption.
    + apply try_push_closed in H0. destruct (inv_closed _ _ I _ _ Hreg H0) as (_ & Hr & _). eapply cursor_some_rcv; eassumption.
  - (* next message *) apply Hrd; [|exact Hl]. unfold pending_on. cbn [reader with_reader]. now rewrite H.
  - (* next after a failure: nothing is registered any more *) intros [].
  - (* occupied *) destruct (inv_entry _ _ I _ _ H2) as [_ Hlt].
    assert (Hlx : log (subscribe sid ch1) = log (chan_at s c)) by (unfold ch1; now destruct (a_q a)).
    assert (Hcx : forall id, cursor (subscribe sid ch1) id = match cursor (chan_at s c) id with Some q => Some q | None => if Nat.eqb sid id then Some (tail (chan_at s c)) else None end).
    { intros id. rewrite cursor_subscribe. unfold ch1. now destruct (a_q a). }
    apply lookup_put_inv in Hl as [[-> ->]|[Hne Hl]].
    + intros _. cbn [s_got s_ch s_from mk_stream msgs flat_map app]. rewrite window_new by reflexivity.
      subst s2 s1. autorewrite with chat. rewrite chan_at_set_same by assumption. rewrite unread_at_tail; [reflexivity|].
      rewrite Hcx, Nat.eqb_refl. unfold tail. rewrite Hlx. replace (cursor (chan_at s c) sid) with (@None nat); [reflexivity|].
      symmetry. apply own_no_cursor; try assumption; [now split | eapply inv_ids; eassumption | eapply no_a2_pc; [eassumption | congruence]].
    + apply (deliv_upd s _ c (subscribe sid ch1)); try reflexivity; try assumption; [now apply Hold | tauto|].
      intros Ec. split; [|exact Hlx]. destruct (Istr _ _ Hl) as (_ & (p & Hp) & _). rewrite Hcx. rewrite <- Ec. now rewrite Hp.
  - (* vacant *) apply (deliv_keep s); [now apply Hold | tauto | | apply window_eq; reflexivity].
    destruct (Istr _ _ Hl) as (Hlt & _). subst s2 s1. autorewrite with chat. now rewrite chan_at_app_old.
  - (* add sender *) destruct (inv_a2 _ _ I sid (a_rule a) c) as (_ & Hno & Hlog & _ & Hcur & _ & Hnost); [exists a; tauto|].
    apply lookup_put_inv in Hl as [[-> ->]|[Hne Hl]].
    + intros _. cbn [s_got s_ch s_from mk_stream msgs flat_map app]. rewrite window_new by reflexivity.
      unfold unread. change (chan_at _ c) with (chan_at s c). now rewrite Hcur, Hlog.
    + apply (deliv_keep s); [now apply Hold | | reflexivity | reflexivity].
      intros Hin. apply in_app_iff in Hin. destruct Hin as [Hin|[Hin|[]]]; [assumption|]. inversion Hin. exfalso. eapply Hnost; eauto.
  - (* unfiltered *) assert (Hlt : 0 < length (chans s)) by (pose proof (inv_len _ _ I); lia).
    apply lookup_put_inv in Hl as [[-> ->]|[Hne Hl]].
    + intros _. cbn [s_got s_ch s_from mk_stream msgs flat_map app]. rewrite window_new by reflexivity.
      autorewrite with chat. rewrite chan_at_set_same by assumption. rewrite unread_at_tail; [reflexivity|].
      now rewrite cursor_subscribe, Hfresh, Nat.eqb_refl.
    + apply (deliv_upd s _ 0 (subscribe sid (chan_at s 0))); try reflexivity; try assumption; [now apply Hold | tauto|].
      intros Ec. split; [|reflexivity]. destruct (Istr _ _ Hl) as (_ & (p & Hp) & _). rewrite cursor_subscribe. rewrite <- Ec. now rewrite Hp.
  - (* poll *) destruct H as [Hl0 Hd]. apply try_recv_got in H0. destruct H0 as (p0 & Hc0 & Hn0 & Hlog & _ & Hci & Hco).
    destruct (Istr _ _ Hl0) as (Hlt & _). apply lookup_put_inv in Hl as [[-> ->]|[Hne Hl]].
    + intros Hreg. pose proof (Hold _ _ Hl0 Hreg) as IH. cbn [s_got s_ch s_from got_more]. change (skey (got_more st x)) with (skey st).
      autorewrite with chat. rewrite chan_at_set_same by assumption. rewrite (window_eq s _ (s_ch st) (s_from st)) by reflexivity. rewrite <- IH.
      rewrite (unread_step _ _ _ _ Hc0 Hn0). unfold unread. rewrite Hci, Hlog, msgs_app, <- app_assoc. f_equal. symmetry. exact (msgs_app [x] _).
    + apply (deliv_upd s _ (s_ch st) ch'); try reflexivity; try assumption; [now apply Hold | tauto|]. intros _. split; [now apply Hco | assumption].
  - (* clone *) destruct H as [Hl0 Hd]. destruct (Istr _ _ Hl0) as (Hlt & (p0 & Hp0) & _). pose proof (Hfresh _ _ H0 Hlt) as Hnc.
    apply lookup_put_inv in Hl as [[-> ->]|[Hne Hl]].
    + intros Hreg. pose proof (Hold _ _ Hl0 Hreg) as IH.
      autorewrite with chat. rewrite chan_at_set_same by assumption. rewrite (window_eq s _ (s_ch st) (s_from st)) by reflexivity. rewrite <- IH.
      unfold unread. now rewrite cursor_clone, Hnc, Nat.eqb_refl, Hp0, log_clone.
    + apply (deliv_upd s _ (s_ch st) (clone_rcv sid sid2 (chan_at s (s_ch st)))); try reflexivity; try assumption; [now apply Hold | tauto|].
      intros Ec. split; [|apply log_clone]. destruct (Istr _ _ Hl) as (_ & (p & Hp) & _). rewrite cursor_clone. rewrite <- Ec. now rewrite Hp.
  - (* set capacity *) destruct (Istr _ _ (proj1 H)) as (Hlt & _).
    apply (deliv_upd s _ (s_ch st) (grow n (chan_at s (s_ch st)))); try reflexivity; try assumption; [now apply Hold | tauto | now split].
  - (* async drop, subs step *) rewrite (rm_apply_eq _ _ _ _ H3) in Hl. apply lookup_del_inv in Hl as [Hne Hl]. apply deliv_bury; [|assumption | exact (deliv_rm_apply _ _ _ _ _ _ H3 (Hold _ _ Hl))].
    apply rm_apply_spec, rm_spec_tables in H3. destruct H3 as (_ & _ & _ & _ & _ & -> & _). apply (Istr _ _ H).
  - (* async drop, sender step *) tsimp. rewrite streams_bury, streams_rm in Hl. apply lookup_del_inv in Hl as [Hne Hl].
    apply deliv_bury; [rewrite length_chans_rm; apply (Istr _ _ H) | assumption | now apply deliv_rm_sender, Hold].
  - tsimp. rewrite streams_rm in Hl. now apply deliv_rm_sender, Hold.
  - (* add sender, failed: no senders, nothing is registered *) intros Hreg. change (In (skey st0, s_ch st0) (senders s)) in Hreg. rewrite H2 in Hreg. destruct Hreg.
Qed.

End G3.
