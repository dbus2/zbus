(* C20/Share.v — sharing: the reference count of a subscription is the number of its holders — the shared rules (Arc) of the streams
   made for it (a stream and all its clones hold ONE), the remove_match calls that have not taken `subscriptions` yet, and the
   add_match call that is just creating it; all streams of a rule read the one channel of its entry; every stream is registered
   under its key until the reader fails.  For every history (clones included, since fix 3c4a83a4). *)
From ZV Require Import Base.Bytes Base.Res C19.Broadcast C19.BroadcastFacts C20.Model C20.Lemmas C20.Steps C20.Inv C20.InvG1 C20.InvG2 C20.InvG3
  C20.Proofs C20.Count C20.Arcs.
From Coq Require Import Lia Permutation.

Definition holds_task (r : nat) (p : nat * rmpc) : bool := Nat.eqb (fst p) r && match snd p with R0 => true | R1 _ => false end.
Definition holds_add (r : nat) (p : nat * addst) : bool := Nat.eqb (a_rule (snd p)) r && match a_pc (snd p) with A2 _ => true | _ => false end.
Definition holders (s : sys) (r : nat) : nat :=
  cnt (is_rule r) (arcs s) + cnt (holds_task r) (tasks s) + cnt (holds_add r) (adds s).

Lemma holds_task_r0 r0 r : holds_task r0 (r, R0) = Nat.eqb r r0.
Proof. apply andb_true_r. Qed.
Lemma holds_task_r1 r0 r c : holds_task r0 (r, R1 c) = false.
Proof. apply andb_false_r. Qed.
Lemma holds_add_val r sid a : holds_add r (sid, a) = match a_pc a with A2 _ => Nat.eqb (a_rule a) r | _ => false end.
Proof. unfold holds_add. cbn. destruct (a_pc a); first [apply andb_false_r | apply andb_true_r]. Qed.

Section Share.
Variable matches : nat -> msg -> bool.
Notation tstep := (Steps.tstep matches).
Notation Inv := (Inv.Inv matches).
Notation reach := (Model.reach matches).

Lemma akeys_step s l s' : tstep s l s' -> keys_nodup (adds s) -> keys_nodup (adds s').
Proof.
  intros Hs K. destruct Hs; try exact K; simp; try exact K; try (now apply keys_put); try (now apply keys_del).
  all: now rm_eq.
Qed.

(* ---- every stream made for a rule holds a shared rule (Arc) of that rule, and the holders of a shared rule are such streams ---- *)
Definition rule_of (s : sys) (sid r : nat) : Prop := exists st, lookup (streams s) sid = Some st /\ s_rule st = Some r.
Definition grp_ok (s : sys) : Prop := forall r sid, listed (arcs s) r sid <-> rule_of s sid r.

Lemma rule_of_live s sid st r : lookup (streams s) sid = Some st -> (rule_of s sid r <-> s_rule st = Some r).
Proof. intros Hl. unfold rule_of. rewrite Hl. split; [intros (st' & E & H); inversion E; now subst | eauto]. Qed.
Lemma rule_of_none s sid r : lookup (streams s) sid = None -> ~ rule_of s sid r.
Proof. intros Hl (st & E & _). congruence. Qed.
Lemma rule_of_put s s' k stn : streams s' = put (streams s) k stn ->
  forall sid r, rule_of s' sid r <-> (sid = k /\ s_rule stn = Some r) \/ (sid <> k /\ rule_of s sid r).
Proof.
  intros E sid r. unfold rule_of. rewrite E. destruct (Nat.eq_dec sid k) as [->|Hne].
  - rewrite lookup_put_same. split; [intros (st & H1 & H2); inversion H1; subst; tauto | intros [[_ H]|[H _]]; [eauto | congruence]].
  - rewrite lookup_put_other by assumption. tauto.
Qed.
Lemma rule_of_del s s' k : streams s' = del (streams s) k -> forall sid r, rule_of s' sid r <-> sid <> k /\ rule_of s sid r.
Proof.
  intros E sid r. unfold rule_of. rewrite E. destruct (Nat.eq_dec sid k) as [->|Hne].
  - rewrite lookup_del_same. split; [intros (st & H1 & _); discriminate | tauto].
  - rewrite lookup_del_other by assumption. tauto.
Qed.

Lemma grp_frame s s' : grp_ok s -> arcs s' = arcs s -> streams s' = streams s -> grp_ok s'.
Proof. intros G Ea Es r sid. unfold rule_of. rewrite Ea, Es. apply G. Qed.

Lemma grp_add s sid r1 stn : grp_ok s -> lookup (streams s) sid = None ->
  forall s', arcs s' = arcs s ++ [(r1, [sid])] -> streams s' = put (streams s) sid stn -> s_rule stn = Some r1 -> grp_ok s'.
Proof.
  intros G Hn s' Ea Es Hr r x. rewrite Ea, listed_app, (rule_of_put _ _ _ _ Es), (G r x), Hr. cbn [In].
  pose proof (rule_of_none s sid r Hn). destruct (Nat.eq_dec x sid) as [->|Hne]; intuition congruence.
Qed.

(* a record is replaced, or one without rule comes *)
Lemma grp_put s sid stn : grp_ok s -> forall s', arcs s' = arcs s -> streams s' = put (streams s) sid stn ->
  (forall r, rule_of s sid r <-> s_rule stn = Some r) -> grp_ok s'.
Proof.
  intros G s' Ea Es Hsame r x. rewrite Ea, (rule_of_put _ _ _ _ Es), (G r x). destruct (Nat.eq_dec x sid) as [->|Hne]; [rewrite Hsame|]; intuition.
Qed.

(* a stream goes, and is listed nowhere any more *)
Lemma grp_del s sid a' : grp_ok s -> (forall r x, listed a' r x <-> listed (arcs s) r x /\ x <> sid) ->
  forall s', arcs s' = a' -> streams s' = del (streams s) sid -> grp_ok s'.
Proof. intros G Ha s' Ea Es r x. rewrite Ea, Ha, (rule_of_del _ _ _ Es), (G r x). tauto. Qed.

Lemma grp_unlisted s sid st : grp_ok s -> lookup (streams s) sid = Some st -> s_rule st = None ->
  forall r x, listed (arcs s) r x <-> listed (arcs s) r x /\ x <> sid.
Proof.
  intros G Hl Hr r x. split; [|tauto]. intros Hx. split; [assumption|]. intros ->. apply G, (rule_of_live _ _ _ r Hl) in Hx. congruence.
Qed.

Lemma grp_clone s sid sid2 st : grp_ok s -> lookup (streams s) sid = Some st -> lookup (streams s) sid2 = None ->
  forall s', arcs s' = join (arcs s) sid sid2 -> streams s' = put (streams s) sid2 st -> grp_ok s'.
Proof.
  intros G Hl Hn s' Ea Es r x. rewrite Ea, listed_join, (rule_of_put _ _ _ _ Es), (G r x), (G r sid), (rule_of_live _ _ _ r Hl).
  pose proof (rule_of_none s sid2 r Hn). destruct (Nat.eq_dec x sid2) as [->|Hne]; intuition.
Qed.

Lemma grp_step s l s' : tstep s l s' -> Inv s -> drops s = [] -> grp_ok s -> grp_ok s'.
Proof.
  intros Hs I Hd G. destruct Hs; try exact G; try (dead_drop Hd);
    (* a stream with a rule is dropped *) try (eapply (grp_del s sid); [exact G | eapply listed_release; eassumption | reflexivity..]).
  - (* occupied *) eapply (grp_add s sid (a_rule a)); [exact G | eapply inv_ids; eassumption | reflexivity..].
  - (* add sender *) eapply (grp_add s sid (a_rule a)); [exact G | eapply inv_ids; eassumption | reflexivity..].
  - (* unfiltered *) apply fresh_spec in H. eapply (grp_put s sid); [exact G | reflexivity..|].
    intros r. split; [intros Hx; destruct (rule_of_none _ _ _ (proj1 H) Hx) | discriminate].
  - (* poll *) eapply (grp_put s sid); [exact G | reflexivity..|]. intros r. apply (rule_of_live s sid st), H.
  - (* drop, no rule *) eapply (grp_del s sid); [exact G | eapply grp_unlisted; [exact G | apply H | assumption] | reflexivity..].
  - (* clone *) apply fresh_spec in H0. eapply (grp_clone s sid sid2 st); [exact G | apply H | apply H0 | reflexivity..].
  - eapply (grp_del s sid); [exact G | eapply grp_unlisted; [exact G | apply H | assumption] | reflexivity..].
  - rm_eq. exact G.
  - rm_eq. exact G.
  - eapply grp_frame; [exact G | apply arcs_rm | apply streams_rm].
Qed.

(* the same by position in the table, as Properties/C20.v states it *)
Lemma grp_idx s sid st r : grp_ok s -> lookup (streams s) sid = Some st -> s_rule st = Some r ->
  exists i ms, idx_of (arcs s) sid = Some i /\ nth_error (arcs s) i = Some (r, ms).
Proof.
  intros G Hl Hr. destruct (proj2 (G r sid)) as (ms & Hin & Hm); [exists st; tauto|].
  destruct (idx_of (arcs s) sid) as [i|] eqn:Ei.
  - destruct (idx_of_some _ _ _ Ei) as ([r' ms'] & Hn & Hh). apply holds_in in Hh. exists i, ms'. split; [reflexivity|].
    assert (Hx : rule_of s sid r') by (apply G; exists ms'; split; [eapply nth_error_In; eassumption | assumption]).
    apply (rule_of_live _ _ _ _ Hl) in Hx. congruence.
  - pose proof (idx_of_none _ _ Ei _ Hin) as Hf. apply holds_false in Hf. tauto.
Qed.

(* ---- the reference count ---- *)
Definition count_ok (s : sys) : Prop :=
  forall r, match lookup (subs s) r with Some e => e_ref e = holders s r | None => holders s r = 0 end.

Definition ref_of (l : list (nat * entry)) (r : nat) : nat := match lookup l r with Some e => e_ref e | None => 0 end.

Lemma count_refs s : count_ok s <-> forall r, ref_of (subs s) r = holders s r.
Proof. unfold count_ok, ref_of. split; intros H r; specialize (H r); destruct (lookup (subs s) r); congruence. Qed.

(* a table that differs from l only at r, where the count goes up or down by one *)
Lemma ref_rise l l' r : (forall r0, r0 <> r -> lookup l' r0 = lookup l r0) -> ref_of l' r = S (ref_of l r) ->
  forall r0, ref_of l' r0 = ref_of l r0 + b2n (Nat.eqb r r0).
Proof.
  intros Ho Hr r0. destruct (Nat.eqb_spec r r0) as [<-|Hne]; cbn [b2n]; [lia|]. unfold ref_of. rewrite Ho by congruence. lia.
Qed.
Lemma ref_drop l l' r : (forall r0, r0 <> r -> lookup l' r0 = lookup l r0) -> ref_of l' r = ref_of l r - 1 ->
  forall r0, ref_of l' r0 = ref_of l r0 - b2n (Nat.eqb r r0).
Proof.
  intros Ho Hr r0. destruct (Nat.eqb_spec r r0) as [<-|Hne]; cbn [b2n]; [lia|]. unfold ref_of. rewrite Ho by congruence. lia.
Qed.

Lemma ref_rm s r s1 o : rm_apply s r = (s1, o) -> forall r0, ref_of (subs s1) r0 = ref_of (subs s) r0 - b2n (Nat.eqb r r0).
Proof.
  intros H. apply rm_apply_spec in H. destruct H as [Hn | e n He Hr | e He Hr _ | e He Hr _]; apply ref_drop; simp; unfold ref_of.
  - reflexivity.
  - now rewrite Hn.
  - intros. now apply lookup_put_other.
  - rewrite lookup_put_same, He, Hr. cbn. lia.
  - intros. now apply lookup_del_other.
  - rewrite lookup_del_same, He. lia.
  - intros. now apply lookup_del_other.
  - rewrite lookup_del_same, He. lia.
Qed.

(* an add_match call that has just created the entry of its rule is its only holder *)
Definition a2_one (s : sys) : Prop := forall sid r c, a2 s sid r c -> ref_of (subs s) r = 1.

(* what letting go does to the number of shared rules of each rule *)
Lemma cnt_release s sid st r a' b : grp_ok s -> lookup (streams s) sid = Some st -> s_rule st = Some r -> release (arcs s) sid = (a', b) ->
  forall r0, cnt (is_rule r0) a' + (if b then b2n (Nat.eqb r r0) else 0) = cnt (is_rule r0) (arcs s).
Proof.
  intros G Hl Hr Hrel r0. destruct (grp_idx _ _ _ _ G Hl Hr) as (i & ms & Hi & Hn).
  destruct (release_spec _ _ _ _ Hrel) as [(Hnone & _)|(i' & r' & ms' & Hi' & Hn' & _ & Hcase)]; [congruence|].
  rewrite Hi in Hi'. inversion Hi'; subst i'. rewrite Hn in Hn'. inversion Hn'; subst r' ms'.
  destruct Hcase as [(Hemp & -> & ->)|(_ & -> & ->)]; [|rewrite cnt_leave; lia].
  assert (Hp : nth_error (leave (arcs s) sid) i = Some (r, [])) by (rewrite nth_error_leave, Hn; cbn; now rewrite Hemp).
  pose proof (cnt_del_nth (is_rule r0) _ _ _ Hp) as Hx. rewrite cnt_leave in Hx. exact Hx.
Qed.

(* a stream is dropped: if it was the last holder, the shared rule goes and a remove_match call comes *)
Lemma count_release s sid st r a' b : grp_ok s -> lookup (streams s) sid = Some st -> s_rule st = Some r -> release (arcs s) sid = (a', b) ->
  forall s', subs s' = subs s -> adds s' = adds s -> arcs s' = a' -> tasks s' = (if b then tasks s ++ [(r, R0)] else tasks s) ->
  count_ok s -> count_ok s'.
Proof.
  intros G Hl Hr Hrel s' Es Ea Er Et C. apply count_refs. intros r0. pose proof (proj1 (count_refs s) C r0) as Cr.
  pose proof (cnt_release _ _ _ _ _ _ G Hl Hr Hrel r0) as HR. unfold holders in *. rewrite Es, Ea, Er, Et.
  destruct b; [rewrite cnt_app, cnt_one, holds_task_r0|]; lia.
Qed.

Lemma count_step s l s' : tstep s l s' -> drops s = [] -> keys_nodup (adds s) -> grp_ok s -> a2_one s -> count_ok s -> count_ok s'.
Proof.
  intros Hs Hd Ka G Aone C.
  destruct Hs; try exact C; try (dead_drop Hd);
    try (eapply count_release; [exact G | apply H | eassumption | eassumption | reflexivity.. | exact C]);
    apply count_refs; intros r0; pose proof (proj1 (count_refs s) C r0) as Cr; unfold holders in *; simp.
  - (* add start: a call in A0 holds nothing *)
    apply fresh_spec in H. destruct H as (_ & Hn & _). rewrite cnt_put, holds_add_val.
    rewrite (cnt_split _ (adds s) sid Ka), Hn in Cr. cbn [a_pc b2n]. lia.
  - (* add check fails *)
    rewrite (cnt_split _ (adds s) sid Ka), H, holds_add_val, H0 in Cr. cbn [b2n] in Cr. lia.
  - (* add check ok *)
    rewrite cnt_put, holds_add_val. rewrite (cnt_split _ (adds s) sid Ka), H, holds_add_val, H0 in Cr. cbn [add_at a_pc b2n] in *. lia.
  - (* occupied: one more shared rule, one more reference *)
    rewrite (ref_rise (subs s) _ (a_rule a)); [|intros; now apply lookup_put_other | unfold ref_of; now rewrite lookup_put_same, H2].
    rewrite cnt_app, cnt_rule_one. rewrite (cnt_split _ (adds s) sid Ka), H, holds_add_val, H0 in Cr. cbn [b2n] in Cr. lia.
  - (* vacant: the call itself is the one holder *)
    rewrite (ref_rise (subs s) _ (a_rule a)); [|intros; now apply lookup_put_other | unfold ref_of; now rewrite lookup_put_same, H2].
    rewrite cnt_put, holds_add_val. rewrite (cnt_split _ (adds s) sid Ka), H, holds_add_val, H0 in Cr. cbn [add_at a_pc a_rule b2n] in *. lia.
  - (* add sender: the call hands its reference to the stream's shared rule *)
    rewrite cnt_app, cnt_rule_one. rewrite (cnt_split _ (adds s) sid Ka), H, holds_add_val, H0 in Cr. lia.
  - (* clone: one more holder of the same shared rule *)
    rewrite cnt_join. exact Cr.
  - (* task, subs, not the last reference *)
    rm_eq. simp. rewrite (ref_rm _ _ _ _ H1).
    pose proof (cnt_del_nth (holds_task r0) _ _ _ H) as Ht. rewrite holds_task_r0 in Ht. lia.
  - (* task, subs, last reference *)
    rm_eq. simp. rewrite (ref_rm _ _ _ _ H1).
    pose proof (cnt_upd (holds_task r0) _ n (r, R1 c) _ H) as Ht. rewrite holds_task_r0, holds_task_r1 in Ht. cbn [b2n] in Ht. lia.
  - (* task, sender *)
    pose proof (cnt_del_nth (holds_task r0) _ _ _ H) as Ht. rewrite holds_task_r1 in Ht. cbn [b2n] in Ht. lia.
  - (* add sender, failed: the call was the only holder; entry and call go together *)
    assert (Hme : a2 s sid (a_rule a) c) by (exists a; tauto).
    rewrite (ref_drop (subs s) _ (a_rule a)); [|intros; now apply lookup_del_other | rewrite (Aone _ _ _ Hme); unfold ref_of; now rewrite lookup_del_same].
    rewrite (cnt_split _ (adds s) sid Ka), H, holds_add_val, H0 in Cr. lia.
Qed.

(* ---- all streams of a rule read the channel of its entry ---- *)
Definition chan_agree (s : sys) : Prop :=
  forall sid st r e, lookup (streams s) sid = Some st -> s_rule st = Some r -> lookup (subs s) r = Some e -> s_ch st = e_ch e.

(* a stream made for a rule holds a shared rule of it, so the rule has an entry *)
Lemma stream_entry s sid st r : grp_ok s -> count_ok s -> lookup (streams s) sid = Some st -> s_rule st = Some r ->
  exists e, lookup (subs s) r = Some e.
Proof.
  intros G C Hl Hr. specialize (C r). destruct (lookup (subs s) r) as [e|]; [eauto|]. exfalso.
  destruct (proj2 (G r sid)) as (ms & Hin & _); [exists st; tauto|].
  pose proof (cnt_pos (is_rule r) _ _ Hin (Nat.eqb_refl r)). unfold holders in C. lia.
Qed.

Lemma agree_step s l s' : tstep s l s' -> Inv s -> drops s = [] -> count_ok s -> grp_ok s -> chan_agree s -> chan_agree s'.
Proof.
  intros Hs I Hd C G A sid0 st0 r0 e0 Hl Hr He.
  destruct Hs; try (exact (A _ _ _ _ Hl Hr He)); try (dead_drop Hd); simp;
    try (apply lookup_del_some in Hl); try (apply lookup_del_some in He); try (eapply A; eassumption).
  - (* occupied *)
    apply lookup_put_inv in He. apply lookup_put_inv in Hl.
    destruct He as [[-> ->]|[Hnr He]], Hl as [[-> ->]|[_ Hl]]; cbn [mk_stream s_ch e_ch s_rule] in *;
      first [reflexivity | congruence | eapply A; eassumption].
  - (* vacant: nobody holds the rule, so no stream of the rule is around *)
    apply lookup_put_inv in He. destruct He as [[-> ->]|[_ He]]; [|eapply A; eassumption].
    destruct (stream_entry _ _ _ _ G C Hl Hr). congruence.
  - (* add sender *)
    apply lookup_put_inv in Hl. destruct Hl as [[-> ->]|[_ Hl]]; [|eapply A; eassumption]. cbn [mk_stream s_ch s_rule] in *.
    destruct (inv_a2 _ _ I sid (a_rule a) c) as ((e & He1 & Hc1) & _); [exists a; tauto|]. congruence.
  - (* unfiltered *) apply lookup_put_inv in Hl. destruct Hl as [[-> ->]|[_ Hl]]; [discriminate | eapply A; eassumption].
  - (* poll *) apply lookup_put_inv in Hl. destruct Hl as [[-> ->]|[_ Hl]]; [exact (A _ _ _ _ (proj1 H) Hr He) | eapply A; eassumption].
  - (* clone: same record, same channel *)
    apply lookup_put_inv in Hl. destruct Hl as [[-> ->]|[_ Hl]]; [exact (A _ _ _ _ (proj1 H) Hr He) | eapply A; eassumption].
  - (* task, subs, done *)
    rewrite (rm_apply_eq _ _ _ _ H1) in Hl. destruct (rm_entry_back _ _ _ _ H1 _ _ He) as (e & He1 & ->). eapply A; eassumption.
  - rewrite (rm_apply_eq _ _ _ _ H1) in Hl. destruct (rm_entry_back _ _ _ _ H1 _ _ He) as (e & He1 & ->). eapply A; eassumption.
Qed.

(* ---- an entry of `subscriptions` has its sender in msg_senders, unless it is just being created or the reader has failed;
   a remove_match between its two steps has taken its entry away; the unfiltered channel stays registered until the reader fails ---- *)
Definition e1 (s : sys) : Prop :=
  forall r e, lookup (subs s) r = Some e -> In (KRule r, e_ch e) (senders s) \/ (exists sid, a2 s sid r (e_ch e)) \/ reader s = RStopped.
Definition e2 (s : sys) : Prop := forall r c, In (r, R1 c) (tasks s) -> lookup (subs s) r = None.
Definition ereg (s : sys) : Prop := e1 s /\ e2 s /\ (In (KAll, 0) (senders s) \/ reader s = RStopped).

Lemma stopped_stays s l s' : tstep s l s' -> reader s = RStopped -> reader s' = RStopped.
Proof.
  intros Hs Hr. destruct Hs; try congruence; try assumption; simp; try assumption.
  all: now rm_eq.
Qed.

(* a registration goes only when the reader fails or the second step of remove_match takes it away *)
Lemma sender_step s l s' p : tstep s l s' -> In p (senders s) ->
  In p (senders s') \/ reader s' = RStopped \/ exists r c, fst p = KRule r /\ r1 s r c.
Proof.
  intros Hs Hin. destruct Hs; try (left; exact Hin); simp;
    try (left; now rm_eq).
  - right. left. reflexivity.
  - left. apply in_app_iff. now left.
  - destruct (in_del_key_or _ (KRule r) _ Hin) as [Hk|Hk]; [now left|]. right. right. exists r, c. split; [exact Hk|]. left. exists sid, st. tauto.
  - destruct (in_del_key_or _ (KRule r) _ Hin) as [Hk|Hk]; [now left|]. right. right. exists r, c. split; [exact Hk|]. right. eapply nth_error_In; eassumption.
Qed.

(* an add_match call that holds `subscriptions` keeps it until its last step, which registers the sender or finds msg_senders empty *)
Lemma a2_keep s l s' sid r c : tstep s l s' -> a2 s sid r c -> a2 s' sid r c \/ In (KRule r, c) (senders s') \/ senders s = [].
Proof.
  intros Hs Ha. destruct Hs; try (left; exact Ha);
    try (left; eapply a2_ext; [|exact Ha]; now rm_eq).
  - left. apply fresh_spec in H. eapply (a2_fwd_put s); [reflexivity | | exact Ha]. intros a0 Ha0. destruct H as (_ & H & _). congruence.
  - left. eapply (a2_fwd_del s); [reflexivity | | exact Ha]. intros a0 Ha0 k. congruence.
  - left. eapply (a2_fwd_put s); [reflexivity | | exact Ha]. intros a0 Ha0 k. congruence.
  - left. eapply (a2_fwd_del s); [reflexivity | | exact Ha]. intros a0 Ha0 k. congruence.
  - left. eapply (a2_fwd_put s); [reflexivity | | exact Ha]. intros a0 Ha0 k. congruence.
  - (* its last step *) destruct (Nat.eq_dec sid sid0) as [->|Hne].
    + right. left. destruct Ha as (a' & Ha' & <- & Hp'). simp. apply in_app_iff. right. left. congruence.
    + left. destruct Ha as (a' & Ha' & Hr' & Hp'). exists a'. simp. rewrite lookup_del_other by assumption. tauto.
  - left. eapply a2_ext; [|exact Ha]. simp. reflexivity.
  - left. eapply a2_ext; [|exact Ha]. simp. reflexivity.
  - right. right. assumption.
Qed.

(* where the entries of `subscriptions` come from *)
Lemma entry_step s l s' r e' : tstep s l s' -> lookup (subs s') r = Some e' ->
  (exists e, lookup (subs s) r = Some e /\ e_ch e' = e_ch e) \/ exists sid, a2 s' sid r (e_ch e').
Proof.
  intros Hs He'. destruct Hs; try (left; exists e'; split; [exact He' | reflexivity]); simp;
    try (left; eapply rm_entry_back; eassumption); try (left; exists e'; split; [exact He' | reflexivity]).
  - apply lookup_put_inv in He'. destruct He' as [[-> ->]|[_ He']]; left; eauto.
  - apply lookup_put_inv in He'. destruct He' as [[-> ->]|[_ He']]; [right | left; eauto].
    exists sid, (add_at a (A2 (length (chans s)))). simp. rewrite lookup_put_same. repeat split; reflexivity.
  - apply lookup_del_some in He'. left. eauto.
Qed.

Lemma r1_task s r c : drops s = [] -> r1 s r c -> In (r, R1 c) (tasks s).
Proof. intros Hd [(sid & st & Hdr & _)|Hin]; [rewrite Hd in Hdr; discriminate | exact Hin]. Qed.

Lemma e1_step s l s' : tstep s l s' -> drops s = [] -> ereg s -> e1 s'.
Proof.
  intros Hs Hd (E1 & E2 & E4) r e' He'. destruct (entry_step _ _ _ _ _ Hs He') as [(e & He & ->)|Hnew]; [|now right; left].
  destruct (E1 _ _ He) as [Hx|[[sid Hx]|Hx]].
  - destruct (sender_step _ _ _ _ Hs Hx) as [H|[H|(r' & c' & E & Hr)]]; [now left | now right; right|].
    inversion E; subst r'. rewrite (E2 _ _ (r1_task _ _ _ Hd Hr)) in He. discriminate.
  - destruct (a2_keep _ _ _ _ _ _ Hs Hx) as [H|[H|H]]; [right; left; eauto | now left | right; right].
    destruct E4 as [Hin|Hst]; [rewrite H in Hin; destruct Hin | eapply stopped_stays; eassumption].
  - right. right. eapply stopped_stays; eassumption.
Qed.

(* a second step of remove_match is pending only for a rule whose entry its first step has taken away: nothing but the
   first step makes such a call, and nobody else touches `subscriptions` while it is held *)
Lemma e2_step s l s' : tstep s l s' -> drops s = [] -> e2 s -> e2 s'.
Proof.
  intros Hs Hd E2 r0 c0 Hin.
  assert (Hfree : subs_busy s = false -> forall r c, ~ In (r, R1 c) (tasks s)) by (intros Hb r c Hr; exact (not_busy_r1 s r c Hb (or_intror Hr))).
  destruct Hs; try (exact (E2 _ _ Hin)); try (dead_drop Hd); simp.
  - destruct (Hfree H1 _ _ Hin).
  - destruct (Hfree H1 _ _ Hin).
  - apply in_app_r0 in Hin. exact (E2 _ _ Hin).
  - apply in_app_r0 in Hin. exact (E2 _ _ Hin).
  - apply in_del_nth in Hin. destruct (Hfree H0 _ _ Hin).
  - apply in_upd in Hin. destruct Hin as [E|Hin]; [|destruct (Hfree H0 _ _ Hin)]. inversion E; subst.
    apply rm_apply_spec, rm_spec_tables in H1. apply H1.
  - apply in_del_nth in Hin. exact (E2 _ _ Hin).
  - apply lookup_del_none. exact (E2 _ _ Hin).
Qed.

Lemma ereg_step s l s' : tstep s l s' -> drops s = [] -> ereg s -> ereg s'.
Proof.
  intros Hs Hd E. split; [eapply e1_step; eassumption|]. destruct E as (_ & E2 & E4). split; [eapply e2_step; eassumption|].
  destruct E4 as [H|H]; [|right; eapply stopped_stays; eassumption].
  destruct (sender_step _ _ _ _ Hs H) as [H'|[H'|(r & c & E & _)]]; [now left | now right | discriminate].
Qed.

Lemma ereg_init : ereg init.
Proof. split; [intros r e He; discriminate|]. split; [intros r c [] | left; cbn; tauto]. Qed.

Lemma ereg_reach tr s : reach tr s -> ereg s.
Proof. apply (reach_inv_ind matches); [exact ereg_init | intros; eapply ereg_step; eassumption]. Qed.

(* ---- the creator of an entry stays its only holder while it holds `subscriptions` ---- *)
(* while somebody holds `subscriptions`, the table changes only when an add_match call that holds it gives up *)
Lemma busy_subs_same s l s' : tstep s l s' -> subs_busy s = true ->
  subs s' = subs s \/ exists sid r c, a2 s sid r c /\ adds s' = del (adds s) sid.
Proof.
  intros Hs Hb. destruct Hs; try (left; reflexivity); try congruence; simp; try (left; reflexivity).
  right. exists sid, (a_rule a), c. split; [exists a; tauto | reflexivity].
Qed.

Lemma busy_of_a2 s sid r c : a2 s sid r c -> subs_busy s = true.
Proof. intros Ha. destruct (subs_busy s) eqn:E; [reflexivity|]. destruct (not_busy_a2 s sid r c E Ha). Qed.

Lemma a2_one_step s l s' : tstep s l s' -> Inv s -> a2_one s -> a2_one s'.
Proof.
  intros Hs I A sid r c Ha'. destruct (a2_step _ _ _ _ Hs I) as [Hback|(_ & sid0 & Hnew)].
  - pose proof (Hback _ _ _ Ha') as Ha.
    destruct (busy_subs_same _ _ _ Hs (busy_of_a2 _ _ _ _ Ha)) as [Es|(sid1 & r1 & c1 & Ha1 & Ed)]; [rewrite Es; exact (A _ _ _ Ha)|].
    (* the one call in A2 has gone *)
    pose proof (inv_a2_uniq _ _ I _ _ _ _ _ _ Ha Ha1) as ->. destruct Ha' as (a' & Ha' & _). rewrite Ed, lookup_del_same in Ha'. discriminate.
  - (* the entry has just been made, with one reference *) destruct (Hnew _ _ _ Ha') as (_ & Hent & _). unfold ref_of. now rewrite Hent.
Qed.

(* ---- all of it, in every reachable state, clones included ---- *)
Definition share_ok (s : sys) : Prop := keys_nodup (adds s) /\ grp_ok s /\ a2_one s /\ count_ok s /\ chan_agree s.

Lemma share_ok_reach : forall tr s, reach tr s -> share_ok s.
Proof.
  apply (reach_inv_ind matches).
  - split; [constructor|]. split; [intros r sid; split; [intros (ms & [] & _) | intros (st & Hl & _); discriminate]|].
    split; [intros sid r c (a & Ha & _); discriminate|]. split; [intros r; reflexivity | intros sid st r e Hl; discriminate].
  - intros s l s' Hs I Hd (K & G & A & C & Ag). split; [eapply akeys_step; eassumption|]. split; [eapply grp_step; eassumption|].
    split; [eapply a2_one_step; eassumption|]. split; [eapply count_step; eassumption | eapply agree_step; eassumption].
Qed.

Theorem share_reach tr s : reach tr s -> count_ok s /\ chan_agree s.
Proof. intros Hr. destruct (share_ok_reach _ _ Hr) as (_ & _ & _ & C & A). split; assumption. Qed.

(* ---- every stream is registered in msg_senders under its own key, unless the reader has failed ---- *)
Theorem registered_live tr s sid st : reach tr s -> lookup (streams s) sid = Some st ->
  In (skey st, s_ch st) (senders s) \/ reader s = RStopped.
Proof.
  intros Hr Hl. destruct (share_ok_reach _ _ Hr) as (_ & G & _ & C & A). pose proof (Inv_reach _ _ _ Hr) as I.
  destruct (ereg_reach _ _ Hr) as (E1 & _ & E4). unfold skey. destruct (s_rule st) as [r|] eqn:Er.
  - destruct (stream_entry _ _ _ _ G C Hl Er) as (e & Ee). pose proof (A _ _ _ _ Hl Er Ee) as Ec. rewrite Ec.
    destruct (E1 _ _ Ee) as [H|[[sid' H]|H]]; [now left | | now right].
    (* the channel of an entry that is just being created has no stream yet *)
    destruct (inv_a2 _ _ I _ _ _ H) as (_ & _ & _ & _ & _ & _ & Hno). destruct (Hno _ _ Hl Ec).
  - destruct (inv_stream _ _ I _ _ Hl) as (_ & _ & H0). rewrite (H0 Er). exact E4.
Qed.

(* C20_delivery without registration hypothesis: for every stream of every history *)
Theorem delivery_all tr s sid st : reach tr s -> lookup (streams s) sid = Some st -> reader s <> RStopped ->
  msgs (s_got st) ++ msgs (unread (chan_at s (s_ch st)) sid) =
  filter (Inv.accepts matches (skey st)) (skipn (s_from st) (firstn (seen s (s_ch st)) (incoming s))).
Proof.
  intros Hr Hl Hrd. destruct (registered_live _ _ _ _ Hr Hl) as [H|H]; [|contradiction]. eapply delivery; eassumption.
Qed.

End Share.
