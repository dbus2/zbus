(* C20/Steps.v — the step function of C20/Model.v as a relation with one constructor per way a label can fire. *)
From ZV Require Import Base.Bytes Base.Res C19.Broadcast C19.BroadcastFacts C20.Model C20.Lemmas.
From Coq Require Import Lia.

(* rm_sender changes msg_senders and one channel: as one equation, so that rewriting with it lets the other projections compute *)
Lemma rm_sender_eq s r : rm_sender s r = with_chans (with_senders s (del_key (senders s) (KRule r))) (chans (rm_sender s r)).
Proof. unfold rm_sender. now destruct (chan_of_key (senders s) (KRule r)). Qed.

Lemma senders_rm s r : senders (rm_sender s r) = del_key (senders s) (KRule r).  Proof. now rewrite rm_sender_eq. Qed.
Lemma subs_rm s r : subs (rm_sender s r) = subs s.  Proof. now rewrite rm_sender_eq. Qed.
Lemma streams_rm s r : streams (rm_sender s r) = streams s.  Proof. now rewrite rm_sender_eq. Qed.
Lemma adds_rm s r : adds (rm_sender s r) = adds s.  Proof. now rewrite rm_sender_eq. Qed.
Lemma drops_rm s r : drops (rm_sender s r) = drops s.  Proof. now rewrite rm_sender_eq. Qed.
Lemma tasks_rm s r : tasks (rm_sender s r) = tasks s.  Proof. now rewrite rm_sender_eq. Qed.
Lemma reader_rm s r : reader (rm_sender s r) = reader s.  Proof. now rewrite rm_sender_eq. Qed.
Lemma socket_rm s r : socket (rm_sender s r) = socket s.  Proof. now rewrite rm_sender_eq. Qed.
Lemma incoming_rm s r : incoming (rm_sender s r) = incoming s.  Proof. now rewrite rm_sender_eq. Qed.
Lemma dead_rm s r : dead (rm_sender s r) = dead s.  Proof. now rewrite rm_sender_eq. Qed.
Lemma arcs_rm s r : arcs (rm_sender s r) = arcs s.  Proof. now rewrite rm_sender_eq. Qed.
Lemma length_chans_rm s r : length (chans (rm_sender s r)) = length (chans s).
Proof. unfold rm_sender. destruct (chan_of_key (senders s) (KRule r)); [apply length_upd | reflexivity]. Qed.
#[export] Hint Rewrite senders_rm subs_rm streams_rm adds_rm drops_rm tasks_rm reader_rm socket_rm incoming_rm dead_rm arcs_rm
  length_chans_rm : rms.

Section Steps.
Variable matches : nat -> msg -> bool.

Notation step := (step matches).
Notation targets := (targets matches).

Definition mk_stream (r : option nat) (c from : nat) : stream := {| s_rule := r; s_ch := c; s_from := from; s_got := [] |}.
Definition got_more (st : stream) (x : item) : stream :=
  {| s_rule := s_rule st; s_ch := s_ch st; s_from := s_from st; s_got := s_got st ++ [x] |}.
Definition add_at (a : addst) (pc : addpc) : addst := {| a_rule := a_rule a; a_q := a_q a; a_pc := pc |}.

Definition close_all (s : sys) : list (chan item) :=
  map (fun p => if mem_nat (fst p) (map snd (senders s)) then close (snd p) else snd p)
      (combine (seq 0 (length (chans s))) (chans s)).

Definition live (s : sys) (sid : nat) (st : stream) : Prop := lookup (streams s) sid = Some st /\ lookup (drops s) sid = None.

Inductive tstep (s : sys) : label -> sys -> Prop :=
  | TArrive it : tstep s (LArrive it) (with_socket s (socket s ++ [it]))
  | TReadMsg m rest : reader s = RIdle -> socket s = IMsg m :: rest ->
      tstep s LRead (with_incoming (with_reader (with_socket s rest) (RHave (IMsg m))) (incoming s ++ [m]))
  | TReadFail e rest : reader s = RIdle -> socket s = IFail e :: rest ->
      tstep s LRead (with_reader (with_socket s rest) (RHave (IFail e)))
  | TFan it todo : reader s = RHave it -> is_perm todo (targets (senders s) it) = true ->
      tstep s (LFan todo) (with_reader s (RPush it todo))
  | TPushOk it c todo ch' : reader s = RPush it (c :: todo) -> try_push it (chan_at s c) = Pushed ch' ->
      tstep s LPush (with_reader (set_chan s c ch') (RPush it todo))
  | TPushSkip it c todo : reader s = RPush it (c :: todo) ->
      (try_push it (chan_at s c) = PNoRecv \/ try_push it (chan_at s c) = PClosed) ->
      tstep s LPush (with_reader s (RPush it todo))
  | TNextMsg m : reader s = RPush (IMsg m) [] -> tstep s LNext (with_reader s RIdle)
  | TNextFail e : reader s = RPush (IFail e) [] ->
      tstep s LNext (with_reader (with_senders (with_chans s (close_all s)) []) RStopped)
  | TAddStart sid r q : fresh s sid = true -> q <> Some 0 ->
      tstep s (LAddStart sid r q) (with_adds s (put (adds s) sid {| a_rule := r; a_q := q; a_pc := A0 |}))
  | TAddCheckFail sid a : lookup (adds s) sid = Some a -> a_pc a = A0 -> senders_held s = false -> senders s = [] ->
      tstep s (LAddCheck sid) (with_adds s (del (adds s) sid))
  | TAddCheckOk sid a : lookup (adds s) sid = Some a -> a_pc a = A0 -> senders_held s = false -> senders s <> [] ->
      tstep s (LAddCheck sid) (with_adds s (put (adds s) sid (add_at a A1)))
  | TAddSubsOcc sid a e : lookup (adds s) sid = Some a -> a_pc a = A1 -> subs_busy s = false ->
      lookup (subs s) (a_rule a) = Some e ->
      let c := e_ch e in
      let ch1 := match a_q a with Some n => grow n (chan_at s c) | None => chan_at s c end in
      let s1 := set_chan s c (subscribe sid ch1) in
      let s2 := with_subs s1 (put (subs s1) (a_rule a) {| e_ref := S (e_ref e); e_ch := c |}) in
      tstep s (LAddSubs sid)
        (with_arcs (with_adds (with_streams s2 (put (streams s2) sid (mk_stream (Some (a_rule a)) c (seen s c)))) (del (adds s2) sid))
                   (arcs s ++ [(a_rule a, [sid])]))
  | TAddSubsVac sid a : lookup (adds s) sid = Some a -> a_pc a = A1 -> subs_busy s = false ->
      lookup (subs s) (a_rule a) = None ->
      let c := length (chans s) in
      let capacity := match a_q a with Some n => n | None => default_max_queued end in
      let s1 := with_chans s (chans s ++ [subscribe sid (new_chan capacity)]) in
      let s2 := with_subs s1 (put (subs s1) (a_rule a) {| e_ref := 1; e_ch := c |}) in
      tstep s (LAddSubs sid) (with_adds s2 (put (adds s2) sid (add_at a (A2 c))))
  | TAddSender sid a c : lookup (adds s) sid = Some a -> a_pc a = A2 c -> senders_held s = false -> senders s <> [] ->
      tstep s (LAddSender sid)
        (with_arcs (with_adds (with_streams (with_senders s (senders s ++ [(KRule (a_rule a), c)]))
                                            (put (streams s) sid (mk_stream (Some (a_rule a)) c (seen s c))))
                              (del (adds s) sid))
                   (arcs s ++ [(a_rule a, [sid])]))
  | TUnfiltered sid : fresh s sid = true ->
      tstep s (LUnfiltered sid)
        (with_streams (set_chan s 0 (subscribe sid (chan_at s 0))) (put (streams s) sid (mk_stream None 0 (seen s 0))))
  | TPollGot sid st x ch' : live s sid st -> try_recv sid (chan_at s (s_ch st)) = Got x ch' ->
      tstep s (LPoll sid) (with_streams (set_chan s (s_ch st) ch') (put (streams s) sid (got_more st x)))
  | TPollEnd sid st : live s sid st -> try_recv sid (chan_at s (s_ch st)) = RClosed -> tstep s (LPoll sid) s
  | TDropRule sid st r a' : live s sid st -> s_rule st = Some r -> release (arcs s) sid = (a', true) ->
      tstep s (LDrop sid) (with_arcs (with_tasks (bury s sid st) (tasks s ++ [(r, R0)])) a')
  | TDropNone sid st : live s sid st -> s_rule st = None -> tstep s (LDrop sid) (bury s sid st)
  | TClone sid sid2 st : live s sid st -> fresh s sid2 = true ->
      tstep s (LClone sid sid2)
        (with_arcs (with_streams (set_chan s (s_ch st) (clone_rcv sid sid2 (chan_at s (s_ch st)))) (put (streams s) sid2 st)) (join (arcs s) sid sid2))
  | TSetCap sid n st : live s sid st ->
      tstep s (LSetCap sid n) (set_chan s (s_ch st) (grow n (chan_at s (s_ch st))))
  | TDropStartRule sid st r a' : live s sid st -> s_rule st = Some r -> release (arcs s) sid = (a', true) ->
      tstep s (LDropStart sid) (with_arcs (with_tasks (bury s sid st) (tasks s ++ [(r, R0)])) a')
  | TDropStartNone sid st : live s sid st -> s_rule st = None -> tstep s (LDropStart sid) (bury s sid st)
  | TDropSubsDone sid st r s1 : lookup (streams s) sid = Some st -> lookup (drops s) sid = Some R0 -> subs_busy s = false ->
      s_rule st = Some r -> rm_apply s r = (s1, None) ->
      tstep s (LDropSubs sid) (with_drops (bury s1 sid st) (del (drops s1) sid))
  | TDropSubsWait sid st r s1 c : lookup (streams s) sid = Some st -> lookup (drops s) sid = Some R0 -> subs_busy s = false ->
      s_rule st = Some r -> rm_apply s r = (s1, Some c) ->
      tstep s (LDropSubs sid) (with_drops s1 (put (drops s1) sid (R1 c)))
  | TDropSender sid st r c : lookup (streams s) sid = Some st -> lookup (drops s) sid = Some (R1 c) -> senders_held s = false ->
      s_rule st = Some r ->
      tstep s (LDropSender sid) (with_drops (bury (rm_sender s r) sid st) (del (drops s) sid))
  | TTaskSubsDone n r s1 : nth_error (tasks s) n = Some (r, R0) -> subs_busy s = false -> rm_apply s r = (s1, None) ->
      tstep s (LTaskSubs n) (with_tasks s1 (del_nth (tasks s) n))
  | TTaskSubsWait n r s1 c : nth_error (tasks s) n = Some (r, R0) -> subs_busy s = false -> rm_apply s r = (s1, Some c) ->
      tstep s (LTaskSubs n) (with_tasks s1 (upd (tasks s) n (r, R1 c)))
  | TTaskSender n r c : nth_error (tasks s) n = Some (r, R1 c) -> senders_held s = false ->
      tstep s (LTaskSender n) (with_tasks (rm_sender s r) (del_nth (tasks s) n))
  (* fix 3703ee13: add_match finds msg_senders empty (the reader has failed since the first check) and gives up *)
  | TAddSenderFail sid a c : lookup (adds s) sid = Some a -> a_pc a = A2 c -> senders_held s = false -> senders s = [] ->
      tstep s (LAddSender sid)
        (with_adds (with_subs (set_chan s c (drop_rcv sid (chan_at s c))) (del (subs s) (a_rule a))) (del (adds s) sid))
  (* fix 3c4a83a4: a stream whose rule (Arc) other clones still hold is dropped: nothing is given back *)
  | TDropShared sid st r a' : live s sid st -> s_rule st = Some r -> release (arcs s) sid = (a', false) ->
      tstep s (LDrop sid) (with_arcs (bury s sid st) a')
  | TDropStartShared sid st r a' : live s sid st -> s_rule st = Some r -> release (arcs s) sid = (a', false) ->
      tstep s (LDropStart sid) (with_arcs (bury s sid st) a').

(* as rm_sender_eq at the top, for rm_apply: it changes subs and one channel's closed flag *)
Lemma rm_apply_eq s r s1 o : rm_apply s r = (s1, o) -> s1 = with_chans (with_subs s (subs s1)) (chans s1).
Proof.
  unfold rm_apply. destruct (lookup (subs s) r) as [e|]; [|intros H; inversion H; subst; now destruct s1].
  destruct (e_ref e) as [|[|n]]; intros H; inversion H; subst; clear H;
    try (destruct (rcv (chan_at (with_subs s (del (subs s) r)) (e_ch e)))); reflexivity.
Qed.

Lemma rm_apply_frame s r s1 o : rm_apply s r = (s1, o) ->
  senders s1 = senders s /\ streams s1 = streams s /\ adds s1 = adds s /\ drops s1 = drops s /\ tasks s1 = tasks s /\
  reader s1 = reader s /\ socket s1 = socket s /\ incoming s1 = incoming s /\ dead s1 = dead s /\ arcs s1 = arcs s.
Proof. intros H. rewrite (rm_apply_eq _ _ _ _ H). repeat split. Qed.

Lemma step_tstep l s s' : step l s = Some s' -> tstep s l s'.
Proof.
  unfold Model.step. destruct l as [it| |todo| | |sid r q|sid|sid|sid|sid|sid|sid|sid sid2|sid n|sid|sid|sid|n|n].
  - intros H; inversion H; constructor.
  - destruct (reader s) eqn:Er; try discriminate. destruct (socket s) as [|[m|e] rest] eqn:Es; try discriminate;
      intros H; inversion H; subst s'; [now apply TReadMsg | now apply TReadFail].
  - destruct (reader s) eqn:Er; try discriminate. destruct (is_perm todo (targets (senders s) it)) eqn:Ep; [|discriminate].
    intros H; inversion H; subst s'. now apply TFan.
  - destruct (reader s) as [| |it [|c todo]|] eqn:Er; try discriminate.
    destruct (try_push it (chan_at s c)) eqn:Ep; try discriminate; intros H; inversion H; subst s'.
    + eapply TPushOk; eauto.
    + eapply TPushSkip; eauto.
    + eapply TPushSkip; eauto.
  - destruct (reader s) as [| |[m|e] [|c todo]|] eqn:Er; try discriminate; intros H; inversion H; subst s'.
    + eapply TNextMsg; eauto.
    + eapply TNextFail; eauto.
  - destruct (fresh s sid) eqn:Ef; [|discriminate]. cbn [andb].
    destruct q as [[|n]|]; try discriminate; intros H; inversion H; subst s'; apply TAddStart; try assumption; discriminate.
  - destruct (lookup (adds s) sid) as [a|] eqn:Ea; [|discriminate]. destruct (a_pc a) eqn:Epc; try discriminate.
    destruct (senders_held s) eqn:Eh; [discriminate|]. destruct (senders s) eqn:Es; intros H; inversion H; subst s'.
    + now eapply TAddCheckFail; eauto.
    + replace {| a_rule := a_rule a; a_q := a_q a; a_pc := A1 |} with (add_at a A1) by reflexivity.
      eapply TAddCheckOk; eauto. rewrite Es. discriminate.
  - destruct (lookup (adds s) sid) as [a|] eqn:Ea; [|discriminate]. destruct (a_pc a) eqn:Epc; try discriminate.
    destruct (subs_busy s) eqn:Eb; [discriminate|]. destruct (lookup (subs s) (a_rule a)) as [e|] eqn:Ee;
      intros H; inversion H; subst s'.
    + exact (TAddSubsOcc s sid a e Ea Epc Eb Ee).
    + exact (TAddSubsVac s sid a Ea Epc Eb Ee).
  - destruct (lookup (adds s) sid) as [a|] eqn:Ea; [|discriminate]. destruct (a_pc a) eqn:Epc; try discriminate.
    destruct (senders_held s) eqn:Eh; [discriminate|]. destruct (senders s) as [|p0 l0] eqn:Esn; intros H; inversion H; subst s'.
    + exact (TAddSenderFail s sid a c Ea Epc Eh Esn).
    + pose proof (TAddSender s sid a c Ea Epc Eh) as T. rewrite Esn in T. apply T. discriminate.
  - destruct (fresh s sid) eqn:Ef; [|discriminate]. intros H; inversion H; subst s'. now apply TUnfiltered.
  - destruct (lookup (streams s) sid) as [st|] eqn:Es; [|discriminate]. destruct (lookup (drops s) sid) eqn:Ed; [discriminate|].
    destruct (try_recv sid (chan_at s (s_ch st))) eqn:Er; try discriminate; intros H; inversion H; subst.
    + eapply TPollGot; [split; eassumption | eassumption].
    + eapply TPollEnd; [split; eassumption | eassumption].
  - destruct (lookup (streams s) sid) as [st|] eqn:Es; [|discriminate]. destruct (lookup (drops s) sid) eqn:Ed; [discriminate|].
    destruct (s_rule st) eqn:Er.
    + destruct (release (arcs s) sid) as [a' [|]] eqn:Erel; intros H; inversion H; subst s'; [eapply TDropRule | eapply TDropShared]; try split; eassumption.
    + intros H; inversion H; subst s'. eapply TDropNone; [split; eassumption | eassumption].
  - destruct (lookup (streams s) sid) as [st|] eqn:Es; [|discriminate]. destruct (lookup (drops s) sid) eqn:Ed; [discriminate|].
    destruct (fresh s sid2) eqn:Ef; [|discriminate]. intros H; inversion H; subst s'. eapply TClone; [split; eassumption | eassumption].
  - destruct (lookup (streams s) sid) as [st|] eqn:Es; [|discriminate]. destruct (lookup (drops s) sid) eqn:Ed; [discriminate|].
    intros H; inversion H; subst s'. eapply TSetCap. split; eassumption.
  - destruct (lookup (streams s) sid) as [st|] eqn:Es; [|discriminate]. destruct (lookup (drops s) sid) eqn:Ed; [discriminate|].
    destruct (s_rule st) eqn:Er.
    + destruct (release (arcs s) sid) as [a' [|]] eqn:Erel; intros H; inversion H; subst s'; [eapply TDropStartRule | eapply TDropStartShared]; try split; eassumption.
    + intros H; inversion H; subst s'. eapply TDropStartNone; [split; eassumption | eassumption].
  - destruct (lookup (streams s) sid) as [st|] eqn:Es; [|discriminate]. destruct (lookup (drops s) sid) as [[|c]|] eqn:Ed; try discriminate.
    destruct (subs_busy s) eqn:Eb; [discriminate|]. destruct (s_rule st) as [r|] eqn:Er; [|discriminate].
    destruct (rm_apply s r) as [s1 [c|]] eqn:Ea; intros H; inversion H; subst s'.
    + eapply TDropSubsWait; eauto.
    + eapply TDropSubsDone; eauto.
  - destruct (lookup (streams s) sid) as [st|] eqn:Es; [|discriminate]. destruct (lookup (drops s) sid) as [[|c]|] eqn:Ed; try discriminate.
    destruct (senders_held s) eqn:Eh; [discriminate|]. destruct (s_rule st) as [r|] eqn:Er; [|discriminate].
    rewrite drops_rm. intros H; inversion H; subst s'. eapply TDropSender; eauto.
  - destruct (nth_error (tasks s) n) as [[r [|c]]|] eqn:En; try discriminate. destruct (subs_busy s) eqn:Eb; [discriminate|].
    destruct (rm_apply s r) as [s1 [c|]] eqn:Ea; intros H; inversion H; subst s';
      destruct (rm_apply_frame _ _ _ _ Ea) as (_ & _ & _ & _ & Et & _); rewrite Et.
    + eapply TTaskSubsWait; eauto.
    + eapply TTaskSubsDone; eauto.
  - destruct (nth_error (tasks s) n) as [[r [|c]]|] eqn:En; try discriminate. destruct (senders_held s) eqn:Eh; [discriminate|].
    rewrite tasks_rm. intros H; inversion H; subst s'. eapply TTaskSender; eauto.
Qed.

End Steps.

Lemma length_close_all s : length (close_all s) = length (chans s).
Proof. unfold close_all. now rewrite map_length, combine_length, seq_length, Nat.min_id. Qed.
