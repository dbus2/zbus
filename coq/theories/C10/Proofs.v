(* C10/Proofs.v — each validator of the model accepts exactly its specification grammar. *)
From ZV Require Import Base.Bytes Base.Winnow Base.WinnowFacts C10.Model C10.Spec.
From Coq Require Import Lia.

Lemma forallb_ext' {A} (f g : A -> bool) l : (forall x, f x = g x) -> forallb f l = forallb g l.
Proof. intros H. induction l; cbn; [reflexivity|]. now rewrite H, IHl. Qed.

Lemma sep_loop_ext e1 e2 sp : (forall i, e1 i = e2 i) ->
  forall fuel min count inp, sep_loop fuel min count e1 sp inp = sep_loop fuel min count e2 sp inp.
Proof.
  intros He. induction fuel as [|fuel IH]; intros min count inp; [reflexivity|]. cbn [sep_loop].
  destruct (sp inp) as [r1|]; [|reflexivity]. rewrite He. destruct (e2 r1); [apply IH|reflexivity].
Qed.
Lemma separated_ext e1 e2 sp min inp : (forall i, e1 i = e2 i) -> separated min e1 sp inp = separated min e2 sp inp.
Proof. intros He. unfold separated. rewrite He. destruct (e2 inp); [now apply sep_loop_ext|reflexivity]. Qed.

(* ---------- element classes of the spec are the okb of the model's classes ---------- *)
Lemma elem_iface_okb e : elem_iface e = okb if_first if_rest e.
Proof. destruct e as [|c r]; [reflexivity|]. cbn. f_equal. Qed.
Lemma elem_wk_okb e : elem_wk e = okb wk_first wk_rest e.
Proof.
  destruct e as [|c r]; [reflexivity|]. cbn. unfold wk_first, wk_rest, orb1, ch, is_us, is_hy.
  rewrite orb_assoc. f_equal. apply forallb_ext'. intros x. now rewrite orb_assoc.
Qed.
Lemma elem_uq_okb e : elem_uq e = okb uq_elem uq_elem e.
Proof.
  destruct e as [|c r]; [reflexivity|]. cbn. unfold uq_elem, orb1, ch, is_us, is_hy.
  rewrite orb_assoc. f_equal. apply forallb_ext'. intros x. now rewrite orb_assoc.
Qed.
Lemma elem_path_okb e : elem_path e = okb if_rest if_rest e.
Proof. destruct e; reflexivity. Qed.

Lemma len_guard (s : bytes) : negb (Nat.ltb 255 (length s)) = Nat.leb (length s) max_name.
Proof. symmetry. apply Nat.leb_antisym. Qed.

(* ---------- validators = executable specs ---------- *)
(* interface and well-known names: at least two elements [f][g]* joined by dots, at most 255 bytes *)
Lemma dotted_ok f g elem s : (forall e, elem e = okb f g e) -> f dot = false -> g dot = false ->
  parse_all (separated 2 (first_then f g) (one_of (ch "."))) s && negb (Nat.ltb 255 (length s))
  = Nat.leb 2 (length (split_on dot s)) && forallb elem (split_on dot s) && Nat.leb (length s) max_name.
Proof.
  intros He Hf Hg. rewrite len_guard. f_equal. change (ch ".") with (fun x => beq x dot).
  rewrite (separated_spec f g dot Hf Hg 2 s) by lia. rewrite andb_comm. f_equal.
  apply forallb_ext'. intro e. now rewrite He.
Qed.

Lemma interface_ok s : validate_interface s = spec_interface s.
Proof. exact (dotted_ok _ _ _ s elem_iface_okb eq_refl eq_refl). Qed.

Lemma well_known_ok s : validate_well_known s = spec_well_known s.
Proof. exact (dotted_ok _ _ _ s elem_wk_okb eq_refl eq_refl). Qed.

Lemma member_ok s : validate_member s = spec_member s.
Proof.
  unfold validate_member, spec_member. rewrite len_guard. f_equal.
  rewrite elem_iface_okb. unfold parse_all, pseq, one_of, take_while0, okb.
  destruct s as [|c r]; [reflexivity|]. destruct (if_first c); [|reflexivity]. cbn [andb].
  induction r as [|d r IH]; [reflexivity|]. cbn. destruct (if_rest d); [exact IH|reflexivity].
Qed.

Lemma property_ok s : validate_property s = spec_property s.
Proof.
  unfold validate_property, spec_property. rewrite len_guard. f_equal.
  destruct s; reflexivity.
Qed.

Lemma lit_spec l : forall s, lit l s = if starts_with l s then Some (skipn (length l) s) else None.
Proof.
  induction l as [|a l IH]; intros s; [reflexivity|]. destruct s as [|b s]; [reflexivity|]. cbn.
  destruct (beq a b); [apply IH|reflexivity].
Qed.

Lemma pseq_one_of f q c r : pseq (one_of f) q (c :: r) = if f c then q r else None.
Proof. unfold pseq, one_of. destruct (f c); reflexivity. Qed.

Lemma lbeq_app_nil l r : lbeq (l ++ r) l = match r with [] => true | _ => false end.
Proof.
  induction l as [|a l IH]; [destruct r; reflexivity|]. cbn. now rewrite beq_refl.
Qed.

Lemma unique_ok s : validate_unique s = spec_unique s.
Proof.
  unfold validate_unique, spec_unique. rewrite len_guard. f_equal. unfold parse_all, palt.
  set (L := B "org.freedesktop.DBus"). rewrite lit_spec. destruct (starts_with L s) eqn:Es.
  - (* s begins with the literal: alt commits to it, and s does not begin with ':' *)
    apply starts_with_app in Es. rewrite Es, lbeq_app_nil. now destruct (skipn (length L) s).
  - rewrite (proj2 (lbeq_false s L)) by (intros ->; discriminate Es).
    destruct s as [|c r]; [reflexivity|]. rewrite pseq_one_of. unfold ch at 1.
    destruct (beq c ":"); [|reflexivity].
    rewrite (separated_ext _ (first_then uq_elem uq_elem)) by apply take_while1_first_then.
    change (ch ".") with (fun x => beq x dot).
    pose proof (separated_spec uq_elem uq_elem dot eq_refl eq_refl 2 r ltac:(lia)) as Hsp.
    unfold parse_all in Hsp. rewrite Hsp, andb_comm. cbn [orb andb]. f_equal.
    apply forallb_ext'. intros e. symmetry. apply elem_uq_okb.
Qed.

Lemma bus_ok s : validate_bus s = spec_bus s.
Proof. unfold validate_bus, spec_bus. now rewrite unique_ok, well_known_ok. Qed.

Lemma object_path_ok s : validate_object_path s = spec_object_path s.
Proof.
  unfold validate_object_path, spec_object_path, parse_all.
  destruct s as [|c r]; [reflexivity|]. rewrite pseq_one_of. unfold ch at 1. change (beq c "/") with (beq c slash).
  destruct (beq c slash); [|reflexivity].
  rewrite (separated_ext _ (first_then if_rest if_rest)) by apply take_while1_first_then.
  change (ch "/") with (fun x => beq x slash).
  pose proof (separated0_spec if_rest if_rest slash eq_refl eq_refl r) as Hsp.
  unfold parse_all in Hsp. rewrite Hsp. destruct r; [reflexivity|].
  apply forallb_ext'. intros e. symmetry. apply elem_path_okb.
Qed.

Lemma guid_ok s : validate_guid s = spec_guid s.
Proof. reflexivity. Qed.

(* ---------- executable specs = Prop-level grammars ---------- *)
Lemma forallb_Forall {A} (f : A -> bool) l : forallb f l = true <-> Forall (fun x => f x = true) l.
Proof. now rewrite forallb_forall, Forall_forall. Qed.

(* a string splits into at least min >= 1 well-formed elements exactly when it is such elements joined *)
Lemma name_grammar (elem : bytes -> bool) f g sep min s :
  (forall e, elem e = okb f g e) -> f sep = false -> g sep = false -> 1 <= min ->
  (min <= length (split_on sep s) /\ forallb elem (split_on sep s) = true)
  <-> exists es, s = joined sep es /\ min <= length es /\ Forall (fun e => elem e = true) es.
Proof.
  intros He Hf Hg Hm. rewrite forallb_Forall. unfold joined. split.
  - intros [H1 H2]. exists (split_on sep s). now rewrite join_split.
  - intros (es & -> & Hl & Hall). rewrite split_join; [auto| |].
    + destruct es; [cbn in Hl; lia|discriminate].
    + eapply Forall_impl; [|exact Hall]. intros e H. apply (ok_no_sep f g sep Hf Hg). now rewrite <- He.
Qed.

Lemma dotted_grammar elem f g s : (forall e, elem e = okb f g e) -> f dot = false -> g dot = false ->
  Nat.leb 2 (length (split_on dot s)) && forallb elem (split_on dot s) && Nat.leb (length s) max_name = true
  <-> exists es, s = joined dot es /\ 2 <= length es /\ Forall (fun e => elem e = true) es /\ length s <= max_name.
Proof.
  intros He Hf Hg. rewrite !andb_true_iff, !Nat.leb_le, (name_grammar elem f g dot 2 s He Hf Hg) by lia. split.
  - intros [(es & H1 & H2 & H3) H4]. exists es. auto.
  - intros (es & H1 & H2 & H3 & H4). split; [exists es|]; auto.
Qed.

Lemma interface_grammar s : spec_interface s = true <-> Interface s.
Proof. exact (dotted_grammar _ _ _ s elem_iface_okb eq_refl eq_refl). Qed.

Lemma well_known_grammar s : spec_well_known s = true <-> WellKnown s.
Proof. exact (dotted_grammar _ _ _ s elem_wk_okb eq_refl eq_refl). Qed.

Lemma unique_grammar s : spec_unique s = true <-> Unique s.
Proof.
  unfold spec_unique, Unique. rewrite andb_true_iff, Nat.leb_le, orb_true_iff, lbeq_eq.
  enough (H : match s with c :: r => beq c ":" && (Nat.leb 2 (length (split_on dot r)) && forallb elem_uq (split_on dot r)) | [] => false end = true
              <-> exists es, s = ":"%byte :: joined dot es /\ 2 <= length es /\ Forall (fun e => elem_uq e = true) es)
    by now rewrite H.
  destruct s as [|c r]; [split; [discriminate|intros (es & H & _); discriminate]|].
  rewrite !andb_true_iff, Nat.leb_le, (name_grammar elem_uq uq_elem uq_elem dot 2 r elem_uq_okb eq_refl eq_refl) by lia. split.
  - intros [Hc (es & -> & H)]. apply beq_eq in Hc. subst c. now exists es.
  - intros (es & H & H'). injection H as -> ->. rewrite beq_refl. split; [reflexivity|now exists es].
Qed.

Lemma member_grammar s : spec_member s = true <-> Member s.
Proof. unfold spec_member, Member. now rewrite andb_true_iff, Nat.leb_le. Qed.

Lemma property_grammar s : spec_property s = true <-> Property s.
Proof. unfold spec_property, Property. now rewrite andb_true_iff, !Nat.leb_le. Qed.

Lemma bus_grammar s : spec_bus s = true <-> Bus s.
Proof. unfold spec_bus, Bus. now rewrite orb_true_iff, unique_grammar, well_known_grammar. Qed.

Lemma object_path_grammar s : spec_object_path s = true <-> ObjectPath s.
Proof.
  unfold spec_object_path, ObjectPath. destruct s as [|c [|d r]].
  - split; [discriminate|]. intros [H|(es & H & _)]; discriminate.
  - rewrite andb_true_r. split; [intro Hc; apply beq_eq in Hc; subst c; now left|].
    intros [H|(es & H & _)]; inversion H; apply beq_refl.
  - assert (Hn : 1 <= length (split_on slash (d :: r))).
    { pose proof (split_on_nonempty slash (d :: r)). destruct (split_on slash (d :: r)); [contradiction|cbn; lia]. }
    pose proof (name_grammar elem_path if_rest if_rest slash 1 (d :: r) elem_path_okb eq_refl eq_refl (le_n 1)) as G.
    rewrite andb_true_iff. split.
    + intros [Hc H]. apply beq_eq in Hc. subst c. right.
      destruct (proj1 G (conj Hn H)) as (es & E & H'). exists es. now rewrite E.
    + intros [H|(es & H & H')]; [discriminate|]. injection H as -> E. rewrite beq_refl.
      split; [reflexivity|]. apply G. now exists es.
Qed.

Lemma guid_grammar s : spec_guid s = true <-> Guid s.
Proof. unfold spec_guid, Guid. now rewrite andb_true_iff, Nat.eqb_eq, forallb_Forall. Qed.

Lemma interface_exact s : validate_interface s = true <-> Interface s.
Proof. rewrite interface_ok. apply interface_grammar. Qed.
Lemma well_known_exact s : validate_well_known s = true <-> WellKnown s.
Proof. rewrite well_known_ok. apply well_known_grammar. Qed.
Lemma unique_exact s : validate_unique s = true <-> Unique s.
Proof. rewrite unique_ok. apply unique_grammar. Qed.
Lemma member_exact s : validate_member s = true <-> Member s.
Proof. rewrite member_ok. apply member_grammar. Qed.
Lemma property_exact s : validate_property s = true <-> Property s.
Proof. rewrite property_ok. apply property_grammar. Qed.
Lemma bus_exact s : validate_bus s = true <-> Bus s.
Proof. rewrite bus_ok. apply bus_grammar. Qed.
Lemma object_path_exact s : validate_object_path s = true <-> ObjectPath s.
Proof. rewrite object_path_ok. apply object_path_grammar. Qed.
Lemma guid_exact s : validate_guid s = true <-> Guid s.
Proof. rewrite guid_ok. apply guid_grammar. Qed.

Lemma construct_partial t e s : derived_value_conv t e = false -> construct t e s = validator t s.
Proof. unfold construct. now intros ->. Qed.

Lemma value_conv_refuted : exists s, construct TMember ViaValue s = true /\ ~ Member s.
Proof. exists (B "."). split; [reflexivity|]. intros [H _]. discriminate H. Qed.

(* non-vacuity: concrete members of each grammar *)
Example ex_iface : Interface (B "org.freedesktop.DBus.Properties").
Proof. apply interface_exact. vm_compute. reflexivity. Qed.
Example ex_wk : WellKnown (B "org.gnome.Service-for_you").
Proof. apply well_known_exact. vm_compute. reflexivity. Qed.
Example ex_uq : Unique (B ":1.42").
Proof. apply unique_exact. vm_compute. reflexivity. Qed.
Example ex_path : ObjectPath (B "/org/zbus/Obj_1").
Proof. apply object_path_exact. vm_compute. reflexivity. Qed.
Example ex_guid : Guid (B "0123456789abcdefABCDEF0123456789").
Proof. apply guid_exact. vm_compute. reflexivity. Qed.
Example ex_not_path : ~ ObjectPath (B "/a//b").
Proof. intros H. apply object_path_exact in H. vm_compute in H. discriminate. Qed.
