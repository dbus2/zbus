(* C22/Proofs.v — Display then TryFrom<&str> is the identity on builder-made rules (outside the known classes),
   the specification's reader reads Display's output as the rule's own pairs, parsing is stable, never panics. *)
From ZV Require Import Base.Bytes Base.Res Base.WinnowFacts C10.Model C10.Proofs C21.Model C22.Model C22.Spec C22.Facts.
From Coq Require Import Lia.

(* ------------------------------------------------------------------ key/value view of Display *)
Definition argkey (i : N) : bytes := B "arg" ++ dec_of_N i.
Definition argpathkey (i : N) : bytes := B "arg" ++ dec_of_N i ++ B "path".
Definition ps_kv (ps : pathspec) : bytes * bytes :=
  match ps with PPath p => (B "path", p) | PNamespace p => (B "path_namespace", p) end.

(* Display writes the pairs the rule denotes, each key spelled as the specification's table ([key_of]) and the
   parser ([key_class]) read it *)
Definition key_bytes (k : skey) : bytes :=
  match k with
  | KType => B "type" | KSender => B "sender" | KInterface => B "interface" | KMember => B "member"
  | KPath => B "path" | KPathNamespace => B "path_namespace" | KDestination => B "destination"
  | KArg i => argkey i | KArgPath i => argpathkey i | KArg0Namespace => B "arg0namespace"
  end.
Definition unkey (p : skey * bytes) : bytes * bytes := (key_bytes (fst p), snd p).
Definition kvs (r : rule) : list (bytes * bytes) := map unkey (pairs_of r).
Definition compkv (kv : bytes * bytes) : bytes := comp (fst kv) (snd kv).

Lemma map_opt_pair {A} (h : skey * bytes -> bytes) (o : option A) f : map h (opt_pair o f) = opt_comp o (fun a => h (f a)).
Proof. destruct o; reflexivity. Qed.

Lemma comps_kvs r : comps r = map compkv (kvs r).
Proof.
  unfold comps, kvs, pairs_of. rewrite map_map, !map_app, !map_map, !map_opt_pair.
  destruct (r_type r) as [[]|], (r_path r) as [[]|]; reflexivity.
Qed.

Definition key_char (c : byte) : bool := negb (beq c "=" || beq c comma || beq c q || beq c "\").
Definition good_key (k : bytes) : bool := negb (lbeq k []) && forallb key_char k.

Lemma good_key_no k c : good_key k = true -> (c = "="%byte \/ c = comma \/ c = q \/ c = "\"%byte) -> no_sep c k.
Proof.
  unfold good_key, no_sep. intros H Hc. apply andb_true_iff in H as [_ H].
  apply Forall_forall. intros x Hx. rewrite forallb_forall in H. specialize (H x Hx).
  unfold key_char in H. destruct (beq x c) eqn:E; [|reflexivity]. apply beq_eq in E. subst x.
  destruct Hc as [-> | [-> | [-> | ->]]]; discriminate H.
Qed.

(* ------------------------------------------------------------------ one component through split_component *)
Lemma split_once_app c k rest : no_sep c k -> split_once c (k ++ c :: rest) = Some (k, rest).
Proof.
  induction 1 as [|x k Hx Hk IH]; cbn.
  - now rewrite beq_refl.
  - rewrite Hx, IH. reflexivity.
Qed.

Lemma last_is_quote_snoc v : last_is_quote (v ++ [q]) = true.
Proof. unfold last_is_quote. rewrite rev_app_distr. reflexivity. Qed.

Lemma split_component_comp k v : good_key k = true -> split_component (comp k v) = Ok (k, v).
Proof.
  intros Hk. unfold split_component, comp. change (B "='" ++ v ++ [q]) with ("="%byte :: q :: v ++ [q]).
  assert (Hns : no_sep "=" k) by (apply good_key_no; [exact Hk|left; reflexivity]).
  rewrite (split_once_app "=" k _ Hns).
  unfold good_key in Hk. apply andb_true_iff in Hk as [Hk _]. apply negb_true_iff in Hk. rewrite Hk.
  assert (H2 : Nat.ltb (length (q :: v ++ [q])) 2 = false).
  { apply Nat.ltb_ge. cbn [length]. rewrite app_length. cbn. lia. }
  assert (H3 : last_is_quote (q :: v ++ [q]) = true) by (apply (last_is_quote_snoc (q :: v))).
  assert (H4 : first_is_quote (q :: v ++ [q]) = true) by reflexivity.
  rewrite H2, H3, H4. cbn [negb orb tl]. now rewrite removelast_last.
Qed.

(* ------------------------------------------------------------------ the arg keys, by enumeration of 0..63 *)
Definition idx_range : list N := map N.of_nat (List.seq 0 64).
Lemma in_idx_range i : (i < 64)%N -> In i idx_range.
Proof.
  intros H. unfold idx_range. rewrite <- (N2Nat.id i). apply in_map. apply in_seq. lia.
Qed.

Lemma argkeys_table :
  map (fun i => (good_key (argkey i), good_key (argpathkey i), key_class (argkey i), key_class (argpathkey i),
                 key_of (argkey i), key_of (argpathkey i))) idx_range
  = map (fun i => (true, true, Ok (PKArg i), Ok (PKArgPath i), Some (KArg i), Some (KArgPath i))) idx_range.
Proof. vm_compute. reflexivity. Qed.

Lemma argkey_facts i : (i < 64)%N ->
  good_key (argkey i) = true /\ good_key (argpathkey i) = true /\
  key_class (argkey i) = Ok (PKArg i) /\ key_class (argpathkey i) = Ok (PKArgPath i) /\
  key_of (argkey i) = Some (KArg i) /\ key_of (argpathkey i) = Some (KArgPath i).
Proof.
  intros Hi. pose proof (proj1 map_ext_in_iff argkeys_table i (in_idx_range i Hi)) as H.
  injection H as H1 H2 H3 H4 H5 H6. repeat split; assumption.
Qed.

(* ------------------------------------------------------------------ the parser on Display's components *)
Definition step_kv (acc : res merr rule) (kv : bytes * bytes) : res merr rule :=
  let* r := acc in let* o := op_of_pair (fst kv) (snd kv) in apply_op r o.

Lemma parse_step_compkv acc kv : good_key (fst kv) = true -> parse_step acc (compkv kv) = step_kv acc kv.
Proof.
  intros Hk. destruct acc as [r|e|p]; [|reflexivity|reflexivity]. unfold parse_step, step_kv, compkv. cbn [bind].
  rewrite split_component_comp by exact Hk. reflexivity.
Qed.

Lemma fold_parse_kvs l : Forall (fun kv => good_key (fst kv) = true) l ->
  forall acc, fold_left parse_step (map compkv l) acc = fold_left step_kv l acc.
Proof.
  induction 1 as [|kv l Hk Hl IH]; intros acc; [reflexivity|]. cbn [map fold_left fst snd] in *.
  rewrite parse_step_compkv by exact Hk. apply IH.
Qed.

Lemma step_type acc t : step_kv (Ok acc) (B "type", type_str t) = Ok (set_type acc t).
Proof. destruct t; reflexivity. Qed.
Lemma step_sender acc b :
  match b with BUnique s => validate_unique s = true
             | BWellKnown s => validate_unique s = false /\ validate_well_known s = true end ->
  step_kv (Ok acc) (B "sender", bus_str b) = Ok (set_sender acc b).
Proof.
  intros H. cbn. unfold mk_bus. destruct b as [s|s]; cbn [bus_str].
  - now rewrite H.
  - destruct H as [H1 H2]. now rewrite H1, H2.
Qed.
Lemma step_interface acc s : validate_interface s = true -> step_kv (Ok acc) (B "interface", s) = Ok (set_interface acc s).
Proof. intros H. cbn. now rewrite H. Qed.
Lemma step_member acc s : validate_member s = true -> step_kv (Ok acc) (B "member", s) = Ok (set_member acc s).
Proof. intros H. cbn. now rewrite H. Qed.
Lemma step_destination acc s : validate_unique s = true -> step_kv (Ok acc) (B "destination", s) = Ok (set_destination acc s).
Proof. intros H. cbn. now rewrite H. Qed.
Lemma step_path acc ps : validate_object_path (ps_str ps) = true -> step_kv (Ok acc) (ps_kv ps) = Ok (set_path acc ps).
Proof. intros H. destruct ps; cbn in *; now rewrite H. Qed.
Lemma step_arg0ns acc s : validate_arg0ns s = true -> step_kv (Ok acc) (B "arg0namespace", s) = Ok (set_arg0ns acc s).
Proof. intros H. cbn. now rewrite H. Qed.

Lemma step_arg acc i v : (i < 64)%N -> step_kv (Ok acc) (argkey i, v) = b_arg acc i v.
Proof.
  intros Hi. destruct (argkey_facts i Hi) as (_ & _ & H & _). unfold step_kv, op_of_pair. cbn [bind fst snd].
  rewrite H. reflexivity.
Qed.
Lemma step_arg_path acc i v : (i < 64)%N -> step_kv (Ok acc) (argpathkey i, v) = b_arg_path acc i v.
Proof.
  intros Hi. destruct (argkey_facts i Hi) as (_ & _ & _ & H & _). unfold step_kv, op_of_pair. cbn [bind fst snd].
  rewrite H. reflexivity.
Qed.

Lemma fold_args l : forall acc, Forall (fun ia => (fst ia < 64)%N) l -> sorted (r_args acc ++ l) ->
  fold_left step_kv (map unkey (map (fun ia => (KArg (fst ia), snd ia)) l)) (Ok acc) = Ok (set_args acc (r_args acc ++ l)).
Proof.
  induction l as [|[i v] l IH]; intros acc Hi Hs.
  - cbn. rewrite app_nil_r. destruct acc; reflexivity.
  - inversion Hi as [|? ? Hi1 Hi2]; subst. cbn [map fold_left fst snd] in *.
    change (unkey (KArg i, v)) with (argkey i, v). rewrite step_arg by exact Hi1.
    unfold b_arg, MAX_ARGS. destruct (N.leb_spec 64 i); [lia|].
    rewrite ins_last by (apply (sorted_app_lt _ (i, v) l Hs)).
    rewrite IH; [|exact Hi2|].
    + cbn [r_args set_args]. rewrite <- app_assoc. reflexivity.
    + cbn [r_args set_args]. rewrite <- app_assoc. exact Hs.
Qed.
Lemma fold_arg_paths l : forall acc, Forall (fun ia => (fst ia < 64)%N) l ->
  Forall (fun ia => validate_object_path (snd ia) = true) l -> sorted (r_arg_paths acc ++ l) ->
  fold_left step_kv (map unkey (map (fun ia => (KArgPath (fst ia), snd ia)) l)) (Ok acc)
  = Ok (set_arg_paths acc (r_arg_paths acc ++ l)).
Proof.
  induction l as [|[i v] l IH]; intros acc Hi Hv Hs.
  - cbn. rewrite app_nil_r. destruct acc; reflexivity.
  - inversion Hi as [|? ? Hi1 Hi2]; subst. inversion Hv as [|? ? Hv1 Hv2]; subst.
    cbn [map fold_left fst snd] in *.
    change (unkey (KArgPath i, v)) with (argpathkey i, v). rewrite step_arg_path by exact Hi1.
    unfold b_arg_path, MAX_ARGS. destruct (N.leb_spec 64 i); [lia|]. rewrite Hv1.
    rewrite ins_last by (apply (sorted_app_lt _ (i, v) l Hs)).
    rewrite IH; [|exact Hi2|exact Hv2|].
    + cbn [r_arg_paths set_arg_paths]. rewrite <- app_assoc. reflexivity.
    + cbn [r_arg_paths set_arg_paths]. rewrite <- app_assoc. exact Hs.
Qed.

Lemma type_name_str t : type_name t = type_str t.
Proof. destruct t; reflexivity. Qed.

(* one optional component: [acc'] is [acc] with the component's field set to [o] *)
Lemma fold_opt_pair {A} (o : option A) f acc acc' :
  match o with Some a => step_kv (Ok acc) (unkey (f a)) = Ok acc' | None => acc = acc' end ->
  fold_left step_kv (map unkey (opt_pair o f)) (Ok acc) = Ok acc'.
Proof. destruct o; cbn; intros H; rewrite H; reflexivity. Qed.

Lemma fold_kvs r : wf r -> fold_left step_kv (kvs r) (Ok empty_rule) = Ok r.
Proof.
  destruct r as [ty sn ifc mb pa de ar ap ns]. intros [Hsn Hif Hmb Hpa Hde Has Hai Hps Hpi Hpv Hns]. cbn in * |-.
  unfold kvs, pairs_of. cbn [r_type r_sender r_interface r_member r_path r_destination r_args r_arg_paths r_arg0ns].
  rewrite !map_app, !fold_left_app.
  (* component by component; the accumulator is written out so that each step decides one optional field *)
  rewrite (fold_opt_pair ty _ _ (Build_rule ty None None None None None [] [] None))
    by (destruct ty; [cbn; rewrite type_name_str; apply step_type|reflexivity]).
  rewrite (fold_opt_pair sn _ _ (Build_rule ty sn None None None None [] [] None))
    by (destruct sn; [now apply step_sender|reflexivity]).
  rewrite (fold_opt_pair ifc _ _ (Build_rule ty sn ifc None None None [] [] None))
    by (destruct ifc; [now apply step_interface|reflexivity]).
  rewrite (fold_opt_pair mb _ _ (Build_rule ty sn ifc mb None None [] [] None))
    by (destruct mb; [now apply step_member|reflexivity]).
  rewrite (fold_opt_pair de _ _ (Build_rule ty sn ifc mb None de [] [] None))
    by (destruct de; [now apply step_destination|reflexivity]).
  rewrite (fold_opt_pair pa _ _ (Build_rule ty sn ifc mb pa de [] [] None))
    by (destruct pa as [ps|]; [destruct ps; exact (step_path _ _ Hpa)|reflexivity]).
  rewrite fold_args by assumption. rewrite fold_arg_paths by assumption.
  apply fold_opt_pair. destruct ns; [now apply step_arg0ns|reflexivity].
Qed.

(* ------------------------------------------------------------------ keys and values of a well-formed rule *)
Lemma Forall_opt_pair {A} (P : skey * bytes -> Prop) (o : option A) f :
  (forall a, o = Some a -> P (f a)) -> Forall P (opt_pair o f).
Proof. destruct o; cbn; intros H; [constructor; [now apply H|constructor]|constructor]. Qed.

(* the pairs whose key Display spells so that both readers recover it, and whose type is one the table knows *)
Definition good_pair (p : skey * bytes) : Prop :=
  match fst p with KType => is_type_name (snd p) = true | KArg i | KArgPath i => (i < 64)%N | _ => True end.

Lemma key_bytes_facts k v : good_pair (k, v) -> good_key (key_bytes k) = true /\ key_of (key_bytes k) = Some k.
Proof.
  destruct k as [| | | | | | |i|i|]; intros H.
  8: destruct (argkey_facts i H) as (H1 & _ & _ & _ & H2 & _).
  9: destruct (argkey_facts i H) as (_ & H1 & _ & _ & _ & H2).
  8, 9: split; [exact H1|exact H2].
  all: split; reflexivity.
Qed.

Lemma pairs_good r : wf r -> Forall good_pair (pairs_of r).
Proof.
  intros Hw. unfold pairs_of. repeat (apply Forall_app; split); try (apply Forall_opt_pair; intros; exact I).
  - apply Forall_opt_pair. intros [] _; reflexivity.
  - apply Forall_opt_pair. intros [] _; exact I.
  - apply Forall_map. exact (wf_args_idx r Hw).
  - apply Forall_map. exact (wf_paths_idx r Hw).
Qed.

Lemma kvs_good r : wf r -> Forall (fun kv => good_key (fst kv) = true) (kvs r).
Proof.
  intros Hw. apply Forall_map. eapply Forall_impl; [|exact (pairs_good r Hw)]. intros [k v] H. now apply (key_bytes_facts k v).
Qed.

Lemma chars_no_sep c s : (forall x, name_char x = true -> beq x c = false) -> forallb name_char s = true -> no_sep c s.
Proof.
  intros Hc H. unfold no_sep. apply Forall_forall. intros x Hx. apply Hc. rewrite forallb_forall in H. now apply H.
Qed.

Lemma has_byte_no_sep c s : has_byte c s = false <-> no_sep c s.
Proof. apply existsb_false. Qed.
Lemma args_free c l : existsb (fun ia : N * bytes => has_byte c (snd ia)) l = false -> Forall (fun ia => no_sep c (snd ia)) l.
Proof. intros H. apply existsb_false in H. revert H. apply Forall_impl. intros ia. apply has_byte_no_sep. Qed.

Lemma kvs_values c r : wf r -> (forall x, name_char x = true -> beq x c = false) ->
  Forall (fun ia => no_sep c (snd ia)) (r_args r) -> Forall (fun kv => no_sep c (snd kv)) (kvs r).
Proof.
  intros Hw Hc Ha. destruct Hw as [Hsn Hif Hmb Hpa Hde _ _ _ _ Hpv Hns]. apply Forall_map. unfold pairs_of.
  repeat (apply Forall_app; split).
  - apply Forall_opt_pair. intros t _. cbn. apply chars_no_sep; [exact Hc|]. rewrite type_name_str. apply type_str_chars.
  - apply Forall_opt_pair. intros b Hb. rewrite Hb in Hsn. cbn. apply chars_no_sep; [exact Hc|].
    destruct b as [s|s]; cbn; [now apply unique_chars|now apply well_known_chars].
  - apply Forall_opt_pair. intros s Hs. rewrite Hs in Hif. cbn. apply chars_no_sep; [exact Hc|now apply interface_chars].
  - apply Forall_opt_pair. intros s Hs. rewrite Hs in Hmb. cbn. apply chars_no_sep; [exact Hc|now apply member_chars].
  - apply Forall_opt_pair. intros s Hs. rewrite Hs in Hde. cbn. apply chars_no_sep; [exact Hc|now apply unique_chars].
  - apply Forall_opt_pair. intros ps Hs. rewrite Hs in Hpa. apply chars_no_sep; [exact Hc|].
    destruct ps; cbn in *; now apply object_path_chars.
  - apply Forall_map. eapply Forall_impl; [|exact Ha]. intros [i v] H. exact H.
  - apply Forall_map. eapply Forall_impl; [|exact Hpv]. intros [i v] H. cbn in *. apply chars_no_sep; [exact Hc|now apply object_path_chars].
  - apply Forall_opt_pair. intros s Hs. rewrite Hs in Hns. cbn. apply chars_no_sep; [exact Hc|now apply arg0ns_chars].
Qed.

Lemma comp_no_comma k v : good_key k = true -> no_sep comma v -> no_sep comma (comp k v).
Proof.
  intros Hk Hv. unfold comp, no_sep. apply Forall_app. split; [apply good_key_no; auto|].
  change (B "='" ++ v ++ [q]) with ("="%byte :: q :: v ++ [q]).
  constructor; [reflexivity|]. constructor; [reflexivity|]. apply Forall_app. split; [exact Hv|]. constructor; [reflexivity|constructor].
Qed.

Lemma join_comp_not_nil l : l <> [] -> join [comma] (map compkv l) <> [].
Proof.
  destruct l as [|[k v] l]; [contradiction|]. intros _ H. destruct l; cbn in H; unfold compkv, comp in H; cbn in H;
    apply app_eq_nil in H as [_ H]; discriminate H.
Qed.

Lemma parse_nonempty s : s <> [] -> parse s = fold_left parse_step (split_on comma s) (Ok empty_rule).
Proof. destruct s; [contradiction|reflexivity]. Qed.

(* Display's commas are the only ones: the parser sees the components one by one *)
Lemma parse_join l : Forall (fun kv => good_key (fst kv) = true) l -> Forall (fun kv => no_sep comma (snd kv)) l ->
  parse (join [comma] (map compkv l)) = fold_left step_kv l (Ok empty_rule).
Proof.
  intros Hk Hv. destruct l as [|kv l]; [reflexivity|].
  rewrite parse_nonempty by (apply join_comp_not_nil; discriminate).
  rewrite split_join.
  - now apply fold_parse_kvs.
  - discriminate.
  - apply Forall_map. rewrite Forall_forall in *. intros kv0 Hin. apply comp_no_comma; auto.
Qed.

Lemma roundtrip r : wf r -> k_comma_value r = false -> parse (show r) = Ok r.
Proof.
  intros Hw Hc. unfold show. rewrite comps_kvs, parse_join.
  - now apply fold_kvs.
  - now apply kvs_good.
  - apply kvs_values; [exact Hw| |now apply args_free]. intros x Hx. now apply name_char_plain.
Qed.

(* ------------------------------------------------------------------ what every successfully parsed rule satisfies *)
Definition op_cf (o : bop) : Prop :=
  match o with OArg _ s | OAddArg s => has_byte comma s = false | _ => True end.

Lemma ins_existsb (f : N * bytes -> bool) i v l : f (i, v) = false -> existsb f l = false -> existsb f (ins i v l) = false.
Proof. rewrite !existsb_false. apply (ins_Forall (fun x => f x = false)). Qed.

Lemma apply_op_cf r o r' : k_comma_value r = false -> op_cf o -> apply_op r o = Ok r' -> k_comma_value r' = false.
Proof.
  unfold k_comma_value. intros Hr Ho H.
  destruct o; cbn in H; unfold b_arg, b_arg_path, mk_bus in H;
    repeat match type of H with
           | context [if ?c then _ else _] => destruct c
           end; cbn in H; inversion H; subst; try exact Hr; cbn [r_args set_args];
    (apply ins_existsb; [exact Ho|exact Hr]).
Qed.

Lemma split_on_no_sep sep l : Forall (no_sep sep) (split_on sep l).
Proof.
  induction l as [|c l IH]; [repeat constructor|]. rewrite split_on_cons. destruct (beq c sep) eqn:E.
  - constructor; [constructor|exact IH].
  - pose proof (split_on_nonempty sep l) as Hn. destruct (split_on sep l) as [|p ps]; [contradiction|].
    inversion IH; subst. constructor; [constructor; assumption|assumption].
Qed.

Lemma split_once_parts c l a b : split_once c l = Some (a, b) -> l = a ++ c :: b.
Proof.
  revert a b. induction l as [|x l IH]; intros a b H; cbn in H; [discriminate|].
  destruct (beq x c) eqn:E.
  - inversion H; subst. apply beq_eq in E. now subst.
  - destruct (split_once c l) as [[a' b']|]; [|discriminate]. inversion H; subst. cbn. f_equal. now apply IH.
Qed.
Lemma Forall_removelast {A} (P : A -> Prop) l : Forall P l -> Forall P (removelast l).
Proof. induction 1 as [|x l Hx Hl IH]; cbn; [constructor|]. destruct l; [constructor|]. constructor; assumption. Qed.

Lemma split_component_cf c k v : no_sep comma c -> split_component c = Ok (k, v) -> has_byte comma v = false.
Proof.
  unfold split_component. intros Hc H. destruct (split_once "=" c) as [[k0 v0]|] eqn:E; [|discriminate].
  destruct (lbeq k0 [] || _ || _ || _); [discriminate|]. inversion H; subst.
  apply split_once_parts in E. subst c. apply Forall_app in Hc as [_ Hc]. inversion Hc as [|? ? _ Hv]; subst.
  apply has_byte_no_sep, Forall_removelast. destruct v0; [constructor|]. cbn. now inversion Hv.
Qed.

Lemma op_of_pair_cf k v o : has_byte comma v = false -> op_of_pair k v = Ok o -> op_cf o.
Proof.
  intros Hv. unfold op_of_pair. destruct (key_class k) as [pk| |]; cbn [bind]; [|discriminate|discriminate].
  destruct pk; try (intros H; inversion H; subst; cbn; auto; fail).
  destruct (type_of_str v); intros H; inversion H; subst; exact I.
Qed.

Lemma parse_step_ok r0 c r1 : no_sep comma c -> parse_step (Ok r0) c = Ok r1 -> exists o, apply_op r0 o = Ok r1 /\ op_cf o.
Proof.
  intros Hc H. unfold parse_step in H. cbn [bind] in H.
  destruct (split_component c) as [[k v]| |] eqn:E1; cbn [bind fst snd] in H; try discriminate.
  destruct (op_of_pair k v) as [o| |] eqn:E2; cbn [bind] in H; try discriminate.
  exists o. split; [exact H|]. eapply op_of_pair_cf; [|exact E2]. eapply split_component_cf; eassumption.
Qed.

Lemma parse_inv s r : parse s = Ok r -> wf r /\ k_comma_value r = false.
Proof.
  destruct s as [|c s']; intros H.
  - inversion H; subst. split; [apply wf_empty|reflexivity].
  - rewrite parse_nonempty in H by discriminate. revert H.
    apply (fold_bind_inv (fun r0 c => parse_step (Ok r0) c) (fun r => wf r /\ k_comma_value r = false));
      [|split; [apply wf_empty|reflexivity]].
    intros r0 x r1 Hin [Hw Hcf] E.
    pose proof (proj1 (Forall_forall _ _) (split_on_no_sep comma _) x Hin) as Hx.
    destruct (parse_step_ok r0 x r1 Hx E) as (o & Ho & Hocf).
    split; [eapply wf_apply_op|eapply apply_op_cf]; eassumption.
Qed.

Lemma stable s r : parse s = Ok r -> parse (show r) = Ok r.
Proof. intros H. destruct (parse_inv s r H) as (H1 & H2). now apply roundtrip. Qed.

(* ------------------------------------------------------------------ the specification's reader on Display's output *)
Lemma key_char_tests c : key_char c = true ->
  beq c seq = false /\ beq c sq = false /\ beq c scomma = false /\ beq c bsl = false.
Proof.
  unfold key_char, seq, sq, scomma, bsl, comma, q. intros H. apply negb_true_iff in H.
  repeat (apply orb_false_iff in H as [H ?]). auto.
Qed.

Lemma rd_key k : forall rest kacc v done, forallb key_char k = true ->
  rd (k ++ rest) InKey kacc v done = rd rest InKey (rev k ++ kacc) v done.
Proof.
  induction k as [|c k IH]; intros rest kacc v done H; [reflexivity|]. cbn [forallb] in H.
  apply andb_true_iff in H as [Hc Hk]. destruct (key_char_tests c Hc) as (H1 & H2 & H3 & H4).
  cbn [app rd]. rewrite H1, H2, H3, H4. cbn [orb]. rewrite IH by exact Hk. cbn [rev]. now rewrite <- app_assoc.
Qed.

Lemma rd_quoted v : forall rest k vacc done, no_sep sq v ->
  rd (v ++ rest) InQuote k vacc done = rd rest InQuote k (rev v ++ vacc) done.
Proof.
  induction v as [|c v IH]; intros rest k vacc done H; [reflexivity|]. inversion H as [|? ? Hc Hv]; subst.
  cbn [app rd]. rewrite Hc. rewrite IH by exact Hv. cbn [rev]. now rewrite <- app_assoc.
Qed.

Lemma rd_comp k v rest done : good_key k = true -> no_sep sq v ->
  rd (comp k v ++ rest) InKey [] [] done = rd rest InValue (rev k) (rev v) done.
Proof.
  intros Hk Hv. unfold good_key in Hk. apply andb_true_iff in Hk as [Hne Hk].
  unfold comp. rewrite <- app_assoc. rewrite rd_key by exact Hk. rewrite app_nil_r.
  change ((B "='" ++ v ++ [q]) ++ rest) with (seq :: sq :: (v ++ [q]) ++ rest).
  cbn [rd]. unfold seq at 1. rewrite beq_refl.
  destruct (rev k) eqn:E.
  { destruct k; [discriminate Hne|]. cbn in E. destruct (rev k); discriminate E. }
  rewrite <- E. cbn [rd]. unfold sq at 1. rewrite beq_refl. rewrite <- app_assoc. rewrite rd_quoted by exact Hv.
  cbn [app rd]. unfold q, sq. rewrite beq_refl. now rewrite app_nil_r.
Qed.

Lemma rd_join l : forall done, l <> [] ->
  Forall (fun kv => good_key (fst kv) = true) l -> Forall (fun kv => no_sep sq (snd kv)) l ->
  rd (join [comma] (map compkv l)) InKey [] [] done = Some (rev done ++ l).
Proof.
  induction l as [|[k v] l IH]; intros done Hn Hk Hv; [contradiction|].
  inversion Hk as [|? ? Hk1 Hk2]; subst. inversion Hv as [|? ? Hv1 Hv2]; subst. cbn [fst snd] in *.
  destruct l as [|kv2 l].
  - cbn [map join]. unfold compkv. cbn [fst snd]. rewrite <- (app_nil_r (comp k v)). rewrite rd_comp by assumption.
    cbn [rd]. rewrite !rev_involutive. reflexivity.
  - change (join [comma] (map compkv ((k, v) :: kv2 :: l))) with (comp k v ++ comma :: join [comma] (map compkv (kv2 :: l))).
    rewrite rd_comp by assumption. cbn [rd]. unfold sq, scomma, comma. cbn [beq]. 
    change (beq "," "'") with false. change (beq "," ",") with true. cbn iota.
    rewrite !rev_involutive. rewrite IH; [|discriminate|exact Hk2|exact Hv2]. cbn [rev]. now rewrite <- app_assoc.
Qed.

Lemma spec_pairs_join l :
  Forall (fun kv => good_key (fst kv) = true) l -> Forall (fun kv => no_sep sq (snd kv)) l ->
  spec_pairs (join [comma] (map compkv l)) = Some l.
Proof.
  intros Hk Hv. destruct l as [|kv l]; [reflexivity|].
  assert (Hn : kv :: l <> []) by discriminate.
  pose proof (join_comp_not_nil _ Hn) as Hj. unfold spec_pairs.
  destruct (join [comma] (map compkv (kv :: l))) eqn:E; [contradiction|]. rewrite <- E.
  now rewrite rd_join.
Qed.

Lemma interp_app a : forall b,
  interp (a ++ b) = match interp a, interp b with Some x, Some y => Some (x ++ y) | _, _ => None end.
Proof.
  induction a as [|[k v] a IH]; intros b.
  - cbn. destruct (interp b); reflexivity.
  - cbn [app interp]. rewrite IH. destruct (key_of k) as [sk|]; [|reflexivity].
    destruct (interp a), (interp b); destruct sk; try reflexivity; destruct (is_type_name v); reflexivity.
Qed.

Lemma interp_unkey l : Forall good_pair l -> interp (map unkey l) = Some l.
Proof.
  induction 1 as [|[k v] l Hp Hl IH]; [reflexivity|]. cbn [map interp unkey fst snd].
  rewrite IH, (proj2 (key_bytes_facts k v Hp)). destruct k; try reflexivity. cbn in Hp. now rewrite Hp.
Qed.

Lemma interp_kvs r : wf r -> interp (kvs r) = Some (pairs_of r).
Proof. intros Hw. now apply interp_unkey, pairs_good. Qed.

Lemma spec_reads r : wf r -> k_apostrophe_value r = false -> spec_parse (show r) = Some (pairs_of r).
Proof.
  intros Hw Ha. unfold spec_parse, show. rewrite comps_kvs. rewrite spec_pairs_join.
  - now apply interp_kvs.
  - now apply kvs_good.
  - apply kvs_values; [exact Hw| |now apply args_free]. intros x Hx. now apply name_char_plain.
Qed.

(* ------------------------------------------------------------------ pairs_of loses nothing: the pairs give Display's
   key/value list, from which the parser's steps rebuild the record *)
Lemma pairs_of_inj r1 r2 : wf r1 -> wf r2 -> pairs_of r1 = pairs_of r2 -> r1 = r2.
Proof. intros H1 H2 E. apply fold_kvs in H1, H2. unfold kvs in *. congruence. Qed.

(* ------------------------------------------------------------------ the parser never panics *)
Lemma find_path_ge3 key i : starts_with (B "arg") key = true -> find_sub (B "path") key = Some i -> 3 <= i.
Proof.
  intros H. apply WinnowFacts.starts_with_app in H. rewrite H. generalize (skipn (length (B "arg")) key). intros rest.
  cbn. destruct (find_sub _ rest); cbn; intros E; inversion E; lia.
Qed.

Lemma key_class_no_panic key p : key_class key <> Panic p.
Proof.
  unfold key_class.
  repeat match goal with |- context [if lbeq ?a ?b then _ else _] => destruct (lbeq a b); [discriminate|] end.
  destruct (starts_with (B "arg") key) eqn:Es; [|discriminate].
  destruct (find_sub (B "path") key) as [i|] eqn:Ef.
  - pose proof (find_path_ge3 key i Es Ef) as Hi. destruct (Nat.ltb_spec i 3); [lia|].
    destruct (parse_u8 _); discriminate.
  - destruct (parse_u8 _); discriminate.
Qed.

Lemma apply_op_no_panic r o p : apply_op r o <> Panic p.
Proof.
  destruct o; cbn; unfold b_arg, b_arg_path, mk_bus;
    repeat match goal with |- context [if ?c then _ else _] => destruct c end; cbn; discriminate.
Qed.

Lemma parse_step_no_panic acc c p : (forall p', acc <> Panic p') -> parse_step acc c <> Panic p.
Proof.
  intros Ha. destruct acc as [r|e|p0]; [|discriminate|exfalso; now apply (Ha p0)].
  unfold parse_step. cbn [bind]. unfold split_component.
  destruct (split_once "=" c) as [[k v]|]; [|discriminate].
  destruct (lbeq k [] || _ || _ || _); [discriminate|]. cbn [bind fst snd]. unfold op_of_pair.
  destruct (key_class k) as [pk|e|p1] eqn:Ek; cbn [bind]; [|discriminate|exfalso; now apply (key_class_no_panic k p1)].
  destruct pk; cbn [bind]; try apply apply_op_no_panic.
  destruct (type_of_str _); cbn [bind]; [apply apply_op_no_panic|discriminate].
Qed.

Lemma parse_no_panic s p : parse s <> Panic p.
Proof.
  destruct s as [|c0 s0]; [discriminate|]. rewrite parse_nonempty by discriminate.
  generalize (split_on comma (c0 :: s0)). intros comps.
  assert (H : forall acc, (forall p', acc <> Panic p') -> forall p', fold_left parse_step comps acc <> Panic p').
  { induction comps as [|c comps IH]; intros acc Ha p'; cbn; [apply Ha|]. apply IH. intros p''. now apply parse_step_no_panic. }
  apply H. discriminate.
Qed.

(* ------------------------------------------------------------------ the full statement, refutations, examples *)
(* repaired by fix 235b9dce: the rule without keys is printed as "" and read back *)
Example empty_rule_fixed : build [] = Ok empty_rule /\ show empty_rule = [] /\ parse (show empty_rule) = Ok empty_rule
  /\ spec_parse (show empty_rule) = Some (pairs_of empty_rule) /\ known_C22 empty_rule = false.
Proof. repeat split. Qed.

Lemma comma_value_refuted : exists r, build [OArg 0 (B "a,b")] = Ok r /\ show r = B "arg0='a,b'" /\
  parse (show r) = Err EInvalidMatchRule /\ spec_parse (show r) = Some (pairs_of r).
Proof. eexists. split; [reflexivity|]. repeat split. Qed.

(* a comma can even smuggle in another key: the string parses, to a different rule *)
Lemma comma_value_other_rule : exists r r2, build [OArg 0 (B "x',arg1='y")] = Ok r /\ build [OArg 0 (B "x"); OArg 1 (B "y")] = Ok r2 /\
  parse (show r) = Ok r2 /\ r2 <> r.
Proof. eexists. eexists. split; [reflexivity|]. split; [reflexivity|]. split; [vm_compute; reflexivity|discriminate]. Qed.

Lemma apostrophe_value_refuted : exists r, build [OArg 0 (B "a'b")] = Ok r /\ show r = B "arg0='a'b'" /\
  parse (show r) = Ok r /\ spec_parse (show r) = None.
Proof. eexists. split; [reflexivity|]. repeat split. Qed.

(* ... or read as a different rule: arg0 = "''" is printed as arg0='''' which the specification reads as the empty string *)
Lemma apostrophe_value_other_rule : exists r, build [OArg 0 (B "''")] = Ok r /\
  spec_parse (show r) = Some [(KArg 0, [])] /\ pairs_of r = [(KArg 0, B "''")].
Proof. eexists. split; [reflexivity|]. split; reflexivity. Qed.

Lemma full_refuted :
  ~ (forall ops r, build ops = Ok r -> parse (show r) = Ok r /\ spec_parse (show r) = Some (pairs_of r)).
Proof.
  intros H. destruct comma_value_refuted as (r & Hb & _ & Hp & _). destruct (H _ r Hb) as [H1 _]. rewrite Hp in H1. discriminate H1.
Qed.

(* the specification's own two spellings of one rule (its example) are read alike *)
Example spec_example :
  spec_parse (B "arg0=''\''',arg1='\',arg2=',',arg3='\\'") = Some [(KArg 0, B "'"); (KArg 1, B "\"); (KArg 2, B ","); (KArg 3, B "\\")]
  /\ spec_parse (B "arg0=\',arg1=\,arg2=',',arg3=\\") = Some [(KArg 0, B "'"); (KArg 1, B "\"); (KArg 2, B ","); (KArg 3, B "\\")].
Proof. split; reflexivity. Qed.

Definition ex_ops22 : list bop :=
  [OType Signal; OSender (B "org.zbus.Srv"); OInterface (B "a.b"); OMember (B "M"); OPath (B "/x"); OPathNs (B "/a/b"); ODest (B ":1.9");
   OArg 3 (B "a\b=c"); OArg 0 (B ""); OArg 3 (B "é"); OAddArg (B "z"); OArgPath 2 (B "/p/q"); OAddArgPath (B "/"); OArg0ns (B "org.zbus")].
Example ex_roundtrip : exists r, build ex_ops22 = Ok r /\ known_C22 r = false /\
  show r = B "type='signal',sender='org.zbus.Srv',interface='a.b',member='M',destination=':1.9',path_namespace='/a/b',arg0='',arg2='z',arg3='é',arg1path='/',arg2path='/p/q',arg0namespace='org.zbus'"
  /\ parse (show r) = Ok r /\ spec_parse (show r) = Some (pairs_of r).
Proof. eexists. split; [vm_compute; reflexivity|]. split; [reflexivity|]. split; [reflexivity|]. split; vm_compute; reflexivity. Qed.
Example ex_stable : exists r, parse (B "arg007='x',path='/a',arg+5path='/b',arg5pathological='/c',path_namespace='/d',sender='a.b',sender=':1.2'") = Ok r /\
  show r = B "sender=':1.2',path_namespace='/d',arg7='x',arg5path='/c'" /\ parse (show r) = Ok r.
Proof. eexists. split; [vm_compute; reflexivity|]. split; vm_compute; reflexivity. Qed.

(* ------------------------------------------------------------------ statements about rules built through the API *)
Lemma roundtrip_built ops r : build ops = Ok r -> k_comma_value r = false -> parse (show r) = Ok r.
Proof. intros H. apply roundtrip. eapply wf_build; eassumption. Qed.
Lemma spec_reads_built ops r : build ops = Ok r -> k_apostrophe_value r = false -> spec_parse (show r) = Some (pairs_of r).
Proof. intros H. apply spec_reads. eapply wf_build; eassumption. Qed.
Lemma partial_built ops r : build ops = Ok r -> known_C22 r = false ->
  parse (show r) = Ok r /\ spec_parse (show r) = Some (pairs_of r).
Proof.
  intros H Hk. unfold known_C22 in Hk. apply orb_false_iff in Hk as [H1 H2].
  split; [eapply roundtrip_built|eapply spec_reads_built]; eassumption.
Qed.
Lemma pairs_of_inj_built ops1 ops2 r1 r2 : build ops1 = Ok r1 -> build ops2 = Ok r2 -> pairs_of r1 = pairs_of r2 -> r1 = r2.
Proof. intros H1 H2. apply pairs_of_inj; eapply wf_build; eassumption. Qed.
