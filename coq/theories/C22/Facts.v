(* C22/Facts.v — invariants of the builder (well-formed rules), sorted insertion, the alphabet of validated names. *)
From ZV Require Import Base.Bytes Base.Res Base.WinnowFacts C10.Model C10.Spec C10.Proofs C21.Model C22.Model C22.Spec.
From Coq Require Import Lia Sorted.

(* ------------------------------------------------------------------ sorted insertion *)
Definition lt_idx (a b : N * bytes) : Prop := (fst a < fst b)%N.
Definition sorted (l : list (N * bytes)) : Prop := StronglySorted lt_idx l.

Lemma ins_Forall (P : N * bytes -> Prop) i v l : P (i, v) -> Forall P l -> Forall P (ins i v l).
Proof.
  intros Hp H. induction H as [|[j w] t Hj Ht IH]; cbn; [auto|].
  destruct (i <? j)%N; [auto|]. destruct (i =? j)%N; auto.
Qed.

Lemma ins_sorted i v l : sorted l -> sorted (ins i v l).
Proof.
  unfold sorted. induction 1 as [|[j w] t Hs IH Hf]; cbn.
  - constructor; constructor.
  - destruct (N.ltb_spec i j) as [Hlt|Hge].
    + constructor; [constructor; assumption|]. constructor; [exact Hlt|].
      eapply Forall_impl; [|exact Hf]. intros [k x]. unfold lt_idx. cbn. lia.
    + destruct (N.eqb_spec i j) as [He|Hne].
      * subst j. constructor; [assumption|]. eapply Forall_impl; [|exact Hf]. intros [k x]. unfold lt_idx. cbn. auto.
      * constructor; [exact IH|]. apply ins_Forall; [unfold lt_idx; cbn; lia|exact Hf].
Qed.

Lemma ins_last i v l : Forall (fun x => (fst x < i)%N) l -> ins i v l = l ++ [(i, v)].
Proof.
  induction 1 as [|[j w] t Hj Ht IH]; [reflexivity|]. cbn in *.
  destruct (N.ltb_spec i j); [lia|]. destruct (N.eqb_spec i j); [lia|]. now rewrite IH.
Qed.

Lemma sorted_app_lt l1 x l2 : sorted (l1 ++ x :: l2) -> Forall (fun y => (fst y < fst x)%N) l1.
Proof.
  unfold sorted. induction l1 as [|a l1 IH]; intros H; [constructor|]. cbn in H.
  apply StronglySorted_inv in H as [H1 H2]. constructor; [|auto].
  rewrite Forall_forall in H2. apply (H2 x). apply in_or_app. right. now left.
Qed.
Lemma sorted_app_l l1 l2 : sorted (l1 ++ l2) -> sorted l1.
Proof.
  unfold sorted. induction l1 as [|a l1 IH]; intros H; [constructor|]. cbn in H.
  apply StronglySorted_inv in H as [H1 H2]. constructor; [auto|].
  apply Forall_app in H2. tauto.
Qed.

(* ------------------------------------------------------------------ rules the builder can produce *)
Definition ps_str (ps : pathspec) : bytes := match ps with PPath p | PNamespace p => p end.

Record wf (r : rule) : Prop := {
  wf_sender : match r_sender r with
              | Some (BUnique s) => validate_unique s = true
              | Some (BWellKnown s) => validate_unique s = false /\ validate_well_known s = true
              | None => True
              end;
  wf_interface : match r_interface r with Some s => validate_interface s = true | None => True end;
  wf_member : match r_member r with Some s => validate_member s = true | None => True end;
  wf_path : match r_path r with Some ps => validate_object_path (ps_str ps) = true | None => True end;
  wf_destination : match r_destination r with Some s => validate_unique s = true | None => True end;
  wf_args_sorted : sorted (r_args r);
  wf_args_idx : Forall (fun ia => (fst ia < 64)%N) (r_args r);
  wf_paths_sorted : sorted (r_arg_paths r);
  wf_paths_idx : Forall (fun ia => (fst ia < 64)%N) (r_arg_paths r);
  wf_paths_valid : Forall (fun ia => validate_object_path (snd ia) = true) (r_arg_paths r);
  wf_arg0ns : match r_arg0ns r with Some s => validate_arg0ns s = true | None => True end }.

Lemma wf_empty : wf empty_rule.
Proof. constructor; cbn; auto; constructor. Qed.

Lemma wf_b_arg r i s r' : wf r -> b_arg r i s = Ok r' -> wf r'.
Proof.
  intros [] H. unfold b_arg, MAX_ARGS in H. destruct (N.leb_spec 64 i); [discriminate|]. inversion H; subst.
  constructor; cbn; auto; [now apply ins_sorted|]. apply ins_Forall; [cbn; lia|assumption].
Qed.
Lemma wf_b_arg_path r i s r' : wf r -> b_arg_path r i s = Ok r' -> wf r'.
Proof.
  intros [] H. unfold b_arg_path, MAX_ARGS in H. destruct (N.leb_spec 64 i); [discriminate|].
  destruct (validate_object_path s) eqn:E; [|discriminate]. inversion H; subst.
  constructor; cbn; auto; [now apply ins_sorted| |]; (apply ins_Forall; [cbn; auto; lia|assumption]).
Qed.

Lemma if_ok {E A} (c : bool) (a : A) (e : E) a' : (if c then Ok a else Err e) = Ok a' -> c = true /\ a' = a.
Proof. destruct c; intros H; inversion H; auto. Qed.

Lemma wf_apply_op r o r' : wf r -> apply_op r o = Ok r' -> wf r'.
Proof.
  intros Hw H. destruct o; cbn in H;
    try (eapply wf_b_arg; eassumption); try (eapply wf_b_arg_path; eassumption).
  1: { inversion H; subst. destruct Hw. constructor; cbn; auto. }
  1: { unfold mk_bus in H. destruct (validate_unique s) eqn:E1; [|destruct (validate_well_known s) eqn:E2];
         cbn in H; inversion H; subst; destruct Hw; constructor; cbn; auto. }
  all: apply if_ok in H as [E ->]; destruct Hw; constructor; cbn; auto.
Qed.

Lemma fold_left_stuck {A B} (f : A -> B -> A) a : (forall b, f a b = a) -> forall l, fold_left f l a = a.
Proof. intros H l. induction l as [|b l IH]; cbn; [reflexivity|]. now rewrite H. Qed.

Lemma build_from_app r ops1 ops2 :
  build_from r (ops1 ++ ops2) = let* r1 := build_from r ops1 in build_from r1 ops2.
Proof.
  unfold build_from. rewrite fold_left_app.
  destruct (fold_left _ ops1 (Ok r)) as [r1|e|p]; [reflexivity| |]; now apply fold_left_stuck.
Qed.
Lemma build_from_err {ops} e : fold_left (fun acc o => let* r := acc in apply_op r o) ops (Err e) = Err e.
Proof. now apply fold_left_stuck. Qed.

Lemma fold_bind_inv {E A X} (step : A -> X -> res E A) (Inv : A -> Prop) l :
  (forall a x a', In x l -> Inv a -> step a x = Ok a' -> Inv a') ->
  forall a a', Inv a -> fold_left (fun acc x => let* r := acc in step r x) l (Ok a) = Ok a' -> Inv a'.
Proof.
  induction l as [|x l IH]; intros Hs a a' Ha H; cbn in H.
  - now inversion H; subst.
  - destruct (step a x) as [a1|e|p] eqn:Es.
    + apply (IH (fun a x a' Hx => Hs a x a' (or_intror Hx)) a1 a'); [|exact H]. apply (Hs a x a1); [now left|exact Ha|exact Es].
    + rewrite fold_left_stuck in H by reflexivity. discriminate.
    + rewrite fold_left_stuck in H by reflexivity. discriminate.
Qed.

Lemma wf_build_from ops r r' : wf r -> build_from r ops = Ok r' -> wf r'.
Proof. apply (fold_bind_inv apply_op wf). intros a o a' _. apply wf_apply_op. Qed.
Lemma wf_build ops r : build ops = Ok r -> wf r.
Proof. apply wf_build_from, wf_empty. Qed.

(* ------------------------------------------------------------------ the alphabet of validated strings *)
Definition name_char (c : byte) : bool :=
  is_alphanum c || beq c "_" || beq c "-" || beq c "." || beq c ":" || beq c "/".

Lemma name_char_plain c : name_char c = true ->
  beq c comma = false /\ beq c q = false /\ beq c "=" = false /\ beq c "\" = false.
Proof. destruct c; vm_compute; intros H; solve [discriminate H | repeat split]. Qed.

Lemma forallb_split_on (P : byte -> bool) sep s :
  P sep = true -> forallb (forallb P) (split_on sep s) = true -> forallb P s = true.
Proof.
  intros Hs. induction s as [|c s IH]; [reflexivity|]. rewrite split_on_cons.
  destruct (beq c sep) eqn:E.
  - apply beq_eq in E. subst. cbn. intros H. rewrite Hs. auto.
  - pose proof (split_on_nonempty sep s) as Hn. destruct (split_on sep s) as [|p ps]; [contradiction|].
    cbn in *. intros H. apply andb_true_iff in H as [H1 H2]. apply andb_true_iff in H1 as [H0 H1].
    rewrite H0. cbn. apply IH. now rewrite H1, H2.
Qed.

Lemma elems_chars (elem : bytes -> bool) sep s :
  name_char sep = true -> (forall e, elem e = true -> forallb name_char e = true) ->
  forallb elem (split_on sep s) = true -> forallb name_char s = true.
Proof.
  intros Hs He H. apply (forallb_split_on _ sep); [exact Hs|]. revert H. apply forallb_impl. exact He.
Qed.

Lemma alnum_us_hy_char x : is_alphanum x || is_us x || is_hy x = true -> name_char x = true.
Proof. unfold name_char, is_us, is_hy. destruct (is_alphanum x), (beq x "_"), (beq x "-"); cbn; congruence. Qed.

Lemma elem_iface_chars e : elem_iface e = true -> forallb name_char e = true.
Proof.
  destruct e as [|c r]; [reflexivity|]. cbn [elem_iface forallb]. intros H. apply andb_true_iff in H as [H1 H2].
  apply andb_true_iff. split.
  - apply alnum_us_hy_char. unfold is_alphanum. destruct (is_alpha c), (is_us c), (is_digit c), (is_hy c); cbn in *; congruence.
  - revert H2. apply forallb_impl. intros x Hx. apply alnum_us_hy_char. now rewrite Hx.
Qed.
Lemma elem_wk_chars e : elem_wk e = true -> forallb name_char e = true.
Proof.
  destruct e as [|c r]; [reflexivity|]. cbn [elem_wk forallb]. intros H. apply andb_true_iff in H as [H1 H2].
  apply andb_true_iff. split.
  - apply alnum_us_hy_char. unfold is_alphanum. destruct (is_alpha c), (is_us c), (is_hy c), (is_digit c); cbn in *; congruence.
  - revert H2. apply forallb_impl. intros x Hx. now apply alnum_us_hy_char.
Qed.
Lemma elem_uq_chars e : elem_uq e = true -> forallb name_char e = true.
Proof.
  destruct e as [|c r]; [reflexivity|]. unfold elem_uq. apply forallb_impl. intros x Hx. now apply alnum_us_hy_char.
Qed.
Lemma elem_path_chars e : elem_path e = true -> forallb name_char e = true.
Proof.
  destruct e as [|c r]; [reflexivity|]. unfold elem_path. apply forallb_impl. intros x Hx.
  apply alnum_us_hy_char. now rewrite Hx.
Qed.

Lemma interface_chars s : validate_interface s = true -> forallb name_char s = true.
Proof.
  rewrite interface_ok. unfold spec_interface. intros H. apply andb_true_iff in H as [H _]. apply andb_true_iff in H as [_ H].
  eapply (elems_chars elem_iface dot); [reflexivity|exact elem_iface_chars|exact H].
Qed.
Lemma member_chars s : validate_member s = true -> forallb name_char s = true.
Proof. rewrite member_ok. unfold spec_member. intros H. apply andb_true_iff in H as [H _]. now apply elem_iface_chars. Qed.
Lemma well_known_chars s : validate_well_known s = true -> forallb name_char s = true.
Proof.
  rewrite well_known_ok. unfold spec_well_known. intros H. apply andb_true_iff in H as [H _]. apply andb_true_iff in H as [_ H].
  eapply (elems_chars elem_wk dot); [reflexivity|exact elem_wk_chars|exact H].
Qed.
Lemma unique_chars s : validate_unique s = true -> forallb name_char s = true.
Proof.
  rewrite unique_ok. unfold spec_unique. intros H. apply andb_true_iff in H as [H _]. apply orb_true_iff in H as [H|H].
  - apply lbeq_eq in H. subst. reflexivity.
  - destruct s as [|c r]; [discriminate|]. apply andb_true_iff in H as [H1 H2]. apply beq_eq in H1. subst c.
    apply andb_true_iff in H2 as [_ H2]. cbn [forallb]. apply andb_true_iff. split; [reflexivity|].
    eapply (elems_chars elem_uq dot); [reflexivity|exact elem_uq_chars|exact H2].
Qed.
Lemma object_path_chars s : validate_object_path s = true -> forallb name_char s = true.
Proof.
  rewrite object_path_ok. unfold spec_object_path. destruct s as [|c r]; [discriminate|]. intros H.
  apply andb_true_iff in H as [H1 H2]. apply beq_eq in H1. subst c. cbn [forallb]. apply andb_true_iff. split; [reflexivity|].
  destruct r as [|d r]; [reflexivity|].
  eapply (elems_chars elem_path slash); [reflexivity|exact elem_path_chars|exact H2].
Qed.
Lemma arg0ns_chars s : validate_arg0ns s = true -> forallb name_char s = true.
Proof.
  unfold validate_arg0ns. destruct (lbeq s [] || (255 <? len s)%N); [discriminate|].
  assert (Hns : forall l, forallb ns_char l = true -> forallb name_char l = true).
  { intros l. apply forallb_impl. intros x. unfold ns_char, name_char.
    destruct (is_alphanum x), (beq x "-"), (beq x "_"), (beq x "."); cbn; congruence. }
  destruct s as [|c r]; [discriminate|]. destruct (beq c ":") eqn:E.
  - intros H. apply andb_true_iff in H as [_ H]. apply beq_eq in E. subst c. cbn [forallb]. now rewrite (Hns _ H).
  - intros H. apply andb_true_iff in H as [_ H]. now apply Hns.
Qed.
Lemma type_str_chars t : forallb name_char (type_str t) = true.
Proof. destruct t; reflexivity. Qed.
