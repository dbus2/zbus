(* C38/PrefixA.v — the invariant behind "a stream yields exactly the complete messages that match, then ends": definitions
   and the facts about lists, keys and `front` it needs. *)
From ZV Require Import Base.Bytes Base.Res C38.Model C38.Spec C38.Steps C38.Progress C38.Measure.
From Coq Require Import Lia.

(* ---------------------------------------------------------------- lists *)
Lemma existsb_del_nth {A} (f : A -> bool) l j x : nth_error l j = Some x -> existsb f l = f x || existsb f (del_nth j l).
Proof.
  unfold del_nth. revert j; induction l as [|a l IH]; intros j H; [now destruct j|].
  destruct j as [|j]; cbn in *.
  - inversion H; subst. reflexivity.
  - rewrite (IH j H). destruct (f a), (f x); reflexivity.
Qed.

Lemma in_del_nth {A} (l : list A) j y : In y (del_nth j l) -> In y l.
Proof.
  unfold del_nth. intros H. apply in_app_or in H. destruct H as [H|H].
  - rewrite <- (firstn_skipn j l). apply in_or_app. now left.
  - rewrite <- (firstn_skipn (S j) l). apply in_or_app. now right.
Qed.

Lemma nodup_del_nth {A} (l : list A) j x : NoDup l -> nth_error l j = Some x -> NoDup (del_nth j l) /\ ~ In x (del_nth j l).
Proof.
  unfold del_nth. revert j; induction l as [|a l IH]; intros j Hn H; [now destruct j|].
  inversion Hn as [|? ? Ha Hl]; subst. destruct j as [|j]; cbn in *.
  - inversion H; subst. split; assumption.
  - destruct (IH j Hl H) as [H1 H2]. split.
    + constructor; [|exact H1]. intros Hin. apply Ha. eapply (in_del_nth l j). exact Hin.
    + intros [E|Hin]; [subst; apply Ha; eapply nth_error_In; eassumption | now apply H2].
Qed.

Lemma existsb_false_iff {A} (f : A -> bool) l : existsb f l = false <-> forall x, In x l -> f x = false.
Proof.
  split.
  - intros H x Hx. destruct (f x) eqn:E; [|reflexivity]. rewrite <- H. symmetry. apply existsb_exists. now exists x.
  - intros H. destruct (existsb f l) eqn:E; [|reflexivity]. apply existsb_exists in E. destruct E as (x & Hx & Hf). now rewrite H in Hf.
Qed.

(* ---------------------------------------------------------------- channels and keys *)
Lemma chan_eqb_eq a b : chan_eqb a b = true <-> a = b.
Proof.
  destruct a, b; cbn; split; try discriminate; try reflexivity; try (intros H; inversion H; subst; apply Nat.eqb_refl).
  intros H. apply Nat.eqb_eq in H. now subst.
Qed.
Lemma chan_eqb_sym a b : chan_eqb a b = chan_eqb b a.
Proof. destruct a, b; cbn; auto using Nat.eqb_sym. Qed.
Lemma key_eqb_eq a b : key_eqb a b = true <-> a = b.
Proof.
  destruct a, b; cbn; split; try discriminate; try reflexivity; try (intros H; inversion H; subst; apply Nat.eqb_refl).
  intros H. apply Nat.eqb_eq in H. now subst.
Qed.

(* the channels streams listen on have one key each; the reply channel has two (KRet, KErrs) *)
Definition stream_chan (ch : chan) : Prop := ch <> CRet.
Definition key_of (ch : chan) : key := match ch with CAll => KAll | CRet => KRet | CSub r => KRule r end.

Lemma chan_key_eqb k ch : stream_chan ch -> chan_eqb (chan_of k) ch = key_eqb (key_of ch) k.
Proof. intros Hs. destruct ch, k; try reflexivity; [now elim Hs | apply Nat.eqb_sym]. Qed.

Lemma kmatch_key_of ch m : stream_chan ch -> kmatch (key_of ch) m = cmatch ch m.
Proof. intros Hs. destruct ch; [reflexivity | now elim Hs | reflexivity]. Qed.

Definition chan_of_src (src : option nat) : chan := match src with None => CAll | Some r => CSub r end.
Lemma stream_chan_src src : stream_chan (chan_of_src src).
Proof. destruct src; discriminate. Qed.

(* the channel's key is among these entries of msg_senders *)
Definition pending (ch : chan) (l : list key) : bool := existsb (key_eqb (key_of ch)) l.

Lemma pending_in ch l : pending ch l = true <-> In (key_of ch) l.
Proof.
  unfold pending. rewrite existsb_exists. split.
  - intros (x & Hx & E). apply key_eqb_eq in E. now subst.
  - intros H. exists (key_of ch). split; [assumption | now apply key_eqb_eq].
Qed.

Lemma has_key_stream ch l : stream_chan ch -> has_key ch l = pending ch l.
Proof. intros Hs. unfold has_key, pending. induction l as [|k l IH]; [reflexivity|]. cbn. now rewrite IH, chan_key_eqb. Qed.

(* "some unvisited entry of the channel matches" is "its one key is unvisited and matches" *)
Lemma pending_stream ch m rest : stream_chan ch ->
  existsb (fun key => chan_eqb (chan_of key) ch && kmatch key m) rest = pending ch rest && cmatch ch m.
Proof.
  intros Hs. unfold pending. induction rest as [|k rest IH]; [reflexivity|]. cbn [existsb]. rewrite IH, chan_key_eqb by assumption.
  destruct (key_eqb (key_of ch) k) eqn:E; [|reflexivity]. apply key_eqb_eq in E. subst k. rewrite kmatch_key_of by assumption.
  cbn. destruct (cmatch ch m), (existsb (key_eqb (key_of ch)) rest); reflexivity.
Qed.

Lemma pending_del_nth ch rest j kj : NoDup rest -> nth_error rest j = Some kj ->
  pending ch (del_nth j rest) = pending ch rest && negb (key_eqb (key_of ch) kj).
Proof.
  intros Hn Hj. unfold pending at 2. rewrite (existsb_del_nth _ _ _ _ Hj). fold (pending ch (del_nth j rest)).
  destruct (key_eqb (key_of ch) kj) eqn:E; [|now rewrite Bool.andb_true_r]. apply key_eqb_eq in E. subst kj. cbn.
  destruct (pending ch (del_nth j rest)) eqn:Ep; [|reflexivity]. apply pending_in in Ep. now apply (nodup_del_nth rest j _ Hn Hj) in Ep.
Qed.

(* ---------------------------------------------------------------- what a receiver must have been handed *)
Definition mmatch (c : cfg) (ch : chan) (k : nat) : bool :=
  match nth_error (msgs c) k with Some m => cmatch ch m | None => false end.

Lemma expected_eq c ch from upto : expected c ch from upto = map IMsg (filter (mmatch c ch) (seq from (upto - from))).
Proof. reflexivity. Qed.

Lemma expected_nil c ch n : expected c ch n n = [].
Proof. unfold expected. now rewrite Nat.sub_diag. Qed.

Lemma expected_snoc c ch from k : from <= k ->
  expected c ch from (S k) = expected c ch from k ++ (if mmatch c ch k then [IMsg k] else []).
Proof.
  intros H. unfold expected. replace (S k - from) with (S (k - from)) by lia. rewrite seq_S, filter_app, map_app. f_equal.
  replace (from + (k - from)) with k by lia. cbn. fold (mmatch c ch k). now destruct (mmatch c ch k).
Qed.

Lemma delivers_key_of c ch k : stream_chan ch -> delivers c (IMsg k) (key_of ch) = mmatch c ch k.
Proof. intros Hs. unfold delivers, mmatch. destruct (nth_error (msgs c) k); [now apply kmatch_key_of | reflexivity]. Qed.

Lemma front_stream c ch s : stream_chan ch ->
  front c ch s = match s_rd s with
                 | RdBcast (IMsg k) rest => if pending ch rest && mmatch c ch k then k else S k
                 | _ => s_next s
                 end.
Proof.
  intros Hs. unfold front, mmatch. destruct (s_rd s) as [|[k|e] rest|]; try reflexivity.
  destruct (nth_error (msgs c) k); [now rewrite pending_stream | now rewrite Bool.andb_false_r].
Qed.

(* the error item: at most once, last, and only once the reader has visited the channel's entry in its final round *)
Definition err_done (s : st) (ch : chan) : Prop :=
  match s_rd s with
  | RdBcast (IErr _) rest => pending ch rest = false
  | RdDone => True
  | _ => False
  end.

(* receiver x holds what channel x_chan x was handed from x_from x up to f, then the error item if d allows one *)
Definition Jv (c : cfg) (x : rx) (f : nat) (d : Prop) : Prop :=
  x_from x <= f /\
  exists errs, x_got x ++ x_inbox x = expected c (x_chan x) (x_from x) f ++ errs /\ (errs = [] \/ (errs = [IErr (fkind c)] /\ d)).

Definition J (c : cfg) (s : st) (x : rx) : Prop := Jv c x (front c (x_chan x) s) (err_done s (x_chan x)).

Definition grow (x : rx) (it : item) : rx :=
  {| x_chan := x_chan x; x_from := x_from x; x_got := x_got x; x_inbox := x_inbox x ++ [it] |}.

Lemma Jv_mono c x f (d d' : Prop) : Jv c x f d -> (d -> d') -> Jv c x f d'.
Proof. intros (Hle & errs & He & Hok) Hd. split; [assumption|]. exists errs. tauto. Qed.

Lemma Jv_skip c x f d : Jv c x f False -> mmatch c (x_chan x) f = false -> Jv c x (S f) d.
Proof.
  intros (Hle & errs & He & [->|[_ []]]) Hm. split; [lia|]. exists []. split; [|now left].
  now rewrite expected_snoc, Hm, app_nil_r by assumption.
Qed.
Lemma Jv_msg c x f d : Jv c x f False -> mmatch c (x_chan x) f = true -> Jv c (grow x (IMsg f)) (S f) d.
Proof.
  intros (Hle & errs & He & [->|[_ []]]) Hm. split; [cbn; lia|]. exists []. split; [|now left]. cbn [grow x_chan x_from x_got x_inbox].
  rewrite expected_snoc, Hm, app_assoc, He by assumption. now rewrite !app_nil_r.
Qed.
Lemma Jv_err c x f : Jv c x f False -> Jv c (grow x (IErr (fkind c))) f True.
Proof.
  intros (Hle & errs & He & [->|[_ []]]). split; [assumption|]. exists [IErr (fkind c)]. split; [|now right].
  cbn [grow x_chan x_from x_got x_inbox]. rewrite app_assoc, He. now rewrite app_nil_r.
Qed.

Lemma J_new c s ch : J c s (new_rx c ch s).
Proof. split; [cbn; lia|]. exists []. cbn [new_rx x_chan x_from x_got x_inbox app]. rewrite expected_nil. now split; [|left]. Qed.

Lemma J_take c s x it rest : x_inbox x = it :: rest -> J c s x -> J c s (take_rx x it rest).
Proof.
  intros E (Hle & errs & He & Hok). split; [assumption|]. exists errs. split; [|assumption].
  cbn [take_rx x_chan x_from x_got x_inbox]. now rewrite <- He, E, <- app_assoc.
Qed.

Lemma J_frame c s s' x : s_rd s' = s_rd s -> s_next s' = s_next s -> J c s x -> J c s' x.
Proof. intros H1 H2. unfold J, front, err_done. now rewrite H1, H2. Qed.

(* ---------------------------------------------------------------- the invariant *)
Definition subscribed (s : st) (src : option nat) : Prop := forall r, src = Some r -> In r (s_subs s).

Definition Pstream (c : cfg) (s : st) (src : option nat) (p : sph) : Prop :=
  match p with
  | SOpen x => x_chan x = chan_of_src src /\ subscribed s src /\ J c s x
  | SEnd x =>        (* ended: its channel was closed, which only the reader's exit does *)
      x_chan x = chan_of_src src /\ subscribed s src /\ J c s x /\ s_rd s = RdDone /\ x_inbox x = []
  | SAdd _ | SChecked => forall r, src = Some r -> ~ In r (s_subs s)
  | _ => True
  end.
Definition Ptask (c : cfg) (s : st) (t : task) : Prop := match t with TStream src _ _ p => Pstream c s src p | _ => True end.

Definition hold1 (t : task) : nat := if holds_lock t then 1 else 0.

Definition rd_ok (c : cfg) (s : st) : Prop :=
  match s_rd s with
  | RdBcast (IMsg k) rest => s_next s = S k /\ k < length (msgs c) /\ NoDup rest
  | RdBcast (IErr e) rest => e = fkind c /\ NoDup rest
  | _ => True
  end.

Definition keys_ok (s : st) : Prop :=
  match s_rd s with
  | RdDone => True
  | _ => NoDup (s_senders s) /\ In KAll (s_senders s) /\ (forall r, In r (s_subs s) <-> In (KRule r) (s_senders s))
  end.

Definition G (c : cfg) (s : st) : Prop :=
  rd_ok c s /\ keys_ok s /\ sumf hold1 (s_tasks s) = (if s_sublock s then 1 else 0) /\
  (forall i t, nth_error (s_tasks s) i = Some t -> Ptask c s t).

(* tasks as the session starts them *)
Definition fresh_task (t : task) : bool :=
  match t with TCall _ _ _ CNew => true | TStream _ _ _ SNew => true | TEmit _ ENew => true | _ => false end.

Lemma G_init c ts : forallb fresh_task ts = true -> G c (init ts).
Proof.
  intros Hf. rewrite forallb_forall in Hf. unfold G. cbn. repeat split.
  - repeat constructor; cbn; intuition discriminate.
  - now left.
  - intros [].
  - intros [H|[H|[H|[]]]]; discriminate.
  - induction ts as [|t ts IH]; [reflexivity|]. cbn. rewrite IH by (intros; apply Hf; now right).
    specialize (Hf t (or_introl eq_refl)). destruct t as [? ? ? p|? ? ? p|? p]; try reflexivity; now destruct p.
  - intros i t Hi. apply nth_error_In in Hi. specialize (Hf _ Hi).
    destruct t as [? ? ? p|src ? ? p|? p]; try exact I. now destruct p.
Qed.

Lemma stream_key_present (s : st) src (x : rx) : keys_ok s -> s_rd s <> RdDone ->
  x_chan x = chan_of_src src -> subscribed s src -> In (key_of (x_chan x)) (s_senders s).
Proof.
  intros Hk Hr Hc Hs. unfold keys_ok in Hk. destruct (s_rd s); try (now elim Hr); destruct Hk as (_ & Ha & Hsub);
    rewrite Hc; destruct src as [r|]; cbn; try assumption; apply Hsub; now apply Hs.
Qed.
