(* C38/Proofs.v — runs are reachable and bounded by the measure; what a stream holds (from the invariant G of PrefixA-C) lies
   completely before the failure position, and the reader stops exactly there. *)
From ZV Require Import Base.Bytes Base.Res C38.Model C38.Spec C38.Steps C38.Progress C38.Measure C38.PrefixA C38.PrefixC.
From Coq Require Import Lia.

(* ---------------------------------------------------------------- runs and reachability *)
Lemma run_reach_gen c ts : forall tr tr0 s0 s, reach c ts tr0 s0 -> run c tr s0 = Some s -> reach c ts (tr0 ++ tr) s.
Proof.
  induction tr as [|l tr IH]; intros tr0 s0 s Hr Hrun; cbn [run] in Hrun.
  - inversion Hrun; subst. now rewrite app_nil_r.
  - destruct (step c l s0) as [s1|] eqn:E; [|discriminate].
    replace (tr0 ++ l :: tr) with ((tr0 ++ [l]) ++ tr) by (now rewrite <- app_assoc).
    apply (IH _ s1); [econstructor; eassumption | assumption].
Qed.
Theorem run_sound c ts tr s : run c tr (init ts) = Some s -> reach c ts tr s.
Proof. intros H. apply (run_reach_gen c ts tr [] (init ts) s); [constructor | assumption]. Qed.

Theorem reach_length_bounded c ts tr s : reach c ts tr s -> length tr + mu c s <= mu c (init ts).
Proof.
  intros Hr. induction Hr as [|tr s l s' Hr IH Hs]; [cbn [length]; lia|]. apply step_decreases in Hs. rewrite app_length. cbn [length]. lia.
Qed.

(* ---------------------------------------------------------------- complete messages lie before the failure *)
Definition got_of (r : rd) : nat := match r with RdRead g => g | _ => 0 end.

Lemma off_S ms n m : nth_error ms n = Some m -> off ms (S n) = off ms n + i_len m.
Proof.
  revert n; induction ms as [|a ms IH]; intros n H; [now destruct n|].
  destruct n as [|n]; cbn in *.
  - inversion H; subst. destruct ms; cbn; lia.
  - rewrite (IH n H). destruct n; cbn; lia.
Qed.

Definition pos_ok (c : cfg) (s : st) : Prop :=
  s_pos s <= fpos c /\
  match s_rd s with
  | RdRead g => s_pos s = off (msgs c) (s_next s) + g
  | RdBcast (IMsg _) _ => s_pos s = off (msgs c) (s_next s)
  | _ => off (msgs c) (s_next s) <= s_pos s
  end.

Lemma pos_ok_step c l s s' : pos_ok c s -> step c l s = Some s' -> pos_ok c s'.
Proof.
  intros [H1 H2] Hs. unfold pos_ok. destruct (step_cases _ _ _ _ Hs) as [Hm|(i & _ & Ht)].
  - destruct Hm as [n got m Hr _ _ _ Hp Hg|n got m Hr Hm _ _ Hp Hg|got Hr _|j it rest k Hr _ _ _|j it rest k Hr _ _|k Hr|e Hr];
      rewrite Hr in H2; cbn; try lia; [|destruct it; lia..]. rewrite (off_S _ _ _ Hm). lia.
  - apply tstep_frame in Ht. destruct Ht as (Hr & Hn & Hp & _). now rewrite Hr, Hn, Hp.
Qed.

Lemma pos_ok_reach c ts tr s : reach c ts tr s -> pos_ok c s.
Proof.
  intros Hr. induction Hr as [|tr s l s' Hr IH Hs]; [unfold pos_ok; cbn; split; [lia|]; now destruct (msgs c) | eapply pos_ok_step; eassumption].
Qed.

Lemma pos_ok_off c s : pos_ok c s -> off (msgs c) (s_next s) <= fpos c.
Proof. intros [H1 H2]. destruct (s_rd s) as [g|[k|e] rest|]; lia. Qed.

Lemma front_le_next c ch s : rd_ok c s -> front c ch s <= s_next s.
Proof.
  unfold rd_ok, front. destruct (s_rd s) as [|[k|e] rest|]; try lia. intros (-> & Hk & _).
  destruct (nth_error (msgs c) k); [|lia]. destruct (existsb _ rest); lia.
Qed.

(* ---------------------------------------------------------------- C38_prefix *)
Theorem stream_prefix c ts tr s i src a b x : forallb fresh_task ts = true -> reach c ts tr s ->
  (nth_error (s_tasks s) i = Some (TStream src a b (SOpen x)) \/ nth_error (s_tasks s) i = Some (TStream src a b (SEnd x))) ->
  x_chan x = chan_of_src src /\
  x_from x <= front c (x_chan x) s /\ front c (x_chan x) s <= s_next s /\ off (msgs c) (s_next s) <= fpos c /\
  exists errs, x_got x ++ x_inbox x = expected c (x_chan x) (x_from x) (front c (x_chan x) s) ++ errs /\
               (errs = [] \/ errs = [IErr (fkind c)]).
Proof.
  intros Hf Hr Hi. pose proof (G_reach c ts tr s Hf Hr) as (Hrd & _ & _ & Hp). pose proof (pos_ok_off c s (pos_ok_reach c ts tr s Hr)) as Hoff.
  assert (HJ : x_chan x = chan_of_src src /\ J c s x).
  { destruct Hi as [Hi|Hi]; specialize (Hp _ _ Hi); cbn in Hp; tauto. }
  destruct HJ as (Hc & Hle & errs & He & Hok). split; [assumption|]. split; [assumption|].
  split; [now apply front_le_next|]. split; [exact Hoff|]. exists errs. split; [assumption | tauto].
Qed.

Theorem stream_ended c ts tr s i src a b x : forallb fresh_task ts = true -> reach c ts tr s ->
  nth_error (s_tasks s) i = Some (TStream src a b (SEnd x)) ->
  s_rd s = RdDone /\ x_inbox x = [] /\ x_from x <= s_next s /\ off (msgs c) (s_next s) <= fpos c /\
  exists errs, x_got x = expected c (chan_of_src src) (x_from x) (s_next s) ++ errs /\ (errs = [] \/ errs = [IErr (fkind c)]).
Proof.
  intros Hf Hr Hi. pose proof (G_reach c ts tr s Hf Hr) as (_ & _ & _ & Hp). specialize (Hp _ _ Hi).
  destruct Hp as (Hc & _ & _ & Hd & Hin).
  destruct (stream_prefix c ts tr s i src a b x Hf Hr (or_intror Hi)) as (_ & Hle & _ & Hoff & errs & He & Hok).
  assert (Hfr : front c (x_chan x) s = s_next s) by (unfold front; now rewrite Hd).
  rewrite Hfr in *. rewrite Hin, app_nil_r, Hc in He. repeat split; try assumption. now exists errs.
Qed.

Lemma complete_off ms : forall n g m, nth_error ms n = Some m -> g < i_len m -> complete ms (off ms n + g) = n.
Proof.
  induction ms as [|a ms IH]; intros n g m Hn Hg; [now destruct n|].
  destruct n as [|n]; cbn [off nth_error complete] in *.
  - inversion Hn; subst. replace (i_len m <=? 0 + g) with false; [reflexivity|]. symmetry. apply Nat.leb_gt. lia.
  - replace (i_len a <=? i_len a + off ms n + g) with true by (symmetry; apply Nat.leb_le; lia).
    replace (i_len a + off ms n + g - i_len a) with (off ms n + g) by lia. now rewrite (IH n g m).
Qed.

Definition stop_ok (c : cfg) (s : st) : Prop :=
  match s_rd s with
  | RdBcast (IErr _) _ | RdDone => s_broken s = true \/ s_next s = complete (msgs c) (fpos c) \/ length (msgs c) <= s_next s
  | _ => True
  end.

Lemma tstep_broken c s i s' : tstep c s i = Some s' -> s_broken s = true -> s_broken s' = true.
Proof.
  intros Ht Hb. destruct (tstep_inv _ _ _ _ Ht) as (t & t' & s0 & s1 & _ & Hm & (b & w & -> & Hw) & ->).
  destruct (tmove_frame _ _ _ _ _ Hm) as (_ & _ & _ & _ & E). apply Hw. congruence.
Qed.

Lemma stop_ok_step c l s s' : I1 c s -> pos_ok c s -> stop_ok c s -> step c l s = Some s' -> stop_ok c s'.
Proof.
  intros HI1 [Hp1 Hp2] Hst Hs. unfold stop_ok, I1 in *. destruct (step_cases _ _ _ _ Hs) as [Hm|(i & _ & Ht)].
  - destruct Hm as [| |got Hr E|j it rest k Hr _ _ _|j it rest k Hr _ _|k Hr|e Hr]; rewrite ?Hr in *; cbn; try exact I; try exact Hst.
    (* the fault: unless a write failed or the peer has nothing more, the bytes read end inside the message being read *)
    destruct E as [E|[E|E]]; [now left | | now right; right].
    assert (Hpf : fpos c = off (msgs c) (s_next s) + got) by lia. rewrite Hpf.
    destruct (nth_error (msgs c) (s_next s)) as [m|] eqn:Hm; [|right; right; now apply nth_error_None].
    right. left. symmetry. now apply (complete_off _ _ _ m).
  - pose proof (tstep_frame _ _ _ _ Ht) as (Hr & Hn & _). rewrite Hr, Hn.
    destruct (s_rd s) as [|[k|e] rest|]; try exact I; (destruct Hst as [Hb|Hst]; [left; eapply tstep_broken; eassumption | now right]).
Qed.

Theorem reader_stops_at_fault c ts tr s : wf c -> reach c ts tr s -> s_rd s = RdDone -> s_broken s = false ->
  s_next s = complete (msgs c) (fpos c) \/ length (msgs c) <= s_next s.
Proof.
  intros Hwf Hr Hd Hb. assert (H : stop_ok c s).
  { clear Hd Hb. induction Hr as [|tr s l s' Hr IH Hs]; [exact I|].
    eapply stop_ok_step; try eassumption; [apply (invariants c ts tr s Hwf Hr) | eapply pos_ok_reach; eassumption]. }
  unfold stop_ok in H. rewrite Hd in H. destruct H as [H|H]; [congruence | exact H].
Qed.
