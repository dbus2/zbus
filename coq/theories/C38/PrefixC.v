(* C38/PrefixC.v — task steps preserve the invariant G; G holds in every reachable state. *)
From ZV Require Import Base.Bytes Base.Res C38.Model C38.Steps C38.Progress C38.Measure C38.PrefixA C38.PrefixB.
From Coq Require Import Lia.

(* Ptask reads the reader's phase, the number of complete messages and the subscriptions only; subscriptions may be added as
   long as the task does not wait to add the same one *)
Lemma Ptask_frame c s s' t : s_rd s' = s_rd s -> s_next s' = s_next s -> (forall r, In r (s_subs s) -> In r (s_subs s')) ->
  (hold1 t = 1 -> s_subs s' = s_subs s) -> Ptask c s t -> Ptask c s' t.
Proof.
  intros H1 H2 H3 H4 Hp. destruct t as [|src ? ? p|]; try exact I.
  assert (Hsub : subscribed s src -> subscribed s' src) by (intros Hs r E; apply H3, Hs, E).
  destruct p as [| |q| |x|o|x]; cbn [Ptask Pstream] in *; try exact I; try (now rewrite H4 by reflexivity).
  - destruct Hp as (A & B0 & Cj). split; [assumption | split; [auto | now apply (J_frame c s)]].
  - destruct Hp as (A & B0 & Cj & D & E). rewrite H1. split; [assumption | split; [auto | split; [now apply (J_frame c s) | auto]]].
Qed.

Lemma Pstream_new c s s' src : s_rd s' = s_rd s -> s_next s' = s_next s -> subscribed s' src ->
  Pstream c s' src (SOpen (new_rx c (chan_of_src src) s)).
Proof. intros H1 H2 H. split; [reflexivity | split; [exact H | apply (J_frame c s); auto using J_new]]. Qed.

Theorem G_task c s i s' : G c s -> tstep c s i = Some s' -> G c s'.
Proof.
  intros HG Hs. pose proof HG as (Hrd & Hk & Hh & Hp). destruct (tstep_inv _ _ _ _ Hs) as (t & t' & s0 & s1 & Hi & Hm & (b & w & -> & _) & ->).
  change (G c (set_task s0 i t')).
  destruct (tmove_frame _ _ _ _ _ Hm) as (Er & En & _ & Et & _). pose proof (Hp i t Hi) as Hpt. apply nth_error_lt in Hi as Hlt.
  pose proof (sumf_set_nth hold1 _ _ _ t' Hi) as Hsum. pose proof (sumf_nth_le hold1 _ _ _ Hi) as Hle.
  (* the mutex still has exactly the holders it says *)
  assert (Hh' : sumf hold1 (set_nth i t' (s_tasks s)) = if s_sublock s0 then 1 else 0).
  { unfold hold1 in *. destruct (tmove_lock _ _ _ _ _ Hm) as [[-> E]|[(E0 & E & -> & E')|(E & E' & ->)]].
    - rewrite E in Hsum. lia.
    - rewrite E, E' in Hsum. rewrite E0 in Hh. lia.
    - rewrite E, E' in *. destruct (s_sublock s); lia. }
  (* every task is in order once the moved one is, if no other task waits to add a subscription that was just added *)
  assert (Hfin : rd_ok c s0 -> keys_ok s0 -> (forall r, In r (s_subs s) -> In r (s_subs s0)) ->
                 (forall j tj, j <> i -> nth_error (s_tasks s) j = Some tj -> hold1 tj = 1 -> s_subs s0 = s_subs s) ->
                 Ptask c s0 t' -> G c (set_task s0 i t')).
  { intros Hrd0 Hk0 Hsub Hoth Hpt'. split; [exact Hrd0 | split; [exact Hk0 | split]]; cbn [set_task s_tasks s_sublock]; rewrite Et; [exact Hh'|].
    intros j tj Hj. destruct (Nat.eq_dec i j) as [<-|Hne].
    - rewrite nth_error_set_nth_eq in Hj by assumption. inversion Hj; subst tj. exact Hpt'.
    - rewrite nth_error_set_nth_neq in Hj by assumption. apply (Ptask_frame c s); [exact Er | exact En | exact Hsub | eauto | eauto]. }
  (* the general case: msg_senders and the subscriptions stay as they are *)
  assert (Hsame : s_senders s0 = s_senders s -> s_subs s0 = s_subs s -> Ptask c s0 t' -> G c (set_task s0 i t')).
  { intros E4 E5. apply Hfin; unfold rd_ok, keys_ok in *; rewrite ?Er, ?En, ?E4, ?E5; auto. }
  destruct Hm as [| src serial cost p p' s1 Hsm |]; [now apply Hsame | | now apply Hsame].
  cbn [Ptask] in *.
  destruct Hsm as [| | |src Hl Hsub|r Hl Hsub| | | | |r Hlk Hne| |src x it rest Ei|src x Ei Ecl];
    try (apply Hsame; [reflexivity | reflexivity | first [exact I | exact Hpt]]).
  - apply Hsame; try reflexivity. apply (Pstream_new c s s None); try reflexivity. intros ? [=].
  - (* the subscription exists already *)
    apply Hsame; try reflexivity. now apply Pstream_new.
  - apply Hsame; try reflexivity. destruct (bus c); intros ? [= <-]; exact Hsub.
  - (* the insert of add_match *)
    cbn [Pstream] in Hpt. specialize (Hpt r eq_refl). unfold locked in Hlk.
    apply Hfin; cbn [add_sub s_subs s_senders s_rd s_next].
    + exact Hrd.
    + unfold keys_ok in *. cbn. destruct (s_rd s); try exact I; try discriminate. destruct Hk as (Hnd & Hall & Hsub). split; [|split].
      * constructor; [|assumption]. intros Hin. now apply Hpt, Hsub.
      * now right.
      * intros r'. cbn. rewrite Hsub. split; (intros [E|H]; [left; congruence | now right]).
    + intros r'. now right.
    + (* nobody else holds the mutex *)
      intros j tj Hne' Hj Hh1. pose proof (sumf_two hold1 _ i j _ _ (not_eq_sym Hne') Hi Hj) as H2. cbn in H2. rewrite Hh, Hh1 in H2.
      destruct (s_sublock s); lia.
    + apply (Pstream_new c s _ (Some r)); try reflexivity. intros ? [= <-]. now left.
  - apply Hsame; try reflexivity. apply (Pstream_new c s _ None); try reflexivity. intros ? [=].
  - destruct Hpt as (A & B0 & Cj). apply Hsame; try reflexivity. split; [assumption | split; [assumption | now apply J_take]].
  - (* the stream ends: its channel is closed, so the reader has gone *)
    destruct Hpt as (A & B0 & Cj). apply Hsame; try reflexivity. repeat (split; try assumption).
    destruct (s_rd s) eqn:Hr; [| |reflexivity]; exfalso;
      (assert (Hin : In (key_of (x_chan x)) (s_senders s)) by (eapply stream_key_present; try eassumption; rewrite Hr; discriminate));
      unfold closed in Ecl; rewrite has_key_stream in Ecl by (rewrite A; apply stream_chan_src);
      apply pending_in in Hin; now rewrite Hin in Ecl.
Qed.

Theorem G_reach c ts tr s : forallb fresh_task ts = true -> reach c ts tr s -> G c s.
Proof.
  intros Hf Hr. induction Hr as [|tr s l s' Hr IH Hs]; [now apply G_init|].
  destruct (step_cases _ _ _ _ Hs) as [Hm|(i & _ & Ht)]; [eapply G_reader | eapply G_task]; eassumption.
Qed.
