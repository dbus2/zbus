(* C38/Steps.v — the step functions of Model.v read backwards: the moves `cstep`, `tstep` and `step` can make, as relations
   with one constructor per branch of the code.  The invariants of the other files are proved by cases over these. *)
From ZV Require Import Base.Bytes Base.Res C38.Model.
From Coq Require Import Lia.

(* ---------------------------------------------------------------- set_nth *)
Lemma nth_error_lt {A} (l : list A) i x : nth_error l i = Some x -> i < length l.
Proof. intros H. apply nth_error_Some. congruence. Qed.
Lemma nth_error_set_nth_eq {A} (l : list A) i v : i < length l -> nth_error (set_nth i v l) i = Some v.
Proof.
  revert i; induction l as [|x l IH]; intros i H; [cbn in H; lia|].
  destruct i as [|i]; cbn; [reflexivity|]. apply IH. cbn in H. lia.
Qed.
Lemma nth_error_set_nth_neq {A} (l : list A) i j v : i <> j -> nth_error (set_nth i v l) j = nth_error l j.
Proof.
  revert i j; induction l as [|x l IH]; intros i j H; [now destruct i|].
  destruct i as [|i], j as [|j]; cbn; try reflexivity; [lia|]. apply IH. lia.
Qed.
Lemma length_set_nth {A} (l : list A) i v : length (set_nth i v l) = length l.
Proof. revert i; induction l as [|x l IH]; intros [|i]; cbn; auto. Qed.

(* ---------------------------------------------------------------- Connection::send *)
(* a send touches the write side only, and a broken connection stays broken *)
Definition wsame (s s' : st) : Prop := exists b w, s' = set_write s b w /\ (s_broken s = true -> b = true).

Lemma wsame_refl s : wsame s s.
Proof. exists (s_broken s), (s_wcalls s). split; [now destruct s | auto]. Qed.

Lemma send_try_wsame c s cost ok s' : send_try c s cost = (ok, s') -> wsame s s'.
Proof.
  unfold send_try. destruct (s_broken s) eqn:Eb.
  - intros H; inversion H; subst. apply wsame_refl.
  - destruct (wbudget c) as [bd|]; [destruct (s_wcalls s + cost <=? bd)|]; intros H; inversion H; subst;
      eexists _, _; (split; [reflexivity | congruence]).
Qed.

(* ---------------------------------------------------------------- a method call *)
Inductive cmove (c : cfg) (s : st) (serial : nat) (nr : bool) : cph -> cph -> Prop :=
  | cm_new : cmove c s serial nr CNew (CSend (new_rx c CRet s))
  | cm_sent x : cmove c s serial nr (CSend x) (if nr then CDone OPanic else CWait x)
  | cm_abort x : cmove c s serial nr (CSend x) (CDone OAborted)
  | cm_reply x k rest o : x_inbox x = IMsg k :: rest -> reply_for c serial k = Some o -> cmove c s serial nr (CWait x) (CDone o)
  | cm_skip x k rest : x_inbox x = IMsg k :: rest -> reply_for c serial k = None ->
      cmove c s serial nr (CWait x) (CWait (take_rx x (IMsg k) rest))
  | cm_err x e rest : x_inbox x = IErr e :: rest -> cmove c s serial nr (CWait x) (CDone (OIo e))
  | cm_pipe x : x_inbox x = [] -> closed CRet s = true -> cmove c s serial nr (CWait x) (CDone OPipe).

Lemma cstep_inv c s serial cost nr p p' s' : cstep c s serial cost nr p = Some (p', s') -> cmove c s serial nr p p' /\ wsame s s'.
Proof.
  destruct p as [|x|x|o]; cbn [cstep].
  - intros H; inversion H; subst. split; [constructor | apply wsame_refl].
  - destruct (send_try c s cost) as [ok s1] eqn:E. apply send_try_wsame in E.
    destruct ok; [destruct nr|]; intros H; inversion H; subst; (split; [|assumption]); [apply (cm_sent c s serial true) | apply (cm_sent c s serial false) | constructor].
  - destruct (x_inbox x) as [|[k|e] rest] eqn:E; [destruct (closed CRet s) eqn:Ec | destruct (reply_for c serial k) eqn:Er |];
      intros H; inversion H; subst; (split; [econstructor; eassumption | apply wsame_refl]).
  - discriminate.
Qed.

Lemma reply_for_some c serial k o : reply_for c serial k = Some o ->
  exists m, nth_error (msgs c) k = Some m /\ (o = OOk k /\ i_class m = MReply serial \/ o = OMErr k /\ i_class m = MError serial).
Proof.
  unfold reply_for. destruct (nth_error (msgs c) k) as [m|]; [|discriminate]. intros H. exists m. split; [reflexivity|].
  destruct (i_class m) as [s0|s0|rs]; try discriminate; destruct (Nat.eqb s0 serial) eqn:E; try discriminate;
    apply Nat.eqb_eq in E; inversion H; subst; auto.
Qed.

(* ---------------------------------------------------------------- a stream: add_match, then consuming *)
Inductive smove (c : cfg) (s : st) (serial : nat) : option nat -> sph -> sph -> st -> Prop :=
  | sm_from : smove c s serial None SNew (SOpen (new_rx c CAll s)) s
  | sm_refuse r : locked s = false -> s_senders s = [] -> smove c s serial (Some r) SNew (SFail OPipe) s
  | sm_check r : locked s = false -> s_senders s <> [] -> smove c s serial (Some r) SNew SLocking s
  | sm_known src : s_sublock s = false -> (forall r, src = Some r -> In r (s_subs s)) ->
      smove c s serial src SLocking (SOpen (new_rx c (match src with Some r => CSub r | None => CAll end) s)) s
  | sm_lock r : s_sublock s = false -> ~ In r (s_subs s) ->
      smove c s serial (Some r) SLocking (if bus c then SAdd CNew else SChecked) (set_sublock s true)
  | sm_add src q q' : cmove c s serial false q q' -> smove c s serial src (SAdd q) (SAdd q') s
  | sm_added src k : smove c s serial src (SAdd (CDone (OOk k))) SChecked s
  | sm_failed src o : smove c s serial src (SAdd (CDone o)) (SFail o) (set_sublock s false)
  | sm_gone r : locked s = false -> s_senders s = [] -> smove c s serial (Some r) SChecked (SFail OPipe) (set_sublock s false)
  | sm_insert r : locked s = false -> s_senders s <> [] ->
      smove c s serial (Some r) SChecked (SOpen (new_rx c (CSub r) s)) (add_sub s r)
  | sm_insert_all : locked s = false -> smove c s serial None SChecked (SOpen (new_rx c CAll s)) (set_sublock s false)
  | sm_take src x it rest : x_inbox x = it :: rest -> smove c s serial src (SOpen x) (SOpen (take_rx x it rest)) s
  | sm_end src x : x_inbox x = [] -> closed (x_chan x) s = true -> smove c s serial src (SOpen x) (SEnd x) s.

(* the task's new phase, and the state but for the write side *)
Inductive tmove (c : cfg) (s : st) : task -> task -> st -> Prop :=
  | tm_call serial cost nr p p' : cmove c s serial nr p p' -> tmove c s (TCall serial cost nr p) (TCall serial cost nr p') s
  | tm_stream src serial cost p p' s0 : smove c s serial src p p' s0 ->
      tmove c s (TStream src serial cost p) (TStream src serial cost p') s0
  | tm_emit cost (ok : bool) : tmove c s (TEmit cost ENew) (TEmit cost (if ok then EOk else EFail)) s.

Lemma mem_In r l : mem r l = true <-> In r l.
Proof.
  unfold mem. rewrite existsb_exists. split.
  - intros (x & Hx & E). apply Nat.eqb_eq in E. now subst.
  - intros H. exists r. split; [assumption | apply Nat.eqb_refl].
Qed.

Lemma tstep_inv c s i s' : tstep c s i = Some s' ->
  exists t t' s0 s1, nth_error (s_tasks s) i = Some t /\ tmove c s t t' s0 /\ wsame s0 s1 /\ s' = set_task s1 i t'.
Proof.
  unfold tstep. destruct (nth_error (s_tasks s) i) as [t|]; [|discriminate]. intros H.
  enough (exists t' s0 s1, tmove c s t t' s0 /\ wsame s0 s1 /\ s' = set_task s1 i t') as (t' & s0 & s1 & Hm) by (exists t, t', s0, s1; auto).
  destruct t as [serial cost nr p|src serial cost p|cost p].
  - destruct (cstep c s serial cost nr p) as [[p' s1]|] eqn:E; [|discriminate]. apply cstep_inv in E. destruct E as [Hc Hw].
    inversion H; subst. eexists _, _, _. split; [apply tm_call; exact Hc|]. split; [exact Hw | reflexivity].
  - (* but for the AddMatch call, a stream's move does not send *)
    assert (Hs : forall p' s0, smove c s serial src p p' s0 ->
              exists t' s0' s1, tmove c s (TStream src serial cost p) t' s0' /\ wsame s0' s1 /\
                set_task s0 i (TStream src serial cost p') = set_task s1 i t').
    { intros p' s0 Hm. eexists _, _, _. split; [apply tm_stream; exact Hm|]. split; [apply wsame_refl | reflexivity]. }
    destruct p as [| |q| |x|o|x]; try discriminate.
    + destruct src as [r|]; [destruct (locked s) eqn:El; [discriminate|]; destruct (s_senders s) eqn:En|];
        inversion H; subst; apply Hs; constructor; congruence.
    + destruct (s_sublock s) eqn:El; [discriminate|].
      destruct (match src with Some r => mem r (s_subs s) | None => true end) eqn:Em; inversion H; subst; apply Hs.
      * constructor; [assumption|]. intros r ->. now apply mem_In.
      * destruct src as [r|]; [|discriminate]. constructor; [assumption|]. intros Hin. apply mem_In in Hin. congruence.
    + destruct q as [|x|x|o].
      1-3: destruct (cstep c s serial cost false _) as [[q' s1]|] eqn:E; [|discriminate]; apply cstep_inv in E; destruct E as [Hc Hw];
        inversion H; subst; eexists _, _, _; (split; [apply tm_stream, sm_add; exact Hc|]); (split; [exact Hw | reflexivity]).
      destruct o; inversion H; subst; apply Hs; constructor.
    + destruct (locked s) eqn:El; [discriminate|]. destruct src as [r|]; [destruct (s_senders s) eqn:En|];
        inversion H; subst; apply Hs; constructor; congruence.
    + destruct (x_inbox x) eqn:Ei; [destruct (closed (x_chan x) s) eqn:Ec; [|discriminate]|]; inversion H; subst; apply Hs; now constructor.
  - destruct p; try discriminate. destruct (send_try c s cost) as [ok s1] eqn:E. apply send_try_wsame in E.
    inversion H; subst. eexists _, _, _. split; [apply tm_emit|]. split; [exact E | reflexivity].
Qed.

Lemma tmove_frame c s t t' s0 : tmove c s t t' s0 ->
  s_rd s0 = s_rd s /\ s_next s0 = s_next s /\ s_pos s0 = s_pos s /\ s_tasks s0 = s_tasks s /\ s_broken s0 = s_broken s.
Proof. intros [| ? ? ? ? ? ? Hs |]; [|destruct Hs|]; now repeat split. Qed.

Lemma tstep_frame c s i s' : tstep c s i = Some s' ->
  s_rd s' = s_rd s /\ s_next s' = s_next s /\ s_pos s' = s_pos s /\ length (s_tasks s') = length (s_tasks s) /\
  (forall j, j <> i -> nth_error (s_tasks s') j = nth_error (s_tasks s) j).
Proof.
  intros H. destruct (tstep_inv _ _ _ _ H) as (t & t' & s0 & s1 & _ & Hm & (b & w & -> & _) & ->).
  destruct (tmove_frame _ _ _ _ _ Hm) as (Hr & Hn & Hp & Ht & _).
  cbn. rewrite Ht, length_set_nth. repeat split; try assumption. intros j Hj. apply nth_error_set_nth_neq. congruence.
Qed.

(* ---------------------------------------------------------------- the reader *)
(* does entry k of msg_senders get the item: `rule.matches(msg)`, and every entry gets the error *)
Definition delivers (c : cfg) (it : item) (k : key) : bool :=
  match it with IMsg n => match nth_error (msgs c) n with Some m => kmatch k m | None => false end | IErr _ => true end.

Inductive rmove (c : cfg) (s : st) : label -> st -> Prop :=
  | rm_part n got m : s_rd s = RdRead got -> nth_error (msgs c) (s_next s) = Some m -> s_broken s = false ->
      1 <= n -> s_pos s + n <= fpos c -> got + n < i_len m ->
      rmove c s (LRecv n) (set_rd s (s_pos s + n) (s_next s) (RdRead (got + n)) (s_senders s) (s_tasks s))
  | rm_whole n got m : s_rd s = RdRead got -> nth_error (msgs c) (s_next s) = Some m -> s_broken s = false ->
      1 <= n -> s_pos s + n <= fpos c -> got + n = i_len m ->
      rmove c s (LRecv n) (set_rd s (s_pos s + n) (S (s_next s)) (RdBcast (IMsg (s_next s)) (s_senders s)) (s_senders s) (s_tasks s))
  | rm_fault got : s_rd s = RdRead got -> s_broken s = true \/ fpos c <= s_pos s \/ length (msgs c) <= s_next s ->
      rmove c s LFault (set_rd s (s_pos s) (s_next s) (RdBcast (IErr (fkind c)) (s_senders s)) (s_senders s) (s_tasks s))
  | rm_deliver j it rest k : s_rd s = RdBcast it rest -> nth_error rest j = Some k -> delivers c it k = true ->
      full c (chan_of k) (s_tasks s) = false ->
      rmove c s (LBcast j)
        (set_rd s (s_pos s) (s_next s) (RdBcast it (del_nth j rest)) (s_senders s) (map (push_task (chan_of k) it) (s_tasks s)))
  | rm_skip j it rest k : s_rd s = RdBcast it rest -> nth_error rest j = Some k -> delivers c it k = false ->
      rmove c s (LBcast j) (set_rd s (s_pos s) (s_next s) (RdBcast it (del_nth j rest)) (s_senders s) (s_tasks s))
  | rm_round k : s_rd s = RdBcast (IMsg k) [] ->
      rmove c s LBcastEnd (set_rd s (s_pos s) (s_next s) (RdRead 0) (s_senders s) (s_tasks s))
  | rm_exit e : s_rd s = RdBcast (IErr e) [] -> rmove c s LBcastEnd (set_rd s (s_pos s) (s_next s) RdDone [] (s_tasks s)).

Lemma step_cases c l s s' : step c l s = Some s' -> rmove c s l s' \/ exists i, l = LTask i /\ tstep c s i = Some s'.
Proof.
  intros Hs. destruct l as [n| |j| |i]; unfold step in Hs; [left | left | left | left | right; now exists i].
  - destruct (s_rd s) as [got| |] eqn:Hr; try discriminate.
    destruct (nth_error (msgs c) (s_next s)) as [m|] eqn:Hm; [|discriminate].
    destruct (negb (s_broken s) && (1 <=? n) && (s_pos s + n <=? fpos c) && (got + n <=? i_len m)) eqn:Ec; [|discriminate].
    rewrite !Bool.andb_true_iff, Bool.negb_true_iff, !Nat.leb_le in Ec. destruct Ec as (((Eb & E1) & E2) & E3).
    destruct (i_len m <=? got + n) eqn:E; inversion Hs; subst;
      [apply Nat.leb_le in E; eapply rm_whole | apply Nat.leb_gt in E; eapply rm_part]; eauto; lia.
  - destruct (s_rd s) as [got| |] eqn:Hr; try discriminate.
    destruct (s_broken s || (fpos c <=? s_pos s) || (length (msgs c) <=? s_next s)) eqn:E; inversion Hs; subst.
    rewrite !Bool.orb_true_iff, !Nat.leb_le in E. eapply rm_fault; [eassumption | tauto].
  - destruct (s_rd s) as [|it rest|] eqn:Hr; try discriminate. destruct (nth_error rest j) as [k|] eqn:Hj; [|discriminate].
    fold (delivers c it k) in Hs. destruct (delivers c it k) eqn:Ed; [destruct (full c (chan_of k) (s_tasks s)) eqn:Ef|];
      inversion Hs; subst; [eapply rm_deliver | eapply rm_skip]; eassumption.
  - destruct (s_rd s) as [|it [|]|] eqn:Hr; try discriminate.
    destruct it; inversion Hs; subst; [eapply rm_round | eapply rm_exit]; eassumption.
Qed.
