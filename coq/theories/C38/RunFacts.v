(* C38/RunFacts.v — the replay used by the correspondence check only ever takes steps of the model: whatever it ends in is
   reachable, so the theorems about reachable states apply to the very states the observations are compared with. *)
From ZV Require Import Base.Bytes Base.Res C38.Model C38.Run.

Lemma run_cons c l s s1 tr s' : step c l s = Some s1 -> Model.run c tr s1 = Some s' -> Model.run c (l :: tr) s = Some s'.
Proof. intros H1 H2. cbn [Model.run]. now rewrite H1. Qed.

Lemma run_app c tr1 : forall tr2 s s1 s2, Model.run c tr1 s = Some s1 -> Model.run c tr2 s1 = Some s2 -> Model.run c (tr1 ++ tr2) s = Some s2.
Proof.
  induction tr1 as [|l tr1 IH]; intros tr2 s s1 s2 H1 H2; cbn [Model.run app] in *.
  - inversion H1; subst. exact H2.
  - destruct (step c l s) as [s0|]; [|discriminate]. eapply IH; eassumption.
Qed.

Lemma reader_run_sound c avail : forall fuel s s', reader_run fuel c avail s = Some s' -> exists tr, Model.run c tr s = Some s'.
Proof.
  induction fuel as [|f IH]; intros s s' H; [discriminate|]. cbn [reader_run] in H.
  assert (Hstop : forall s0, Some s = Some s0 -> exists tr, Model.run c tr s = Some s0) by (intros s0 E; inversion E; subst; now exists []).
  assert (Hgo : forall l, match step c l s with Some s1 => reader_run f c avail s1 | None => Some s end = Some s' ->
                          exists tr, Model.run c tr s = Some s').
  { intros l Hl. destruct (step c l s) as [s1|] eqn:E; [|now apply Hstop].
    destruct (IH _ _ Hl) as [tr Htr]. exists (l :: tr). eapply run_cons; eassumption. }
  destruct (s_rd s) as [got|it rest|].
  - destruct (s_broken s || (fpos c <=? s_pos s)); [now apply (Hgo LFault)|].
    destruct (nth_error (msgs c) (s_next s)) as [m|]; [|now apply Hstop].
    destruct (1 <=? Nat.min (i_len m - got) (Nat.min avail (fpos c) - s_pos s)); [|now apply Hstop].
    now apply (Hgo (LRecv (Nat.min (i_len m - got) (Nat.min avail (fpos c) - s_pos s)))).
  - destruct rest as [|k rest]; [now apply (Hgo LBcastEnd)|].
    destruct (find (fun j => match step c (LBcast j) s with Some _ => true | None => false end) (seq 0 (length (k :: rest)))) as [j|];
      [now apply (Hgo (LBcast j)) | now apply Hstop].
  - now apply Hstop.
Qed.

Lemma task_run_sound c paused i : forall fuel s s', task_run fuel c paused i s = Some s' -> exists tr, Model.run c tr s = Some s'.
Proof.
  induction fuel as [|f IH]; intros s s' H; [discriminate|]. cbn [task_run] in H.
  destruct (paused && consuming s i); [inversion H; subst; now exists []|].
  destruct (step c (LTask i) s) as [s1|] eqn:E; [|inversion H; subst; now exists []].
  destruct (IH _ _ H) as [tr Htr]. exists (LTask i :: tr). eapply run_cons; eassumption.
Qed.

Theorem replay_sound c all : forall toks s p ph s' p' ph',
  replay c all toks (RS s p ph) = Some (RS s' p' ph') -> exists tr, Model.run c tr s = Some s'.
Proof.
  induction toks as [|t toks IH]; intros s p ph s' p' ph' H; cbn [replay] in H.
  - inversion H; subst. now exists [].
  - destruct t as [|k n]; [now apply (IH _ _ _ _ _ _ H)|].
    destruct (beq k "|"%byte).
    + destruct ph as [|ph0 rest]; [discriminate|]. now apply (IH _ _ _ _ _ _ H).
    + destruct (nat_of_dec n) as [v|]; [|discriminate]. destruct (beq k "K"%byte).
      * destruct (reader_run fuel0 c v s) as [s1|] eqn:E; [|discriminate]. destruct (reader_run_sound _ _ _ _ _ E) as [tr1 H1].
        destruct (IH _ _ _ _ _ _ H) as [tr2 H2]. exists (tr1 ++ tr2). eapply run_app; eassumption.
      * destruct (beq k "P"%byte); [|discriminate].
        destruct (task_run fuel0 c (nth v p false) v s) as [s1|] eqn:E; [|discriminate]. destruct (task_run_sound _ _ _ _ _ _ E) as [tr1 H1].
        destruct (IH _ _ _ _ _ _ H) as [tr2 H2]. exists (tr1 ++ tr2). eapply run_app; eassumption.
Qed.
