(* C38/Progress.v — no reachable state is stuck before everything has completed, for every schedule. *)
From ZV Require Import Base.Bytes Base.Res C38.Model C38.Spec C38.Steps.
From Coq Require Import Lia.

(* ---------------------------------------------------------------- the invariants progress needs *)
Definition I1 (c : cfg) (s : st) : Prop :=
  match s_rd s with
  | RdRead got => match nth_error (msgs c) (s_next s) with Some m => got < i_len m | None => True end
  | _ => True
  end.

Definition holds_lock (t : task) : bool :=
  match t with TStream _ _ _ (SAdd _) => true | TStream _ _ _ SChecked => true | _ => false end.
Definition I2 (s : st) : Prop := s_sublock s = true -> exists i t, nth_error (s_tasks s) i = Some t /\ holds_lock t = true.

Lemma I1_step c l s s' : wf c -> I1 c s -> step c l s = Some s' -> I1 c s'.
Proof.
  intros [Hlen _] HI Hs. unfold I1 in *. destruct (step_cases _ _ _ _ Hs) as [Hm|(i & _ & Ht)].
  - destruct Hm as [n got m _ Hm| | | | | |]; cbn; try exact I.
    + rewrite Hm. lia.
    + destruct (nth_error (msgs c) (s_next s)) as [m|] eqn:Hm; [|exact I]. apply nth_error_In in Hm. specialize (Hlen _ Hm). lia.
  - apply tstep_frame in Ht. destruct Ht as (Hr & Hn & _). now rewrite Hr, Hn.
Qed.

Lemma I1_init c ts : wf c -> I1 c (init ts).
Proof.
  intros [Hlen _]. unfold I1. cbn [init s_rd s_next]. destruct (nth_error (msgs c) 0) as [m|] eqn:Hm; [|exact I].
  apply nth_error_In in Hm. specialize (Hlen _ Hm). lia.
Qed.

Lemma holds_lock_push ch it t : holds_lock (push_task ch it t) = holds_lock t.
Proof. destruct t as [? ? ? p|? ? ? p|? p]; try reflexivity. destruct p; reflexivity. Qed.

Lemma tmove_lock c s t t' s0 : tmove c s t t' s0 ->
  (s_sublock s0 = s_sublock s /\ holds_lock t' = holds_lock t) \/
  (s_sublock s = false /\ holds_lock t = false /\ s_sublock s0 = true /\ holds_lock t' = true) \/
  (holds_lock t = true /\ holds_lock t' = false /\ s_sublock s0 = false).
Proof.
  intros [| ? ? ? ? ? ? Hs |]; [now left | | now left]. destruct Hs as [| | | |r Hl| | | | | | | |]; cbn; auto.
  right; left. now destruct (bus c).
Qed.

Lemma I2_step c l s s' : I2 s -> step c l s = Some s' -> I2 s'.
Proof.
  intros HI Hs. destruct (step_cases _ _ _ _ Hs) as [Hm|(i & _ & Ht)].
  - destruct Hm as [| | |j it rest k| | |]; try exact HI. unfold I2; cbn. intros Hl.
    destruct (HI Hl) as (i & t & Hn & Hh). exists i, (push_task (chan_of k) it t). now rewrite nth_error_map, Hn, holds_lock_push.
  - destruct (tstep_inv _ _ _ _ Ht) as (t & t' & s0 & s1 & Hi & Hm & (b & w & -> & _) & ->). apply nth_error_lt in Hi as Hlt.
    destruct (tmove_frame _ _ _ _ _ Hm) as (_ & _ & _ & Hts & _). unfold I2; cbn. rewrite Hts.
    destruct (tmove_lock _ _ _ _ _ Hm) as [[El Eh]|[(_ & _ & _ & Eh)|(_ & _ & El)]].
    + (* the holder stays who it was *)
      rewrite El. intros Hk. destruct (HI Hk) as (j & tj & Hj & Hhj). destruct (Nat.eq_dec i j) as [->|Hne].
      * exists j, t'. rewrite nth_error_set_nth_eq by assumption. split; [reflexivity | congruence].
      * exists j, tj. now rewrite nth_error_set_nth_neq.
    + intros _. exists i, t'. now rewrite nth_error_set_nth_eq.
    + rewrite El. discriminate.
Qed.

(* once the reader has gone, msg_senders stays empty: add_match re-tests under the lock that inserts (fix 3703ee13) *)
Definition I3 (s : st) : Prop := s_rd s = RdDone -> s_senders s = [].

(* only the insert of add_match adds to msg_senders, and not to an empty one *)
Lemma tstep_senders c s i s' : tstep c s i = Some s' ->
  s_senders s' = s_senders s \/ exists r, s_senders s <> [] /\ s_senders s' = KRule r :: s_senders s.
Proof.
  intros Ht. destruct (tstep_inv _ _ _ _ Ht) as (t & t' & s0 & s1 & _ & Hm & (b & w & -> & _) & ->).
  destruct Hm as [| ? ? ? ? ? ? Hs |]; [now left | | now left].
  destruct Hs as [| | | | | | | | |r _ Hne| | |]; try (now left). right. now exists r.
Qed.

Lemma I3_step c l s s' : I3 s -> step c l s = Some s' -> I3 s'.
Proof.
  intros HI Hs. destruct (step_cases _ _ _ _ Hs) as [Hm|(i & _ & Ht)].
  - destruct Hm; intros Hd; (discriminate Hd || reflexivity).
  - intros Hd. pose proof (tstep_frame _ _ _ _ Ht) as (Hr & _). rewrite Hr in Hd. specialize (HI Hd).
    destruct (tstep_senders _ _ _ _ Ht) as [E|(r & Hne & _)]; [congruence | contradiction].
Qed.

Lemma invariants c ts tr s : wf c -> reach c ts tr s -> I1 c s /\ I2 s.
Proof.
  intros Hwf Hr. induction Hr as [|tr s l s' Hr [IH1 IH2] Hs].
  - split; [now apply I1_init | unfold I2; cbn; discriminate].
  - split; [eapply I1_step; eassumption | eapply I2_step; eassumption].
Qed.

Lemma I3_reach c ts tr s : reach c ts tr s -> I3 s.
Proof. intros Hr. induction Hr as [|tr s l s' Hr IH Hs]; [intros H; discriminate H | eapply I3_step; eassumption]. Qed.

(* no reachable state is in the deviation class of the code before fix 3703ee13 *)
Theorem never_raced c ts tr s : reach c ts tr s -> raced s = false.
Proof. intros Hr. pose proof (I3_reach c ts tr s Hr) as H. unfold raced, I3 in *. destruct (s_rd s); try reflexivity. now rewrite H. Qed.

(* ---------------------------------------------------------------- enabledness *)
Definition cph_live (p : cph) : bool := match p with CDone _ => false | _ => true end.

Lemma cstep_enabled c s serial cost nr p :
  cph_live p = true ->
  (forall x, p = CWait x -> x_inbox x <> [] \/ closed CRet s = true) ->
  exists r, cstep c s serial cost nr p = Some r.
Proof.
  intros Hl Hw. destruct p as [|x|x|o]; cbn [cstep].
  - eexists; reflexivity.
  - destruct (send_try c s cost) as [ok s1]. destruct ok; [destruct nr|]; eexists; reflexivity.
  - destruct (x_inbox x) as [|[k|e] rest] eqn:E.
    + destruct (Hw x eq_refl) as [H|H]; [congruence|]. rewrite H. eexists; reflexivity.
    + destruct (reply_for c serial k); eexists; reflexivity.
    + eexists; reflexivity.
  - discriminate.
Qed.

(* the same for a call made by a task: call_method, or the AddMatch call of add_match *)
Lemma call_enabled c s i t serial cost nr p : nth_error (s_tasks s) i = Some t ->
  t = TCall serial cost nr p \/ (exists src, nr = false /\ t = TStream src serial cost (SAdd p)) ->
  cph_live p = true -> (forall x, p = CWait x -> x_inbox x <> [] \/ closed CRet s = true) ->
  exists s', tstep c s i = Some s'.
Proof.
  intros Hi Ht Hl Hw. destruct (cstep_enabled c s serial cost nr p Hl Hw) as [[p' s1] E]. unfold tstep. rewrite Hi.
  destruct Ht as [->|(src & -> & ->)]; [|destruct p; try discriminate Hl]; rewrite E; eexists; reflexivity.
Qed.

Lemma inbox_enabled c s i t x : nth_error (s_tasks s) i = Some t -> task_rx t = Some x -> x_inbox x <> [] ->
  exists s', tstep c s i = Some s'.
Proof.
  intros Hi Hx Hne. destruct t as [serial cost nr p|src serial cost p|cost p]; cbn in Hx; [| |discriminate].
  - eapply call_enabled; [eassumption | now left | now destruct p | intros x0 ->; left; now inversion Hx].
  - destruct p as [| |q| |x0|o|x0]; try discriminate.
    + eapply call_enabled; [eassumption | right; eauto | now destruct q | intros x0 ->; left; now inversion Hx].
    + inversion Hx; subst. unfold tstep. rewrite Hi. destruct (x_inbox x); [congruence|]. eexists; reflexivity.
Qed.

(* once the reader is gone and msg_senders is empty, a task that has not completed can move — or, if it waits for the
   subscriptions mutex, the holder can *)
Lemma task_enabled_done c s i t : s_rd s = RdDone -> s_senders s = [] -> I2 s ->
  nth_error (s_tasks s) i = Some t -> final_task t = false -> exists j s', tstep c s j = Some s'.
Proof.
  intros Hrd Hsn HI2 Hi Hf.
  assert (Hcl : forall ch, closed ch s = true) by (intros ch; unfold closed; now rewrite Hsn).
  assert (Hlk : locked s = false) by (unfold locked; now rewrite Hrd).
  assert (Hcall : forall j tj serial cost nr p, nth_error (s_tasks s) j = Some tj ->
            tj = TCall serial cost nr p \/ (exists src, nr = false /\ tj = TStream src serial cost (SAdd p)) ->
            cph_live p = true -> exists s', tstep c s j = Some s').
  { intros. eapply call_enabled; try eassumption. intros; right; apply Hcl. }
  (* a holder of the subscriptions mutex can always move *)
  assert (Hholder : forall j tj, nth_error (s_tasks s) j = Some tj -> holds_lock tj = true -> exists s', tstep c s j = Some s').
  { intros j tj Hj Hh. destruct tj as [|src serial cost p|]; try discriminate. destruct p as [| |q| |x|o|x]; try discriminate.
    - destruct (cph_live q) eqn:Eq; [eapply Hcall; eauto|]. destruct q as [| | |o]; try discriminate.
      unfold tstep. rewrite Hj. destruct o; eexists; reflexivity.
    - unfold tstep. rewrite Hj, Hlk. destruct src; [rewrite Hsn|]; eexists; reflexivity. }
  destruct t as [serial cost nr p|src serial cost p|cost p].
  - exists i. eapply Hcall; [eassumption | now left | now destruct p].
  - destruct p as [| |q| |x|o|x]; try discriminate.
    + exists i. unfold tstep. rewrite Hi. destruct src; [rewrite Hlk, Hsn|]; eexists; reflexivity.
    + destruct (s_sublock s) eqn:Hl.
      * destruct (HI2 Hl) as (j & tj & Hj & Hh). exists j. eapply Hholder; eassumption.
      * exists i. unfold tstep. rewrite Hi, Hl. destruct (match src with Some r => mem r (s_subs s) | None => true end); eexists; reflexivity.
    + exists i. eapply Hholder; [eassumption | reflexivity].
    + exists i. eapply Hholder; [eassumption | reflexivity].
    + exists i. unfold tstep. rewrite Hi. destruct (x_inbox x); [rewrite Hcl|]; eexists; reflexivity.
  - exists i. unfold tstep. rewrite Hi. destruct p; try discriminate. destruct (send_try c s cost). eexists; reflexivity.
Qed.

Theorem progress c s : wf c -> I1 c s -> I2 s -> I3 s -> stuck c s -> final s.
Proof.
  intros [Hlen Hcap] H1 H2 H3 Hst. destruct (s_rd s) as [got|it rest|] eqn:Hrd.
  - (* reading: a byte or the fault *)
    exfalso. pose proof (Hst LFault) as Hf. pose proof (Hst (LRecv 1)) as Hb. unfold step in Hf, Hb. rewrite Hrd in Hf, Hb.
    destruct (s_broken s || (fpos c <=? s_pos s) || (length (msgs c) <=? s_next s)) eqn:E; [discriminate|].
    apply Bool.orb_false_iff in E. destruct E as [E E3]. apply Bool.orb_false_iff in E. destruct E as [E1 E2].
    apply Nat.leb_gt in E2, E3. destruct (nth_error (msgs c) (s_next s)) as [m|] eqn:Hm; [|apply nth_error_None in Hm; lia].
    unfold I1 in H1. rewrite Hrd, Hm in H1. rewrite E1 in Hb.
    replace (s_pos s + 1 <=? fpos c) with true in Hb by (symmetry; apply Nat.leb_le; lia).
    replace (got + 1 <=? i_len m) with true in Hb by (symmetry; apply Nat.leb_le; lia).
    cbn in Hb. now destruct (i_len m <=? got + 1).
  - (* broadcasting: the next entry, unless its queue is full — then the receiver that fills it can take an item *)
    exfalso. destruct rest as [|k rest].
    + specialize (Hst LBcastEnd). unfold step in Hst. rewrite Hrd in Hst. now destruct it.
    + pose proof (Hst (LBcast 0)) as Hb. unfold step in Hb. rewrite Hrd in Hb. cbn [nth_error] in Hb. fold (delivers c it k) in Hb.
      destruct (delivers c it k); [|discriminate]. destruct (full c (chan_of k) (s_tasks s)) eqn:Ef; [|discriminate].
      unfold full in Ef. apply existsb_exists in Ef. destruct Ef as (t & Hin & Hx). apply In_nth_error in Hin. destruct Hin as [i Hi].
      destruct (task_rx t) as [x|] eqn:Etx; [|discriminate]. unfold rx_full in Hx. apply Bool.andb_true_iff in Hx.
      destruct Hx as [_ Hx]. apply Nat.leb_le in Hx. specialize (Hcap (chan_of k)).
      destruct (inbox_enabled c s i t x Hi Etx) as [s' Hs'].
      { intros En. rewrite En in Hx. cbn in Hx. lia. }
      specialize (Hst (LTask i)). cbn in Hst. congruence.
  - split; [exact Hrd|]. apply forallb_forall. intros t Hin. apply In_nth_error in Hin. destruct Hin as [i Hi].
    destruct (final_task t) eqn:Hf; [reflexivity|].
    destruct (task_enabled_done c s i t Hrd (H3 Hrd) H2 Hi Hf) as (j & s' & Hs'). specialize (Hst (LTask j)). cbn in Hst. congruence.
Qed.

Theorem stuck_final c ts tr s : wf c -> reach c ts tr s -> stuck c s -> final s.
Proof.
  intros Hwf Hr Hst. destruct (invariants c ts tr s Hwf Hr) as [H1 H2]. exact (progress c s Hwf H1 H2 (I3_reach c ts tr s Hr) Hst).
Qed.
