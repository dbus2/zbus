(* C38/Measure.v — every step strictly decreases a natural number: no schedule runs forever. *)
From ZV Require Import Base.Bytes Base.Res C38.Model C38.Steps.
From Coq Require Import Lia.

Fixpoint sumf {A} (f : A -> nat) (l : list A) : nat := match l with [] => 0 | x :: r => f x + sumf f r end.

Lemma sumf_set_nth {A} (f : A -> nat) l i t v : nth_error l i = Some t -> sumf f (set_nth i v l) + f t = sumf f l + f v.
Proof.
  revert i; induction l as [|x l IH]; intros i H; [now destruct i|].
  destruct i as [|i]; cbn in *.
  - inversion H; subst. lia.
  - specialize (IH i H). lia.
Qed.

Lemma sumf_nth_le {A} (f : A -> nat) l i a : nth_error l i = Some a -> f a <= sumf f l.
Proof.
  revert i; induction l as [|x l IH]; intros i H; [now destruct i|].
  destruct i; cbn in *; [inversion H; subst; lia|]. specialize (IH _ H). lia.
Qed.
Lemma sumf_two {A} (f : A -> nat) l i j a b : i <> j -> nth_error l i = Some a -> nth_error l j = Some b -> f a + f b <= sumf f l.
Proof.
  revert i j; induction l as [|x l IH]; intros i j Hne Hi Hj; [now destruct i|].
  destruct i as [|i], j as [|j]; cbn in *; try lia.
  - inversion Hi; subst. pose proof (sumf_nth_le f _ _ _ Hj). lia.
  - inversion Hj; subst. pose proof (sumf_nth_le f _ _ _ Hi). lia.
  - assert (i <> j) by lia. specialize (IH i j H Hi Hj). lia.
Qed.

Lemma sumf_map_le {A} (f : A -> nat) (g : A -> A) l : (forall x, f (g x) <= f x + 1) -> sumf f (map g l) <= sumf f l + length l.
Proof.
  intros H. induction l as [|x l IH]; cbn; [lia|]. specialize (H x). lia.
Qed.
Lemma sumf_map_eq {A} (f : A -> nat) (g : A -> A) l : (forall x, f (g x) = f x) -> sumf f (map g l) = sumf f l.
Proof.
  intros H. induction l as [|x l IH]; cbn; [reflexivity|]. now rewrite H, IH.
Qed.

(* streams that may still add an entry to msg_senders *)
Definition preopen (t : task) : nat :=
  match t with TStream _ _ _ (SNew | SLocking | SAdd _ | SChecked) => 1 | _ => 0 end.
Definition kbound (s : st) : nat := length (s_senders s) + sumf preopen (s_tasks s).

Definition rho (c : cfg) (s : st) : nat :=
  let ml := length (msgs c) - s_next s in
  let bl := fpos c - s_pos s in
  match s_rd s with
  | RdRead _ => (ml + 1) * (kbound s + 2) + bl
  | RdBcast (IMsg _) rest => (ml + 1) * (kbound s + 2) + bl + length rest + 1
  | RdBcast (IErr _) rest => length rest + 1
  | RdDone => 0
  end.

Definition tau_c (p : cph) : nat :=
  match p with CNew => 4 | CSend x => 3 + length (x_inbox x) | CWait x => 2 + length (x_inbox x) | CDone _ => 0 end.
Definition tau (t : task) : nat :=
  match t with
  | TCall _ _ _ p => tau_c p
  | TStream _ _ _ p =>
      match p with
      | SNew => 13 | SLocking => 12 | SAdd q => 6 + tau_c q | SChecked => 5 | SOpen x => 2 + length (x_inbox x)
      | SFail _ => 0 | SEnd _ => 0
      end
  | TEmit _ ENew => 1
  | TEmit _ _ => 0
  end.

Definition mu (c : cfg) (s : st) : nat := (length (s_tasks s) + 1) * rho c s + sumf tau (s_tasks s).

Lemma tau_push ch it t : tau (push_task ch it t) <= tau t + 1.
Proof.
  assert (Hx : forall x, length (x_inbox (push_rx ch it x)) <= length (x_inbox x) + 1).
  { intros x. unfold push_rx. destruct (chan_eqb (x_chan x) ch); cbn; [rewrite app_length; cbn|]; lia. }
  assert (Hc : forall p, tau_c (push_cph ch it p) <= tau_c p + 1).
  { intros [|x|x|o]; cbn; try lia; specialize (Hx x); lia. }
  destruct t as [? ? ? p|? ? ? p|? p]; cbn; [apply Hc| |lia].
  destruct p; cbn; try lia; [specialize (Hc c); lia | specialize (Hx x); lia].
Qed.
Lemma preopen_push ch it t : preopen (push_task ch it t) = preopen t.
Proof. destruct t as [? ? ? p|? ? ? p|? p]; try reflexivity. destruct p; reflexivity. Qed.

Lemma cmove_tau c s serial nr p p' : cmove c s serial nr p p' -> tau_c p' < tau_c p.
Proof.
  intros [|x|x|x k rest o E _|x k rest E _|x e rest E|x E _]; cbn; rewrite ?E; cbn; try lia. destruct nr; cbn; lia.
Qed.

(* a task move: the task's potential drops, and it does not add to msg_senders unless it was still to open *)
Lemma tmove_measure c s t t' s0 : tmove c s t t' s0 ->
  tau t' < tau t /\ length (s_senders s0) + preopen t' <= length (s_senders s) + preopen t.
Proof.
  intros [? ? ? ? ? Hc | ? ? ? ? ? ? Hs | ? ok]; cbn.
  - apply cmove_tau in Hc. lia.
  - destruct Hs as [| | | |r|? ? ? Hc| | | | | |? ? ? ? E|]; cbn; rewrite ?E; cbn; try lia.
    + destruct (bus c); cbn; lia.
    + apply cmove_tau in Hc. lia.
  - destruct ok; cbn; lia.
Qed.

Lemma tstep_measure c s i s' : tstep c s i = Some s' ->
  sumf tau (s_tasks s') < sumf tau (s_tasks s) /\ kbound s' <= kbound s.
Proof.
  intros H. destruct (tstep_inv _ _ _ _ H) as (t & t' & s0 & s1 & Hi & Hm & (b & w & -> & _) & ->).
  destruct (tmove_frame _ _ _ _ _ Hm) as (_ & _ & _ & Ht & _).
  destruct (tmove_measure _ _ _ _ _ Hm). unfold kbound. cbn. rewrite Ht.
  pose proof (sumf_set_nth tau _ _ _ t' Hi). pose proof (sumf_set_nth preopen _ _ _ t' Hi). lia.
Qed.

Lemma del_nth_length {A} (l : list A) j x : nth_error l j = Some x -> length (del_nth j l) + 1 = length l.
Proof.
  intros H. unfold del_nth. rewrite app_length, firstn_length, skipn_length. apply nth_error_lt in H. lia.
Qed.

Theorem step_decreases c l s s' : step c l s = Some s' -> mu c s' < mu c s.
Proof.
  intros Hs. destruct (step_cases _ _ _ _ Hs) as [Hm|(i & _ & Ht)].
  - destruct Hm as [n got m Hr _ _ Hn Hp _|n got m Hr Hm _ Hn Hp _|got Hr _|j it rest k Hr Hj _ _|j it rest k Hr Hj _|k Hr|e Hr];
      try pose proof (del_nth_length _ _ _ Hj) as Hd; unfold mu, rho, kbound; cbn; rewrite Hr.
    + assert (fpos c - (s_pos s + n) < fpos c - s_pos s) by lia. nia.
    + apply nth_error_lt in Hm. replace (length (msgs c) - S (s_next s) + 1) with (length (msgs c) - s_next s) by lia.
      assert (H : (length (msgs c) - s_next s) * (length (s_senders s) + sumf preopen (s_tasks s) + 2) + (fpos c - (s_pos s + n)) +
                  length (s_senders s) + 1 <
                  (length (msgs c) - s_next s + 1) * (length (s_senders s) + sumf preopen (s_tasks s) + 2) + (fpos c - s_pos s)) by nia.
      nia.
    + nia.
    + rewrite map_length. rewrite (sumf_map_eq preopen) by (intros; apply preopen_push).
      pose proof (sumf_map_le tau (push_task (chan_of k) it) (s_tasks s) (tau_push _ _)) as Hp.
      destruct it; nia.
    + destruct it; nia.
    + cbn. nia.
    + nia.
  - pose proof (tstep_frame _ _ _ _ Ht) as (Hr & Hn & Hp & Hl & _). destruct (tstep_measure _ _ _ _ Ht) as [Hta Hk].
    unfold mu, rho. rewrite Hr, Hn, Hp, Hl.
    assert (Hm : forall a, (a + 1) * (kbound s' + 2) <= (a + 1) * (kbound s + 2)) by (intros; nia).
    destruct (s_rd s) as [got|[k|e] rest|]; try specialize (Hm (length (msgs c) - s_next s)); nia.
Qed.

Theorem run_length_bounded c : forall tr s s', run c tr s = Some s' -> length tr + mu c s' <= mu c s.
Proof.
  induction tr as [|l tr IH]; intros s s' H; cbn in H.
  - inversion H; subst. cbn. lia.
  - destruct (step c l s) as [s1|] eqn:E; [|discriminate]. apply step_decreases in E. specialize (IH _ _ H). cbn. lia.
Qed.
