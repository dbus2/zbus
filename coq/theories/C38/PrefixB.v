(* C38/PrefixB.v — the reader's moves preserve the invariant G. *)
From ZV Require Import Base.Bytes Base.Res C38.Model C38.Steps C38.Progress C38.Measure C38.PrefixA.

Lemma hold1_push ch it t : hold1 (push_task ch it t) = hold1 t.
Proof. unfold hold1. now rewrite holds_lock_push. Qed.

Lemma J_in_round c s x it rest : s_rd s = RdBcast it rest -> stream_chan (x_chan x) ->
  J c s x <->
  Jv c x (match it with IMsg k => if pending (x_chan x) rest && mmatch c (x_chan x) k then k else S k | IErr _ => s_next s end)
         (match it with IMsg _ => False | IErr _ => pending (x_chan x) rest = false end).
Proof. intros Hr Hs. unfold J, err_done. rewrite front_stream, Hr by assumption. now destruct it. Qed.

(* the reader visits entry kj: the channel's receivers get the item if it is for them; nobody else's view changes *)
Lemma J_bcast c s ts x it rest j kj : rd_ok c s -> s_rd s = RdBcast it rest -> nth_error rest j = Some kj ->
  stream_chan (x_chan x) -> J c s x ->
  J c (set_rd s (s_pos s) (s_next s) (RdBcast it (del_nth j rest)) (s_senders s) ts)
      (if delivers c it kj then push_rx (chan_of kj) it x else x).
Proof.
  intros Hrd Hr Hj Hsc HJ. unfold rd_ok in Hrd. rewrite Hr in Hrd. set (s' := set_rd _ _ _ _ _ _).
  assert (Hr' : s_rd s' = RdBcast it (del_nth j rest)) by reflexivity.
  assert (Hnd : NoDup rest) by (destruct it; tauto).
  rewrite (J_in_round c s x it rest Hr Hsc) in HJ. pose proof (pending_del_nth (x_chan x) rest j kj Hnd Hj) as Hp.
  unfold push_rx. rewrite chan_eqb_sym, chan_key_eqb by assumption. destruct (key_eqb (key_of (x_chan x)) kj) eqn:Ek.
  - (* the channel's own entry *)
    apply key_eqb_eq in Ek. subst kj. apply nth_error_In, pending_in in Hj. rewrite Hj in *. cbn [andb negb] in *.
    destruct it as [k|e].
    + rewrite delivers_key_of by assumption. destruct (mmatch c (x_chan x) k) eqn:Em;
        apply (J_in_round c s' _ _ _ Hr'); try assumption; cbn [x_chan]; rewrite Hp; [now apply (Jv_msg c x) | exact HJ].
    + destruct Hrd as [-> _]. apply (J_in_round c s' _ _ _ Hr'); [assumption|]. cbn [delivers x_chan].
      apply (Jv_mono c _ _ True); [|now rewrite Hp]. apply Jv_err. apply (Jv_mono c x _ _ _ HJ). discriminate.
  - rewrite Bool.andb_true_r in Hp. assert (Hx : J c s' x) by (apply (J_in_round c s' x it _ Hr' Hsc); now rewrite Hp).
    now destruct (delivers c it kj).
Qed.

(* moves that leave the task list alone *)
Lemma G_set_rd c s pos next r ks : G c s -> s_rd s <> RdDone ->
  rd_ok c (set_rd s pos next r ks (s_tasks s)) -> keys_ok (set_rd s pos next r ks (s_tasks s)) ->
  (forall x, stream_chan (x_chan x) -> In (key_of (x_chan x)) (s_senders s) -> J c s x -> J c (set_rd s pos next r ks (s_tasks s)) x) ->
  G c (set_rd s pos next r ks (s_tasks s)).
Proof.
  intros (Hrd & Hk & Hh & Hp) Hnd Hrd' Hk' HJ. repeat split; try assumption.
  intros i t Hi. specialize (Hp i t Hi). destruct t as [|src ? ? p|]; try exact I. destruct p as [| | | |x|o|x]; try exact Hp.
  - destruct Hp as (Hc & Hsub & HJx). split; [assumption | split; [assumption|]].
    apply HJ; [rewrite Hc; apply stream_chan_src | eapply stream_key_present; eassumption | assumption].
  - now destruct Hp as (_ & _ & _ & Hd & _).
Qed.

Theorem G_reader c l s s' : G c s -> rmove c s l s' -> G c s'.
Proof.
  intros HG Hm. pose proof HG as (Hrd & Hk & Hh & Hp).
  assert (Hks : s_rd s <> RdDone -> NoDup (s_senders s) /\ In KAll (s_senders s) /\ (forall r, In r (s_subs s) <-> In (KRule r) (s_senders s))).
  { unfold keys_ok in Hk. now destruct (s_rd s). }
  destruct Hm as [n got m Hr Hm _ _ _ _|n got m Hr Hm _ _ _ _|got Hr _|j it rest k Hr Hj Hd _|j it rest k Hr Hj Hd|k Hr|e Hr];
    assert (Hnd : s_rd s <> RdDone) by (rewrite Hr; discriminate); specialize (Hks Hnd).
  - apply G_set_rd; try assumption; [exact I|]. intros x _ _. unfold J, front, err_done. cbn. now rewrite Hr.
  - (* the message is complete: the channels that do not get it have been handed it already *)
    apply G_set_rd; try assumption.
    + split; [reflexivity|]. split; [eapply nth_error_lt; eassumption | tauto].
    + intros x Hsc Hin HJ. apply J_in_round with (it := IMsg (s_next s)) (rest := s_senders s); [reflexivity | assumption|].
      apply pending_in in Hin. rewrite Hin. unfold J, err_done in HJ. rewrite front_stream, Hr in HJ by assumption. cbn [andb].
      destruct (mmatch c (x_chan x) (s_next s)) eqn:Em; [exact HJ | now apply Jv_skip].
  - apply G_set_rd; try assumption; [split; [reflexivity | tauto]|].
    intros x Hsc _ HJ. apply J_in_round with (it := IErr (fkind c)) (rest := s_senders s); [reflexivity | assumption|].
    unfold J, err_done in HJ. rewrite front_stream, Hr in HJ by assumption. apply (Jv_mono c x _ _ _ HJ). intros [].
  - (* an entry that gets the item *)
    assert (Hrd' : forall ts, rd_ok c (set_rd s (s_pos s) (s_next s) (RdBcast it (del_nth j rest)) (s_senders s) ts)).
    { intros ts. unfold rd_ok in *. cbn. rewrite Hr in Hrd. destruct it; intuition; now apply (nodup_del_nth rest j k). }
    split; [apply Hrd' | split; [exact Hks | split]]; cbn [s_tasks s_sublock set_rd].
    + now rewrite (sumf_map_eq hold1) by (intros; apply hold1_push).
    + intros i t' Hi. rewrite nth_error_map in Hi. destruct (nth_error (s_tasks s) i) as [t|] eqn:Hti; [|discriminate].
      inversion Hi; subst t'. specialize (Hp i t Hti). destruct t as [|src ? ? p|]; try exact I. destruct p as [| | | |x|o|x]; try exact Hp.
      * destruct Hp as (Hc & Hsub & HJ). assert (Hsc : stream_chan (x_chan x)) by (rewrite Hc; apply stream_chan_src).
        epose proof (J_bcast c s _ x it rest j k Hrd Hr Hj Hsc HJ) as HJ'. rewrite Hd in HJ'.
        cbn [push_task Ptask Pstream]. split; [|split; [assumption | exact HJ']]. unfold push_rx. now destruct (chan_eqb _ _).
      * destruct Hp as (_ & _ & _ & Hdone & _). congruence.
  - (* an entry that does not *)
    apply G_set_rd; try assumption.
    + unfold rd_ok in *. cbn. rewrite Hr in Hrd. destruct it; intuition; now apply (nodup_del_nth rest j k).
    + intros x Hsc _ HJ. epose proof (J_bcast c s _ x it rest j k Hrd Hr Hj Hsc HJ) as HJ'. rewrite Hd in HJ'. exact HJ'.
  - apply G_set_rd; try assumption; [exact I|]. intros x Hsc _ HJ. apply (J_in_round c s x _ _ Hr Hsc) in HJ. cbn in HJ.
    unfold rd_ok in Hrd. rewrite Hr in Hrd. unfold J, front, err_done. cbn. now rewrite (proj1 Hrd).
  - apply G_set_rd; try assumption; try exact I. intros x Hsc _ HJ. apply (J_in_round c s x _ _ Hr Hsc) in HJ.
    unfold J, front, err_done. cbn. apply (Jv_mono c x _ _ _ HJ). auto.
Qed.
