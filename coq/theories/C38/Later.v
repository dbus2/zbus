(* C38/Later.v — what is started after the failure fails promptly; no panic; the history of the former add_match race and a
   session that fails in the middle, as examples. *)
From ZV Require Import Base.Bytes Base.Res C38.Model C38.Spec C38.Steps C38.Progress C38.PrefixA C38.Proofs.
From Coq Require Import Lia.

(* ---------------------------------------------------------------- later streams *)
Lemma later_sub_fails c s i r a b : s_rd s = RdDone -> s_senders s = [] ->
  nth_error (s_tasks s) i = Some (TStream (Some r) a b SNew) ->
  tstep c s i = Some (set_task s i (TStream (Some r) a b (SFail OPipe))).
Proof. intros Hr Hs Hi. unfold tstep. rewrite Hi. unfold locked. now rewrite Hr, Hs. Qed.

(* MessageStream::from after the failure: opens, holds nothing, and ends at once *)
Lemma later_all_stream_ends c s i a b : s_rd s = RdDone -> closed CAll s = true ->
  nth_error (s_tasks s) i = Some (TStream None a b SNew) ->
  exists x, x_got x = [] /\ x_inbox x = [] /\
    run c [LTask i; LTask i] s = Some (set_task (set_task s i (TStream None a b (SOpen x))) i (TStream None a b (SEnd x))).
Proof.
  intros Hr Hc Hi. exists (new_rx c CAll s). split; [reflexivity|]. split; [reflexivity|].
  assert (Hlt : i < length (s_tasks s)) by (eapply nth_error_lt; eassumption).
  cbn [run step]. unfold tstep at 1. rewrite Hi. cbn [run step]. unfold tstep. cbn [s_tasks set_task].
  rewrite nth_error_set_nth_eq by assumption. cbn [x_inbox new_rx x_chan]. unfold closed in *. cbn [s_senders set_task]. now rewrite Hc.
Qed.

(* ---------------------------------------------------------------- later calls *)
Definition late_ph (p : cph) : Prop :=
  match p with
  | CNew => True
  | CSend x | CWait x => x_inbox x = []
  | CDone o => o = OPipe \/ o = OAborted
  end.

Definition late_call (s : st) (i serial cost : nat) : Prop :=
  s_rd s = RdDone /\ closed CRet s = true /\
  exists p, nth_error (s_tasks s) i = Some (TCall serial cost false p) /\ late_ph p.

Lemma late_call_step c l s s' i serial cost : late_call s i serial cost -> step c l s = Some s' -> late_call s' i serial cost.
Proof.
  intros (Hr & Hc & p & Hi & Hp) Hs. destruct l as [n| |j| |j]; unfold step in Hs; rewrite ?Hr in Hs; try discriminate.
  pose proof (tstep_frame _ _ _ _ Hs) as (Hr' & _ & _ & _ & Hoth).
  assert (Hc' : closed CRet s' = true).
  { unfold closed, has_key in *. destruct (tstep_senders _ _ _ _ Hs) as [E|(r & _ & E)]; rewrite E; [assumption | cbn [existsb chan_of chan_eqb orb]; assumption]. }
  split; [congruence|]. split; [assumption|].
  destruct (Nat.eq_dec j i) as [->|Hne]; [|exists p; split; [rewrite Hoth by lia; assumption | assumption]].
  assert (Hlt : i < length (s_tasks s)) by (eapply nth_error_lt; eassumption).
  unfold tstep in Hs. rewrite Hi in Hs. destruct p as [|x|x|o]; cbn [cstep] in Hs.
  - inversion Hs; subst. exists (CSend (new_rx c CRet s)). cbn. now rewrite nth_error_set_nth_eq.
  - destruct (send_try c s cost) as [ok s1] eqn:E. apply send_try_wsame in E. destruct E as (b & w & -> & _).
    destruct ok; inversion Hs; subst; [exists (CWait x) | exists (CDone OAborted)]; cbn;
      rewrite nth_error_set_nth_eq by assumption; (split; [reflexivity|]); [exact Hp | now right].
  - cbn in Hp. rewrite Hp in Hs. rewrite Hc in Hs. inversion Hs; subst. exists (CDone OPipe). cbn.
    rewrite nth_error_set_nth_eq by assumption. split; [reflexivity | now left].
  - discriminate.
Qed.

Theorem later_call_inv c s i serial cost : late_call s i serial cost -> forall tr s', run c tr s = Some s' -> late_call s' i serial cost.
Proof.
  intros H tr. revert s H. induction tr as [|l tr IH]; intros s H s' Hrun; cbn [run] in Hrun.
  - now inversion Hrun; subst.
  - destruct (step c l s) as [s1|] eqn:E; [|discriminate]. eapply IH; [eapply late_call_step; eassumption | exact Hrun].
Qed.

Theorem later_call_fails c s i serial cost :
  s_rd s = RdDone -> closed CRet s = true -> nth_error (s_tasks s) i = Some (TCall serial cost false CNew) ->
  forall tr s', run c tr s = Some s' ->
  exists p, nth_error (s_tasks s') i = Some (TCall serial cost false p) /\ late_ph p.
Proof.
  intros Hr Hc Hi tr s' Hrun.
  assert (H0 : late_call s i serial cost) by (split; [assumption | split; [assumption | exists CNew; split; [assumption | exact I]]]).
  destruct (later_call_inv c s i serial cost H0 tr s' Hrun) as (_ & _ & p & Hp & Hl). now exists p.
Qed.

(* what a waiting call ends with: a reply it was handed, or an error *)
Lemma call_results c serial cost s x o s' :
  cstep c s serial cost false (CWait x) = Some (CDone o, s') ->
  (exists k m, o = OOk k /\ In (IMsg k) (x_inbox x) /\ nth_error (msgs c) k = Some m /\ i_class m = MReply serial) \/
  (exists k m, o = OMErr k /\ In (IMsg k) (x_inbox x) /\ nth_error (msgs c) k = Some m /\ i_class m = MError serial) \/
  is_err_outcome o = true.
Proof.
  intros H. apply cstep_inv in H. destruct H as [H _]. inversion H as [| | |? k rest ? E Er| |? e rest E|? E _]; subst; [|now right; right..].
  destruct (reply_for_some _ _ _ _ Er) as (m & Hm & [[-> Hc]|[-> Hc]]); [left | right; left]; exists k, m; rewrite E; cbn; auto.
Qed.

(* ---------------------------------------------------------------- no panic *)
Definition np_out (o : outcome) : bool := match o with OPanic => false | _ => true end.
Definition np_cph (p : cph) : bool := match p with CDone o => np_out o | _ => true end.
Definition np_task (t : task) : bool :=
  match t with
  | TCall _ _ nr p => negb nr && np_cph p
  | TStream _ _ _ (SAdd p) => np_cph p
  | TStream _ _ _ (SFail o) => np_out o
  | _ => true
  end.

Lemma forallb_set_nth {A} (f : A -> bool) l i v : forallb f l = true -> f v = true -> forallb f (set_nth i v l) = true.
Proof.
  revert i; induction l as [|x l IH]; intros i Hl Hv; [now destruct i|]. cbn in Hl. apply Bool.andb_true_iff in Hl. destruct Hl as [H1 H2].
  destruct i; cbn; [now rewrite Hv, H2 | now rewrite H1, IH].
Qed.
Lemma forallb_nth {A} (f : A -> bool) l i x : forallb f l = true -> nth_error l i = Some x -> f x = true.
Proof. intros H Hi. rewrite forallb_forall in H. apply H. eapply nth_error_In; eassumption. Qed.

Lemma cmove_np c s serial p p' : cmove c s serial false p p' -> np_cph p' = true.
Proof. intros [| | |? ? ? ? _ Er| | |]; try reflexivity. now destruct (reply_for_some _ _ _ _ Er) as (m & _ & [[-> _]|[-> _]]). Qed.

Lemma np_push ch it t : np_task (push_task ch it t) = np_task t.
Proof.
  destruct t as [? ? ? p|? ? ? p|? p]; [destruct p; reflexivity | | reflexivity].
  destruct p as [| |q| | | |]; try reflexivity. destruct q; reflexivity.
Qed.

Lemma tmove_np c s t t' s0 : tmove c s t t' s0 -> np_task t = true -> np_task t' = true.
Proof.
  intros [? ? nr ? ? Hc | ? ? ? ? ? ? Hs | ? ok]; cbn; [| |reflexivity].
  - destruct nr; [discriminate|]. intros _. now apply cmove_np in Hc.
  - destruct Hs as [| | | |r| ? ? ? Hc| | | | | | |]; try reflexivity; try (apply cmove_np in Hc; now intros _); [now destruct (bus c) | auto].
Qed.

Lemma np_step c l s s' : forallb np_task (s_tasks s) = true -> step c l s = Some s' -> forallb np_task (s_tasks s') = true.
Proof.
  intros Hn Hs. destruct (step_cases _ _ _ _ Hs) as [Hm|(i & _ & Ht)].
  - destruct Hm; try exact Hn. cbn. rewrite forallb_forall in *. intros t Ht.
    apply in_map_iff in Ht. destruct Ht as (t0 & <- & Ht0). rewrite np_push. now apply Hn.
  - destruct (tstep_inv _ _ _ _ Ht) as (t & t' & s0 & s1 & Hi & Hm & (b & w & -> & _) & ->).
    destruct (tmove_frame _ _ _ _ _ Hm) as (_ & _ & _ & Ets & _).
    cbn. rewrite Ets. apply forallb_set_nth; [assumption|]. apply (tmove_np _ _ _ _ _ Hm). eapply forallb_nth; eassumption.
Qed.

Theorem no_panic c ts tr s : forallb np_task ts = true -> reach c ts tr s -> forallb np_task (s_tasks s) = true.
Proof. intros Hn Hr. induction Hr as [|tr s l s' Hr IH Hs]; [exact Hn | eapply np_step; eassumption]. Qed.

(* ---------------------------------------------------------------- the former race (fixed by 3703ee13) *)
(* a bus connection; the AddMatch reply of a subscription is the last thing the peer sends before the stream ends.  With the
   unrepaired add_match this history ended in a stuck, non-final state (a stream that never ends); now the insert is refused *)
Definition race_cfg : cfg :=
  {| msgs := [{| i_len := 24; i_class := MReply 101 |}]; fpos := 24; fkind := EEof; wbudget := None; bus := true; cap := fun _ => 8 |}.
Definition race_tasks : list task := [TStream (Some 0) 101 1 SNew].
Definition race_trace : list label :=
  [LTask 0; LTask 0; LTask 0; LTask 0;                          (* check, mutex, activate the reply receiver, send AddMatch *)
   LRecv 24; LBcast 0; LBcast 0; LBcast 0; LBcastEnd;           (* the reply arrives and is broadcast *)
   LFault; LBcast 0; LBcast 0; LBcast 0; LBcastEnd;             (* end-of-file: error to every channel, senders.clear() *)
   LTask 0; LTask 0; LTask 0].                                  (* add_match resumes with its Ok reply, re-tests, refuses *)
Definition race_state : st :=
  {| s_pos := 24; s_next := 1; s_rd := RdDone; s_senders := []; s_subs := []; s_sublock := false;
     s_tasks := [TStream (Some 0) 101 1 (SFail OPipe)]; s_broken := false; s_wcalls := 1 |}.

Lemma race_run : run race_cfg race_trace (init race_tasks) = Some race_state.
Proof. vm_compute. reflexivity. Qed.

Lemma race_wf : wf race_cfg.
Proof. split; [|intros; cbn; lia]. intros m [<-|[]]. cbn. lia. Qed.

Example race_now_fails_promptly :
  wf race_cfg /\ forallb fresh_task race_tasks = true /\ reach race_cfg race_tasks race_trace race_state /\
  stuck race_cfg race_state /\ final race_state.
Proof.
  split; [exact race_wf|]. split; [reflexivity|]. split; [apply run_sound; exact race_run|]. split.
  - intros l. destruct l as [n| |j| |i]; try reflexivity. cbn [step]. unfold tstep. destruct i as [|i]; [reflexivity|].
    cbn. now destruct i.
  - split; reflexivity.
Qed.

(* ---------------------------------------------------------------- non-vacuity: a session that fails in the middle *)
(* two pending calls, an unfiltered stream and a rule stream; four inbound messages; end-of-file inside the third *)
Definition demo_cfg : cfg :=
  {| msgs := [{| i_len := 40; i_class := MSignal [0] |}; {| i_len := 24; i_class := MReply 1 |};
              {| i_len := 50; i_class := MSignal [0] |}; {| i_len := 24; i_class := MReply 2 |}];
     fpos := 70; fkind := EReset; wbudget := None; bus := false; cap := fun ch => match ch with CSub _ => 1 | _ => 8 end |}.
Definition demo_tasks : list task :=
  [TCall 1 1 false CNew; TCall 2 1 false CNew; TStream None 0 1 SNew; TStream (Some 0) 0 1 SNew].
Definition demo_trace : list label :=
  [LTask 2; LTask 3; LTask 3; LTask 3; LTask 0; LTask 0; LTask 1; LTask 1;
   LRecv 16; LRecv 24; LBcast 3; LBcast 0; LBcast 0; LBcast 0; LBcastEnd;
   LRecv 24; LBcast 1; LBcast 0; LTask 3; LBcast 0; LBcast 0; LBcastEnd;
   LRecv 6; LFault; LBcast 0; LBcast 0; LBcast 0; LBcast 0; LBcastEnd;
   LTask 0; LTask 1; LTask 1; LTask 2; LTask 2; LTask 2; LTask 2; LTask 3; LTask 3].

Example demo_session : exists s,
  run demo_cfg demo_trace (init demo_tasks) = Some s /\ wf demo_cfg /\ forallb fresh_task demo_tasks = true /\
  final s /\ raced s = false /\ s_next s = 2 /\ complete (msgs demo_cfg) (fpos demo_cfg) = 2 /\
  map (fun t => match t with TCall _ _ _ (CDone o) => Some o | _ => None end) (s_tasks s) = [Some (OOk 1); Some (OIo EReset); None; None] /\
  map (fun t => match t with TStream _ _ _ (SEnd x) => x_got x | _ => [] end) (s_tasks s) =
    [[]; []; [IMsg 0; IMsg 1; IErr EReset]; [IMsg 0; IErr EReset]].
Proof.
  eexists. split; [vm_compute; reflexivity|]. split.
  { split; [|intros ch; cbn; destruct ch; lia]. intros m Hm. cbn in Hm. repeat (destruct Hm as [<-|Hm]; [cbn; lia|]). destruct Hm. }
  repeat split.
Qed.
