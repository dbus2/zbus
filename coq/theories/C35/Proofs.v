(* C35/Proofs.v — (A) the resolver model computes the least set of facts closed under the feature graph, and never runs
   out of fuel; (B) reachability from a selection is the union of the reachabilities from its single requests;
   (C) hence coherence of *every* selection is decided by a finite table: the closures of the single requests. *)
From Coq Require Import List Bool Arith Lia.
Import ListNotations.
From ZV Require Import Base.Bytes Base.WinnowFacts C35.Types C35.Unify C35.Generated C35.Spec.

Local Opaque fuel.

(* ------------------------------------------------------------------ equality tests *)
Lemma kind_eqb_iff a b : kind_eqb a b = true <-> a = b.
Proof. destruct a, b; cbn; intuition congruence. Qed.

Lemma fval_eqb_iff a b : fval_eqb a b = true <-> a = b.
Proof. destruct a, b; cbn; rewrite ?andb_true_iff, ?lbeq_eq, ?eqb_true_iff; intuition congruence. Qed.

Lemma fact_eqb_iff a b : fact_eqb a b = true <-> a = b.
Proof. destruct a, b; cbn; rewrite ?andb_true_iff, ?lbeq_eq, ?kind_eqb_iff, ?fval_eqb_iff; intuition congruence. Qed.

(* ------------------------------------------------------------------ finite sets as duplicate-free lists *)
Lemma mem_In x St : mem x St = true <-> In x St.
Proof.
  unfold mem. rewrite existsb_exists. split.
  - intros [y [Hy E]]. apply fact_eqb_iff in E. now subst.
  - intros H. exists x. split; [assumption|now apply fact_eqb_iff].
Qed.
Lemma mem_false x St : mem x St = false <-> ~ In x St.
Proof. rewrite <- mem_In. destruct (mem x St); split; intro H; congruence. Qed.

Lemma insert_In x St y : In y (insert x St) <-> y = x \/ In y St.
Proof.
  unfold insert. destruct (mem x St) eqn:E.
  - apply mem_In in E. split; [now right|]. intros [->|H]; assumption.
  - rewrite in_app_iff. cbn. split; [intros [H|[H|[]]]; auto|intros [H|H]; auto].
Qed.
Lemma insert_NoDup x St : NoDup St -> NoDup (insert x St).
Proof.
  intros H. unfold insert. destruct (mem x St) eqn:E; [assumption|].
  apply mem_false in E. apply (NoDup_Add (Add_app x St [])). now rewrite app_nil_r.
Qed.

Lemma add_all_In xs : forall St y, In y (add_all xs St) <-> In y xs \/ In y St.
Proof.
  unfold add_all. induction xs as [|x xs IH]; intros St y; cbn.
  - split; [now right|intros [[]|H]; assumption].
  - rewrite IH, insert_In. split; [intros [H|[H|H]]; auto|intros [[H|H]|H]; auto].
Qed.
Lemma add_all_NoDup xs : forall St, NoDup St -> NoDup (add_all xs St).
Proof.
  unfold add_all. induction xs as [|x xs IH]; intros St H; cbn; [assumption|]. apply IH. now apply insert_NoDup.
Qed.

(* ------------------------------------------------------------------ (A) the iteration computes the least closed set *)
Section Resolver.
  Variable w : list crate.
  Hypothesis Hw : any_weak w = false.

  Lemma succs_p St x : succs w St x = psuccs w x.
  Proof. unfold succs. rewrite Hw. apply app_nil_r. Qed.

  Lemma step_In St y : In y (step w St) <-> (exists x, In x St /\ In y (psuccs w x)) \/ In y St.
  Proof.
    unfold step. rewrite add_all_In, in_flat_map. split.
    - intros [[x [Hx Hy]]|H]; [left; exists x; now rewrite <- succs_p with (St := St)|now right].
    - intros [[x [Hx Hy]]|H]; [left; exists x; now rewrite succs_p|now right].
  Qed.

  Definition closed (St : list fact) : Prop := forall x, In x St -> forall y, In y (psuccs w x) -> In y St.

  Lemma closedb_closed St : closedb w St = true <-> closed St.
  Proof.
    unfold closedb, closed. rewrite forallb_forall. split.
    - intros H x Hx y Hy. specialize (H x Hx). rewrite forallb_forall in H. apply mem_In. apply H. now rewrite succs_p.
    - intros H x Hx. apply forallb_forall. intros y Hy. apply mem_In. rewrite succs_p in Hy. eauto.
  Qed.

  Lemma iter_sound roots n : forall St, (forall x, In x St -> Reach w roots x) -> forall x, In x (iter w n St) -> Reach w roots x.
  Proof.
    induction n as [|n IH]; intros St H x Hx; cbn in Hx; [auto|].
    destruct (Nat.eqb (length (step w St)) (length St)); [auto|].
    apply IH in Hx; [assumption|]. intros y Hy. apply step_In in Hy as [[z [Hz Hy]]|Hy]; [|auto].
    eapply reach_step; eauto.
  Qed.

  Lemma closed_complete roots St : closed St -> incl roots St -> forall x, Reach w roots x -> In x St.
  Proof. intros Hc Hi x Hr. induction Hr as [x Hx|x y _ IH Hy]; [now apply Hi|eauto]. Qed.

  Lemma iter_incl n : forall St, incl St (iter w n St).
  Proof.
    induction n as [|n IH]; intros St x Hx; cbn; [assumption|].
    destruct (Nat.eqb (length (step w St)) (length St)); [assumption|]. apply IH. apply step_In. now right.
  Qed.

  Lemma resolve_spec roots St : resolve w roots = Some St -> forall x, In x St <-> Reach w roots x.
  Proof.
    unfold resolve. destruct (closedb w (iter w fuel (add_all roots []))) eqn:Ec; [|discriminate].
    intros E. injection E as E. subst St. apply closedb_closed in Ec. intros x. split.
    - apply iter_sound. intros y Hy. apply add_all_In in Hy as [Hy|[]]. now apply reach_root.
    - apply closed_complete; [assumption|]. intros y Hy. apply iter_incl. apply add_all_In. now left.
  Qed.

  (* ---- it never runs out of fuel: the facts live in a finite closed universe U *)
  Lemma iter_closed U (HU : closed U) n : forall St, NoDup St -> incl St U -> length U - length St < n -> closed (iter w n St).
  Proof.
    induction n as [|n IH]; intros St Hnd Hi Hlt; [lia|]. cbn.
    assert (Hs : incl St (step w St)) by (intros x Hx; apply step_In; now right).
    pose proof (NoDup_incl_length Hnd Hs) as Hle.
    destruct (Nat.eqb (length (step w St)) (length St)) eqn:El.
    - apply Nat.eqb_eq in El. intros x Hx y Hy.
      apply (NoDup_length_incl Hnd (l' := step w St)); [lia|assumption|]. apply step_In. eauto.
    - apply Nat.eqb_neq in El.
      assert (Hnd' : NoDup (step w St)) by (now apply add_all_NoDup).
      assert (Hi' : incl (step w St) U).
      { intros y Hy. apply step_In in Hy as [[x [Hx Hy]]|Hy]; [|now apply Hi]. eapply HU; eauto. }
      apply IH; [assumption|assumption|]. pose proof (NoDup_incl_length Hnd' Hi'). lia.
  Qed.

  Lemma resolve_total U roots : closed U -> incl roots U -> length U < fuel -> exists St, resolve w roots = Some St.
  Proof.
    intros HU Hi Hl. unfold resolve.
    assert (Hc : closed (iter w fuel (add_all roots []))).
    { apply (iter_closed U HU); [apply add_all_NoDup; constructor| |lia].
      intros x Hx. apply add_all_In in Hx as [Hx|[]]. now apply Hi. }
    apply closedb_closed in Hc. rewrite Hc. eauto.
  Qed.

  (* ---- (B) reachability distributes over the union of the roots *)
  Lemma reach_mono roots roots' x : incl roots roots' -> Reach w roots x -> Reach w roots' x.
  Proof. intros Hi Hr. induction Hr; [apply reach_root; auto|eapply reach_step; eauto]. Qed.

  Lemma reach_split roots x : Reach w roots x -> exists r, In r roots /\ Reach w [r] x.
  Proof.
    intros Hr. induction Hr as [x Hx|x y _ [r [Hr1 Hr2]] Hy].
    - exists x. split; [assumption|apply reach_root; now left].
    - exists r. split; [assumption|eapply reach_step; eauto].
  Qed.

  (* ---- a depth-first exploration expands every fact once (iter expands every fact in every round).  While it runs,
     todo and seen are reachable and every successor of a seen fact is in one of them; so when todo is empty, seen is
     closed.  None = out of fuel. *)
  Fixpoint explore (n : nat) (todo seen : list fact) : option (list fact) :=
    match todo, n with
    | [], _ => Some seen
    | x :: todo, S n => if mem x seen then explore n todo seen else explore n (psuccs w x ++ todo) (x :: seen)
    | _ :: _, O => None
    end.

  Lemma explore_spec roots n : forall todo seen T, explore n todo seen = Some T ->
    (forall x, In x (todo ++ seen) -> Reach w roots x) ->
    (forall x, In x seen -> forall y, In y (psuccs w x) -> In y (todo ++ seen)) ->
    (forall x, In x T -> Reach w roots x) /\ closed T /\ incl (todo ++ seen) T.
  Proof.
    induction n as [|n IH]; intros [|x todo] seen T E Hr Hc; try discriminate E.
    1, 2: injection E as <-; repeat split; [assumption|exact Hc|apply incl_refl].
    cbn in E. destruct (mem x seen) eqn:Ex.
    - apply mem_In in Ex. apply IH in E as [E1 [E2 E3]].
      + repeat split; try assumption. intros y [<-|Hy]; apply E3; [apply in_app_iff; now right|assumption].
      + intros y Hy. apply Hr. now right.
      + intros y Hy z Hz. destruct (Hc y Hy z Hz) as [<-|H]; [apply in_app_iff; now right|assumption].
    - apply IH in E as [E1 [E2 E3]].
      + repeat split; try assumption. intros y Hy. apply E3. rewrite !in_app_iff in *. cbn in *. tauto.
      + intros y Hy. rewrite <- app_assoc in Hy. apply in_app_iff in Hy as [Hy|Hy].
        * apply reach_step with x; [apply Hr; now left|assumption].
        * apply Hr. rewrite !in_app_iff in *. cbn in *. tauto.
      + intros y [<-|Hy] z Hz; [rewrite <- app_assoc; apply in_app_iff; now left|].
        specialize (Hc y Hy z Hz). rewrite !in_app_iff in *. cbn in *. tauto.
  Qed.

  Lemma explore_closure u n T : explore n [u] [] = Some T -> forall x, In x T <-> Reach w [u] x.
  Proof.
    intros E x. apply (explore_spec [u]) in E as [E1 [E2 E3]]; [|intros y [<-|[]]; apply reach_root; now left|intros y []].
    split; [apply E1|apply closed_complete; assumption].
  Qed.
End Resolver.

(* ------------------------------------------------------------------ selections *)
Lemma find_crate_some w c x : find_crate w c = Some x -> In x w /\ c_name x = c.
Proof. unfold find_crate. intros H. apply find_some in H as [H1 H2]. apply lbeq_eq in H2. auto. Qed.

Lemma defines_in w c x f : find_crate w c = Some x -> defines w c f = true -> In f (map fst (c_feats x)).
Proof.
  unfold defines, feat_def. intros E. rewrite E. destruct (find _ (c_feats x)) as [p|] eqn:Ef; [|discriminate].
  intros _. apply find_some in Ef as [H1 H2]. apply lbeq_eq in H2. subst f. now apply in_map.
Qed.

Lemma units_In w St c k : In (c, k) (units w St) -> In (FP c k) St.
Proof.
  unfold units. intros H. apply in_flat_map in H as [[c' k'|] [Hx H]]; [|destruct H].
  destruct (find_crate w c'); [|destruct H]. destruct H as [E|[]]. now injection E as <- <-.
Qed.

(* every lib crate with every feature: its roots contain the roots of every well-formed selection *)
Definition full_req (x : crate) : req := {| q_crate := c_name x; q_default := true; q_feats := map fst (c_feats x) |}.
Definition full_sel (w : list crate) : list req := map full_req (filter c_lib w).

Lemma wf_roots w sel : wf_sel w sel = true -> incl (init w sel) (init w (full_sel w)).
Proof.
  unfold wf_sel, init. rewrite forallb_forall. intros Hwf y Hy. apply in_flat_map in Hy as [q [Hq Hy]].
  specialize (Hwf q Hq). unfold wf_req in Hwf. destruct (find_crate w (q_crate q)) as [x|] eqn:Ex; [|discriminate].
  apply andb_true_iff in Hwf as [Hlib Hf]. rewrite forallb_forall in Hf. destruct (find_crate_some _ _ _ Ex) as [Hx Hn].
  apply in_flat_map. exists (full_req x). split; [apply in_map, filter_In; auto|].
  revert Hy. unfold dep_facts, dep_kind, is_build. cbn [req_dep full_req d_pkg d_kind d_feats d_default q_crate q_default q_feats].
  rewrite Hn. intros [Hy|Hy]; [now left|right]. apply in_app_iff. left.
  apply in_app_iff in Hy as [Hy|Hy].
  - apply in_map_iff in Hy as [v [<- Hv]]. apply in_map_iff in Hv as [f [<- Hfin]].
    apply in_map, in_map. eapply defines_in; eauto.
  - destruct (q_default q && defines w (q_crate q) (B "default")) eqn:Ed; [|destruct Hy].
    destruct Hy as [<-|[]]. apply andb_true_iff in Ed as [_ Ed]. apply in_map, in_map. eapply defines_in; eauto.
Qed.

(* ------------------------------------------------------------------ (C) coherence of every selection from a finite table *)
Lemma no_weak : any_weak crates = false.
Proof. vm_compute. reflexivity. Qed.

Definition on_fact (c : bytes) (k : kind) (f : bytes) : fact :=
  match f with [] => FP c k | _ => FV c k (FvFeat f) end.
Lemma on_mem St c k f : on St c k f = mem (on_fact c k f) St.
Proof. destruct f; reflexivity. Qed.

Definition prem (r : rule) (k : kind) : fact := on_fact (fst (r_if r)) (see crates k (fst (r_if r))) (snd (r_if r)).
Definition concl (r : rule) (k : kind) : fact := on_fact (fst (r_then r)) (see crates k (fst (r_then r))) (snd (r_then r)).

Lemma rule_holds_facts St k r : rule_holds St k r = negb (mem (prem r k) St) || mem (concl r k) St.
Proof. unfold rule_holds, prem, concl. now rewrite !on_mem. Qed.

Definition closure (u : fact) : option (list fact) := explore crates fuel [u] [].
Definition facts_of (o : option (list fact)) : list fact := match o with Some T => T | None => [] end.
Definition finished (o : option (list fact)) : bool := match o with Some _ => true | None => false end.

(* every single request that brings a also brings c *)
Definition covers (tbl : list (option (list fact))) (a c : fact) : bool :=
  forallb (fun o => negb (mem a (facts_of o)) || mem c (facts_of o)) tbl.

(* a rule holds in every selection if its conclusion comes with whatever brings its premise, or with whatever brings
   its unit *)
Definition rule_ok (tbl : list (option (list fact))) (r : rule) (k : kind) : bool :=
  covers tbl (prem r k) (concl r k) || covers tbl (FP (r_unit r) k) (concl r k).

(* one sweep: every exploration finished, the union of the closures (the universe of every selection) is smaller than
   the fuel, and every rule outside p is satisfied.  The table is an argument so that it is evaluated once. *)
Definition table_ok (tbl : list (option (list fact))) (p : rule -> bool) : bool :=
  forallb finished tbl && (length (flat_map facts_of tbl) <? fuel) &&
  forallb (fun r => p r || rule_ok tbl r KT && rule_ok tbl r KH) rules.

Lemma table_ok_spec tbl p : table_ok tbl p = true ->
  forallb finished tbl = true /\ length (flat_map facts_of tbl) < fuel /\
  forall r k, In r rules -> p r = false -> rule_ok tbl r k = true.
Proof.
  unfold table_ok. rewrite !andb_true_iff, Nat.ltb_lt. intros [[H1 H2] H3]. repeat split; try assumption.
  intros r k Hr Hp. rewrite forallb_forall in H3. specialize (H3 r Hr). rewrite Hp in H3. apply andb_true_iff in H3. now destruct k.
Qed.

Section Table.
  Variables (p : rule -> bool) (roots : list fact).
  Hypothesis Hok : table_ok (map closure roots) p = true.

  Lemma table_closures u : In u roots -> exists T, closure u = Some T /\ forall x, In x T <-> Reach crates [u] x.
  Proof.
    intros Hu. destruct (table_ok_spec _ _ Hok) as [H _]. rewrite forallb_forall in H. specialize (H _ (in_map closure _ _ Hu)).
    destruct (closure u) as [T|] eqn:E; [|discriminate]. exists T. split; [reflexivity|]. exact (explore_closure crates _ _ _ E).
  Qed.

  Lemma covers_reach a c : covers (map closure roots) a c = true ->
    forall R, incl R roots -> Reach crates R a -> Reach crates R c.
  Proof.
    unfold covers. rewrite forallb_forall. intros Hc R Hi Ha. apply (reach_split crates) in Ha as [u [Hu Ha]].
    specialize (Hc _ (in_map closure _ _ (Hi u Hu))). destruct (table_closures u (Hi u Hu)) as [T [E Hs]].
    rewrite E in Hc. cbn [facts_of] in Hc. apply Hs, mem_In in Ha. rewrite Ha in Hc. apply mem_In, Hs in Hc.
    apply (reach_mono crates [u]); [|assumption]. now intros z [<-|[]].
  Qed.

  Lemma table_total sel : incl (init crates sel) roots -> exists St, resolve_sel crates sel = Some St.
  Proof.
    intros Hi. apply (resolve_total crates no_weak (flat_map facts_of (map closure roots))).
    - intros x Hx y Hy. apply in_flat_map in Hx as [o [Ho Hx]]. apply in_flat_map. exists o. split; [assumption|].
      apply in_map_iff in Ho as [u [<- Hu]]. destruct (table_closures u Hu) as [T [E Hs]]. rewrite E in *. cbn [facts_of] in *.
      apply Hs. apply reach_step with x; [now apply Hs|assumption].
    - intros u Hu. apply Hi in Hu. apply in_flat_map. exists (closure u). split; [now apply in_map|].
      destruct (table_closures u Hu) as [T [E Hs]]. rewrite E. apply Hs, reach_root. now left.
    - apply (table_ok_spec _ _ Hok).
  Qed.

  Lemma coherent_from_table sel : incl (init crates sel) roots -> forall St, resolve_sel crates sel = Some St ->
    forall u r, In u (units crates St) -> In r rules -> p r = false -> rule_applies u r = true -> rule_holds St (snd u) r = true.
  Proof.
    intros Hi St Er [c k] r Hu Hr Hp Ha. cbn [snd]. pose proof (resolve_spec crates no_weak _ _ Er) as Hspec.
    apply units_In, Hspec in Hu. apply lbeq_eq in Ha. cbn [fst] in Ha. subst c.
    assert (Hk : rule_ok (map closure roots) r k = true) by (now apply (table_ok_spec _ _ Hok)).
    rewrite rule_holds_facts. destruct (mem (prem r k) St) eqn:Ep; [|reflexivity]. apply mem_In, Hspec in Ep.
    apply mem_In, Hspec. apply orb_true_iff in Hk as [Hk|Hk]; eapply covers_reach; eauto.
  Qed.
End Table.

Definition all_roots : list fact := init crates (full_sel crates).

Lemma table_coherent_known : table_ok (map closure all_roots) Known_C35 = true.
Proof. vm_compute. reflexivity. Qed.

Lemma resolve_sel_total sel : wf_sel crates sel = true -> exists St, resolve_sel crates sel = Some St.
Proof. intros Hwf. exact (table_total _ _ table_coherent_known sel (wf_roots crates sel Hwf)). Qed.

Lemma coherent_partial_units : forall sel, wf_sel crates sel = true -> forall St, resolve_sel crates sel = Some St ->
  forallb (unit_coherent_mod St) (units crates St) = true.
Proof.
  intros sel Hwf St Er. apply forallb_forall. intros u Hu. unfold unit_coherent_mod. apply forallb_forall. intros r Hr.
  destruct (Known_C35 r) eqn:Ek; [reflexivity|]. cbn.
  destruct (rule_applies u r) eqn:Ea; [|reflexivity]. cbn.
  eapply (coherent_from_table _ _ table_coherent_known sel (wf_roots crates sel Hwf)); eauto.
Qed.

Lemma coherent_partial : forall sel, wf_sel crates sel = true -> forall St, resolve_sel crates sel = Some St ->
  known_class St = false -> forallb (unit_coherent St) (units crates St) = true.
Proof.
  intros sel Hwf St Er Hk. apply forallb_forall. intros u Hu. apply forallb_forall. intros r Hr.
  destruct (rule_applies u r) eqn:Ea; [cbn|reflexivity].
  destruct (Known_C35 r) eqn:Ek.
  - (* a known rule: were it violated, St would be in the known class *)
    destruct (rule_holds St (snd u) r) eqn:Eh; [reflexivity|]. rewrite <- Hk. unfold known_class, violated.
    apply existsb_exists. exists u. split; [assumption|]. apply existsb_exists. exists r. split; [assumption|].
    now rewrite Ek, Ea, Eh.
  - eapply (coherent_from_table _ _ table_coherent_known sel (wf_roots crates sel Hwf)); eauto.
Qed.

Definition sel_gvariant : list req :=
  [ {| q_crate := B "zbus"; q_default := true; q_feats := [] |};
    {| q_crate := B "zvariant"; q_default := true; q_feats := [B "gvariant"] |} ].
Definition sel_blocking : list req :=
  [ {| q_crate := B "zbus"; q_default := false; q_feats := [B "tokio"] |};
    {| q_crate := B "zbus_macros"; q_default := true; q_feats := [B "blocking-api"] |} ].

(* the feature-graph mechanism behind the former finding gvariant_split, edge by edge (still what cargo does; harmless
   since b1eb512d because zvariant's matches have catch-all arms): the target build of zvariant forwards `gvariant` to the proc-macro
   crate zvariant_derive, which exists only as a host unit; from there it reaches the HOST build of zvariant_utils; the
   host build of zvariant (a dependency of zbus_macros) is never asked for `gvariant` *)
Definition gv := B "gvariant".
Definition mechanism_edges : list (fact * fact) :=
  [ (FV (B "zvariant") KT (FvFeat gv), FV (B "zvariant") KT (FvDepFeat (B "zvariant_derive") gv false));
    (FV (B "zvariant") KT (FvDepFeat (B "zvariant_derive") gv false), FV (B "zvariant_derive") KH (FvFeat gv));
    (FV (B "zvariant_derive") KH (FvFeat gv), FV (B "zvariant_derive") KH (FvDepFeat (B "zvariant_utils") gv false));
    (FV (B "zvariant_derive") KH (FvDepFeat (B "zvariant_utils") gv false), FV (B "zvariant_utils") KH (FvFeat gv));
    (FP (B "zbus") KT, FP (B "zbus_macros") KH);
    (FP (B "zbus_macros") KH, FP (B "zvariant") KH) ].
Definition mechanism_ends (St : list fact) : bool :=
  mem (FV (B "zvariant") KT (FvFeat gv)) St && mem (FP (B "zbus") KT) St
  && mem (FV (B "zvariant_utils") KH (FvFeat gv)) St && mem (FP (B "zvariant") KH) St
  && negb (mem (FV (B "zvariant") KH (FvFeat gv)) St).

(* the former witness of gvariant_split (fixed by b1eb512d): still resolved with the host/target split, now coherent;
   all that is asked of this resolution, evaluated once *)
Lemma gvariant_resolution :
  match resolve_sel crates sel_gvariant with
  | Some St => (coherent St && supported St && negb (known_class St)) && mechanism_ends St
  | None => false
  end = true.
Proof. vm_compute. reflexivity. Qed.

Lemma gvariant_now_coherent :
  wf_sel crates sel_gvariant = true /\
  match resolve_sel crates sel_gvariant with Some St => coherent St && supported St && negb (known_class St) | None => false end = true.
Proof.
  split; [vm_compute; reflexivity|]. pose proof gvariant_resolution as H.
  destruct (resolve_sel crates sel_gvariant); [|discriminate]. now apply andb_true_iff in H.
Qed.

Lemma gvariant_mechanism :
  forallb (fun e => mem (snd e) (psuccs crates (fst e))) mechanism_edges = true /\
  match resolve_sel crates sel_gvariant with Some St => mechanism_ends St | None => false end = true.
Proof.
  split; [vm_compute; reflexivity|]. pose proof gvariant_resolution as H.
  destruct (resolve_sel crates sel_gvariant); [|discriminate]. now apply andb_true_iff in H.
Qed.

Lemma blocking_refuted : exists sel, sel = sel_blocking /\
  wf_sel crates sel = true /\ exists St, resolve_sel crates sel = Some St /\ supported St = true
    /\ forallb (unit_coherent St) (units crates St) = false /\ violated St is_blocking_split = true.
Proof.
  exists sel_blocking. split; [reflexivity|]. split; [vm_compute; reflexivity|].
  assert (H : match resolve_sel crates sel_blocking with
              | Some St => supported St && negb (forallb (unit_coherent St) (units crates St)) && violated St is_blocking_split
              | None => false
              end = true) by (vm_compute; reflexivity).
  destruct (resolve_sel crates sel_blocking) as [St|]; [|discriminate]. exists St.
  rewrite !andb_true_iff, negb_true_iff in H. tauto.
Qed.

(* with the host build of zvariant given `gvariant` too (zbus_macros/gvariant) the selection stays coherent; it also
   shows that the partial theorem is not vacuous: a well-formed selection outside the known classes with all rules in play *)
Definition sel_gvariant_repaired : list req := sel_gvariant ++ [ {| q_crate := B "zbus_macros"; q_default := true; q_feats := [B "gvariant"] |} ].
Lemma repaired_resolution :
  match resolve_sel crates sel_gvariant_repaired with
  | Some St => (coherent St && supported St) && (negb (known_class St) && (7 <=? length (units crates St)))
  | None => false
  end = true.
Proof. vm_compute. reflexivity. Qed.

Lemma gvariant_repaired_coherent :
  match resolve_sel crates sel_gvariant_repaired with Some St => coherent St && supported St | None => false end = true.
Proof.
  pose proof repaired_resolution as H. destruct (resolve_sel crates sel_gvariant_repaired); [|discriminate].
  now apply andb_true_iff in H.
Qed.

Example partial_instance :
  wf_sel crates sel_gvariant_repaired = true /\
  match resolve_sel crates sel_gvariant_repaired with Some St => negb (known_class St) && (7 <=? length (units crates St)) | None => false end = true.
Proof.
  split; [vm_compute; reflexivity|]. pose proof repaired_resolution as H.
  destruct (resolve_sel crates sel_gvariant_repaired); [|discriminate]. now apply andb_true_iff in H.
Qed.
