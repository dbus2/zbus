(* C37/Sched.v — an executable scheduler for the interleaving semantics of C37/Model.v: a list of choices
   (start an API call / let future k perform its next action / run queued removal k) either is a valid run of [step]
   or is rejected.  The concrete runs of C37/Witness.v are given as such lists.  What is proved is that every accepted
   choice IS a [step]. *)
From Coq Require Import List NArith Bool Arith.
From ZV Require Import Base.Bytes C37.Model.
Import ListNotations.

Inductive choice := CSpawn (o : op) | CThread (k : nat) | CPend (k : nat).

Fixpoint split_nth {A} (k : nat) (l : list A) : option (list A * A * list A) :=
  match l, k with
  | [], _ => None
  | x :: t, O => Some ([], x, t)
  | x :: t, S k' => match split_nth k' t with Some (pre, y, post) => Some (x :: pre, y, post) | None => None end
  end.

Definition apply_choice (allowed : op -> bool) (ch : choice) (c : conn) : option conn :=
  match ch with
  | CSpawn o => if allowed o then Some (with_thr c (thr c ++ [prog_of o])) else None
  | CThread k =>
      match split_nth k (thr c) with
      | Some (pre, i :: rest, post) => Some (let '(c', p') := exec i rest c in with_thr c' (pre ++ p' :: post))
      | _ => None
      end
  | CPend k =>
      match split_nth k (pend c) with
      | Some (pre, r, post) =>
          Some (let '(s, es) := remove_match r (subs c) (evs c) in
                {| subs := s; pend := pre ++ post; held := held c; thr := thr c; evs := es |})
      | None => None
      end
  end.

Fixpoint run_choices (allowed : op -> bool) (l : list choice) (c : conn) : option conn :=
  match l with
  | [] => Some c
  | ch :: r => match apply_choice allowed ch c with Some c' => run_choices allowed r c' | None => None end
  end.

Lemma split_nth_spec {A} : forall k (l pre post : list A) x, split_nth k l = Some (pre, x, post) -> l = pre ++ x :: post.
Proof.
  induction k as [|k IH]; intros l pre post x H; destruct l as [|y t]; cbn [split_nth] in H; try discriminate.
  - inversion H; subst. reflexivity.
  - destruct (split_nth k t) as [[[p z] q]|] eqn:E; [|discriminate]. inversion H; subst.
    rewrite (IH t p post x E). reflexivity.
Qed.

Lemma apply_choice_step allowed ch c c' : apply_choice allowed ch c = Some c' -> step allowed c c'.
Proof.
  destruct ch as [o|k|k]; cbn [apply_choice]; intro H.
  - destruct (allowed o) eqn:A; [|discriminate]. inversion H; subst. apply StSpawn. exact A.
  - destruct (split_nth k (thr c)) as [[[pre p] post]|] eqn:E; [|discriminate].
    destruct p as [|i rest]; [discriminate|]. inversion H; subst.
    apply (StInstr allowed c pre i rest post). apply (split_nth_spec _ _ _ _ _ E).
  - destruct (split_nth k (pend c)) as [[[pre r] post]|] eqn:E; [|discriminate]. inversion H; subst.
    apply (StPend allowed c pre r post). apply (split_nth_spec _ _ _ _ _ E).
Qed.

Lemma steps_cons allowed c1 c2 c3 : step allowed c1 c2 -> steps allowed c2 c3 -> steps allowed c1 c3.
Proof.
  intros S R. induction R as [c|a b d R IH S2].
  - eapply steps_snoc; [apply steps_refl|exact S].
  - eapply steps_snoc; [apply IH; exact S|exact S2].
Qed.

Lemma run_choices_steps allowed : forall l c c', run_choices allowed l c = Some c' -> steps allowed c c'.
Proof.
  induction l as [|ch l IH]; intros c c' H; cbn [run_choices] in H.
  - inversion H; subst. apply steps_refl.
  - destruct (apply_choice allowed ch c) as [c1|] eqn:E; [|discriminate].
    eapply steps_cons; [apply (apply_choice_step _ _ _ _ E)|apply IH; exact H].
Qed.

Lemma run_choices_reachable allowed l c : run_choices allowed l init = Some c -> reachable allowed c.
Proof. apply run_choices_steps. Qed.

Definition quiescentb (c : conn) : bool :=
  match pend c with [] => forallb (fun p => match p with [] => true | _ => false end) (thr c) | _ => false end.

Lemma quiescentb_spec c : quiescentb c = true -> quiescent c.
Proof.
  unfold quiescentb, quiescent. destruct (pend c); [|discriminate]. intro H. split; [reflexivity|].
  apply Forall_forall. intros p Hp. rewrite forallb_forall in H. specialize (H p Hp). destruct p; [reflexivity|discriminate].
Qed.

(* A concrete run and what holds at its end, in a form that one evaluation decides.  The end state holds a function
   ([subs]), so it is never normalised itself: only its first-order projections are, inside [P]. *)
Lemma run_choices_witness allowed l (P : conn -> Prop) :
  match run_choices allowed l init with Some c => quiescentb c = true /\ P c | None => False end ->
  exists c, run_choices allowed l init = Some c /\ reachable allowed c /\ quiescent c /\ P c.
Proof.
  destruct (run_choices allowed l init) as [c|] eqn:E; [|intros []]. intros [Q H].
  exists c. exact (conj eq_refl (conj (run_choices_reachable _ _ _ E) (conj (quiescentb_spec _ Q) H))).
Qed.

Lemma run_choices_quiescent allowed l (P : conn -> Prop) :
  match run_choices allowed l init with Some c => quiescentb c = true /\ P c | None => False end ->
  exists c, run_choices allowed l init = Some c /\ quiescent c /\ P c.
Proof. intro H. destruct (run_choices_witness _ _ _ H) as (c & E & _ & Q & HP). eauto. Qed.
