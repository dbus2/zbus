(* C37/Proofs.v — invariants of every interleaving of the match-rule bookkeeping. *)
From Coq Require Import List NArith Bool Arith Lia.
From ZV Require Import Base.Bytes Base.WinnowFacts C37.Model C37.Spec.
Import ListNotations.

(* ------------------------------------------------------------------ small facts *)
Definition ind (b : bool) : nat := if b then 1 else 0.

Lemma count_rule_app r a b : count_rule r (a ++ b) = count_rule r a + count_rule r b.
Proof. unfold count_rule. rewrite filter_app, app_length. reflexivity. Qed.

Lemma count_rule_cons r x l : count_rule r (x :: l) = ind (lbeq r x) + count_rule r l.
Proof. unfold count_rule. cbn [filter]. destruct (lbeq r x); reflexivity. Qed.

Lemma count_rule_nil r : count_rule r [] = 0.
Proof. reflexivity. Qed.

Lemma bus_has_snoc es e r :
  bus_has (es ++ [e]) r =
  match e with
  | EAdd x => if lbeq x r then true else bus_has es r
  | ERem x => if lbeq x r then false else bus_has es r
  end.
Proof. unfold bus_has. rewrite fold_left_app. reflexivity. Qed.

Lemma add_match_subs r s es x : fst (add_match r s es) x = s x + ind (lbeq x r).
Proof.
  unfold add_match. destruct (s r) eqn:E; cbn [fst]; unfold set_subs; destruct (lbeq x r) eqn:L; cbn [ind]; try lia.
  all: apply lbeq_eq in L; subst; lia.
Qed.

Lemma remove_match_subs r s es x : fst (remove_match r s es) x = s x - ind (lbeq x r).
Proof.
  unfold remove_match. destruct (s r) as [|[|n]] eqn:E; cbn [fst]; unfold set_subs; destruct (lbeq x r) eqn:L; cbn [ind]; try lia.
  all: apply lbeq_eq in L; subst; lia.
Qed.

(* ------------------------------------------------------------------ [exec], component by component *)
Inductive bus_act := BNone | BAdd (r : rule) | BRem (r : rule).

Definition do_act (a : bus_act) (s : rule -> nat) (es : list ev) : (rule -> nat) * list ev :=
  match a with BNone => (s, es) | BAdd r => add_match r s es | BRem r => remove_match r s es end.

Definition act_of (i : instr) (hl : list sub) : bus_act :=
  match i with
  | ISub _ r | IOwnerAdd _ r | ILeak r => BAdd r
  | IAsyncDrop h => match release_last h hl with Some (Some r, _) => BRem r | _ => BNone end
  | IOwnerSet p r => if has_any p hl then BRem r else BNone
  | IDrop _ | IClone _ _ | IOwnerCheck _ _ => BNone
  end.

Definition hstep (i : instr) (hl : list sub) : list sub :=
  match i with
  | ISub h r => hl ++ [([h], r)]
  | IAsyncDrop h => match release_last h hl with Some (_, hl') => hl' | None => hl end
  | IDrop h => fst (drop_all h hl)
  | IClone h' h => share h' h hl
  | IOwnerCheck _ _ | IOwnerAdd _ _ | ILeak _ => hl
  | IOwnerSet p r => if has_any p hl then hl else hl ++ [([p], r)]
  end.

Definition pstep (i : instr) (rest : prog) (hl : list sub) : prog :=
  match i with
  | IAsyncDrop h => match release_last h hl with Some _ => IAsyncDrop h :: rest | None => rest end
  | IOwnerCheck p r => if has_any p hl then rest else IOwnerAdd p r :: rest
  | IOwnerAdd p r => IOwnerSet p r :: rest
  | _ => rest
  end.

Definition queued (i : instr) (hl : list sub) : list rule :=
  match i with IDrop h => snd (drop_all h hl) | _ => [] end.

Lemma exec_eq i rest c :
  exec i rest c =
  ({| subs := fst (do_act (act_of i (held c)) (subs c) (evs c)); pend := pend c ++ queued i (held c);
      held := hstep i (held c); thr := thr c; evs := snd (do_act (act_of i (held c)) (subs c) (evs c)) |},
   pstep i rest (held c)).
Proof.
  destruct c as [s p hl t es].
  destruct i as [h r|h|h|h' h|q r|q r|q r|r]; cbn [exec act_of hstep pstep queued do_act subs pend held thr evs];
    rewrite ?app_nil_r.
  - destruct (add_match r s es). reflexivity.
  - destruct (release_last h hl) as [[[r|] hl']|]; [|reflexivity|reflexivity]. cbn [do_act]. destruct (remove_match r s es). reflexivity.
  - reflexivity.
  - reflexivity.
  - destruct (has_any q hl); reflexivity.
  - destruct (add_match r s es). reflexivity.
  - destruct (has_any q hl); [|reflexivity]. cbn [do_act]. destruct (remove_match r s es). reflexivity.
  - destruct (add_match r s es). reflexivity.
Qed.

Lemma do_act_subs a s es x :
  fst (do_act a s es) x =
  match a with BNone => s x | BAdd r => s x + ind (lbeq x r) | BRem r => s x - ind (lbeq x r) end.
Proof. destruct a; [reflexivity|apply add_match_subs|apply remove_match_subs]. Qed.

Lemma do_act_evs a s es : snd (do_act a s es) = es \/ exists e, snd (do_act a s es) = es ++ [e].
Proof.
  destruct a as [|r|r]; cbn [do_act]; [auto| |]; unfold add_match, remove_match, sig_ev.
  - destruct (s r); cbn [snd]; [|auto]. destruct (is_sig r); [right; eauto|left; apply app_nil_r].
  - destruct (s r) as [|[|n]]; cbn [snd]; auto. destruct (is_sig r); [right; eauto|left; apply app_nil_r].
Qed.

(* the three kinds of [step], with the pairs that [exec] and [remove_match] return taken apart *)
Lemma step_cases allowed (P : conn -> conn -> Prop) :
  (forall c o, allowed o = true -> P c (with_thr c (thr c ++ [prog_of o]))) ->
  (forall c pre i rest post, thr c = pre ++ (i :: rest) :: post ->
     P c (with_thr (fst (exec i rest c)) (pre ++ snd (exec i rest c) :: post))) ->
  (forall c pre r post, pend c = pre ++ r :: post ->
     P c {| subs := fst (remove_match r (subs c) (evs c)); pend := pre ++ post; held := held c; thr := thr c;
            evs := snd (remove_match r (subs c) (evs c)) |}) ->
  forall c c', step allowed c c' -> P c c'.
Proof.
  intros HS HI HP c c' S. destruct S as [c o A|c pre i rest post T|c pre r post Q].
  - apply HS, A.
  - specialize (HI c pre i rest post T). destruct (exec i rest c). exact HI.
  - specialize (HP c pre r post Q). destruct (remove_match r (subs c) (evs c)). exact HP.
Qed.

(* ------------------------------------------------------------------ the bus side: what is registered = what has a count *)
Definition bus_inv (s : rule -> nat) (es : list ev) : Prop :=
  trace_ok es /\ forall r, bus_has es r = (0 <? s r) && is_sig r.

Lemma add_match_inv r s es : bus_inv s es -> bus_inv (fst (add_match r s es)) (snd (add_match r s es)).
Proof.
  intros [T B]. unfold add_match, sig_ev. destruct (s r) eqn:E; cbn [fst snd].
  - destruct (is_sig r) eqn:G.
    + split.
      * apply tok_snoc; [exact T|]. split; [exact G|]. cbn. rewrite B, E. reflexivity.
      * intro x. rewrite bus_has_snoc. unfold set_subs. rewrite (lbeq_sym r x).
        destruct (lbeq x r) eqn:L; [|apply B]. apply lbeq_eq in L. subst. rewrite G. reflexivity.
    + rewrite app_nil_r. split; [exact T|]. intro x. unfold set_subs.
      destruct (lbeq x r) eqn:L; [|apply B]. apply lbeq_eq in L. subst. rewrite B, E, G. reflexivity.
  - split; [exact T|]. intro x. unfold set_subs.
    destruct (lbeq x r) eqn:L; [|apply B]. apply lbeq_eq in L. subst. rewrite B, E. reflexivity.
Qed.

Lemma remove_match_inv r s es : bus_inv s es -> bus_inv (fst (remove_match r s es)) (snd (remove_match r s es)).
Proof.
  intros [T B]. unfold remove_match, sig_ev. destruct (s r) as [|[|n]] eqn:E; cbn [fst snd].
  - split; assumption.
  - destruct (is_sig r) eqn:G.
    + split.
      * apply tok_snoc; [exact T|]. split; [exact G|]. cbn. rewrite B, E, G. reflexivity.
      * intro x. rewrite bus_has_snoc. unfold set_subs. rewrite (lbeq_sym r x).
        destruct (lbeq x r) eqn:L; [|apply B]. reflexivity.
    + rewrite app_nil_r. split; [exact T|]. intro x. unfold set_subs.
      destruct (lbeq x r) eqn:L; [|apply B]. apply lbeq_eq in L. subst. rewrite B, E, G. reflexivity.
  - split; [exact T|]. intro x. unfold set_subs.
    destruct (lbeq x r) eqn:L; [|apply B]. apply lbeq_eq in L. subst. rewrite B, E. reflexivity.
Qed.

Definition cbus_inv (c : conn) : Prop := bus_inv (subs c) (evs c).

Lemma do_act_inv a s es : bus_inv s es -> bus_inv (fst (do_act a s es)) (snd (do_act a s es)).
Proof. destruct a; [auto|apply add_match_inv|apply remove_match_inv]. Qed.

Lemma exec_bus_inv i rest c : cbus_inv c -> cbus_inv (fst (exec i rest c)).
Proof. intro I. rewrite exec_eq. apply do_act_inv, I. Qed.

Lemma step_bus_inv allowed c c' : step allowed c c' -> cbus_inv c -> cbus_inv c'.
Proof.
  intro S. induction S as [c o A|c pre i rest post T|c pre r post Q] using step_cases; intro I.
  - exact I.
  - apply exec_bus_inv, I.
  - apply remove_match_inv, I.
Qed.

Lemma steps_inv (P : conn -> Prop) allowed :
  (forall c c', step allowed c c' -> P c -> P c') -> forall c0 c, steps allowed c0 c -> P c0 -> P c.
Proof. intros H c0 c R. induction R as [|c1 c2 c3 R IH S]; [auto|]. intro P0. eapply H; eauto. Qed.

Lemma init_bus_inv : cbus_inv init.
Proof. split; [constructor|]. intro r. reflexivity. Qed.

Lemma reachable_bus_inv allowed c : reachable allowed c -> cbus_inv c.
Proof.
  intro R. apply (steps_inv cbus_inv allowed (step_bus_inv allowed) init c R init_bus_inv).
Qed.

(* ------------------------------------------------------------------ the connection side: count = who is owed a removal *)
Definition head_set (r : rule) (p : prog) : bool :=
  match p with IOwnerSet _ x :: _ => lbeq r x | _ => false end.
Definition owed (r : rule) (t : list prog) : nat := List.length (filter (head_set r) t).

Definition refcount_inv (c : conn) : Prop :=
  forall r, subs c r = live c r + count_rule r (pend c) + owed r (thr c).

Definition plain_instr (i : instr) : bool :=
  match i with ISub _ _ | IAsyncDrop _ | IDrop _ | IClone _ _ | IOwnerCheck _ _ => true | _ => false end.
Definition head_ok (i : instr) : bool :=
  plain_instr i || match i with IOwnerAdd _ _ | IOwnerSet _ _ => true | _ => false end.
Definition shape (p : prog) : bool :=
  match p with [] => true | i :: rest => head_ok i && forallb plain_instr rest end.
Definition shape_inv (c : conn) : Prop := Forall (fun p => shape p = true) (thr c).

Lemma owed_app r a b : owed r (a ++ b) = owed r a + owed r b.
Proof. unfold owed. rewrite filter_app, app_length. reflexivity. Qed.

Lemma owed_cons r p t : owed r (p :: t) = ind (head_set r p) + owed r t.
Proof. unfold owed. cbn [filter]. destruct (head_set r p); reflexivity. Qed.

Lemma owed_mid r pre p post : owed r (pre ++ p :: post) = owed r pre + ind (head_set r p) + owed r post.
Proof. rewrite owed_app, owed_cons. lia. Qed.

Lemma plain_no_set r p : forallb plain_instr p = true -> head_set r p = false.
Proof. destruct p as [|[]]; cbn; try reflexivity; try discriminate. Qed.

Lemma plain_shape p : forallb plain_instr p = true -> shape p = true.
Proof.
  destruct p as [|i rest]; [reflexivity|]. cbn [forallb shape]. intro H. apply andb_true_iff in H. destruct H as [H1 H2].
  unfold head_ok. rewrite H1, H2. reflexivity.
Qed.

Lemma prog_of_plain o : plain_op o = true -> forallb plain_instr (prog_of o) = true.
Proof. destruct o as [h r|h' h|h|h|h p [n|] sg|a l]; cbn; try reflexivity; discriminate. Qed.

Lemma release_last_count h : forall l o l', release_last h l = Some (o, l') ->
  forall r, count_rule r (map snd l) =
            count_rule r (map snd l') + match o with Some r0 => ind (lbeq r r0) | None => 0 end.
Proof.
  induction l as [|x t IH]; intros o l' H r; cbn [release_last] in H; [discriminate|].
  destruct (release_last h t) as [[o1 t']|].
  - inversion H; subst. cbn [map]. rewrite !count_rule_cons. rewrite (IH o t' eq_refl r). lia.
  - destruct (has h x); [|discriminate]. destruct (emptied (without h x)); inversion H; subst; cbn [map without snd].
    + rewrite count_rule_cons. lia.
    + rewrite !count_rule_cons. cbn [snd]. lia.
Qed.

Lemma drop_all_cons h x t :
  drop_all h (x :: t) =
  if has h x
  then if emptied (without h x) then (fst (drop_all h t), snd x :: snd (drop_all h t))
       else (without h x :: fst (drop_all h t), snd (drop_all h t))
  else (x :: fst (drop_all h t), snd (drop_all h t)).
Proof. cbn [drop_all]. destruct (drop_all h t). reflexivity. Qed.

Lemma drop_partition h r : forall l,
  count_rule r (map snd l) = count_rule r (map snd (fst (drop_all h l))) + count_rule r (snd (drop_all h l)).
Proof.
  induction l as [|x t IH]; [reflexivity|]. rewrite drop_all_cons. cbn [map].
  destruct (has h x); [destruct (emptied (without h x))|]; cbn [fst snd map without]; rewrite !count_rule_cons, IH; cbn [snd]; lia.
Qed.

Lemma share_rules h' h l : map snd (share h' h l) = map snd l.
Proof. unfold share. rewrite map_map. apply map_ext. intro x. destruct (has h x); reflexivity. Qed.

Lemma pstep_shape i rest (hl : list sub) : head_ok i = true -> forallb plain_instr rest = true -> shape (pstep i rest hl) = true.
Proof.
  intros Hd Pl. pose proof (plain_shape rest Pl) as Sh.
  destruct i as [h r|h|h|h' h|p r|p r|p r|r]; cbn [pstep]; try exact Sh.
  - destruct (release_last h hl); [exact Pl|exact Sh].
  - destruct (has_any p hl); [exact Sh|exact Pl].
  - exact Pl.
Qed.

(* One action of a future, seen from one rule r: what it adds to the count of r (right) and takes from it (left) is
   what it changes in the three places a count is owed to: live subscriptions, queued removals, a pending [IOwnerSet]. *)
Lemma instr_balance i rest (hl : list sub) r : head_ok i = true -> forallb plain_instr rest = true ->
  count_rule r (map snd hl) + ind (head_set r (i :: rest))
    + match act_of i hl with BAdd x => ind (lbeq r x) | _ => 0 end
  = count_rule r (map snd (hstep i hl)) + count_rule r (queued i hl) + ind (head_set r (pstep i rest hl))
    + match act_of i hl with BRem x => ind (lbeq r x) | _ => 0 end.
Proof.
  (* [sub] is unfolded before each [lia] so that the implicit argument of [map] reads the same on both sides *)
  intros Hd Pl. pose proof (plain_no_set r rest Pl) as Hrest.
  assert (Snoc : forall h x, count_rule r (map snd (hl ++ [(h, x)])) = count_rule r (map snd hl) + ind (lbeq r x)).
  { intros h x. rewrite map_app, count_rule_app. cbn [map snd]. rewrite count_rule_cons, count_rule_nil. unfold sub. lia. }
  destruct i as [h r0|h|h|h' h|p r0|p r0|p r0|r0]; try discriminate Hd; cbn [act_of hstep pstep queued head_set].
  - rewrite Snoc, Hrest. cbn [ind count_rule filter length]. unfold sub. lia.
  - destruct (release_last h hl) as [[o hl']|] eqn:T; [|rewrite Hrest; cbn [ind count_rule filter length]; unfold sub; lia].
    rewrite (release_last_count h hl o hl' T r). destruct o; cbn [head_set ind count_rule filter length]; unfold sub; lia.
  - rewrite (drop_partition h r hl), Hrest. cbn [ind]. unfold sub. lia.
  - rewrite share_rules, Hrest. cbn [ind count_rule filter length]. unfold sub. lia.
  - destruct (has_any p hl); cbn [head_set]; rewrite ?Hrest; cbn [ind count_rule filter length]; unfold sub; lia.
  - cbn [ind count_rule filter length]. unfold sub. lia.
  - destruct (has_any p hl); rewrite ?Snoc, Hrest; cbn [ind count_rule filter length]; unfold sub; lia.
Qed.

Lemma exec_refcount i rest c pre post :
  thr c = pre ++ (i :: rest) :: post -> shape (i :: rest) = true -> refcount_inv c ->
  refcount_inv (with_thr (fst (exec i rest c)) (pre ++ snd (exec i rest c) :: post)) /\ shape (snd (exec i rest c)) = true.
Proof.
  intros T Sh I. cbn [shape] in Sh. apply andb_true_iff in Sh. destruct Sh as [Hd Pl].
  rewrite exec_eq. cbn [fst snd]. split; [|apply pstep_shape; assumption].
  intro r. unfold live. cbn [with_thr subs pend held thr]. rewrite do_act_subs, owed_mid, count_rule_app.
  pose proof (instr_balance i rest (held c) r Hd Pl) as B.
  pose proof (I r) as Ir. unfold live in Ir. rewrite T, owed_mid in Ir.
  destruct (act_of i (held c)); lia.
Qed.

Lemma step_refcount c c' : step plain_op c c' -> refcount_inv c /\ shape_inv c -> refcount_inv c' /\ shape_inv c'.
Proof.
  unfold shape_inv. intro S. induction S as [c o A|c pre i rest post T|c pre r0 post Q] using step_cases; intros [I Sh].
  - split.
    + intro r. unfold live, with_thr; cbn [subs pend held thr]. rewrite owed_app, owed_cons.
      rewrite (plain_no_set r _ (prog_of_plain o A)). cbn [ind owed filter length]. rewrite (I r). unfold live. lia.
    + cbn [with_thr thr]. apply Forall_app. split; [exact Sh|].
      constructor; [|constructor]. apply plain_shape, prog_of_plain, A.
  - rewrite T, Forall_app, Forall_cons_iff in Sh. destruct Sh as (Sh1 & Sh2 & Sh3).
    destruct (exec_refcount i rest c pre post T Sh2 I) as [I' Sh'].
    split; [exact I'|]. cbn [with_thr thr]. rewrite Forall_app, Forall_cons_iff. auto.
  - split; [|exact Sh]. intro r. unfold live; cbn [subs pend held thr].
    rewrite remove_match_subs, (I r), Q. unfold live. rewrite !count_rule_app, count_rule_cons. lia.
Qed.

Lemma init_refcount : refcount_inv init /\ shape_inv init.
Proof. split; [intro r; reflexivity|constructor]. Qed.

Lemma reachable_refcount c : reachable plain_op c -> refcount_inv c /\ shape_inv c.
Proof.
  intro R. apply (steps_inv (fun c => refcount_inv c /\ shape_inv c) plain_op step_refcount init c R init_refcount).
Qed.

(* ------------------------------------------------------------------ the theorems *)
Theorem no_double_add allowed c : reachable allowed c -> trace_ok (evs c).
Proof. intro R. apply (reachable_bus_inv allowed c R). Qed.

Theorem registered_iff_counted allowed c :
  reachable allowed c -> forall r, bus_has (evs c) r = (0 <? subs c r) && is_sig r.
Proof. intro R. apply (reachable_bus_inv allowed c R). Qed.

Theorem refcount c :
  reachable plain_op c -> forall r, subs c r = live c r + count_rule r (pend c) + owed r (thr c).
Proof. intro R. apply (reachable_refcount c R). Qed.

Lemma owed_done r t : Forall (fun p => p = []) t -> owed r t = 0.
Proof. induction 1 as [|p t Hp T IH]; [reflexivity|]. rewrite owed_cons, IH, Hp. reflexivity. Qed.

Lemma quiescent_owed c r : quiescent c -> count_rule r (pend c) = 0 /\ owed r (thr c) = 0.
Proof. intros [P T]. rewrite P. split; [reflexivity|apply owed_done, T]. Qed.

Theorem mirror_partial c : reachable plain_op c -> quiescent c -> mirror c.
Proof.
  intros R Q r. rewrite (registered_iff_counted _ c R r), (refcount c R r).
  destruct (quiescent_owed c r Q) as [P O]. rewrite P, O, !Nat.add_0_r.
  rewrite andb_true_iff, Nat.ltb_lt. tauto.
Qed.

(* even when not quiescent: in use => registered; registered => in use or a removal is queued / a future owes one *)
Theorem in_use_registered c : reachable plain_op c ->
  forall r, 0 < live c r -> is_sig r = true -> bus_has (evs c) r = true.
Proof.
  intros R r L G. rewrite (registered_iff_counted _ c R r), (refcount c R r), G, andb_true_r. apply Nat.ltb_lt. lia.
Qed.

Theorem registered_accounted c : reachable plain_op c ->
  forall r, bus_has (evs c) r = true -> 0 < live c r + count_rule r (pend c) + owed r (thr c) /\ is_sig r = true.
Proof.
  intros R r B. rewrite (registered_iff_counted _ c R r), (refcount c R r) in B.
  apply andb_true_iff in B. destruct B as [B G]. apply Nat.ltb_lt in B. auto.
Qed.

Theorem no_premature_remove c c' r :
  reachable plain_op c -> step plain_op c c' -> evs c' = evs c ++ [ERem r] ->
  live c' r = 0 /\ count_rule r (pend c') = 0 /\ owed r (thr c') = 0.
Proof.
  intros R S E.
  assert (R' : reachable plain_op c') by (eapply steps_snoc; eauto).
  pose proof (registered_iff_counted _ c' R' r) as B. rewrite E, bus_has_snoc, lbeq_refl in B.
  pose proof (no_double_add _ c' R') as T. rewrite E in T.
  inversion T as [|es e T0 [G _] X]; [destruct (evs c); discriminate|].
  apply app_inj_tail in X. destruct X as [_ X]. subst e. cbn [ev_rule] in G.
  rewrite G, andb_true_r in B. symmetry in B. apply Nat.ltb_ge in B.
  pose proof (refcount c' R' r). lia.
Qed.

(* a step shows the bus at most one new call; a RemoveMatch(r) among them leaves nothing holding r *)
Lemma step_evs allowed c c' : step allowed c c' -> evs c' = evs c \/ exists e, evs c' = evs c ++ [e].
Proof.
  intro S. induction S as [c o A|c pre i rest post T|c pre r post Q] using step_cases.
  - left. reflexivity.
  - rewrite exec_eq. apply do_act_evs.
  - apply (do_act_evs (BRem r)).
Qed.

Lemma step_rem c c' : reachable plain_op c -> step plain_op c c' ->
  exists new, evs c' = evs c ++ new /\ forall r, In (ERem r) new -> live c' r = 0.
Proof.
  intros R S. destruct (step_evs _ _ _ S) as [E|[e E]].
  - exists []. split; [rewrite E; symmetry; apply app_nil_r|intros r []].
  - exists [e]. split; [exact E|]. intros r [I|[]]. subst e. apply (no_premature_remove c c' r R S E).
Qed.

(* ------------------------------------------------------------------ every subscription is shared by a live object
   (so "a live subscription to r" and "a live stream/proxy subscribed to r" are the same thing); all operations *)
Definition nonempty_sub (x : sub) : Prop := emptied x = false.
Definition held_ok (c : conn) : Prop := Forall nonempty_sub (held c).

Lemma drop_all_ok h : forall l, Forall nonempty_sub l -> Forall nonempty_sub (fst (drop_all h l)).
Proof.
  induction l as [|x t IH]; intro F; [constructor|]. inversion F as [|? ? Fx Ft]; subst. rewrite drop_all_cons.
  specialize (IH Ft). destruct (has h x); [destruct (emptied (without h x)) eqn:E|]; cbn [fst]; auto.
Qed.

Lemma release_last_ok h : forall l o l', release_last h l = Some (o, l') -> Forall nonempty_sub l -> Forall nonempty_sub l'.
Proof.
  induction l as [|x t IH]; intros o l' H F; cbn [release_last] in H; [discriminate|].
  inversion F as [|? ? Fx Ft]; subst.
  destruct (release_last h t) as [[o1 t']|].
  - inversion H; subst. constructor; [exact Fx|]. apply (IH o t' eq_refl Ft).
  - destruct (has h x); [|discriminate]. destruct (emptied (without h x)) eqn:E; inversion H; subst; auto.
Qed.

Lemma share_ok h' h l : Forall nonempty_sub l -> Forall nonempty_sub (share h' h l).
Proof.
  intro F. unfold share. apply Forall_forall. intros y Hy. apply in_map_iff in Hy. destruct Hy as [x [E I]].
  rewrite Forall_forall in F. specialize (F x I). subst y. destruct (has h x); [reflexivity|exact F].
Qed.

Lemma hstep_ok i hl : Forall nonempty_sub hl -> Forall nonempty_sub (hstep i hl).
Proof.
  intro F. assert (Snoc : forall x, fst x <> [] -> Forall nonempty_sub (hl ++ [x])).
  { intros x Hx. apply Forall_app. split; [exact F|]. constructor; [|constructor]. unfold nonempty_sub, emptied. destruct (fst x); congruence. }
  destruct i as [h r|h|h|h' h|p r|p r|p r|r]; cbn [hstep]; try exact F.
  - apply Snoc. discriminate.
  - destruct (release_last h hl) as [[o hl']|] eqn:T; [apply (release_last_ok h _ _ _ T F)|exact F].
  - apply drop_all_ok, F.
  - apply share_ok, F.
  - destruct (has_any p hl); [exact F|apply Snoc; discriminate].
Qed.

Lemma exec_held_ok i rest c : held_ok c -> held_ok (fst (exec i rest c)).
Proof. unfold held_ok. rewrite exec_eq. apply hstep_ok. Qed.

Lemma step_held_ok allowed c c' : step allowed c c' -> held_ok c -> held_ok c'.
Proof.
  intro S. induction S as [c o A|c pre i rest post T|c pre r post Q] using step_cases; intro I.
  - exact I.
  - apply exec_held_ok, I.
  - exact I.
Qed.

Theorem held_nonempty allowed c : reachable allowed c -> Forall (fun x => fst x <> []) (held c).
Proof.
  intro R. assert (H : held_ok c).
  { apply (steps_inv held_ok allowed (step_held_ok allowed) init c R). constructor. }
  unfold held_ok in H. eapply Forall_impl; [|exact H]. intros x E. unfold nonempty_sub, emptied in E.
  destruct (fst x); discriminate.
Qed.
