(* C37/Seq.v — sequential use of the API (one call at a time, queued removals interleaving freely), as the harness
   drives it, and the proof that every such run of the model passes the executable oracle [Spec.spec_ok] as long as
   the history stays outside the known class (request_name).  This ties the oracle that judges the implementation's output to
   the invariants of C37/Proofs.v (and shows the oracle raises no alarm on code that behaves like the model). *)
From Coq Require Import List NArith Bool Arith Lia.
From ZV Require Import Base.Bytes Base.WinnowFacts C37.Model C37.Spec C37.Proofs C37.Sched.
Import ListNotations.

(* ------------------------------------------------------------------ runs of one foreground program *)
Definition pend_step (c : conn) (pre : list rule) (r : rule) (post : list rule) : conn :=
  let '(s, es) := remove_match r (subs c) (evs c) in
  {| subs := s; pend := pre ++ post; held := held c; thr := thr c; evs := es |}.

Inductive run_prog : conn -> prog -> conn -> Prop :=
| rp_done c : run_prog c [] c
| rp_instr c i rest c' :
    run_prog (fst (exec i rest c)) (snd (exec i rest c)) c' -> run_prog c (i :: rest) c'
| rp_pend c pre r post p c' :
    pend c = pre ++ r :: post -> run_prog (pend_step c pre r post) p c' -> run_prog c p c'.

Inductive run_item : conn -> item -> conn -> Prop :=
| ri_op c o c' : run_prog c (prog_of o) c' -> run_item c (IOp o) c'
| ri_tick c c' : run_prog c [] c' -> run_item c ITick c'
| ri_idle c c' : run_prog c [] c' -> pend c' = [] -> run_item c IIdle c'.

Inductive run_items : conn -> list (item * list ev) -> conn -> Prop :=
| ris_nil c : run_items c [] c
| ris_cons c it new c1 rest c2 :
    run_item c it c1 -> evs c1 = evs c ++ new -> run_items c1 rest c2 -> run_items c ((it, new) :: rest) c2.

Definition plain_item (it : item) : bool :=
  match it with IOp o => plain_op o | IOp2 _ _ => false | ITick | IIdle => true end.

(* ------------------------------------------------------------------ embedding into [steps] *)
Lemma exec_with_thr i rest c t :
  exec i rest (with_thr c t) = (with_thr (fst (exec i rest c)) t, snd (exec i rest c)).
Proof. rewrite !exec_eq. reflexivity. Qed.

Lemma with_thr_twice c a b : with_thr (with_thr c a) b = with_thr c b.
Proof. reflexivity. Qed.

(* the two kinds of [step] that move a state whose futures are [t], with the effect written on the state without them *)
Lemma step_instr allowed c pre i rest post :
  step allowed (with_thr c (pre ++ (i :: rest) :: post))
               (with_thr (fst (exec i rest c)) (pre ++ snd (exec i rest c) :: post)).
Proof.
  pose proof (StInstr allowed (with_thr c (pre ++ (i :: rest) :: post)) pre i rest post eq_refl) as S.
  rewrite exec_with_thr in S. exact S.
Qed.

Lemma step_pend allowed c t pre r post :
  pend c = pre ++ r :: post -> step allowed (with_thr c t) (with_thr (pend_step c pre r post) t).
Proof.
  intro P. pose proof (StPend allowed (with_thr c t) pre r post P) as S.
  unfold pend_step. cbn [with_thr subs pend held thr evs] in *. destruct (remove_match r (subs c) (evs c)). exact S.
Qed.

Lemma run_prog_steps allowed done c p c' :
  run_prog c p c' -> steps allowed (with_thr c (done ++ [p])) (with_thr c' (done ++ [[]])).
Proof.
  induction 1 as [c|c i rest c' R IH|c pre r post p c' P R IH].
  - apply steps_refl.
  - eapply steps_cons; [apply step_instr|exact IH].
  - eapply steps_cons; [apply step_pend, P|exact IH].
Qed.

Lemma steps_trans allowed a b c : steps allowed a b -> steps allowed b c -> steps allowed a c.
Proof. intros A B. induction B as [|x y z B IH S]; [exact A|]. eapply steps_snoc; [apply IH; exact A|exact S]. Qed.

(* ------------------------------------------------------------------ what a step does to held *)
Lemma exec_held i rest c :
  held (fst (exec i rest c)) = hstep i (held c) /\ snd (exec i rest c) = pstep i rest (held c).
Proof. rewrite exec_eq. split; reflexivity. Qed.

Inductive held_final : list sub -> prog -> list sub -> Prop :=
| hf_done hl : held_final hl [] hl
| hf_step hl i rest hl' : held_final (hstep i hl) (pstep i rest hl) hl' -> held_final hl (i :: rest) hl'.

Lemma hf_nil hl hl' : held_final hl [] hl' -> hl' = hl.
Proof. inversion 1. reflexivity. Qed.

Lemma hf_cons hl i rest hl' : held_final hl (i :: rest) hl' -> held_final (hstep i hl) (pstep i rest hl) hl'.
Proof. inversion 1. assumption. Qed.

Lemma pend_step_eq c pre r post :
  pend_step c pre r post =
  {| subs := fst (do_act (BRem r) (subs c) (evs c)); pend := pre ++ post; held := held c; thr := thr c;
     evs := snd (do_act (BRem r) (subs c) (evs c)) |}.
Proof. unfold pend_step. cbn [do_act]. destruct (remove_match r (subs c) (evs c)). reflexivity. Qed.

Lemma pend_step_held c pre r post : held (pend_step c pre r post) = held c.
Proof. rewrite pend_step_eq. reflexivity. Qed.

Lemma run_prog_held c p c' : run_prog c p c' -> held_final (held c) p (held c').
Proof.
  induction 1 as [c|c i rest c' R IH|c pre r post p c' P R IH].
  - constructor.
  - destruct (exec_held i rest c) as [H1 H2]. rewrite H1, H2 in IH. constructor. exact IH.
  - rewrite pend_step_held in IH. exact IH.
Qed.

Lemma has_without h x : has h (without h x) = false.
Proof.
  unfold has, without. cbn [fst]. induction (fst x) as [|k t IH]; [reflexivity|]. cbn [filter].
  destruct (k =? h)%N eqn:E; cbn [negb]; [exact IH|]. cbn [existsb]. rewrite IH, orb_false_r.
  rewrite N.eqb_sym. exact E.
Qed.

Lemma release_last_none h : forall l, release_last h l = None -> fst (drop_all h l) = l.
Proof.
  induction l as [|x t IH]; [reflexivity|]. cbn [release_last]. rewrite drop_all_cons.
  destruct (release_last h t) as [[o t']|]; [discriminate|].
  destruct (has h x) eqn:E; [destruct (emptied (without h x)); discriminate|]. intros _.
  cbn [fst]. rewrite (IH eq_refl). reflexivity.
Qed.

Lemma release_last_some h : forall l o l', release_last h l = Some (o, l') -> fst (drop_all h l) = fst (drop_all h l').
Proof.
  induction l as [|x t IH]; intros o l' H; cbn [release_last] in H; [discriminate|]. rewrite drop_all_cons.
  destruct (release_last h t) as [[o1 t']|] eqn:T.
  - injection H as <- <-. rewrite drop_all_cons, (IH o1 t' eq_refl).
    destruct (has h x); [destruct (emptied (without h x))|]; reflexivity.
  - destruct (has h x) eqn:E; [|discriminate].
    destruct (emptied (without h x)) eqn:Em; injection H as <- <-; [reflexivity|].
    rewrite drop_all_cons, has_without. reflexivity.
Qed.

(* async_drop(h) lets go of one subscription per round until h shares none: all in all what drop(h) lets go of *)
Lemma async_drop_final h hl hl' : held_final hl [IAsyncDrop h] hl' -> hl' = fst (drop_all h hl).
Proof.
  intro H. remember [IAsyncDrop h] as p eqn:Ep. induction H as [hl|hl i rest hl' H IH]; [discriminate|].
  injection Ep as -> ->. cbn [hstep pstep] in *. destruct (release_last h hl) as [[o l1]|] eqn:T.
  - rewrite (release_last_some h hl o l1 T). apply IH. reflexivity.
  - apply hf_nil in H. rewrite H. symmetry. apply release_last_none, T.
Qed.

(* the effect of each whole operation on who holds what = the API-level bookkeeping of the specification *)
Lemma op_final hl o hl' : plain_op o = true -> held_final hl (prog_of o) hl' -> hl' = objs_after_op hl o.
Proof.
  intros P H. destruct o as [h r|h' h|h|h|h p [n|] sg|a l]; try discriminate P; cbn [prog_of objs_after_op] in *.
  - apply hf_cons, hf_nil in H. exact H.
  - apply hf_cons, hf_nil in H. exact H.
  - apply hf_cons, hf_nil in H. exact H.
  - apply async_drop_final, H.
  - apply hf_cons in H. cbn [hstep pstep] in H. destruct (has_any p hl) eqn:A.
    + do 2 apply hf_cons in H. apply hf_nil in H. cbn [hstep] in H. rewrite H, <- app_assoc. reflexivity.
    + do 4 apply hf_cons in H. apply hf_nil in H. cbn [hstep pstep] in H. rewrite A in H.
      rewrite H, <- !app_assoc. reflexivity.
  - apply hf_cons, hf_nil in H. exact H.
Qed.

(* ------------------------------------------------------------------ live subscribers move one way during one call:
   up while it creates, down while it drops *)
Definition dir_instr (up : bool) (i : instr) : bool :=
  match i with
  | ISub _ _ | IClone _ _ | IOwnerCheck _ _ | IOwnerAdd _ _ | IOwnerSet _ _ => up
  | IAsyncDrop _ | IDrop _ => negb up
  | ILeak _ => false
  end.
Definition op_up (o : op) : bool := match o with ODrop _ | OAsyncDrop _ => false | _ => true end.
Definition dir_le (up : bool) (a b : nat) : Prop := if up then a <= b else b <= a.

Definition lv (hl : list sub) (r : rule) : nat := count_rule r (map snd hl).

Lemma lv_live c r : live c r = lv (held c) r.
Proof. reflexivity. Qed.

Lemma dir_le_refl up a : dir_le up a a.
Proof. destruct up; apply le_n. Qed.

Lemma dir_hstep up i hl r : dir_instr up i = true -> dir_le up (lv hl r) (lv (hstep i hl) r).
Proof.
  unfold lv. intro D.
  destruct i as [h r0|h|h|h' h|p r0|p r0|p r0|r0], up; try discriminate D; cbn [dir_le hstep]; try apply le_n.
  - rewrite map_app, count_rule_app. apply Nat.le_add_r.
  - destruct (release_last h hl) as [[o l1]|] eqn:T; [|apply le_n]. rewrite (release_last_count h hl o l1 T r). apply Nat.le_add_r.
  - rewrite (drop_partition h r hl). apply Nat.le_add_r.
  - rewrite share_rules. apply le_n.
  - destruct (has_any p hl); [apply le_n|]. rewrite map_app, count_rule_app. apply Nat.le_add_r.
Qed.

(* a head that [pstep] pushes moves the way of the instruction that pushed it: [D] again, up to conversion *)
Lemma dir_pstep up i rest hl :
  forallb (dir_instr up) (i :: rest) = true -> forallb (dir_instr up) (pstep i rest hl) = true.
Proof.
  intro D. pose proof D as R. cbn [forallb] in R. apply andb_true_iff in R. destruct R as [_ R].
  destruct i as [h r0|h|h|h' h|p r0|p r0|p r0|r0]; cbn [pstep]; try exact R.
  - destruct (release_last h hl); [exact D|exact R].
  - destruct (has_any p hl); [exact R|exact D].
  - exact D.
Qed.

Lemma prog_direction o : plain_op o = true -> forallb (dir_instr (op_up o)) (prog_of o) = true.
Proof. destruct o as [h r|h' h|h|h|h p [n|] sg|a l]; try discriminate; reflexivity. Qed.

(* ------------------------------------------------------------------ no RemoveMatch while in use, for a whole call *)
Lemma step_instr_reach done c i rest :
  reachable plain_op (with_thr c (done ++ [i :: rest])) ->
  step plain_op (with_thr c (done ++ [i :: rest])) (with_thr (fst (exec i rest c)) (done ++ [snd (exec i rest c)])).
Proof.
  intros _. apply step_instr.
Qed.

Lemma step_pend_reach done c p pre r post :
  pend c = pre ++ r :: post ->
  step plain_op (with_thr c (done ++ [p])) (with_thr (pend_step c pre r post) (done ++ [p])).
Proof. apply step_pend. Qed.

(* from c to c' the live subscribers of every rule move one way, and a RemoveMatch(r) went out only at moments when
   nothing held r: so nothing held r at the low end *)
Definition rem_ok (up : bool) (c c' : conn) : Prop :=
  exists new, evs c' = evs c ++ new /\
    forall r, dir_le up (lv (held c) r) (lv (held c') r) /\
              (In (ERem r) new -> (if up then lv (held c) r else lv (held c') r) = 0).

Lemma rem_ok_refl up c : rem_ok up c c.
Proof.
  exists []. split; [symmetry; apply app_nil_r|]. intro r. split; [apply dir_le_refl|intros []].
Qed.

Lemma rem_ok_step up c t c1 t1 c' :
  reachable plain_op (with_thr c t) -> step plain_op (with_thr c t) (with_thr c1 t1) ->
  (forall r, dir_le up (lv (held c) r) (lv (held c1) r)) -> rem_ok up c1 c' -> rem_ok up c c'.
Proof.
  intros Re S U (n2 & E2 & M). destruct (step_rem _ _ Re S) as (n1 & E1 & Z1). cbn [with_thr evs] in E1.
  exists (n1 ++ n2). split; [rewrite E2, E1; symmetry; apply app_assoc|].
  intro r. specialize (U r). destruct (M r) as [M1 M2]. specialize (Z1 r). rewrite lv_live in Z1. cbn [with_thr held] in Z1.
  split; [destruct up; cbn [dir_le] in *; lia|].
  intro I. apply in_app_or in I. destruct I as [I|I].
  - specialize (Z1 I). destruct up; cbn [dir_le] in *; lia.
  - specialize (M2 I). destruct up; cbn [dir_le] in *; lia.
Qed.

Lemma run_rem up done c p c' :
  run_prog c p c' -> reachable plain_op (with_thr c (done ++ [p])) -> forallb (dir_instr up) p = true -> rem_ok up c c'.
Proof.
  induction 1 as [c|c i rest c' R IH|c pre r0 post p c' P R IH]; intros Re D.
  - apply rem_ok_refl.
  - pose proof (step_instr_reach done c i rest Re) as S. destruct (exec_held i rest c) as [Hh Hp].
    apply (rem_ok_step up _ _ _ _ _ Re S).
    + intro r. rewrite Hh. apply dir_hstep. cbn [forallb] in D. apply andb_true_iff in D. apply D.
    + apply IH; [exact (steps_snoc _ _ _ _ Re S)|]. rewrite Hp. apply dir_pstep, D.
  - pose proof (step_pend_reach done c p pre r0 post P) as S.
    apply (rem_ok_step up _ _ _ _ _ Re S).
    + intro r. rewrite pend_step_held. apply dir_le_refl.
    + apply IH; [exact (steps_snoc _ _ _ _ Re S)|exact D].
Qed.

(* a pause: only queued removals run *)
Lemma run_idle_rem up t c c' :
  run_prog c [] c' -> reachable plain_op (with_thr c t) ->
  reachable plain_op (with_thr c' t) /\ held c' = held c /\ rem_ok up c c'.
Proof.
  intro R. remember [] as p eqn:Ep.
  induction R as [c|c i rest c' R IH|c pre r0 post p c' P R IH]; try discriminate; intro Re.
  - split; [exact Re|]. split; [reflexivity|apply rem_ok_refl].
  - pose proof (step_pend plain_op c t pre r0 post P) as S.
    destruct (IH Ep (steps_snoc _ _ _ _ Re S)) as (Re1 & Hh & M). rewrite pend_step_held in Hh.
    split; [exact Re1|]. split; [exact Hh|]. apply (rem_ok_step up _ _ _ _ _ Re S); [|exact M].
    intro r. rewrite pend_step_held. apply dir_le_refl.
Qed.

(* ------------------------------------------------------------------ the trace discipline, read from any prefix *)
Lemma trace_ok_snoc_inv l x : trace_ok (l ++ [x]) -> trace_ok l /\ ev_ok l x.
Proof.
  intro H. inversion H as [E|es e T V E].
  - destruct l; discriminate.
  - apply app_inj_tail in E. destruct E; subst. auto.
Qed.

Lemma trace_ok_app_l a b : trace_ok (a ++ b) -> trace_ok a.
Proof.
  induction b as [|x b IH] using rev_ind; [rewrite app_nil_r; auto|].
  rewrite app_assoc. intro H. apply trace_ok_snoc_inv in H. apply IH, H.
Qed.

Lemma events_okb_intro : forall new es before after,
  trace_ok (es ++ new) ->
  (forall r, In (ERem r) new -> before r = 0 \/ after r = 0) ->
  events_okb es before after new = true.
Proof.
  induction new as [|e new IH]; intros es before after T R; [reflexivity|].
  cbn [events_okb]. apply andb_true_iff. split.
  - assert (T1 : trace_ok (es ++ [e])).
    { apply (trace_ok_app_l (es ++ [e]) new). rewrite <- app_assoc. exact T. }
    apply trace_ok_snoc_inv in T1. destruct T1 as [_ [G V]].
    unfold ev_okb. rewrite G. cbn [andb]. destruct e as [r|r]; cbn [ev_rule] in *.
    + rewrite V. reflexivity.
    + rewrite V. cbn [andb]. destruct (R r (or_introl eq_refl)) as [Z|Z]; rewrite Z; cbn; auto using orb_true_r.
  - apply IH.
    + rewrite <- app_assoc. exact T.
    + intros r I. apply R. right. exact I.
Qed.

(* ------------------------------------------------------------------ queued removals during one call *)
Definition no_drop (i : instr) : bool := match i with IDrop _ => false | _ => true end.

Lemma exec_pend i rest c : pend (fst (exec i rest c)) = pend c ++ queued i (held c).
Proof. rewrite exec_eq. reflexivity. Qed.

Lemma pend_step_pend c pre r post : pend (pend_step c pre r post) = pre ++ post.
Proof. rewrite pend_step_eq. reflexivity. Qed.

Lemma pend_step_sub c pre r0 post r :
  pend c = pre ++ r0 :: post -> In r (pend (pend_step c pre r0 post)) -> In r (pend c).
Proof. intro P. rewrite pend_step_pend, P, !in_app_iff. cbn [In]. tauto. Qed.

Lemma no_drop_pstep i rest hl : forallb no_drop rest = true -> forallb no_drop (pstep i rest hl) = true.
Proof.
  intro R. destruct i as [h r0|h|h|h' h|p r0|p r0|p r0|r0]; cbn [pstep]; try exact R.
  - destruct (release_last h hl); exact R.
  - destruct (has_any p hl); exact R.
Qed.

(* what is queued at the end was queued at the start or was queued by an IDrop of the program, whose object held it
   at the start (the only program with an IDrop is [IDrop h] itself) *)
Lemma run_pend_nodrop c p c' :
  run_prog c p c' -> forallb no_drop p = true -> forall r, In r (pend c') -> In r (pend c).
Proof.
  induction 1 as [c|c i rest c' R IH|c pre r0 post p c' P R IH]; intros N r I.
  - exact I.
  - cbn [forallb] in N. apply andb_true_iff in N. destruct N as [N1 N2].
    destruct (exec_held i rest c) as [_ Hp]. rewrite Hp in IH.
    specialize (IH (no_drop_pstep i rest (held c) N2) r I). rewrite exec_pend in IH.
    destruct i; try discriminate; rewrite app_nil_r in IH; exact IH.
  - exact (pend_step_sub c pre r0 post r P (IH N r I)).
Qed.

Lemma run_pend_drop h : forall c p c',
  run_prog c p c' -> p = [IDrop h] -> forall r, In r (pend c') -> In r (pend c) \/ In r (snd (drop_all h (held c))).
Proof.
  induction 1 as [c|c i rest c' R IH|c pre r0 post p c' P R IH]; intros Ep r I.
  - discriminate.
  - inversion Ep; subst. cbn [exec fst snd] in R.
    pose proof (run_pend_nodrop _ _ _ R eq_refl r I) as J. cbn [pend] in J. apply in_app_or in J. exact J.
  - destruct (IH Ep r I) as [J|J]; [left; exact (pend_step_sub c pre r0 post r P J)|right].
    rewrite pend_step_held in J. exact J.
Qed.

(* ------------------------------------------------------------------ the link between the model's state and the oracle's *)
Lemma mem_rule_In r l : In r l -> mem_rule r l = true.
Proof.
  intro I. unfold mem_rule. apply existsb_exists. exists r. split; [exact I|apply lbeq_refl].
Qed.

Lemma count_pos_In r : forall l, 0 < count_rule r l -> In r l.
Proof.
  induction l as [|x t IH]; [cbn; lia|]. rewrite count_rule_cons. intro H.
  destruct (lbeq r x) eqn:E; [left; symmetry; apply lbeq_eq; exact E|right; apply IH; cbn [ind] in H; lia].
Qed.

Lemma In_count_pos r : forall l, In r l -> 0 < count_rule r l.
Proof.
  induction l as [|x t IH]; [intros []|]. rewrite count_rule_cons. intros [E|I].
  - subst. rewrite lbeq_refl. cbn. lia.
  - specialize (IH I). lia.
Qed.

Definition all_done (done : list prog) : Prop := Forall (fun p => p = []) done.

Lemma all_done_snoc done : all_done done -> all_done (done ++ [[]]).
Proof. intro D. apply Forall_app. split; [exact D|constructor; [reflexivity|constructor]]. Qed.

Record link (c : conn) (s : ost) (done : list prog) : Prop := {
  lk_reach : reachable plain_op (with_thr c done);
  lk_done : all_done done;
  lk_held : held c = o_objs s;
  lk_evs : evs c = o_evs s;
  lk_pend : forall r, In r (pend c) -> mem_rule r (o_maybe s) = true }.

Lemma link_init : link init ost0 [].
Proof. split; try reflexivity; try constructor. intros r []. Qed.

(* the two end-of-item checks follow from the invariants at a state where no future is in flight *)
Lemma end_checks c s done :
  link c s done ->
  forallb (fun r => negb (is_sig r) || bus_has (o_evs s) r) (map snd (o_objs s)) = true /\
  forallb (fun e => negb (bus_has (o_evs s) (ev_rule e))
                    || (0 <? subscribers (o_objs s) (ev_rule e)) || mem_rule (ev_rule e) (o_maybe s)) (o_evs s) = true.
Proof.
  intros [Re Dn Hh He Hp]. split; apply forallb_forall.
  - intros r I. destruct (is_sig r) eqn:G; [|reflexivity]. cbn [negb orb].
    rewrite <- He. apply (in_use_registered _ Re r); [|exact G].
    unfold live. cbn [with_thr held]. rewrite Hh. apply In_count_pos. exact I.
  - intros e _. destruct (bus_has (o_evs s) (ev_rule e)) eqn:Bh; [|reflexivity]. cbn [negb orb].
    rewrite <- He in Bh. destruct (registered_accounted _ Re (ev_rule e) Bh) as [Pos _].
    cbn [with_thr thr pend] in Pos. rewrite (owed_done _ done Dn) in Pos.
    unfold live in Pos. cbn [with_thr held] in Pos. rewrite Hh in Pos.
    unfold subscribers. destruct (0 <? count_rule (ev_rule e) (map snd (o_objs s))) eqn:L; [reflexivity|].
    apply Nat.ltb_ge in L. cbn [orb]. apply Hp. apply count_pos_In. lia.
Qed.

(* an item that took c to c1 passes the oracle and re-establishes the link, given where c1 stands *)
Lemma item_close up c s done it new c1 done' :
  link c s done -> evs c1 = evs c ++ new ->
  reachable plain_op (with_thr c1 done') -> all_done done' -> held c1 = objs_after (held c) it ->
  (forall r, In r (pend c1) -> mem_rule r (maybe_after s it) = true) -> rem_ok up c c1 ->
  item_ok s it new = true /\ exists done', link c1 (ost_after s it new) done'.
Proof.
  intros [Re Dn Hh He Hp] E Re1 Dn1 H1 P1 (new' & E' & M).
  assert (new' = new) by (apply (app_inv_head (evs c)); congruence). subst new'.
  assert (L1 : link c1 (ost_after s it new) done').
  { split; [exact Re1|exact Dn1| | |exact P1]; cbn [ost_after o_objs o_evs].
    - rewrite H1, Hh. reflexivity.
    - rewrite E, He. reflexivity. }
  split; [|eauto].
  unfold item_ok. destruct (end_checks _ _ _ L1) as [C1 C2]. rewrite C1, C2, !andb_true_r.
  apply events_okb_intro.
  - rewrite <- He, <- E. apply (no_double_add _ _ Re1).
  - intros r I. unfold subscribers. cbn [ost_after o_objs]. rewrite <- Hh, <- H1. destruct (M r) as [_ Z]. specialize (Z I).
    destruct up; [left|right]; exact Z.
Qed.

(* adding a finished future to the bookkeeping list does not matter for the invariants we use: we keep the list as it
   is for tick/idle items, and let it grow by one finished future per API call *)
Theorem item_sound c s done it new c1 :
  link c s done -> plain_item it = true -> run_item c it c1 -> evs c1 = evs c ++ new ->
  item_ok s it new = true /\ exists done', link c1 (ost_after s it new) done'.
Proof.
  intros L Pl R E. pose proof L as [Re Dn Hh He Hp].
  destruct R as [c o c1 R|c c1 R|c c1 R Pe].
  - (* an API call *)
    cbn [plain_item] in Pl.
    assert (Re0 : reachable plain_op (with_thr c (done ++ [prog_of o])))
      by exact (steps_snoc _ _ _ _ Re (StSpawn plain_op (with_thr c done) o Pl)).
    apply (item_close (op_up o) c s done (IOp o) new c1 (done ++ [[]]) L E).
    + exact (steps_trans _ _ _ _ Re0 (run_prog_steps plain_op done c _ c1 R)).
    + apply all_done_snoc, Dn.
    + apply op_final; [exact Pl|apply run_prog_held, R].
    + (* only drop(h) queues removals: those of the subscriptions h was the last sharer of *)
      intros r I. destruct o as [h r0|h' h|h|h|h p [n|] sg|a l]; try discriminate Pl; cbn [maybe_after];
        try exact (Hp r (run_pend_nodrop _ _ _ R eq_refl r I)).
      unfold mem_rule. rewrite existsb_app. apply orb_true_iff.
      destruct (run_pend_drop h _ _ _ R eq_refl r I) as [J|J]; [left; apply Hp, J|right; rewrite <- Hh; apply mem_rule_In, J].
    + apply (run_rem _ done c _ c1 R Re0 (prog_direction o Pl)).
  - (* tick *)
    destruct (run_idle_rem true done c c1 R Re) as (Re1 & H1 & M).
    apply (item_close true c s done ITick new c1 done L E Re1 Dn H1); [|exact M].
    intros r I. apply Hp, (run_pend_nodrop _ _ _ R eq_refl r I).
  - (* idle *)
    destruct (run_idle_rem true done c c1 R Re) as (Re1 & H1 & M).
    apply (item_close true c s done IIdle new c1 done L E Re1 Dn H1); [|exact M].
    intros r I. rewrite Pe in I. destruct I.
Qed.

(* every sequential run of the model, over any history outside the known class (request_name), passes the oracle *)
Theorem oracle_sound : forall run c s done c',
  link c s done -> forallb (fun x => plain_item (fst x)) run = true -> run_items c run c' -> spec_ok s run = true.
Proof.
  induction run as [|[it new] run IH]; intros c s done c' L Pl R; [reflexivity|].
  cbn [forallb fst] in Pl. apply andb_true_iff in Pl. destruct Pl as [P1 P2].
  inversion R as [|? ? ? c1 ? ? Ri E Rs]; subst.
  destruct (item_sound c s done it new c1 L P1 Ri E) as [Ok [done' L1]].
  cbn [spec_ok]. rewrite Ok. cbn [andb]. apply (IH c1 _ done' c' L1 P2 Rs).
Qed.

Corollary oracle_sound_init run c' :
  forallb (fun x => plain_item (fst x)) run = true -> run_items init run c' -> spec_ok ost0 run = true.
Proof. apply (oracle_sound run init ost0 [] c' link_init). Qed.

(* non-vacuity: two streams on one rule, one of them cloned; the original is dropped (nothing is queued: its clone still
   shares the subscription), the other stream is dropped (queued, runs at the idle point: still one subscription left),
   finally the clone is async-dropped: only now RemoveMatch goes out *)
Definition ex_rule : rule := B "type='signal',interface='a.b',member='X'".
Definition ex_seq_run : list (item * list ev) :=
  [ (IOp (OStream 1%N ex_rule), [EAdd ex_rule]); (IOp (OStream 2%N ex_rule), []); (IOp (OClone 3%N 1%N), []);
    (IOp (ODrop 1%N), []); (IOp (ODrop 2%N), []); (IIdle, []); (IOp (OAsyncDrop 3%N), [ERem ex_rule]) ].

Example ex_seq_ok :
  (exists c', run_items init ex_seq_run c') /\ forallb (fun x => plain_item (fst x)) ex_seq_run = true.
Proof.
  split; [|reflexivity]. eexists. unfold ex_seq_run.
  do 5 (eapply ris_cons; [apply ri_op; cbn [prog_of]; eapply rp_instr; apply rp_done|reflexivity|]).
  eapply ris_cons.
  - apply ri_idle.
    + eapply (rp_pend _ [] ex_rule []); [reflexivity|]. apply rp_done.
    + reflexivity.
  - reflexivity.
  - eapply ris_cons; [apply ri_op; cbn [prog_of]; eapply rp_instr; eapply rp_instr; apply rp_done|reflexivity|apply ris_nil].
Qed.
