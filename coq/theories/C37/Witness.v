(* C37/Witness.v — concrete runs: the refutation of the full statement (the rules request_name adds are never removed),
   the run that was the witness of the class clone_uncounted before fix 3c4a83a4 (the clones share one subscription
   now: [clone_repaired]), and non-vacuity examples (a run with a proxy whose two signal streams are created concurrently so that both futures pass
   the OnceLock check before either sets it — the "raced" branch of subscribe_dest_owner_change). *)
From Coq Require Import List NArith Bool Arith Lia.
From ZV Require Import Base.Bytes C37.Model C37.Spec C37.Sched.
Import ListNotations.
Open Scope N_scope.

Definition r_sig : rule := B "type='signal',interface='a.b',member='X'".
Definition r_call : rule := B "type='method_call',interface='a.b'".
Definition r_noc : rule :=
  B "type='signal',sender='org.freedesktop.DBus',interface='org.freedesktop.DBus',member='NameOwnerChanged',path='/org/freedesktop/DBus',arg0='org.x.Y'".
Definition r_s1 : rule := B "type='signal',sender='org.x.Y',interface='a.b',member='S1',path='/x'".
Definition r_s2 : rule := B "type='signal',sender='org.x.Y',interface='a.b',member='S2',path='/x'".
Definition r_acq : rule :=
  B "type='signal',sender='org.freedesktop.DBus',interface='org.freedesktop.DBus',member='NameAcquired',arg0='org.zbus.A'".
Definition r_lost : rule :=
  B "type='signal',sender='org.freedesktop.DBus',interface='org.freedesktop.DBus',member='NameLost',arg0='org.zbus.A'".

(* ---- the full statement *)
Definition full_statement : Prop :=
  forall c, reachable any_op c -> quiescent c -> mirror c.

(* a stream is cloned and the clone is dropped: since 3c4a83a4 the clones share one subscription, nothing is removed
   while the original is alive; dropping the original too removes the rule (this was the witness of the former class
   clone_uncounted: RemoveMatch went out while the original was alive) *)
Definition w_clone : list choice :=
  [CSpawn (OStream 1 r_sig); CThread 0; CSpawn (OClone 2 1); CThread 1; CSpawn (ODrop 2); CThread 2].
Definition w_clone_end : list choice := [CSpawn (OAsyncDrop 1); CThread 3; CThread 3].

Example clone_repaired :
  (exists c, run_choices plain_op w_clone init = Some c /\ quiescent c /\ evs c = [EAdd r_sig] /\ live c r_sig = 1%nat /\
             held c = [([1], r_sig)] /\ bus_has (evs c) r_sig = true) /\
  (exists c, run_choices plain_op (w_clone ++ w_clone_end) init = Some c /\ quiescent c /\
             evs c = [EAdd r_sig; ERem r_sig] /\ held c = []).
Proof.
  split; apply run_choices_quiescent; vm_compute; auto 10.
Qed.

(* request_name registers the two monitor rules; nothing ever removes them *)
Definition w_leak : list choice := [CSpawn (OReqName r_acq r_lost); CThread 0; CThread 0].

Lemma leak_refuted :
  exists c, reachable any_op c /\ quiescent c /\ live c r_acq = 0%nat /\ bus_has (evs c) r_acq = true.
Proof.
  destruct (run_choices_witness any_op w_leak (fun c => live c r_acq = 0%nat /\ bus_has (evs c) r_acq = true))
    as (c & _ & H); [vm_compute; auto|eauto].
Qed.

Lemma full_refuted : ~ full_statement.
Proof.
  intro F. destruct leak_refuted as (c & R & Q & L & Bh).
  destruct (F c R Q r_acq) as [M _]. destruct (M Bh) as [P _]. lia.
Qed.

(* ---- non-vacuity: plain operations only, a raced proxy, queued and foreground removals, a non-signal rule *)
Definition ex_run : list choice :=
  [ CSpawn (OStream 1 r_sig); CThread 0;
    CSpawn (OStream 2 r_sig); CThread 1;
    CSpawn (OStream 3 r_call); CThread 2;
    CSpawn (OSignal 10 9 (Some r_noc) r_s1); CSpawn (OSignal 11 9 (Some r_noc) r_s2);
    CThread 3; CThread 4;          (* both see the OnceLock unset *)
    CThread 3; CThread 4;          (* both add_match(noc) *)
    CThread 3;                     (* the first set() wins *)
    CThread 4;                     (* the second loses the race: remove_match(noc) *)
    CThread 3; CThread 3; CThread 4; CThread 4;
    CSpawn (ODrop 1); CThread 5;   (* queued *)
    CSpawn (OAsyncDrop 2); CThread 6; CThread 6;   (* foreground removal while another one is queued *)
    CPend 0 ].

Definition ex_mid : option conn := run_choices plain_op ex_run init.

Example ex_mid_ok :
  exists c, ex_mid = Some c /\ reachable plain_op c /\ quiescent c /\
    evs c = [EAdd r_sig; EAdd r_noc; EAdd r_s1; EAdd r_s2; ERem r_sig] /\
    subs c r_noc = 3%nat /\ live c r_noc = 3%nat /\ live c r_call = 1%nat /\ live c r_sig = 0%nat.
Proof.
  apply run_choices_witness. vm_compute. auto 10.
Qed.

Definition ex_rest : list choice :=
  [ CSpawn (ODrop 10); CThread 7; CSpawn (OAsyncDrop 11); CThread 8; CThread 8; CThread 8;
    CSpawn (ODrop 9); CThread 9; CSpawn (ODrop 3); CThread 10;
    CPend 3; CPend 0; CPend 0; CPend 0 ].

Example ex_end_ok :
  exists c, run_choices plain_op (ex_run ++ ex_rest) init = Some c /\ quiescent c /\
    List.length (evs c) = 8%nat /\ held c = [] /\
    bus_has (evs c) r_noc = false /\ bus_has (evs c) r_s1 = false /\ bus_has (evs c) r_s2 = false.
Proof.
  apply run_choices_quiescent. vm_compute. auto 10.
Qed.
