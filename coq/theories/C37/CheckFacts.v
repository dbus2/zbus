(* C37/CheckFacts.v — the counter arithmetic used by the trace checker (C37/Check.v [add1], [rem1], [emit]) is the
   arithmetic of Model.add_match / Model.remove_match on the entry of the rule concerned, and other entries are untouched. *)
From Coq Require Import List NArith Bool Arith Lia.
From ZV Require Import Base.Bytes Base.WinnowFacts C37.Model C37.Proofs C37.Check.
Import ListNotations.

Lemma other_entry x r : x <> r -> ind (lbeq x r) = 0.
Proof. intro H. destruct (lbeq x r) eqn:L; [apply lbeq_eq in L; contradiction|reflexivity]. Qed.

Lemma add1_is_add_match r s es :
  fst (add_match r s es) r = fst (add1 (s r)) /\
  snd (add_match r s es) = es ++ (if snd (add1 (s r)) then sig_ev r (EAdd r) else []) /\
  forall x, x <> r -> fst (add_match r s es) x = s x.
Proof.
  split; [|split].
  - rewrite add_match_subs, lbeq_refl. destruct (s r); cbn [add1 fst ind]; lia.
  - unfold add_match, add1. destruct (s r); cbn [snd]; [reflexivity|symmetry; apply app_nil_r].
  - intros x H. rewrite add_match_subs, (other_entry x r H). apply Nat.add_0_r.
Qed.

Lemma rem1_is_remove_match r s es :
  fst (remove_match r s es) r = fst (rem1 (s r)) /\
  snd (remove_match r s es) = es ++ (if snd (rem1 (s r)) then sig_ev r (ERem r) else []) /\
  forall x, x <> r -> fst (remove_match r s es) x = s x.
Proof.
  split; [|split].
  - rewrite remove_match_subs, lbeq_refl. destruct (s r) as [|[|n]]; cbn [rem1 fst ind]; lia.
  - unfold remove_match, rem1. destruct (s r) as [|[|n]]; cbn [snd]; try reflexivity; symmetry; apply app_nil_r.
  - intros x H. rewrite remove_match_subs, (other_entry x r H). apply Nat.sub_0_r.
Qed.

(* the reference state from which the foreground actions are read off is never vacant and never at its last count:
   an add shows as 6, a removal as 4, and nothing is emitted *)
Lemma ref_add r es : add_match r ref_subs es = (set_subs ref_subs r 6, es).
Proof. reflexivity. Qed.
Lemma ref_rem r es : remove_match r ref_subs es = (set_subs ref_subs r 4, es).
Proof. reflexivity. Qed.
