(* C15/Proofs.v — under every interleaving of the atomic fetches, the serials in use are pairwise distinct and
   non-zero as long as at most M fetches happened (M = 2^32 in the code), for any starting value of the counter. *)
From ZV Require Import Base.Bytes C15.Model C15.Spec.
From Coq Require Import Lia ZifyBool ZifyN ZifyNat Sorting.Sorted Permutation.
Open Scope N_scope.

(* ------------------------------------------------------------------ one fetch *)
Lemma set_nth_split {A} (l1 : list A) a b l2 : set_nth (length l1) b (l1 ++ a :: l2) = l1 ++ b :: l2.
Proof. induction l1 as [|x l1 IH]; cbn; [reflexivity | now rewrite IH]. Qed.

Lemma step_move M i s s' : step M (LMove i) s = Some s' ->
  exists l1 o l2, ops s = l1 ++ o :: l2 /\ can_move o = true /\
    s' = {| ctr := (ctr s + 1) mod M; ops := l1 ++ after_fetch o (ctr s) :: l2; nfetch := nfetch s + 1 |}.
Proof.
  cbn [step]. destruct (nth_error (ops s) i) as [o|] eqn:Hi; [|discriminate].
  destruct (can_move o) eqn:Hc; [|discriminate]. intros [= <-].
  apply nth_error_split in Hi. destruct Hi as (l1 & l2 & Hl & <-).
  exists l1, o, l2. now rewrite Hl, set_nth_split.
Qed.

Lemma step_nfetch M l s s' : step M l s = Some s' -> nfetch s <= nfetch s'.
Proof.
  destruct l as [|i|i]; intros H.
  - injection H as <-. reflexivity.
  - apply step_move in H. destruct H as (l1 & o & l2 & _ & _ & ->). cbn. lia.
  - cbn [step] in H. destruct (nth_error (ops s) i) as [[| |v|]|]; try discriminate. injection H as <-. reflexivity.
Qed.

Definition ser (l : list op) : list N := flat_map (fun o => match o with Done v => [v] | _ => [] end) l.
Lemma ser_app l1 l2 : ser (l1 ++ l2) = ser l1 ++ ser l2.
Proof. apply flat_map_app. Qed.
Lemma in_ser l v : In v (ser l) -> In (Done v) l.
Proof.
  intros H. apply in_flat_map in H. destruct H as ([| |w|] & Hin & Hv); cbn in Hv; try contradiction.
  destruct Hv as [<-|[]]. exact Hin.
Qed.
Lemma ser_length l : (length (ser l) <= length l)%nat.
Proof. unfold ser. induction l as [|[| |v|] l IH]; cbn; lia. Qed.
Lemma ser_movable l1 o l2 : can_move o = true -> ser (l1 ++ o :: l2) = ser l1 ++ ser l2.
Proof. intros H. rewrite ser_app. now destruct o. Qed.
Lemma ser_done l1 v l2 : ser (l1 ++ Done v :: l2) = ser l1 ++ v :: ser l2.
Proof. apply ser_app. Qed.
Lemma serials_ser s : serials s = ser (ops s).
Proof. reflexivity. Qed.

Lemma Forall_replace {A} (P Q : A -> Prop) l1 a b l2 :
  (forall x, P x -> Q x) -> Q b -> Forall P (l1 ++ a :: l2) -> Forall Q (l1 ++ b :: l2).
Proof.
  intros HPQ Hb H. apply Forall_app in H. destruct H as [H1 H2]. inversion H2; subst.
  apply Forall_app. split; [|constructor; [exact Hb|]]; eapply Forall_impl; eassumption.
Qed.

(* ------------------------------------------------------------------ arithmetic in Z/MZ *)
Section Mod.
Variables (M c0 : N).
Hypothesis HM : 0 < M.
Hypothesis Hc0 : c0 < M.

Definition off (v : N) : N := (v + M - c0) mod M.      (* how many fetches after the start v is handed out *)

Lemma off_fetch k : k < M -> off ((c0 + k) mod M) = k.
Proof.
  intros Hk. unfold off. rewrite <- N.add_sub_assoc, N.add_mod_idemp_l by lia.
  replace (c0 + k + (M - c0)) with (k + 1 * M) by lia. rewrite N.mod_add by lia. now apply N.mod_small.
Qed.

(* ------------------------------------------------------------------ the invariant *)
(* what n fetches can have made of an op: a serial in use was handed out by one of them, and an op retries only after
   one of them handed out 0 *)
Definition ok_op (n : N) (o : op) : Prop :=
  match o with
  | Start => True
  | Retry => off 0 < n
  | Done v => v <> 0 /\ off v < n
  | Panicked => False
  end.

Lemma ok_op_mono n n' o : n <= n' -> ok_op n o -> ok_op n' o.
Proof. destruct o; cbn; lia. Qed.

Record Inv (s : state) : Prop := {
  i_ctr : ctr s = (c0 + nfetch s) mod M;
  i_ops : Forall (ok_op (nfetch s)) (ops s);
  i_nodup : NoDup (serials s);
  (* every fetch but the one that drew 0 has produced a serial *)
  i_cnt : nfetch s <= N.of_nat (length (serials s)) + (if off 0 <? nfetch s then 1 else 0)
}.

Lemma inv_init : Inv (init c0).
Proof.
  constructor; cbn.
  - rewrite N.add_0_r. symmetry. now apply N.mod_small.
  - constructor.
  - constructor.
  - apply N.le_0_l.
Qed.

Lemma inv_spawn s : Inv s -> Inv {| ctr := ctr s; ops := ops s ++ [Start]; nfetch := nfetch s |}.
Proof.
  intros [H1 H2 H3 H4]. rewrite serials_ser in H3, H4.
  constructor; rewrite ?serials_ser; cbn [ctr ops nfetch]; rewrite ?ser_app, ?app_nil_r; try assumption.
  apply Forall_app. split; [assumption | repeat constructor].
Qed.

(* fetch number n, which returns x, goes to an op that can move: x becomes its serial, or x = 0 and it retries
   (an op that is retrying already does not draw 0 a second time) *)
Lemma fetch_cases n o x : off x = n -> ok_op n o -> can_move o = true ->
  after_fetch o x = Done x /\ x <> 0 \/ after_fetch o x = Retry /\ off 0 = n.
Proof.
  intros Hoff Ho Hc. destruct o; try discriminate; cbn [after_fetch ok_op] in *;
    destruct (N.eqb_spec x 0) as [E|E]; auto; rewrite E in Hoff; [auto | lia].
Qed.

Lemma inv_move s l1 o l2 : Inv s -> nfetch s < M -> ops s = l1 ++ o :: l2 -> can_move o = true ->
  Inv {| ctr := (ctr s + 1) mod M; ops := l1 ++ after_fetch o (ctr s) :: l2; nfetch := nfetch s + 1 |}.
Proof.
  intros [H1 H2 H3 H4] Hk Hl Hc. rewrite serials_ser, Hl, (ser_movable l1 o l2 Hc) in H3, H4. rewrite Hl in H2.
  set (k := nfetch s) in *. pose proof (off_fetch k Hk) as Hoff. rewrite <- H1 in Hoff.
  pose proof (fetch_cases k o (ctr s) Hoff (Forall_elt _ _ _ H2) Hc) as Hcases.
  (* lia is slow while a hypothesis mentions mod *)
  constructor; rewrite ?serials_ser; cbn [ctr ops nfetch]; [|clear H1..].
  - rewrite H1, N.add_mod_idemp_l, N.add_assoc by lia. reflexivity.
  - apply (Forall_replace (ok_op k) _ l1 o _ l2); [intros o'; apply ok_op_mono, N.le_add_r | | exact H2].
    destruct Hcases as [[-> Hx]|[-> Hz]]; cbn; lia.
  - destruct Hcases as [[-> _]|[-> _]]; [|now rewrite ser_movable].
    (* no serial in use was handed out by fetch k *)
    rewrite ser_done. apply NoDup_Add with (a := ctr s) (l := ser l1 ++ ser l2); [apply Add_app | split; [exact H3|]].
    rewrite <- (ser_movable l1 o l2 Hc). intros Hin. apply in_ser in Hin. rewrite Forall_forall in H2. apply H2 in Hin.
    cbn in Hin. lia.
  - destruct Hcases as [[-> _]|[-> Hz]]; [rewrite ser_done | rewrite ser_movable by reflexivity];
      rewrite app_length in *; cbn [length]; destruct (N.ltb_spec (off 0) k), (N.ltb_spec (off 0) (k + 1)); lia.
Qed.

Lemma move_bound s l1 o l2 : Inv s -> ops s = l1 ++ o :: l2 -> can_move o = true ->
  nfetch s <= N.of_nat (length (ops s)).
Proof.
  intros [_ _ _ H4] Hl Hc. rewrite serials_ser, Hl, (ser_movable l1 o l2 Hc) in H4. rewrite Hl, !app_length in *.
  pose proof (ser_length l1). pose proof (ser_length l2). cbn [length]. destruct (off 0 <? nfetch s); lia.
Qed.

Lemma known_app tr l : known_c15 (tr ++ [l]) = known_c15 tr || is_clone l.
Proof. unfold known_c15. rewrite existsb_app. cbn. now rewrite Bool.orb_false_r. Qed.

(* at most M fetches — in terms of messages: fewer than M builds started *)
Lemma reach_inv tr s : reach M c0 tr s -> known_c15 tr = false ->
  nfetch s <= M \/ N.of_nat (length (ops s)) < M -> nfetch s <= M /\ Inv s.
Proof.
  induction 1 as [|tr s l s' Hr IH Hs]; intros Hk Hb; [split; [cbn; lia | apply inv_init]|].
  rewrite known_app in Hk. apply Bool.orb_false_iff in Hk. destruct Hk as [Hk Hl].
  destruct l as [|i|i]; [| |discriminate].
  - injection Hs as <-. cbn [ops nfetch] in *. rewrite app_length in Hb.
    destruct IH as [Hn HI]; [assumption | lia |]. split; [assumption | now apply inv_spawn].
  - apply step_move in Hs. destruct Hs as (l1 & o & l2 & Ho & Hc & ->). cbn [ops nfetch] in *.
    assert (Hlen : length (ops s) = length (l1 ++ after_fetch o (ctr s) :: l2)) by (now rewrite Ho, !app_length).
    rewrite <- Hlen in Hb. destruct IH as [Hn HI]; [assumption | lia |].
    pose proof (move_bound s l1 o l2 HI Ho Hc).
    split; [lia | apply inv_move; [assumption | lia | assumption | assumption]].
Qed.

Lemma inv_unique s : Inv s -> unique_nonzero (serials s) /\ no_panic s.
Proof.
  intros [_ H2 H3 _]. rewrite Forall_forall in H2. repeat split; [exact H3 | |].
  - intros H0. apply in_ser, H2 in H0. cbn in H0. lia.
  - exact (H2 Panicked).
Qed.

End Mod.

(* ------------------------------------------------------------------ statements *)
Theorem unique_bounded M c0 tr s : 0 < M -> c0 < M -> reach M c0 tr s -> ~ Known_C15 tr ->
  nfetch s <= M \/ N.of_nat (length (ops s)) < M -> unique_nonzero (serials s) /\ no_panic s.
Proof.
  intros HM Hc Hr Hk Hb. apply Bool.not_true_is_false in Hk.
  destruct (reach_inv M c0 HM Hc tr s Hr Hk Hb) as [_ HI]. now apply (inv_unique M c0).
Qed.

Theorem unique_partial M c0 tr s : 0 < M -> c0 < M -> reach M c0 tr s -> ~ Known_C15 tr -> nfetch s <= M ->
  unique_nonzero (serials s) /\ no_panic s.
Proof. intros HM Hc Hr Hk Hn. apply (unique_bounded M c0 tr); auto. Qed.

Theorem messages_partial M c0 tr s : 0 < M -> c0 < M -> reach M c0 tr s -> ~ Known_C15 tr ->
  N.of_nat (length (ops s)) < M -> unique_nonzero (serials s) /\ no_panic s.
Proof. intros HM Hc Hr Hk Hl. apply (unique_bounded M c0 tr); auto. Qed.

Theorem unique_partial32 c0 tr s : c0 < M32 -> reach M32 c0 tr s -> ~ Known_C15 tr -> nfetch s <= M32 ->
  (NoDup (serials s) /\ ~ In 0 (serials s)) /\ ~ In Panicked (ops s).
Proof. exact (unique_partial M32 c0 tr s eq_refl). Qed.

Theorem messages_partial32 c0 tr s : c0 < M32 -> reach M32 c0 tr s -> ~ Known_C15 tr ->
  N.of_nat (length (ops s)) < M32 -> (NoDup (serials s) /\ ~ In 0 (serials s)) /\ ~ In Panicked (ops s).
Proof. exact (messages_partial M32 c0 tr s eq_refl). Qed.

(* the executable oracle decides the property *)
Lemma adj_distinct_nodup l : StronglySorted (fun x y => is_true (x <=? y)) l -> (adj_distinct l = true <-> NoDup l).
Proof.
  induction 1 as [|x l Hs IH Hx]; [split; [constructor | reflexivity]|].
  destruct l as [|y r]; [split; [repeat constructor; intros [] | reflexivity]|].
  cbn [adj_distinct]. rewrite Bool.andb_true_iff, Bool.negb_true_iff, IH. split.
  - intros [Hxy Hn]. constructor; [|assumption]. intros [E|Hin]; [lia|].
    inversion Hs as [|? ? _ Hy]; subst. rewrite Forall_forall in Hx, Hy.
    pose proof (Hx y (or_introl eq_refl)) as H1. pose proof (Hy x Hin) as H2. unfold is_true in *. lia.
  - intros Hn. inversion Hn as [|? ? Hnin Hn']; subst. split; [|assumption].
    destruct (x =? y) eqn:E; [|reflexivity]. exfalso. apply Hnin. left. lia.
Qed.

Lemma nodupb_ok l : nodupb l = true <-> NoDup l.
Proof.
  unfold nodupb. rewrite adj_distinct_nodup.
  - symmetry. apply Permutation_NoDup', NSort.Permuted_sort.
  - apply NSort.StronglySorted_sort. intros a b c Hab Hbc. unfold is_true in *. lia.
Qed.

Theorem unique_nonzerob_ok l : unique_nonzerob l = true <-> unique_nonzero l.
Proof.
  unfold unique_nonzerob, unique_nonzero.
  rewrite Bool.andb_true_iff, Bool.negb_true_iff, nodupb_ok, <- Bool.not_true_iff_false, existsb_exists.
  apply and_iff_compat_l, not_iff_compat. split.
  - intros (y & Hy & E). apply N.eqb_eq in E. now subst y.
  - intros H. exists 0. split; [exact H | reflexivity].
Qed.

(* the sequential builds used by the correspondence are a schedule of the model *)
Lemma step_some_reach M c0 tr s l : reach M c0 tr s -> is_clone l = false ->
  exists tr', reach M c0 tr' (match step M l s with Some x => x | None => s end) /\
              (known_c15 tr = false -> known_c15 tr' = false).
Proof.
  intros Hr Hl. destruct (step M l s) as [s'|] eqn:E.
  - exists (tr ++ [l]). split; [econstructor; eassumption|]. intros Hk. rewrite known_app, Hk, Hl. reflexivity.
  - exists tr. tauto.
Qed.

Theorem seq_builds_reach M c0 n : forall tr s, reach M c0 tr s -> known_c15 tr = false ->
  exists tr', reach M c0 tr' (seq_builds M n s) /\ known_c15 tr' = false.
Proof.
  induction n as [|n IH]; intros tr s Hr Hk; [exists tr; tauto|].
  cbn [seq_builds].
  destruct (step_some_reach M c0 tr s LSpawn Hr eq_refl) as (t1 & R1 & K1).
  destruct (step_some_reach M c0 t1 _ (LMove (length (ops s))) R1 eq_refl) as (t2 & R2 & K2).
  destruct (step_some_reach M c0 t2 _ (LMove (length (ops s))) R2 eq_refl) as (t3 & R3 & K3).
  apply (IH t3); [exact R3 | auto].
Qed.

(* replaying a schedule through the executable [run] stays inside the step relation *)
Lemma run_reach_gen M c0 : forall tr tr0 s0 s, reach M c0 tr0 s0 -> run M tr s0 = Some s -> reach M c0 (tr0 ++ tr) s.
Proof.
  induction tr as [|l tr IH]; intros tr0 s0 s Hr Hrun; cbn [run] in Hrun.
  - inversion Hrun; subst. now rewrite app_nil_r.
  - destruct (step M l s0) as [s1|] eqn:E; [|discriminate].
    replace (tr0 ++ l :: tr) with ((tr0 ++ [l]) ++ tr) by (now rewrite <- app_assoc).
    apply (IH _ s1); [econstructor; eassumption | assumption].
Qed.
Theorem run_reach M c0 tr s : run M tr (init c0) = Some s -> reach M c0 tr s.
Proof. intros H. apply (run_reach_gen M c0 tr [] (init c0) s); [constructor | assumption]. Qed.

(* ------------------------------------------------------------------ the finding: a cloned builder *)
Theorem clone_refuted : exists tr s, reach M32 0 tr s /\ Known_C15 tr /\ nfetch s <= M32 /\
  serials s = [1; 1] /\ ~ unique_nonzero (serials s).
Proof.
  exists [LSpawn; LMove 0; LMove 0; LClone 0]%nat.
  eexists. split; [|split; [|split; [|split]]].
  - apply run_reach. vm_compute. reflexivity.
  - reflexivity.
  - vm_compute. discriminate.
  - reflexivity.
  - intros [H _]. cbn in H. inversion H as [|? ? Hin _]; subst. apply Hin. now left.
Qed.

Theorem full_statement_refuted : ~ C15_full_statement.
Proof.
  intros H. destruct clone_refuted as (tr & s & Hr & _ & Hn & _ & Hbad).
  apply Hbad. apply (H 0 tr s); [reflexivity | assumption | assumption].
Qed.

(* ------------------------------------------------------------------ non-vacuity and sharpness *)
(* three threads around the wrap: counter at 2^32 - 2, ops 0 and 1 fetch, op 2 draws 0 and fetches again *)
Example wrap_instance :
  let tr := [LSpawn; LSpawn; LSpawn; LMove 1; LMove 0; LMove 2; LMove 2]%nat in
  exists s, run M32 tr (init 4294967294) = Some s /\ serials s = [4294967295; 4294967294; 1] /\ nfetch s = 4 /\ ctr s = 2.
Proof. cbv zeta. eexists. split; [vm_compute; reflexivity|]. repeat split. Qed.

(* sequential builds from the initial value 0 of the static, and across the wrap *)
Example seq_instance : next_serials M32 0 4 = [1; 2; 3; 4] /\
                       next_serials M32 4294967294 4 = [4294967294; 4294967295; 1; 2].
Proof. split; vm_compute; reflexivity. Qed.

(* the bound is sharp: with a 2-bit counter the fifth fetch repeats a serial still in use *)
Example bound_is_sharp :
  exists s, run 4 [LSpawn; LSpawn; LSpawn; LSpawn; LMove 0; LMove 1; LMove 2; LMove 3; LMove 3]%nat (init 1) = Some s /\
            nfetch s = 5 /\ serials s = [1; 2; 3; 1].
Proof. eexists. split; [vm_compute; reflexivity|]. split; reflexivity. Qed.
