(* C17/Proofs.v — the model of the client against the specification.
   First the client's outcome is put in closed form as a function of the concatenated stream (bytes and fds) only;
   every theorem is then read off that form. *)
From ZV Require Import Base.Bytes Base.Res Base.WinnowFacts C16.Model C16.Spec C16.LineFacts C16.ParseFacts C16.Proofs C17.Model C17.Spec.
From Coq Require Import Lia.

(* ---------------------------------------------------------------- writes, seen through the view *)
Lemma has_view_write {c first s fds cap m out} cmds :
  has_view c (mkView first s fds cap m out) ->
  has_view (write_commands c cmds []) (mkView (fst (fold_commands first cmds [])) s fds cap m
                                              (out ++ snd (fold_commands first cmds []))).
Proof.
  intros [Hc Hv]. split; [apply write_in_contract, Hc|].
  rewrite write_commands_view, app_nil_r. unfold view_of in Hv. injection Hv as -> -> -> -> -> ->. reflexivity.
Qed.

Lemma has_view_cap {c first s fds cap m out} b :
  has_view c (mkView first s fds cap m out) -> has_view (set_cap_unix_fd c b) (mkView first s fds b m out).
Proof.
  intros [Hc Hv]. split; [exact Hc|].
  rewrite set_cap_view. unfold view_of in Hv. injection Hv as -> -> -> _ -> ->. reflexivity.
Qed.

Lemma has_view_out : forall c v, has_view c v -> sock_out c = v_out v.
Proof. intros c v [_ <-]. reflexivity. Qed.

Lemma has_view_done : forall c v,
  has_view c v -> ODone (sock_out c) (cap_unix_fd c) (pending c) (pending_fds c) = ODone (v_out v) (v_cap v) (v_bytes v) (v_fds v).
Proof. intros c v [_ <-]. reflexivity. Qed.

(* ---------------------------------------------------------------- the client in closed form *)
Definition auth_cmd (cfg : ccfg) : command :=
  match cc_mech cfg with
  | Anonymous => Auth (Some Anonymous) (Some (B "zbus"))
  | External => Auth (Some External) (Some (cc_my_id cfg))
  end.

Definition line_of (c : command) : bytes := command_to_bytes c ++ CRLF.

Definition out_auth (cfg : ccfg) : bytes := NUL :: line_of (auth_cmd cfg).

(* the GUID the client holds after OK <g> *)
Definition guid_check (expected : option bytes) (g : bytes) : bool :=
  match expected with Some e => lbeq e g | None => true end.
Definition guid_held (expected : option bytes) (g : bytes) : bytes :=
  match expected with Some e => e | None => g end.

(* after OK <g>: under flatpak the client waits for the answer to NEGOTIATE_UNIX_FD before it sends BEGIN,
   otherwise both are out when the answer is read, and a second OK with the same GUID is let through *)
Definition secondary_closed (cfg : ccfg) (g : bytes) (rest : bytes) (fds : list N) : outcome :=
  if cc_fdcap cfg then
    let sent := out_auth cfg ++ line_of NegotiateUnixFD ++ (if cc_flatpak cfg then [] else line_of Begin) in
    let all := out_auth cfg ++ line_of NegotiateUnixFD ++ line_of Begin in
    match line_pure false rest with
    | None => OErr EHandshake sent
    | Some (Err e) => OErr e sent
    | Some (Panic _) => OPanic sent
    | Some (Ok (cmd2, rest2)) =>
        match cmd2 with
        | AgreeUnixFD => ODone all true rest2 fds
        | ErrorC _ => ODone all false rest2 fds
        | OkC g' =>
            if negb (cc_flatpak cfg) && lbeq (guid_held (cc_expected cfg) g) g'
            then ODone all false rest2 fds else OErr EHandshake sent
        | _ => OErr EHandshake sent
        end
    end
  else ODone (out_auth cfg ++ line_of Begin) false rest fds.

Definition client_closed (cfg : ccfg) (s : bytes) (fds : list N) : outcome :=
  let out1 := out_auth cfg in
  match line_pure false s with
  | None => OErr EHandshake out1
  | Some (Err e) => OErr e out1
  | Some (Panic _) => OPanic out1
  | Some (Ok (cmd, rest)) =>
      match cmd with
      | OkC g => if guid_check (cc_expected cfg) g then secondary_closed cfg g rest fds else OErr EHandshake out1
      | _ => OErr EHandshake out1
      end
  end.

Lemma run_client_closed : forall cfg cs,
  chunks_nonempty cs = true -> run_client cfg cs = client_closed cfg (stream_of cs) (fds_of cs).
Proof.
  intros cfg cs Hn. set (s := stream_of cs). set (fds := fds_of cs). set (m := cc_mech cfg).
  unfold run_client, client_closed, auth_written, authenticate.
  set (secondary := fun k1 : client => _). set (k0 := client_init cfg cs).
  change (mechanism (k_common k0)) with (cc_mech cfg). fold (auth_cmd cfg).
  replace (match cc_mech cfg with Anonymous => Auth (Some (cc_mech cfg)) _ | External => _ end) with (auth_cmd cfg)
    by (unfold auth_cmd; destruct (cc_mech cfg); reflexivity).
  (* AUTH goes out, one line comes back *)
  assert (V1 : has_view (write_command (k_common k0) (auth_cmd cfg)) (mkView false s fds false m (out_auth cfg))).
  { apply (has_view_write (first:=true) (out:=[]) [auth_cmd cfg]). split; [exact Hn | reflexivity]. }
  rewrite (has_view_out _ _ V1). unfold read_command.
  pose proof (read_commands_spec _ _ V1) as R1. unfold read_spec in R1. cbn [v_first v_bytes v_fds v_cap v_mech v_out] in R1.
  destruct (line_pure false s) as [[[cmd rest]|e|p]|]; try (rewrite R1; reflexivity).
  destruct R1 as [c2 [-> V2]]. cbn [bind].
  destruct cmd as [req resp| | |d|e| |ms|g|]; try reflexivity.
  (* OK <g>: the GUID is checked and kept; then the secondary commands *)
  unfold set_guid, k_with_common. cbn [k_server_guid k_common]. change (k_server_guid k0) with (cc_expected cfg).
  assert (Sec : secondary (mkClient c2 (Some (guid_held (cc_expected cfg) g))) = secondary_closed cfg g rest fds).
  2:{ unfold guid_check, guid_held in *. destruct (cc_expected cfg) as [e|]; [destruct (lbeq e g)|]; cbn [finish]; trivial. }
  subst secondary. cbv beta. unfold send_secondary_commands, secondary_closed, secondary_written_on_error. cbn [k_common].
  destruct (cc_fdcap cfg).
  2:{ cbn [k_with_common k_common k_server_guid Nat.ltb Nat.leb].
      apply (has_view_done _ _ (has_view_write [Begin] V2)). }
  destruct (cc_flatpak cfg); cbv beta iota zeta; rewrite ?app_nil_r.
  - (* one command at a time *)
    assert (V3 : has_view (write_command c2 NegotiateUnixFD)
                          (mkView false rest fds false m (out_auth cfg ++ line_of NegotiateUnixFD)))
      by exact (has_view_write [NegotiateUnixFD] V2).
    rewrite (has_view_out _ _ V3). unfold read_command.
    pose proof (read_commands_spec _ _ V3) as R3. unfold read_spec in R3. cbn [v_first v_bytes v_fds v_cap v_mech v_out] in R3.
    destruct (line_pure false rest) as [[[cmd2 rest2]|e|p]|]; try (rewrite R3; reflexivity).
    destruct R3 as [c4 [-> V4]]. cbn [bind].
    destruct cmd2 as [req resp| | |d|e| |ms|g'|]; try reflexivity;
      cbn [bind k_with_common k_common k_server_guid Nat.ltb Nat.leb].
    + (* ERROR *)
      rewrite (has_view_done _ _ (has_view_write [Begin] V4)). cbn. rewrite <- !app_assoc. reflexivity.
    + (* AGREE_UNIX_FD *)
      rewrite (has_view_done _ _ (has_view_write [Begin] (has_view_cap true V4))).
      cbn. rewrite <- !app_assoc. reflexivity.
  - (* pipelined *)
    cbn [k_with_common k_common k_server_guid Nat.ltb Nat.leb].
    assert (V3 : has_view (write_commands c2 [NegotiateUnixFD; Begin] [])
                          (mkView false rest fds false m (out_auth cfg ++ line_of NegotiateUnixFD ++ line_of Begin)))
      by exact (has_view_write [NegotiateUnixFD; Begin] V2).
    rewrite (has_view_out _ _ V3). unfold receive_secondary_responses, k_with_common. cbn [k_common k_server_guid].
    pose proof (read_commands_spec _ _ V3) as R3. unfold read_spec in R3. cbn [v_first v_bytes v_fds v_cap v_mech v_out] in R3.
    destruct (line_pure false rest) as [[[cmd2 rest2]|e|p]|]; try (rewrite R3; reflexivity).
    destruct R3 as [c4 [-> V4]]. cbn [bind finish secondary_loop k_with_common k_common k_server_guid].
    destruct cmd2 as [req resp| | |d|e| |ms|g'|]; cbn [bind finish k_common k_server_guid];
      try reflexivity.
    + (* ERROR *) rewrite (has_view_done _ _ V4). reflexivity.
    + (* OK again *)
      unfold set_guid. cbn [k_server_guid k_common negb andb].
      destruct (lbeq (guid_held (cc_expected cfg) g) g'); cbn [bind finish k_common k_server_guid].
      * rewrite (has_view_done _ _ V4). reflexivity.
      * reflexivity.
    + (* AGREE_UNIX_FD *)
      unfold k_with_common. cbn [k_common k_server_guid].
      rewrite (has_view_done _ _ (has_view_cap true V4)). reflexivity.
Qed.

Theorem client_split_independence : forall cfg cs1 cs2,
  chunks_nonempty cs1 = true -> chunks_nonempty cs2 = true ->
  stream_of cs1 = stream_of cs2 -> fds_of cs1 = fds_of cs2 ->
  run_client cfg cs1 = run_client cfg cs2.
Proof. intros cfg cs1 cs2 N1 N2 Hs Hf. rewrite !run_client_closed by assumption. rewrite Hs, Hf. reflexivity. Qed.

(* ---------------------------------------------------------------- the parser on reply lines *)
(* the converse of [command_of_line] for the word the client is waiting for *)
Lemma command_of_ok : forall body g more,
  tokens body = B "OK" :: g :: more -> guid_ok g = true -> command_of_str (body ++ CRLF) = Ok (OkC g).
Proof.
  intros body g more Ht Hg. unfold command_of_str. rewrite tokens_line, Ht. cbn.
  change (guid_valid g) with (guid_ok g). rewrite Hg. reflexivity.
Qed.

Lemma ok_guid_spec : forall body,
  match command_of_str (body ++ CRLF) with
  | Ok (OkC g) => ok_guid body = Some g
  | _ => ok_guid body = None
  end.
Proof.
  intro body. pose proof (command_of_line body) as H. unfold ok_guid.
  destruct (command_of_str (body ++ CRLF)) as [cmd|e|p]; [| |contradiction].
  - destruct H as [[args [-> Ha]] _]. destruct cmd; cbn [keyword]; try (destruct args; reflexivity).
    destruct Ha as [more [-> Hg]]. cbn. rewrite Hg. reflexivity.
  - (* a parse error: either not OK at all, or OK without a valid GUID *)
    destruct H as [_ Hwf]. unfold well_formed in Hwf.
    destruct (tokens body) as [|w [|g more]]; try reflexivity.
    destruct (lbeq w (B "OK")) eqn:Ew; [|reflexivity].
    apply lbeq_eq in Ew. subst w. cbn in Hwf |- *. rewrite Hwf. reflexivity.
Qed.

Lemma fd_answer_spec : forall body,
  match command_of_str (body ++ CRLF) with
  | Ok AgreeUnixFD => fd_answer body = AAgree
  | Ok (ErrorC _) => fd_answer body = ARefuse
  | _ => fd_answer body = AOther
  end.
Proof.
  intro body. pose proof (command_of_line body) as H. unfold fd_answer.
  destruct (command_of_str (body ++ CRLF)) as [cmd|e|p]; [| |contradiction].
  - destruct H as [[args [-> _]] _]. destruct cmd; reflexivity.
  - destruct H as [_ Hwf]. unfold well_formed in Hwf.
    destruct (tokens body) as [|w args]; [reflexivity|].
    destruct (lbeq w (B "AGREE_UNIX_FD")) eqn:E1; [apply lbeq_eq in E1; subst w; discriminate|].
    destruct (lbeq w (B "ERROR")) eqn:E2; [apply lbeq_eq in E2; subst w; discriminate | reflexivity].
Qed.

(* ---------------------------------------------------------------- the code's line reader against the spec's [next_line] *)
Lemma line_next : forall s,
  match next_line s with
  | LEof => line_pure false s = None
  | LUnclear _ => True
  | LLine body rest => line_pure false s = Some (map_res (fun cmd => (cmd, rest)) (command_of_str (body ++ CRLF)))
  end.
Proof.
  intro s. unfold next_line. pose proof (line_view s) as L.
  destruct (cut_line s) as [[seg rest]|]; [|exact L].
  destruct (rev seg) as [|c rbody]; [exact I|]. destruct (negb (beq c x0d)); [exact I|].
  destruct (is_ascii (rev rbody)) eqn:Ea; [|exact I]. destruct L as (_ & _ & ->).
  rewrite ascii_utf8 by (rewrite is_ascii_app, Ea; reflexivity). reflexivity.
Qed.

Lemma next_line_decomp : forall s body rest,
  next_line s = LLine body rest -> s = body ++ [x0d; x0a] ++ rest /\ no_lf body = true /\ is_ascii body = true.
Proof.
  intros s body rest H. unfold next_line in H. pose proof (line_view s) as L.
  destruct (cut_line s) as [[seg rest']|]; [|discriminate].
  destruct (rev seg) as [|c rbody]; [discriminate|]. destruct (negb (beq c x0d)); [discriminate|].
  destruct (negb (is_ascii (rev rbody))) eqn:Ea; [discriminate|]. apply negb_false_iff in Ea. injection H as <- <-.
  destruct L as (Hs & Hn & _). auto.
Qed.

(* ---------------------------------------------------------------- no panic *)
Lemma secondary_no_panic : forall cfg g rest fds, is_panic (secondary_closed cfg g rest fds) = false.
Proof.
  intros cfg g rest fds. unfold secondary_closed. destruct (cc_fdcap cfg); [|reflexivity].
  pose proof (line_pure_result rest) as L.
  destruct (line_pure false rest) as [[[cmd2 rest2]|e|p]|]; [| reflexivity | contradiction | reflexivity].
  destruct cmd2; try reflexivity. destruct (_ && _); reflexivity.
Qed.

Lemma closed_no_panic : forall cfg s fds, is_panic (client_closed cfg s fds) = false.
Proof.
  intros cfg s fds. unfold client_closed. pose proof (line_pure_result s) as L.
  destruct (line_pure false s) as [[[cmd rest]|e|p]|]; [| reflexivity | contradiction | reflexivity].
  destruct cmd; try reflexivity. destruct (guid_check _ _); [apply secondary_no_panic | reflexivity].
Qed.

Theorem client_nopanic : forall cfg cs, chunks_nonempty cs = true -> is_panic (run_client cfg cs) = false.
Proof. intros cfg cs Hn. rewrite (run_client_closed _ _ Hn). apply closed_no_panic. Qed.

(* ---------------------------------------------------------------- conformance, on every stream *)
Lemma done_with_refl : forall w fd tail fds, done_with fd tail fds (obs_of (ODone w fd tail fds)) = true.
Proof.
  intros. unfold done_with. cbn. rewrite Bool.eqb_reflx, lbeq_refl, list_N_eqb_refl. reflexivity.
Qed.

Lemma cconforms_unclear : forall fds o, is_panic o = false -> cconforms CVUnclear fds (obs_of o) = true.
Proof. intros fds [| |] H; [reflexivity | reflexivity | discriminate]. Qed.

Lemma secondary_conforms : forall cfg g rest fds,
  cc_fdcap cfg = true ->
  cconforms (match next_line rest with
             | LEof => CVFail
             | LUnclear _ => CVUnclear
             | LLine body2 rest2 =>
                 match fd_answer body2 with
                 | AAgree => CVDone true rest2
                 | ARefuse => CVDone false rest2
                 | AOther => CVNoFd rest2
                 end
             end) fds (obs_of (secondary_closed cfg g rest fds)) = true.
Proof.
  intros cfg g rest fds Hfd.
  pose proof (line_next rest) as L.
  destruct (next_line rest) as [|rest2|body2 rest2]; [| apply cconforms_unclear, secondary_no_panic |];
    unfold secondary_closed; rewrite Hfd, L; [reflexivity|].
  pose proof (fd_answer_spec body2) as A. pose proof (command_of_line body2) as P.
  destruct (command_of_str (body2 ++ CRLF)) as [cmd2|e|p]; cbn [map_res]; [| rewrite A; reflexivity | contradiction].
  destruct cmd2; rewrite A; cbn [cconforms]; try reflexivity; try apply done_with_refl.
  destruct (_ && _); [apply done_with_refl | reflexivity].
Qed.

Theorem client_conforms : forall cfg cs,
  chunks_nonempty cs = true ->
  cconforms (spec_client (cctx_of cfg) (stream_of cs)) (fds_of cs) (obs_of (run_client cfg cs)) = true.
Proof.
  intros cfg cs Hn. rewrite (run_client_closed _ _ Hn).
  set (s := stream_of cs) in *. set (fds := fds_of cs).
  unfold spec_client.
  pose proof (line_next s) as L.
  destruct (next_line s) as [|rest|body rest]; [| apply cconforms_unclear, closed_no_panic |];
    unfold client_closed; rewrite L; [reflexivity|].
  pose proof (ok_guid_spec body) as G. pose proof (command_of_line body) as P.
  destruct (command_of_str (body ++ CRLF)) as [cmd|e|p]; cbn [map_res]; [| rewrite G; reflexivity | contradiction].
  destruct cmd; rewrite G; try reflexivity.
  change (guid_check (cc_expected cfg) guid) with (guid_expected (cctx_of cfg) guid).
  destruct (guid_expected (cctx_of cfg) guid); cbn [negb]; [|reflexivity].
  change (y_fdcap (cctx_of cfg)) with (cc_fdcap cfg).
  destruct (cc_fdcap cfg) eqn:Hfd; cbn [negb]; [apply secondary_conforms, Hfd|].
  unfold secondary_closed. rewrite Hfd. apply done_with_refl.
Qed.

(* ---------------------------------------------------------------- completion, at full strength *)
Definition agrees (body : bytes) : Prop := exists more, tokens body = B "AGREE_UNIX_FD" :: more.

Lemma secondary_done : forall cfg g rest fds w fd tail fds',
  secondary_closed cfg g rest fds = ODone w fd tail fds' ->
  fds' = fds /\
  if cc_fdcap cfg
  then exists body2, rest = body2 ++ [x0d; x0a] ++ tail /\ no_lf body2 = true /\ (fd = true <-> agrees body2)
  else fd = false /\ tail = rest.
Proof.
  intros cfg g rest fds w fd tail fds' H. unfold secondary_closed in H.
  destruct (cc_fdcap cfg); [|injection H as _ <- <- <-; auto].
  pose proof (line_pure_result rest) as L.
  destruct (line_pure false rest) as [[[cmd2 rest2]|e|p]|]; try discriminate.
  destruct L as [body2 [Hs [Hn Hc]]].
  pose proof (command_of_line body2) as P. rewrite Hc in P. destruct P as [[args [Ht _]] _].
  assert (K : fds' = fds /\ tail = rest2 /\ (fd = true <-> cmd2 = AgreeUnixFD)).
  { destruct cmd2; try discriminate; try (destruct (_ && _); [|discriminate]);
      injection H as _ <- <- <-; repeat split; discriminate || reflexivity. }
  destruct K as (-> & -> & Hfd). split; [reflexivity|]. exists body2. split; [exact Hs|]. split; [exact Hn|].
  rewrite Hfd. unfold agrees. rewrite Ht. split.
  - intros ->. eauto.
  - intros [more Hm]. destruct cmd2; cbn in Hm; try discriminate. reflexivity.
Qed.

Theorem client_done_sound : forall cfg cs w fd tail fds,
  chunks_nonempty cs = true ->
  run_client cfg cs = ODone w fd tail fds ->
  exists body1 g more rest1,
    stream_of cs = body1 ++ [x0d; x0a] ++ rest1 /\ no_lf body1 = true /\
    tokens body1 = B "OK" :: g :: more /\ guid_ok g = true /\
    (forall e, cc_expected cfg = Some e -> e = g) /\
    fds = fds_of cs /\
    (if cc_fdcap cfg
     then exists body2, rest1 = body2 ++ [x0d; x0a] ++ tail /\ no_lf body2 = true /\ (fd = true <-> agrees body2)
     else fd = false /\ tail = rest1).
Proof.
  intros cfg cs w fd tail fds Hn H. rewrite (run_client_closed _ _ Hn) in H. unfold client_closed in H.
  pose proof (line_pure_result (stream_of cs)) as L.
  destruct (line_pure false (stream_of cs)) as [[[cmd rest]|e|p]|]; try discriminate.
  destruct cmd as [| | | | | | |g|]; try discriminate.
  destruct (guid_check (cc_expected cfg) g) eqn:Hg; [|discriminate].
  destruct L as [body1 [Hs [Hnl Hc]]].
  pose proof (command_of_line body1) as P. rewrite Hc in P. destruct P as [[args [Ht [more [-> Hgv]]]] _].
  destruct (secondary_done _ _ _ _ _ _ _ _ H) as [Hf Hsec].
  exists body1, g, more, rest. repeat split; try assumption.
  intros e He. unfold guid_check in Hg. rewrite He in Hg. apply lbeq_eq. exact Hg.
Qed.

(* ... and the converse: a proper acceptance completes, with the prescribed fd capability and leftover *)
Theorem client_complete : forall cfg cs fd tail,
  chunks_nonempty cs = true ->
  spec_client (cctx_of cfg) (stream_of cs) = CVDone fd tail ->
  exists w, run_client cfg cs = ODone w fd tail (fds_of cs).
Proof.
  intros cfg cs fd tail Hn Hv. pose proof (client_conforms cfg cs Hn) as Hc. rewrite Hv in Hc.
  destruct (run_client cfg cs) as [w fd' tail' fds'|e w|w]; cbn in Hc; try discriminate.
  unfold done_with in Hc. cbn in Hc.
  apply andb_true_iff in Hc. destruct Hc as [Hc Hfds]. apply andb_true_iff in Hc. destruct Hc as [Hfd Htail].
  apply Bool.eqb_prop in Hfd. apply lbeq_eq in Htail. apply list_N_eqb_eq in Hfds. subst. eauto.
Qed.

(* whatever is not a proper acceptance fails *)
Theorem client_fails : forall cfg cs,
  chunks_nonempty cs = true ->
  spec_client (cctx_of cfg) (stream_of cs) = CVFail ->
  is_done (run_client cfg cs) = false /\ is_panic (run_client cfg cs) = false.
Proof.
  intros cfg cs Hn Hv. pose proof (client_conforms cfg cs Hn) as Hc. rewrite Hv in Hc.
  destruct (run_client cfg cs); cbn in *; try discriminate. split; reflexivity.
Qed.

(* ---------------------------------------------------------------- instances (non-vacuity) *)
Definition guid0 : bytes := B "0123456789abcdef0123456789abcdef".
Definition ex_stream : bytes := B "OK " ++ guid0 ++ [x0d; x0a] ++ B "AGREE_UNIX_FD" ++ [x0d; x0a] ++ B "lmsg".
Definition ex_chunks1 : list chunk := [mkChunk (firstn 20 ex_stream) []; mkChunk (skipn 20 ex_stream) [3%N; 4%N]].
Definition ex_chunks2 : list chunk :=
  [mkChunk (firstn 36 ex_stream) []; mkChunk (firstn 2 (skipn 36 ex_stream)) [3%N]; mkChunk (skipn 38 ex_stream) [4%N]].
Definition ex_cfg : ccfg := mkCcfg None Anonymous (Some guid0) true false (B "@").

Example ex_client :
  chunks_nonempty ex_chunks1 = true /\ chunks_nonempty ex_chunks2 = true /\
  stream_of ex_chunks1 = stream_of ex_chunks2 /\ fds_of ex_chunks1 = fds_of ex_chunks2 /\
  spec_client (cctx_of ex_cfg) (stream_of ex_chunks1) = CVDone true (B "lmsg") /\
  run_client ex_cfg ex_chunks2 =
    ODone (x00 :: B "AUTH ANONYMOUS 7a627573" ++ [x0d; x0a] ++ B "NEGOTIATE_UNIX_FD" ++ [x0d; x0a] ++ B "BEGIN" ++ [x0d; x0a])
          true (B "lmsg") [3%N; 4%N].
Proof. repeat split; vm_compute; reflexivity. Qed.

(* a GUID other than the expected one: must fail, and does *)
Example ex_client_mismatch :
  let s := B "OK 1123456789abcdef0123456789abcdef" ++ [x0d; x0a] ++ B "AGREE_UNIX_FD" ++ [x0d; x0a] in
  spec_client (cctx_of ex_cfg) s = CVFail /\ is_done (run_client ex_cfg [mkChunk s []]) = false.
Proof. repeat split; vm_compute; reflexivity. Qed.

(* the repaired defect: a bare LF where the answer to NEGOTIATE_UNIX_FD should start is an error, not a panic *)
Example ex_client_bare_lf :
  run_client ex_cfg [mkChunk (B "OK " ++ guid0 ++ [x0d; x0a; x0a]) []] =
  OErr EHandshake (x00 :: B "AUTH ANONYMOUS 7a627573" ++ [x0d; x0a] ++ B "NEGOTIATE_UNIX_FD" ++ [x0d; x0a] ++ B "BEGIN" ++ [x0d; x0a]).
Proof. vm_compute. reflexivity. Qed.
