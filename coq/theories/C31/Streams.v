(* C31/Streams.v — property change streams report the latest value; updates for other interfaces are ignored. *)
From Coq Require Import List NArith Bool.
Import ListNotations.
From ZV Require Import Base.Bytes C32.Model C32.Spec C32.Facts C31.Model C31.Spec C31.Facts.
Local Open Scope N_scope.

(* ---------------------------------------------------------------- a silent stream has reported the cached value *)
Definition sinv (c : cache) (seen : list (N * option N)) : Prop :=
  (forall p, k_has c p = true -> k_note c p = false -> last_seen seen p = k_val c p) /\
  (forall p, k_has c p = false -> last_seen seen p = None).

Lemma sinv_set_val : forall c seen q v, sinv c seen -> sinv (set_val c q v) seen.
Proof.
  intros c seen q v [H1 H2]. split; intros p Hh; cbn [set_val k_has k_note k_val] in *.
  - intro Hn. destruct (p =? q) eqn:E.
    + rewrite Hh, orb_true_r in Hn. discriminate.
    + apply H1; assumption.
  - apply H2. exact Hh.
Qed.

Lemma sinv_update_cache : forall unc c seen ch inv, sinv c seen -> sinv (update_cache unc c ch inv) seen.
Proof. intros unc c seen ch inv H. apply update_cache_ind; [intros; apply sinv_set_val; assumption|exact H]. Qed.

Lemma sinv_add_stream : forall c seen p, sinv c seen -> sinv (add_stream c p) seen.
Proof.
  intros c seen p [H1 H2]. unfold add_stream. destruct (k_has c p) eqn:Eh; [split; assumption|].
  split; intros q Hq; cbn [k_has k_note k_val] in *.
  - intro Hn. destruct (q =? p) eqn:E.
    + apply N.eqb_eq in E. subst q. rewrite (H2 p Eh). destruct (k_val c p); [discriminate|reflexivity].
    + apply H1; assumption.
  - destruct (q =? p) eqn:E; [discriminate|]. apply H2. exact Hq.
Qed.

Lemma sinv_poll : forall x p, sinv (c_cache x) (c_seen x) ->
  sinv (c_cache (poll_stream x p)) (c_seen (poll_stream x p)).
Proof.
  intros x p [H1 H2]. unfold poll_stream.
  destruct (k_has (c_cache x) p && k_note (c_cache x) p) eqn:E; [|split; assumption].
  apply andb_true_iff in E. destruct E as [Eh En]. cbn [c_cache c_seen].
  split; intros q Hq; cbn [k_has k_note k_val] in *; unfold last_seen; cbn [find fst].
  - intro Hn. rewrite (N.eqb_sym p q). destruct (q =? p) eqn:E.
    + apply N.eqb_eq in E. subst q. reflexivity.
    + apply (H1 q Hq Hn).
  - rewrite (N.eqb_sym p q). destruct (q =? p) eqn:E; [apply N.eqb_eq in E; subst q; congruence|].
    apply (H2 q Hq).
Qed.

Lemma sinv_step : forall pc x a, sinv (c_cache x) (c_seen x) ->
  sinv (c_cache (cstep pc x a)) (c_seen (cstep pc x a)).
Proof.
  intros pc x a H. destruct a as [| | |p]; cbn [cstep].
  - destruct (ctick pc x) as [x'|] eqn:E; [|exact H]. destruct (ctick_cache _ _ _ E) as [-> ->]. exact H.
  - destruct (task_step_cache pc (fun c => sinv c (c_seen x))) with (x := x) as [Hc ->]; auto.
    intros. apply sinv_update_cache. assumption.
  - unfold with_cache, STREAM_PROPS. cbn [c_cache c_seen fold_left]. repeat apply sinv_add_stream. exact H.
  - apply sinv_poll. exact H.
Qed.

Theorem stream_latest : forall pc h sched p,
  let x := crun pc h sched in
  k_has (c_cache x) p = true -> k_note (c_cache x) p = false -> last_seen (c_seen x) p = cached x p.
Proof.
  intros pc h sched p x. subst x. unfold crun.
  assert (H0 : sinv (c_cache (init_cworld h)) (c_seen (init_cworld h))) by (split; intros; reflexivity).
  destruct (fold_left_preserves _ _ (fun y => sinv (c_cache y) (c_seen y)) _ (sinv_step pc) sched _ H0) as [H1 _].
  exact (H1 p).
Qed.

Theorem stream_reports_cached : forall x p,
  k_has (c_cache x) p = true -> k_note (c_cache x) p = true ->
  c_seen (poll_stream x p) = (p, cached x p) :: c_seen x /\ k_note (c_cache (poll_stream x p)) p = false.
Proof.
  intros x p Hh Hn. unfold poll_stream, cached. rewrite Hh, Hn. cbn. rewrite N.eqb_refl. split; reflexivity.
Qed.

(* ---------------------------------------------------------------- other interfaces *)
Theorem other_iface_step : forall pc c m ifc ch inv,
  s_body m = BProps ifc ch inv -> ifc <> p_pi pc -> apply_msg pc c m = c.
Proof.
  intros pc c m ifc ch inv Hb Hi. unfold apply_msg. rewrite Hb.
  destruct (ifc =? p_pi pc) eqn:E; [apply N.eqb_eq in E; contradiction|reflexivity].
Qed.

Definition with_body (s : sigm) (b : body) : sigm :=
  {| s_sender := s_sender s; s_path := s_path s; s_iface := s_iface s; s_member := s_member s; s_body := b |}.

(* under Forall2: two histories that differ only in what PropertiesChanged signals say about OTHER interfaces *)
Definition other_iface_differ (pc : pcfg) (m m' : wmsg) : Prop :=
  m = m' \/
  exists s ifc ch inv ifc' ch' inv',
    m = WSig s /\ s_body s = BProps ifc ch inv /\ ifc <> p_pi pc /\ ifc' <> p_pi pc /\
    m' = WSig (with_body s (BProps ifc' ch' inv')).

Lemma driver_noc_props : forall s ifc ch inv, s_body s = BProps ifc ch inv -> driver_noc s = None.
Proof.
  intros s ifc ch inv H. unfold driver_noc. rewrite H.
  destruct (opt_eqb (s_sender s) (Some DRIVER) && (s_path s =? P_DRIVER) && (s_iface s =? I_DBUS) && (s_member s =? M_NOC));
    reflexivity.
Qed.

Lemma q_step_other : forall pc Q m m', other_iface_differ pc m m' -> q_step pc Q m' = q_step pc Q m.
Proof.
  intros pc Q m m' [->|(s & ifc & ch & inv & ifc' & ch' & inv' & -> & Hb & Hi & Hi' & ->)]; [reflexivity|].
  assert (Ho : sp_step (scfg pc) (q_o Q) (WSig (with_body s (BProps ifc' ch' inv'))) = sp_step (scfg pc) (q_o Q) (WSig s)).
  { unfold sp_step. destruct (c_dest (scfg pc)); [reflexivity|].
    rewrite (driver_noc_props s ifc ch inv Hb), (driver_noc_props (with_body s _) ifc' ch' inv' eq_refl). reflexivity. }
  unfold q_step. rewrite Ho. f_equal.
  unfold props_signal, from_owner, with_body. cbn [s_path s_iface s_member s_sender s_body]. rewrite Hb.
  apply N.eqb_neq in Hi, Hi'. rewrite Hi, Hi'. destruct (q_ok Q && _ && _); reflexivity.
Qed.

Theorem other_iface_spec : forall pc h h',
  Forall2 (other_iface_differ pc) h h' -> forall p, spec_cache pc h' p = spec_cache pc h p.
Proof.
  intros pc h h' Hf p. unfold spec_cache, spec_state.
  assert (G : forall Q, fold_left (q_step pc) h' Q = fold_left (q_step pc) h Q).
  { induction Hf as [|m m' r r' Hm Hr IH]; intro Q; [reflexivity|]. cbn [fold_left].
    rewrite (q_step_other pc Q m m' Hm). apply IH. }
  rewrite G. reflexivity.
Qed.
