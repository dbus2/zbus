(* C31/Proofs.v — under every schedule the cache holds what C31/Spec.v implies for the messages received and
   processed so far; uncached names never hold a value. *)
From Coq Require Import List NArith Bool Lia.
Import ListNotations.
From ZV Require Import Base.Bytes C32.Model C32.Spec C32.Facts C32.Proofs C31.Model C31.Spec C31.Facts.
Local Open Scope N_scope.

(* ---------------------------------------------------------------- the specification, prefix by prefix *)
Section CSpec.
  Variable pc : pcfg.
  Let cf := scfg pc.

  Lemma spec_state_snoc : forall pre m, spec_state pc (pre ++ [m]) = q_step pc (spec_state pc pre) m.
  Proof. intros. unfold spec_state. rewrite fold_left_app. reflexivity. Qed.

  Lemma q_o_step : forall st m, q_o (q_step pc st m) = sp_step cf (q_o st) m.
  Proof.
    intros st m. unfold q_step. destruct m as [s|p]; [reflexivity|].
    destruct (sp_rep (q_o st) + 1 =? GETALL (p_dest pc)); [destruct p|]; reflexivity.
  Qed.

  Lemma q_o_run : forall pre, q_o (spec_state pc pre) = sp_run cf pre.
  Proof.
    intros pre. induction pre as [|m pre IH] using rev_ind; [reflexivity|].
    rewrite spec_state_snoc, q_o_step, IH, sp_run_snoc. reflexivity.
  Qed.

  (* PropertiesChanged never looks like NameOwnerChanged: the driver-claim condition of C32's bus histories
     holds for every history *)
  Lemma no_driver_claim : forall h, existsb (driver_claim_off_path cf) h = false.
  Proof.
    intro h. induction h as [|m h IH]; [reflexivity|]. cbn [existsb]. rewrite IH, orb_false_r.
    destruct m as [s|p]; [|reflexivity]. unfold driver_claim_off_path, wanted, is_noc, cf, scfg. cbn [c_pi c_pm].
    destruct (s_iface s =? I_PROPS) eqn:E; [|rewrite andb_false_r; reflexivity].
    apply N.eqb_eq in E. rewrite E. cbn. rewrite !andb_false_r. reflexivity.
  Qed.

  Lemma wanted_props : forall s, wanted cf s = props_signal s.
  Proof. reflexivity. Qed.

  (* before the snapshot nothing is cached, according to the specification *)
  Lemma q_before : forall pre, sp_rep (sp_run cf pre) < GETALL (p_dest pc) ->
    q_ok (spec_state pc pre) = false /\ forall p, q_val (spec_state pc pre) p = None.
  Proof.
    intro pre. induction pre as [|m pre IH] using rev_ind; intro H; [split; reflexivity|].
    rewrite sp_run_snoc in H. rewrite spec_state_snoc.
    assert (Hlt : sp_rep (sp_run cf pre) < GETALL (p_dest pc)).
    { destruct m as [s|p]; [rewrite sp_rep_snoc_sig in H; exact H|rewrite sp_rep_snoc_rep in H; lia]. }
    destruct (IH Hlt) as [Hok Hv]. unfold q_step. rewrite q_o_run.
    destruct m as [s|p].
    - cbn [q_ok q_val]. rewrite Hok. cbn [andb]. split; [reflexivity|assumption].
    - rewrite sp_rep_snoc_rep in H.
      destruct (sp_rep (sp_run cf pre) + 1 =? GETALL (p_dest pc)) eqn:E; [apply N.eqb_eq in E; lia|].
      cbn [q_ok q_val]. split; assumption.
  Qed.

  Lemma q_step_sig : forall Q s,
    q_ok (q_step pc Q (WSig s)) = q_ok Q /\
    q_val (q_step pc Q (WSig s)) =
      (if q_ok Q && props_signal s && from_owner (q_o Q) s then vapply pc (q_val Q) s else q_val Q).
  Proof.
    intros Q s. unfold q_step, vapply. cbn [q_ok q_val]. split; [reflexivity|].
    destruct (q_ok Q && props_signal s && from_owner (q_o Q) s); [|reflexivity].
    destruct (s_body s); reflexivity.
  Qed.
End CSpec.

(* ---------------------------------------------------------------- the SignalStream as seen by the cache task *)
(* [st'] is [st] after some polls: still in order, the same receivers, the same owner at the end *)
Definition ss_next (n : N) (st st' : sstream) : Prop :=
  ss_ok n st' /\ (ss_qn st' = None <-> ss_qn st = None) /\ ss_end st' = ss_end st.

Lemma ssp_spec : forall n st before r st',
  ss_ok n st -> ssp st before = (r, st') -> ss_next n st st' /\ pspec (ss_pend st) (ss_pend st') before r.
Proof.
  intros n st before r st' Hok H. unfold ssp in H.
  destruct (ss_poll_total n st before Hok) as (r0 & st0 & E & Hok' & Hqn & Hp & He).
  rewrite E in H. inversion H; subst r0 st0. split; [split; [exact Hok'|split; [exact Hqn|exact He]]|exact Hp].
Qed.

Lemma pend_all_le : forall n st, ss_ok n st -> all_le n (ss_pend st).
Proof. intros n st (_ & _ & Hle). unfold ss_pend. apply frun_Forall. exact Hle. Qed.

(* ---- the join of PropertiesCache::init on the shapes its inputs can have *)
Lemma init_poll_waiting : forall c st,
  init_poll c JNone st (Some []) =
  match ssp st None with
  | (RItem m t, st1) => (RItem (CLeft m) t, JNone, st1, Some [])
  | (RPending, st1) => (RPending, JNone, st1, Some [])
  | (RNoneBefore, st1) => (RPending, JNone, st1, Some [])
  | (RTerm, st1) => (RPending, JOnlyB, st1, Some [])
  end.
Proof.
  intros c st. unfold init_poll, join_poll, update. cbn [take_split ordering].
  destruct (ssp st None) as [[m t| | |] st1]; cbn; reflexivity.
Qed.

Lemma init_poll_reply_item : forall c st tr p m t st1,
  ssp st None = (RItem m t, st1) ->
  init_poll c JNone st (Some [(tr, (c, p))]) =
  if t <=? tr then (RItem (CLeft m) t, JB (CRight p) tr, st1, None)
  else (RItem (CRight p) tr, JA (CLeft m) t, st1, None).
Proof.
  intros c st tr p m t st1 E. unfold init_poll, join_poll, update. cbn [take_split ordering].
  rewrite E. cbn. rewrite N.eqb_refl. cbn. destruct (t <=? tr); reflexivity.
Qed.

Lemma init_poll_reply_pending : forall c st tr p st1,
  ssp st None = (RPending, st1) ->
  init_poll c JNone st (Some [(tr, (c, p))]) =
  match ssp st1 (Some tr) with
  | (RItem m t, st2) => if t <=? tr then (RItem (CLeft m) t, JB (CRight p) tr, st2, None)
                        else (RItem (CRight p) tr, JA (CLeft m) t, st2, None)
  | (RNoneBefore, st2) => (RItem (CRight p) tr, JNone, st2, None)
  | (RPending, st2) => (RPending, JB (CRight p) tr, st2, None)
  | (RTerm, st2) => (RItem (CRight p) tr, JOnlyB, st2, None)
  end.
Proof.
  intros c st tr p st1 E. unfold init_poll, join_poll, update. cbn [take_split ordering].
  rewrite E. cbn. rewrite N.eqb_refl. cbn.
  destruct (ssp st1 (Some tr)) as [[m t| | |] st2]; cbn; try reflexivity; try (destruct (t <=? tr); reflexivity).
Qed.

Lemma init_poll_buffered : forall c st tr p,
  init_poll c (JB (CRight p) tr) st None =
  match ssp st (Some tr) with
  | (RItem m t, st1) => if t <=? tr then (RItem (CLeft m) t, JB (CRight p) tr, st1, None)
                        else (RItem (CRight p) tr, JA (CLeft m) t, st1, None)
  | (RNoneBefore, st1) => (RItem (CRight p) tr, JNone, st1, None)
  | (RPending, st1) => (RPending, JB (CRight p) tr, st1, None)
  | (RTerm, st1) => (RItem (CRight p) tr, JOnlyB, st1, None)
  end.
Proof.
  intros c st tr p. unfold init_poll, join_poll, update. cbn [take_split ordering].
  destruct (ssp st (Some tr)) as [[m t| | |] st1]; cbn; try reflexivity; try (destruct (t <=? tr); reflexivity).
Qed.

(* The join once the GetAll reply [p], read at [tr], sits in its future or in the join, where [pb] are the pending
   updates read before the reply and [pa] those read after it: the first of [pb] is yielded (to be discarded) and the
   reply stays in the join; with [pb] empty the reply is yielded, and the join may keep the first of [pa]. *)
Definition replied (n : N) (st : sstream) (p : payload) (tr : N) (pb pa : queue sigm)
           (res : pres citem * jstate citem * sstream * option (queue (N * payload))) : Prop :=
  let '(r, j', st1, fut') := res in
  ss_next n st st1 /\
  match pb with
  | (t, m) :: pb' => r = RItem (CLeft m) t /\ j' = JB (CRight p) tr /\ fut' = None /\ ss_pend st1 = pb' ++ pa
  | [] => r = RItem (CRight p) tr /\
          ((j' = JNone /\ ss_pend st1 = pa) \/ (exists t m, j' = JA (CLeft m) t /\ pa = (t, m) :: ss_pend st1))
  end.

Lemma init_poll_replied : forall n c st tr p j fut pb pa,
  ss_ok n st ->
  (j = JNone /\ fut = Some [(tr, (c, p))]) \/ (j = JB (CRight p) tr /\ fut = None) ->
  ss_pend st = pb ++ pa -> all_lt tr pb -> all_gt tr pa ->
  replied n st p tr pb pa (init_poll c j st fut).
Proof.
  intros n c st tr p j fut pb pa Hok Hjf Hpend Hb Ha.
  assert (Hitem : forall st1 m t, ss_next n st st1 -> ss_pend st = (t, m) :: ss_pend st1 ->
            replied n st p tr pb pa (if t <=? tr then (RItem (CLeft m) t, JB (CRight p) tr, st1, None)
                                     else (RItem (CRight p) tr, JA (CLeft m) t, st1, None))).
  { intros st1 m t Hn Hp. rewrite Hpend in Hp. destruct (N.leb_spec t tr) as [Hle|Hgt].
    - destruct (split_head_le _ _ _ _ _ _ _ Hp Ha Hle) as (pb' & -> & Hl). split; [exact Hn|]. repeat split. exact Hl.
    - destruct (split_head_gt _ _ _ _ _ _ _ Hp Hb Hgt) as [-> ->]. split; [exact Hn|]. split; [reflexivity|].
      right. eauto. }
  assert (Hnone : forall st1, ss_next n st st1 -> ss_pend st1 = ss_pend st -> head_gt tr (ss_pend st) ->
            replied n st p tr pb pa (RItem (CRight p) tr, JNone, st1, None)).
  { intros st1 Hn Hp Hh. rewrite Hpend in Hp, Hh. split; [exact Hn|].
    destruct pb as [|[t0 m0] pb']; [|inversion Hb as [|? ? Hx _]; cbn in Hx, Hh; lia].
    split; [reflexivity|]. left. split; [reflexivity|exact Hp]. }
  destruct Hjf as [[-> ->]|[-> ->]].
  - (* the reply is still in its future *)
    destruct (ssp st None) as [r1 st1] eqn:E1. destruct (ssp_spec _ _ _ _ _ Hok E1) as [Hn1 Hps].
    destruct r1 as [m t| | |]; cbn [pspec] in Hps.
    + rewrite (init_poll_reply_item _ _ _ _ _ _ _ E1). exact (Hitem st1 m t Hn1 Hps).
    + (* nothing pending: the join takes the reply and asks the stream again, up to the reply *)
      destruct Hps as (_ & Hp0 & Hp1). rewrite (init_poll_reply_pending _ _ _ _ _ E1).
      destruct (ssp st1 (Some tr)) as [r2 st2] eqn:E2.
      destruct (ssp_spec _ _ _ _ _ (proj1 Hn1) E2) as [Hn2 Hps2]. rewrite Hp1 in Hps2.
      destruct r2 as [m t| | |]; cbn [pspec] in Hps2; [discriminate|destruct Hps2; discriminate| |contradiction].
      destruct Hps2 as [Hp2 _]. apply Hnone; [|congruence|rewrite Hp0; exact I].
      destruct Hn1 as (_ & Hq1 & He1), Hn2 as (Hok2 & Hq2 & He2). split; [exact Hok2|]. split; [tauto|congruence].
    + destruct Hps as (_ & []).
    + contradiction.
  - (* the reply is buffered in the join *)
    rewrite init_poll_buffered.
    destruct (ssp st (Some tr)) as [r1 st1] eqn:E1. destruct (ssp_spec _ _ _ _ _ Hok E1) as [Hn1 Hps].
    destruct r1 as [m t| | |]; cbn [pspec] in Hps.
    + exact (Hitem st1 m t Hn1 Hps).
    + destruct Hps; discriminate.
    + destruct Hps as [Hp1 Hh]. exact (Hnone st1 Hn1 Hp1 Hh).
    + contradiction.
Qed.

(* ---------------------------------------------------------------- the invariant *)
Section CRun.
  Variable pc : pcfg.
  Variable h : list wmsg.
  Let cf := scfg pc.
  Hypothesis Hst : stamped h = true.
  Hypothesis Hown : c_dest cf = DWell -> owners_ok_from 0 h = true.
  Hypothesis Hcon : c_dest cf = DWell -> consistent_from 0 None h = true.

  Let Hdc : existsb (driver_claim_off_path cf) h = false := no_driver_claim pc h.

  Definition G : N := creation (p_dest pc) + 1.

  Lemma G_getall : G = GETALL (p_dest pc).
  Proof. unfold G. destruct (p_dest pc); reflexivity. Qed.

  Definition qn_ok (st : sstream) : Prop :=
    match p_dest pc with DWell => ss_qn st <> None | DUnique _ => ss_qn st = None end.
  Definition none_vals (c : cache) : Prop := forall p, k_val c p = None.

  (* the snapshot [p] received at some point, and the updates [pa] received after it and not yet applied *)
  Definition snap_rel (p : payload) (pa : queue sigm) (Q : pst) : Prop :=
    match p with
    | PSnap l => q_ok Q = true /\ veq (vpend pc (upd_val (p_unc pc) (fun _ => None) l []) pa) (q_val Q)
    | _ => q_ok Q = false /\ forall q, q_val Q q = None
    end.

  (* the task owns the stream [st]; the calls of its creation and GetAll have been made *)
  Definition stream_ok (w : world) (pre : list wmsg) (st : sstream) : Prop :=
    w_ph w = PhReady st /\ ncalls w = G /\ ss_ok (w_seq w) st /\ qn_ok st /\
    ss_end st = sp_owner (sp_run cf pre).

  Definition SInv (x : cworld) (pre : list wmsg) : Prop :=
    let w := cw x in
    let Q := spec_state pc pre in
    match c_stage x with
    | SNew => PInv cf w pre /\ none_vals (c_cache x) /\ c_ready x = None
    | SInit c j fut =>
        exists st, stream_ok w pre st /\ c = G /\ none_vals (c_cache x) /\ c_ready x = None /\
          ((w_reps w = creation (p_dest pc) /\ j = JNone /\ fut = Some []) \/
           (w_reps w = G /\ exists tr p pb pa,
              ((j = JNone /\ fut = Some [(tr, (G, p))]) \/ (j = JB (CRight p) tr /\ fut = None)) /\
              ss_pend st = pb ++ pa /\ all_lt tr pb /\ all_gt tr pa /\ tr <= w_seq w /\ snap_rel p pa Q))
    | SKeep =>
        exists st, stream_ok w pre st /\ w_reps w = G /\ c_ready x = Some true /\ q_ok Q = true /\
          veq (vpend pc (k_val (c_cache x)) (ss_pend st)) (q_val Q)
    | SFailed =>
        none_vals (c_cache x) /\ c_ready x = Some false /\ w_reps w = ncalls w /\
        q_ok Q = false /\ forall q, q_val Q q = None
    end.

  Definition CInv (x : cworld) : Prop :=
    exists pre, Base cf h (w_todo (cw x)) (w_seq (cw x)) (w_reps (cw x)) (ncalls (cw x)) pre /\
                unc_none (p_unc pc) (k_val (c_cache x)) /\ SInv x pre.

  Lemma stream_ok_next : forall x pre st st1,
    stream_ok (cw x) pre st -> ss_next (w_seq (cw x)) st st1 -> stream_ok (with_stream x st1) pre st1.
  Proof.
    intros x pre st st1 (_ & Hnc & _ & Hq & He) (Hok1 & Hqn1 & He1).
    split; [reflexivity|]. split; [exact Hnc|]. split; [exact Hok1|]. split; [|rewrite He1; exact He].
    unfold qn_ok in *. destruct (p_dest pc); tauto.
  Qed.

  (* ---- a signal arrives while the task owns the stream: [w'] is the world after the socket reader's step *)
  Lemma stream_sig : forall w w' st s pre rest,
    Base cf h (WSig s :: rest) (w_seq w) (w_reps w) (ncalls w) pre -> stream_ok w pre st ->
    creation (p_dest pc) <= w_reps w ->
    w_ph w' = deliver_sig cf (w_seq w + 1) s (w_ph w) -> ncalls w' = ncalls w -> w_seq w' = w_seq w + 1 ->
    let Q := spec_state pc pre in
    let Q' := spec_state pc (pre ++ [WSig s]) in
    let hit := props_signal s && from_owner (sp_run cf pre) s in
    exists st',
      stream_ok w' (pre ++ [WSig s]) st' /\
      ss_pend st' = ss_pend st ++ (if hit then [(w_seq w + 1, s)] else []) /\
      q_ok Q' = q_ok Q /\ q_val Q' = (if q_ok Q && hit then vapply pc (q_val Q) s else q_val Q).
  Proof.
    intros w w' st s pre rest B (Eph & Hnc & Hok & Hq & He) Hreps Eph' Hnc' Hseq' Q Q' hit.
    destruct (ready_sig cf h Hst Hdc Hown Hcon st s rest _ _ _ pre B Hreps Hok Hq He) as (Hok' & Hqn' & Hp' & He').
    exists (ss_deliver (sig_rule cf) (w_seq w + 1) s st). split; [|split; [exact Hp'|]].
    - rewrite Eph in Eph'. rewrite <- sp_run_snoc in He'.
      split; [exact Eph'|]. split; [congruence|]. split; [rewrite Hseq'; exact Hok'|]. split; [exact Hqn'|exact He'].
    - subst Q Q'. rewrite spec_state_snoc. destruct (q_step_sig pc (spec_state pc pre) s) as [H1 H2].
      split; [exact H1|]. rewrite H2, q_o_run. rewrite <- andb_assoc. reflexivity.
  Qed.

  Lemma vpend_hit : forall v l (hit : bool) t s f,
    veq (vpend pc v l) f -> veq (vpend pc v (l ++ (if hit then [(t, s)] else []))) (if hit then vapply pc f s else f).
  Proof.
    intros v l hit t s f H. destruct hit; [|rewrite app_nil_r; exact H].
    rewrite vpend_app. cbn [vpend fold_left snd]. apply vapply_ext. exact H.
  Qed.

  Lemma owner_rep_keep : forall pre p, sp_rep (sp_run cf pre) + 1 = G ->
    sp_owner (sp_run cf (pre ++ [WRep p])) = sp_owner (sp_run cf pre).
  Proof.
    intros pre p Hr. rewrite sp_run_snoc, owner_rep. change (c_dest cf) with (p_dest pc).
    unfold G in Hr. destruct (p_dest pc); [reflexivity|]. cbn in Hr.
    destruct (sp_rep (sp_run cf pre) + 1 =? LOOKUP) eqn:E; [apply N.eqb_eq in E; unfold LOOKUP in E; lia|reflexivity].
  Qed.

  Lemma snap_rel_rep : forall pre p, sp_rep (sp_run cf pre) + 1 = G ->
    snap_rel p [] (spec_state pc (pre ++ [WRep p])).
  Proof.
    intros pre p Hr. rewrite spec_state_snoc. unfold q_step. rewrite q_o_run. fold cf. rewrite Hr, G_getall, N.eqb_refl.
    assert (Hlt : sp_rep (sp_run cf pre) < GETALL (p_dest pc)) by (rewrite <- G_getall; lia).
    destruct (q_before pc pre Hlt) as [Hok Hv].
    unfold snap_rel. destruct p; cbn [q_ok q_val]; try (split; [reflexivity|exact Hv]).
    split; [reflexivity|]. intro q. reflexivity.
  Qed.

  Lemma ctick_inv : forall x x', CInv x -> ctick pc x = Some x' -> CInv x'.
  Proof.
    intros x x' (pre & B & Hu & S) H. unfold ctick in H. fold cf in H.
    destruct (tick cf (cw x)) as [w'|] eqn:Et; [|discriminate]. unfold tick in Et.
    destruct (w_todo (cw x)) as [|[s|p] rest] eqn:Etodo.
    - (* nothing to read *)
      inversion Et; subst w'. assert (x' = set_cw x (cw x)) by (destruct (c_stage x); inversion H; reflexivity).
      subst x'. exists pre. unfold SInv in *. cbn [cw set_cw c_stage c_cache c_ready]. rewrite Etodo.
      split; [exact B|]. split; [exact Hu|exact S].
    - (* a signal *)
      inversion Et as [Ew]. clear Et.
      assert (x' = set_cw x w') by (destruct (c_stage x); inversion H; reflexivity).
      subst x'. clear H. exists (pre ++ [WSig s]).
      split; [subst w'; exact (Base_sig cf h Hown Hcon _ _ _ _ _ _ B)|]. split; [exact Hu|].
      unfold SInv in *. cbn [cw set_cw c_stage c_cache c_ready].
      destruct (c_stage x) as [|c j fut| |].
      + destruct S as (P & Hn & Hr). subst w'.
        split; [exact (tick_sig_inv cf h Hst Hdc Hown Hcon (cw x) pre s rest B P)|]. split; assumption.
      + destruct S as (st & Hso & Hc & Hnv & Hrd & Hcase).
        assert (Hreps : creation (p_dest pc) <= w_reps (cw x)) by (destruct Hcase as [(E & _)|(E & _)]; unfold G in *; lia).
        destruct (stream_sig (cw x) w' st s pre rest B Hso Hreps) as (st' & Hso' & Hp' & Hqok & Hqv);
          [subst w'; reflexivity..|].
        exists st'. split; [exact Hso'|]. split; [exact Hc|]. split; [exact Hnv|]. split; [exact Hrd|].
        subst w'. cbn [w_reps w_seq].
        destruct Hcase as [Ha|(Hr & tr & p & pb & pa & Hjf & Hpend & Hb & Hga & Htr & Hsr)]; [left; exact Ha|].
        right. split; [exact Hr|].
        exists tr, p, pb, (pa ++ (if props_signal s && from_owner (sp_run cf pre) s then [(w_seq (cw x) + 1, s)] else [])).
        split; [exact Hjf|]. split; [rewrite Hp', Hpend, app_assoc; reflexivity|]. split; [exact Hb|].
        split; [apply Forall_app; split; [exact Hga|destruct (props_signal s && _); constructor; [cbn; lia|constructor]]|].
        split; [lia|].
        unfold snap_rel in *. rewrite Hqok, Hqv.
        destruct p; destruct Hsr as [Hs1 Hs2]; rewrite Hs1; cbn [andb]; (split; [reflexivity|]); try exact Hs2.
        apply vpend_hit. exact Hs2.
      + destruct S as (st & Hso & Hr & Hrd & Hqk & Hv).
        assert (Hreps : creation (p_dest pc) <= w_reps (cw x)) by (unfold G in *; lia).
        destruct (stream_sig (cw x) w' st s pre rest B Hso Hreps) as (st' & Hso' & Hp' & Hqok & Hqv);
          [subst w'; reflexivity..|].
        exists st'. split; [exact Hso'|]. subst w'. split; [exact Hr|]. split; [exact Hrd|]. split; [congruence|].
        rewrite Hp', Hqv, Hqk. cbn [andb]. apply vpend_hit. exact Hv.
      + destruct S as (Hnv & Hrd & Hr & Hqk & Hv). subst w'. repeat (split; [assumption|]).
        rewrite spec_state_snoc. destruct (q_step_sig pc (spec_state pc pre) s) as [H1 H2].
        rewrite H1, H2. split; [exact Hqk|]. rewrite Hqk. cbn [andb]. exact Hv.
    - (* a reply *)
      destruct (w_reps (cw x) <? ncalls (cw x)) eqn:Elt; [|discriminate]. apply N.ltb_lt in Elt.
      inversion Et; subst w'. clear Et.
      pose proof (Base_rep cf h Hown Hcon _ _ _ _ _ _ Elt B) as B'.
      unfold SInv in S.
      destruct (c_stage x) as [|c j fut| |] eqn:Estage.
      + (* the stream is being created *)
        inversion H; subst x'. clear H. exists (pre ++ [WRep p]).
        destruct S as (P & Hn & Hr).
        unfold SInv. cbn [cw set_cw c_stage c_cache c_ready]. rewrite Estage.
        split; [exact B'|]. split; [exact Hu|].
        split; [exact (tick_rep_inv cf h Hown Hcon (cw x) pre p rest Elt B P)|]. split; assumption.
      + (* the GetAll reply *)
        destruct S as (st & (Eph & Hnc & Hok & Hq & He) & Hc & Hnv & Hrd & Hcase).
        destruct Hcase as [(Hr & Hj & Hf)|(Hr & _)]; [|lia]. subst j fut c.
        cbn [w_seq w_reps] in H. inversion H; subst x'. clear H. exists (pre ++ [WRep p]).
        split; [exact B'|]. split; [exact Hu|].
        unfold SInv. cbn [cw c_stage c_cache c_ready w_seq w_reps].
        assert (Hrg : sp_rep (sp_run cf pre) + 1 = G) by (rewrite (b_reps _ _ _ _ _ _ _ B); unfold G; lia).
        exists st. split; [|split; [reflexivity|split; [exact Hnv|split; [exact Hrd|]]]].
        * split; [cbn [w_ph]; rewrite Eph; reflexivity|]. split; [exact Hnc|].
          destruct Hok as (Hwf & Hso & Hle).
          split; [split; [exact Hwf|split; [exact Hso|eapply all_le_mono; [|exact Hle]; cbn; lia]]|].
          split; [exact Hq|]. rewrite (owner_rep_keep pre p Hrg). exact He.
        * right. split; [unfold G; lia|].
          exists (w_seq (cw x) + 1), p, (ss_pend st), [].
          split; [left; split; [reflexivity|]; unfold push; cbn [app]; do 4 f_equal; unfold G; lia|].
          split; [rewrite app_nil_r; reflexivity|].
          split; [apply all_le_lt_succ; apply pend_all_le; exact Hok|].
          split; [constructor|]. split; [lia|]. apply snap_rel_rep. exact Hrg.
      + destruct S as (st & (_ & Hnc & _) & Hr & _). lia.
      + destruct S as (_ & _ & Hr & _). lia.
  Qed.

  Lemma snap_populate : forall c l pa Q,
    none_vals c -> unc_none (p_unc pc) (k_val c) -> snap_rel (PSnap l) pa Q ->
    let c1 := update_cache (p_unc pc) c l [] in
    unc_none (p_unc pc) (k_val c1) /\ q_ok Q = true /\ veq (vpend pc (k_val c1) pa) (q_val Q).
  Proof.
    intros c l pa Q Hn Hu [Hok Hv] c1. split; [apply update_cache_unc; exact Hu|]. split; [exact Hok|].
    intro q. rewrite <- (Hv q). apply vpend_ext. intro r. subst c1. rewrite update_cache_val by exact Hu.
    apply upd_val_ext. exact Hn.
  Qed.

  Lemma vpend_cons_msg : forall c t m l Q,
    unc_none (p_unc pc) (k_val c) -> veq (vpend pc (k_val c) ((t, m) :: l)) (q_val Q) ->
    veq (vpend pc (k_val (apply_msg pc c m)) l) (q_val Q).
  Proof.
    intros c t m l Q Hu Hv q. rewrite <- (Hv q). cbn [vpend fold_left snd]. apply vpend_ext. apply apply_msg_val. exact Hu.
  Qed.

  (* the end of init: the join has yielded the reply [p]; [j'] may hold the first update read after it *)
  Lemma finish_init : forall x pre st1 p pa j',
    Base cf h (w_todo (cw x)) (w_seq (cw x)) (w_reps (cw x)) (ncalls (cw x)) pre ->
    unc_none (p_unc pc) (k_val (c_cache x)) -> none_vals (c_cache x) -> w_reps (cw x) = G ->
    stream_ok (with_stream x st1) pre st1 -> snap_rel p pa (spec_state pc pre) ->
    ((j' = JNone /\ ss_pend st1 = pa) \/ (exists t m, j' = JA (CLeft m) t /\ pa = (t, m) :: ss_pend st1)) ->
    CInv match p with
         | PSnap l =>
             let c1 := update_cache (p_unc pc) (c_cache x) l [] in
             let c2 := match j' with JA (CLeft m) _ => apply_msg pc c1 m | _ => c1 end in
             {| cw := with_stream x st1; c_stage := SKeep; c_cache := c2; c_ready := Some true; c_seen := c_seen x |}
         | _ => {| cw := with_stream x st1; c_stage := SFailed; c_cache := c_cache x; c_ready := Some false;
                   c_seen := c_seen x |}
         end.
  Proof.
    intros x pre st1 p pa j' B Hu Hnv Hr Hso Hsr Hj.
    assert (Hfail : (forall l, p <> PSnap l) ->
              CInv {| cw := with_stream x st1; c_stage := SFailed; c_cache := c_cache x; c_ready := Some false;
                      c_seen := c_seen x |}).
    { intros Hnp. exists pre. split; [exact B|]. split; [exact Hu|]. unfold SInv. cbn [cw c_stage c_cache c_ready].
      split; [exact Hnv|]. split; [reflexivity|]. split; [rewrite (proj1 (proj2 Hso)); exact Hr|].
      unfold snap_rel in Hsr. destruct p; try exact Hsr. exfalso. eapply Hnp. reflexivity. }
    destruct p as [|o|l|]; try (apply Hfail; intros l E; discriminate).
    destruct (snap_populate (c_cache x) l pa _ Hnv Hu Hsr) as (Hu1 & Hqk & Hv1).
    exists pre. split; [exact B|]. unfold SInv. cbn [cw c_stage c_cache c_ready].
    destruct Hj as [[-> <-]|(t & m & -> & ->)].
    - split; [exact Hu1|]. exists st1. repeat (split; [first [assumption|reflexivity]|]). exact Hv1.
    - split; [apply apply_msg_unc; exact Hu1|]. exists st1. repeat (split; [first [assumption|reflexivity]|]).
      eapply vpend_cons_msg; [exact Hu1|exact Hv1].
  Qed.

  Lemma task_inv : forall x, CInv x -> CInv (task_step pc x).
  Proof.
    intros x (pre & B & Hu & S). unfold task_step in *. unfold SInv in S.
    destruct (c_stage x) as [|c j fut| |] eqn:Estage.
    - (* the stream is being created *)
      destruct S as (P & Hnv & Hrd). fold cf.
      destruct (w_ph (cw x)) as [|c qr|c j qn fut|c src qn qr|st| |] eqn:Eph.
      all: try (
        assert (HC : CInv1 cf h (client_step cf (cw x)) pre)
          by (apply (client_pinv cf h Hown Hcon); split; assumption);
        destruct HC as [B' P']; exists pre; unfold SInv; cbn [cw set_cw c_stage c_cache c_ready]; rewrite Estage;
        split; [exact B'|]; split; [exact Hu|]; split; [exact P'|]; split; assumption).
      + (* the stream exists: GetAll *)
        unfold PInv in P. rewrite Eph in P. destruct P as (Hr & Hn & Hok & _ & Hq & _ & He).
        change (c_dest cf) with (p_dest pc) in Hn.
        exists pre. unfold SInv, stream_ok. cbn [cw c_stage c_cache c_ready call w_todo w_seq w_reps w_ph].
        rewrite !ncalls_call.
        split; [eapply Base_calls; [|exact B]; lia|]. split; [exact Hu|].
        exists st. split; [|split; [unfold G; lia|split; [exact Hnv|split; [exact Hrd|]]]].
        * split; [reflexivity|]. split; [unfold G; lia|]. split; [exact Hok|]. split; [exact Hq|exact He].
        * left. repeat split; [lia].
      + (* the creation failed *)
        unfold PInv in P. rewrite Eph in P. destruct P as (_ & Hr & Hn).
        exists pre. unfold SInv. cbn [cw c_stage c_cache c_ready]. split; [exact B|]. split; [exact Hu|].
        split; [exact Hnv|]. split; [reflexivity|]. split; [exact Hr|].
        apply q_before. fold cf. rewrite (b_reps _ _ _ _ _ _ _ B), <- G_getall. unfold G.
        change (c_dest cf) with (p_dest pc) in Hn. lia.
      + unfold PInv in P. rewrite Eph in P. contradiction.
    - (* init: the join of the updates and the GetAll reply *)
      destruct S as (st & Hso & Hc & Hnv & Hrd & Hcase). subst c. rewrite (proj1 Hso).
      pose proof (proj1 (proj2 (proj2 Hso))) as Hok.
      destruct Hcase as [(Hr & -> & ->)|(Hr & tr & p & pb & pa & Hjf & Hpend & Hb & Hga & Htr & Hsr)].
      + (* the reply has not arrived: whatever the stream yields is discarded *)
        rewrite init_poll_waiting. destruct (ssp st None) as [r st1] eqn:Essp.
        destruct (ssp_spec _ _ _ _ _ Hok Essp) as [Hn1 Hps].
        assert (Hstay : CInv {| cw := with_stream x st1; c_stage := SInit G JNone (Some []); c_cache := c_cache x;
                                c_ready := c_ready x; c_seen := c_seen x |}).
        { exists pre. split; [exact B|]. split; [exact Hu|]. exists st1.
          split; [exact (stream_ok_next _ _ _ _ Hso Hn1)|]. repeat (split; [first [assumption|reflexivity]|]).
          left. repeat split; assumption. }
        destruct r as [m t| | |]; cbn [pspec] in Hps; try exact Hstay. contradiction.
      + (* the reply has arrived *)
        pose proof (init_poll_replied _ G st tr p j fut pb pa Hok Hjf Hpend Hb Hga) as Hout.
        destruct (init_poll G j st fut) as [[[r j'] st1] fut']. destruct Hout as [Hn1 Hout].
        pose proof (stream_ok_next _ _ _ _ Hso Hn1) as Hso1.
        destruct pb as [|[t m] pb'].
        * destruct Hout as [-> Hj']. exact (finish_init x pre st1 p pa j' B Hu Hnv Hr Hso1 Hsr Hj').
        * (* an update read before the reply: discarded *)
          destruct Hout as (-> & -> & -> & Hp1).
          exists pre. split; [exact B|]. split; [exact Hu|]. exists st1. split; [exact Hso1|].
          repeat (split; [first [assumption|reflexivity]|]). right. split; [exact Hr|]. exists tr, p, pb', pa.
          split; [right; split; reflexivity|]. split; [exact Hp1|]. split; [inversion Hb; assumption|].
          repeat split; assumption.
    - (* keep_updated *)
      destruct S as (st & Hso & Hr & Hrd & Hqk & Hv). rewrite (proj1 Hso).
      destruct (ssp st None) as [r st1] eqn:Essp.
      destruct (ssp_spec _ _ _ _ _ (proj1 (proj2 (proj2 Hso))) Essp) as [Hn1 Hps].
      pose proof (stream_ok_next _ _ _ _ Hso Hn1) as Hso1.
      destruct r as [m t| | |]; cbn [pspec] in Hps.
      + exists pre. split; [exact B|]. split; [apply apply_msg_unc; exact Hu|]. exists st1.
        repeat (split; [first [assumption|reflexivity]|]).
        rewrite Hps in Hv. eapply vpend_cons_msg; [exact Hu|exact Hv].
      + destruct Hps as (_ & Hp0 & Hp1).
        exists pre. split; [exact B|]. split; [exact Hu|]. unfold SInv. cbn [cw set_cw c_stage c_cache c_ready].
        rewrite Estage. exists st1. repeat (split; [first [assumption|reflexivity]|]).
        rewrite Hp1. rewrite Hp0 in Hv. exact Hv.
      + destruct Hps as (_ & []).
      + contradiction.
    - (* failed: the task has ended *)
      exists pre. unfold SInv. rewrite Estage. split; [exact B|]. split; [exact Hu|exact S].
  Qed.

  (* ---- the consumer: property streams only touch the listeners *)
  Lemma cinv_same_vals : forall x c seen,
    CInv x -> k_val c = k_val (c_cache x) ->
    CInv {| cw := cw x; c_stage := c_stage x; c_cache := c; c_ready := c_ready x; c_seen := seen |}.
  Proof.
    intros x c seen (pre & B & Hu & S) Hk. exists pre. unfold SInv, none_vals in *.
    cbn [cw c_stage c_cache c_ready]. rewrite Hk. split; [exact B|]. split; [exact Hu|exact S].
  Qed.

  Lemma cstep_inv : forall x a, CInv x -> CInv (cstep pc x a).
  Proof.
    intros x a Hi. destruct a as [| | |p]; cbn [cstep] in *.
    - destruct (ctick pc x) as [x'|] eqn:E; [eapply ctick_inv; eassumption|exact Hi].
    - apply task_inv; assumption.
    - unfold with_cache. apply cinv_same_vals; [exact Hi|].
      unfold STREAM_PROPS. cbn [fold_left]. rewrite !add_stream_val. reflexivity.
    - unfold poll_stream. destruct (k_has (c_cache x) p && k_note (c_cache x) p); [|exact Hi].
      apply cinv_same_vals; [exact Hi|reflexivity].
  Qed.

  Lemma cinit_inv : CInv (init_cworld h).
  Proof.
    exists []. split; [exact (Base_init cf h Hown Hcon)|]. split; [intros p _; reflexivity|].
    unfold SInv. cbn. repeat split; reflexivity.
  Qed.
End CRun.

(* ---------------------------------------------------------------- the theorems *)
Theorem cache_full : forall pc h sched,
  bus_history (scfg pc) h = true ->
  let x := crun pc h sched in
  (c_ready x <> Some true -> forall p, cached x p = None) /\
  (caught_up x -> forall p, cached x p = spec_cache pc (received x h) p) /\
  (c_ready x = Some true -> spec_ready pc (received x h) = Some true).
Proof.
  intros pc h sched Hb x.
  destruct (bus_history_parts _ _ Hb) as (Hst & _ & Hown & Hcon).
  assert (Hi : CInv pc h x).
  { unfold x, crun. apply fold_left_preserves; [intros y a; apply cstep_inv; assumption|apply cinit_inv; assumption]. }
  destruct Hi as (pre & B & Hu & S).
  unfold received. rewrite (base_pre _ _ _ _ _ _ _ B). unfold SInv, caught_up, cached, none_vals in *.
  destruct (c_stage x) as [|c j fut| |].
  - destruct S as (_ & Hnv & Hr). split; [intros _; exact Hnv|]. split; [contradiction|congruence].
  - destruct S as (st & _ & _ & Hnv & Hr & _).
    split; [intros _; exact Hnv|]. split; [contradiction|congruence].
  - destruct S as (st & (Eph & _ & Hok & _) & _ & Hr & Hqk & Hv).
    split; [congruence|]. split.
    + rewrite Eph. intros Hc p. destruct (ssp st None) as [r st1] eqn:Essp. cbn [fst] in Hc. subst r.
      destruct (ssp_spec _ _ _ _ _ Hok Essp) as (_ & _ & Hp0 & _).
      rewrite Hp0 in Hv. exact (Hv p).
    + intros _. unfold spec_ready. rewrite Hqk. reflexivity.
  - destruct S as (Hnv & Hr & _ & Hqk & Hv).
    split; [intros _; exact Hnv|]. split; [|congruence].
    intros _ p. unfold spec_cache. rewrite Hnv, Hv. reflexivity.
Qed.

Theorem uncached_ignored : forall pc h sched p,
  mem p (p_unc pc) = true -> cached (crun pc h sched) p = None.
Proof.
  intros pc h sched p Hp. unfold crun.
  assert (G : forall x a, unc_none (p_unc pc) (k_val (c_cache x)) -> unc_none (p_unc pc) (k_val (c_cache (cstep pc x a)))).
  { intros x a Hx. destruct a as [| | |q]; cbn [cstep].
    - destruct (ctick pc x) as [x'|] eqn:E; [|exact Hx]. destruct (ctick_cache _ _ _ E) as [-> _]. exact Hx.
    - apply (task_step_cache pc (fun c => unc_none (p_unc pc) (k_val c))); [|exact Hx].
      intros. apply update_cache_unc. assumption.
    - unfold with_cache, STREAM_PROPS. cbn [c_cache fold_left]. rewrite !add_stream_val. exact Hx.
    - unfold poll_stream. destruct (k_has (c_cache x) q && k_note (c_cache x) q); exact Hx. }
  apply (fold_left_preserves _ _ (fun x => unc_none (p_unc pc) (k_val (c_cache x))) _ G sched (init_cworld h)); [|exact Hp].
  intros q _. reflexivity.
Qed.
