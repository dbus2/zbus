(* C31/Facts.v — update_cache pointwise (it computes Spec.upd_val); uncached names hold nothing; which steps of
   the model touch the cache, and how. *)
From Coq Require Import List NArith Bool.
Import ListNotations.
From ZV Require Import Base.Bytes C32.Model C32.Spec C32.Facts C31.Model C31.Spec.
Local Open Scope N_scope.

Lemma mem_eqb : forall p q l, (q =? p) = true -> mem q l = mem p l.
Proof. intros p q l H. apply N.eqb_eq in H. subst. reflexivity. Qed.

Lemma mem_snoc : forall p l q, mem p (l ++ [q]) = mem p l || (p =? q).
Proof. intros. unfold mem. rewrite existsb_app. cbn [existsb]. rewrite orb_false_r. reflexivity. Qed.

Lemma val_set : forall c q v p, k_val (set_val c q v) p = if p =? q then v else k_val c p.
Proof. reflexivity. Qed.

Lemma inval_fold_val : forall unc inv c p,
  k_val (fold_left (inval1 unc) inv c) p =
  if mem p unc then k_val c p else if mem p inv then None else k_val c p.
Proof.
  intros unc inv. induction inv as [|q inv IH] using rev_ind; intros c p.
  - cbn. destruct (mem p unc); reflexivity.
  - rewrite fold_left_app. cbn [fold_left]. unfold inval1 at 1. rewrite mem_snoc.
    destruct (mem q unc) eqn:Eq.
    + rewrite IH. destruct (mem p unc) eqn:Ep; [reflexivity|].
      destruct (p =? q) eqn:E; [apply N.eqb_eq in E; subst; congruence|]. rewrite orb_false_r. reflexivity.
    + rewrite val_set, IH. destruct (p =? q) eqn:E.
      * apply N.eqb_eq in E. subst. rewrite Eq, orb_true_r. reflexivity.
      * rewrite orb_false_r. reflexivity.
Qed.

Lemma last_val_snoc : forall p ch kv,
  last_val p (ch ++ [kv]) = if fst kv =? p then Some (snd kv) else last_val p ch.
Proof. intros. unfold last_val. rewrite fold_left_app. reflexivity. Qed.

Lemma change_fold_val : forall unc ch c p,
  k_val (fold_left (change1 unc) ch c) p =
  if mem p unc then k_val c p else match last_val p ch with Some v => Some v | None => k_val c p end.
Proof.
  intros unc ch. induction ch as [|[q v] ch IH] using rev_ind; intros c p.
  - cbn. destruct (mem p unc); reflexivity.
  - rewrite fold_left_app. cbn [fold_left]. unfold change1 at 1. cbn [fst snd]. rewrite last_val_snoc. cbn [fst snd].
    destruct (mem q unc) eqn:Eq.
    + rewrite IH. destruct (mem p unc) eqn:Ep; [reflexivity|].
      destruct (q =? p) eqn:E; [apply N.eqb_eq in E; subst; congruence|]. reflexivity.
    + rewrite val_set, IH. rewrite (N.eqb_sym p q). destruct (q =? p) eqn:E.
      * apply N.eqb_eq in E. subst. rewrite Eq. reflexivity.
      * reflexivity.
Qed.

Definition unc_none (unc : list N) (v : N -> option N) : Prop := forall p, mem p unc = true -> v p = None.

Lemma update_cache_val : forall unc c ch inv p,
  unc_none unc (k_val c) ->
  k_val (update_cache unc c ch inv) p = upd_val unc (k_val c) ch inv p.
Proof.
  intros unc c ch inv p Hu. unfold update_cache, upd_val. rewrite change_fold_val, inval_fold_val.
  destruct (mem p unc) eqn:E; [apply Hu; exact E|]. destruct (last_val p ch); reflexivity.
Qed.

Lemma update_cache_unc : forall unc c ch inv, unc_none unc (k_val c) -> unc_none unc (k_val (update_cache unc c ch inv)).
Proof.
  intros unc c ch inv Hu p Hp. unfold update_cache. rewrite change_fold_val, inval_fold_val, Hp. apply Hu. exact Hp.
Qed.

Lemma update_cache_ind : forall (P : cache -> Prop) unc c ch inv,
  (forall c0 q v, P c0 -> P (set_val c0 q v)) -> P c -> P (update_cache unc c ch inv).
Proof.
  intros P unc c ch inv Hset Hc. unfold update_cache.
  apply fold_left_preserves; [|apply fold_left_preserves; [|exact Hc]]; intros c0 x H0.
  - unfold change1. destruct (mem (fst x) unc); [exact H0|apply Hset; exact H0].
  - unfold inval1. destruct (mem x unc); [exact H0|apply Hset; exact H0].
Qed.

Lemma update_cache_has : forall unc c ch inv, k_has (update_cache unc c ch inv) = k_has c.
Proof. intros unc c ch inv. apply update_cache_ind; [intros c0 q v H; exact H|reflexivity]. Qed.

(* the values as a function of the values only *)
Definition vapply (pc : pcfg) (v : N -> option N) (m : sigm) : N -> option N :=
  match s_body m with
  | BProps ifc ch inv => if ifc =? p_pi pc then upd_val (p_unc pc) v ch inv else v
  | _ => v
  end.

Definition veq (f g : N -> option N) : Prop := forall p, f p = g p.

Lemma upd_val_ext : forall unc f g ch inv, veq f g -> veq (upd_val unc f ch inv) (upd_val unc g ch inv).
Proof. intros unc f g ch inv H p. unfold upd_val. rewrite H. reflexivity. Qed.

Lemma upd_val_unc : forall unc f ch inv, unc_none unc (upd_val unc f ch inv).
Proof. intros unc f ch inv p Hp. unfold upd_val. rewrite Hp. reflexivity. Qed.

Lemma vapply_ext : forall pc f g m, veq f g -> veq (vapply pc f m) (vapply pc g m).
Proof.
  intros pc f g m H. unfold vapply. destruct (s_body m); try exact H.
  destruct (ifc =? p_pi pc); [apply upd_val_ext; exact H|exact H].
Qed.

Lemma vapply_unc : forall pc f m, unc_none (p_unc pc) f -> unc_none (p_unc pc) (vapply pc f m).
Proof.
  intros pc f m H. unfold vapply. destruct (s_body m); try exact H.
  destruct (ifc =? p_pi pc); [apply upd_val_unc|exact H].
Qed.

Lemma apply_msg_val : forall pc c m, unc_none (p_unc pc) (k_val c) -> veq (k_val (apply_msg pc c m)) (vapply pc (k_val c) m).
Proof.
  intros pc c m Hu p. unfold apply_msg, vapply. destruct (s_body m); try reflexivity.
  destruct (ifc =? p_pi pc); [apply update_cache_val; exact Hu|reflexivity].
Qed.

Lemma apply_msg_unc : forall pc c m, unc_none (p_unc pc) (k_val c) -> unc_none (p_unc pc) (k_val (apply_msg pc c m)).
Proof.
  intros pc c m Hu. unfold apply_msg. destruct (s_body m); try exact Hu.
  destruct (ifc =? p_pi pc); [apply update_cache_unc; exact Hu|exact Hu].
Qed.

Definition vpend (pc : pcfg) (v : N -> option N) (l : queue sigm) : N -> option N :=
  fold_left (fun f e => vapply pc f (snd e)) l v.

Lemma vpend_app : forall pc v l1 l2, vpend pc v (l1 ++ l2) = vpend pc (vpend pc v l1) l2.
Proof. intros. unfold vpend. apply fold_left_app. Qed.

Lemma vpend_ext : forall pc l f g, veq f g -> veq (vpend pc f l) (vpend pc g l).
Proof.
  intros pc l. induction l as [|e l IH]; intros f g H; [exact H|]. cbn [vpend fold_left].
  apply IH. apply vapply_ext. exact H.
Qed.

Lemma vpend_unc : forall pc l f, unc_none (p_unc pc) f -> unc_none (p_unc pc) (vpend pc f l).
Proof.
  intros pc l. induction l as [|e l IH]; intros f H; [exact H|]. cbn [vpend fold_left]. apply IH. apply vapply_unc. exact H.
Qed.

Lemma add_stream_val : forall c p, k_val (add_stream c p) = k_val c.
Proof. intros c p. unfold add_stream. destruct (k_has c p); reflexivity. Qed.

Lemma ctick_cache : forall pc x x', ctick pc x = Some x' -> c_cache x' = c_cache x /\ c_seen x' = c_seen x.
Proof.
  intros pc x x' H. unfold ctick in H. destruct (tick (scfg pc) (cw x)); [|discriminate].
  destruct (w_todo (cw x)) as [|[s|r0] r]; [| |destruct (c_stage x) as [|c j [qr|]| |]];
    inversion H; split; reflexivity.
Qed.

(* the caching task changes the cache through update_cache only (apply_msg is update_cache or nothing), and
   leaves the items of the property streams alone *)
Lemma task_step_cache : forall pc (P : cache -> Prop),
  (forall c ch inv, P c -> P (update_cache (p_unc pc) c ch inv)) ->
  forall x, P (c_cache x) -> P (c_cache (task_step pc x)) /\ c_seen (task_step pc x) = c_seen x.
Proof.
  intros pc P Hupd x Hx.
  assert (Hmsg : forall c m, P c -> P (apply_msg pc c m)).
  { intros c m Hc. unfold apply_msg. destruct (s_body m); try exact Hc. destruct (ifc =? p_pi pc); auto. }
  unfold task_step. destruct (c_stage x) as [|c j fut| |]; [| | |split; [exact Hx|reflexivity]];
    destruct (w_ph (cw x)); try (split; [exact Hx|reflexivity]).
  - destruct (init_poll c j st fut) as [[[r j'] st'] fut'].
    destruct r as [[m|[]] t| | |]; try (split; [exact Hx|reflexivity]).
    cbn [c_cache c_seen]. split; [|reflexivity]. destruct j' as [|[m|q] t'| | | |]; auto.
  - destruct (ssp st None) as [[m t| | |] st']; try (split; [exact Hx|reflexivity]).
    cbn [c_cache c_seen]. split; [|reflexivity]. apply Hmsg. exact Hx.
Qed.
