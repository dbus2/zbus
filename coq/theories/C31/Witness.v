(* C31/Witness.v — concrete runs: the witness of the repaired finding and a non-trivial run that meets the
   hypotheses of the theorem. *)
From Coq Require Import List NArith Bool.
Import ListNotations.
From ZV Require Import Base.Bytes C32.Model C32.Spec C31.Model C31.Spec.
Local Open Scope N_scope.

Definition upd (k : N) (ifc : N) (ch : list (N * N)) (inv : list N) : sigm :=
  {| s_sender := Some k; s_path := P_OBJ; s_iface := I_PROPS; s_member := M_PROPS; s_body := BProps ifc ch inv |}.
Definition drv (old new : option N) : sigm :=
  {| s_sender := Some DRIVER; s_path := P_DRIVER; s_iface := I_DBUS; s_member := M_NOC; s_body := BNoc NAME_W old new |}.

Definition pc_w : pcfg := {| p_dest := DWell; p_pi := 0; p_unc := [3] |}.

(* ---- the witness of the finding repaired by 902c9069 (C32's release_buffered seen through the cache): the name is
        released right after the lookup answer and both are read before SignalStream::new runs again; the former
        owner's update does not reach the cache *)
Definition h_release : list wmsg :=
  [WRep PPlain; WRep (POwner 1); WSig (drv (Some 1) None); WRep PPlain; WRep (PSnap [(0, 5)]);
   WSig (upd 1 0 [(0, 7)] [])].
Definition sched_release : list caction :=
  [CTask; CTick; CTask; CTick; CTick; CTask; CTick; CTask; CTask; CTick; CTask; CTick; CTask; CTask].

Lemma repaired_history :
  bus_history (scfg pc_w) h_release = true /\
  let x := crun pc_w h_release sched_release in
  caught_up x /\ received x h_release = h_release /\
  cached x 0 = Some 5 /\ spec_cache pc_w h_release 0 = Some 5.
Proof. vm_compute. repeat split; reflexivity. Qed.

(* ---- non-vacuity *)
Definition h_clean : list wmsg :=
  [WRep PPlain; WRep (POwner 1); WRep PPlain;
   WSig (upd 1 0 [(0, 9)] []);                      (* before the snapshot: discarded *)
   WRep (PSnap [(0, 5); (1, 6); (3, 9)]);           (* P3 is uncached *)
   WSig (upd 1 0 [(0, 7)] [1]);                     (* P0 := 7, P1 invalidated *)
   WSig (upd 1 1 [(0, 8)] [0]);                     (* another interface *)
   WSig (upd 3 0 [(1, 8)] []);                      (* a stranger *)
   WSig (drv (Some 1) (Some 2));                    (* the name changes hands *)
   WSig (upd 2 0 [(2, 4); (3, 4)] []);              (* the new owner: P2 := 4 (P3 uncached) *)
   WSig (upd 1 0 [(0, 1)] [])].                     (* the former owner *)
Definition sched_clean : list caction :=
  CTask :: flat_map (fun _ => [CTick; CTask; CTask]) (seq 0 11) ++ [CStreams; CPollS 0; CPollS 1; CPollS 3; CTask].

Lemma clean_example :
  bus_history (scfg pc_w) h_clean = true /\
  let x := crun pc_w h_clean sched_clean in
  caught_up x /\ received x h_clean = h_clean /\ c_ready x = Some true /\
  map (cached x) [0; 1; 2; 3] = [Some 7; None; Some 4; None] /\
  map (spec_cache pc_w h_clean) [0; 1; 2; 3] = [Some 7; None; Some 4; None] /\
  c_seen x = [(0, Some 7)].
Proof. vm_compute. repeat split; reflexivity. Qed.
