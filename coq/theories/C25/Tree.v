(* C25/Tree.v — well-formedness of the node tree (stored paths are positions, child names are
   distinct), its preservation by get_child_mut + mutation, and what get_managed_objects lists. *)
From ZV Require Import Base.Bytes Base.Res Base.WinnowFacts C24.Ops C24.Model C24.Facts C25.Spec.

(* ---- induction over the nested tree *)
Section NodeInd.
  Variable P : node -> Prop.
  Hypothesis H : forall p ch ifs, Forall (fun e => P (snd e)) ch -> P (Node p ch ifs).
  Fixpoint node_ind' (n : node) : P n :=
    match n with
    | Node p ch ifs =>
        H p ch ifs
          ((fix go (l : list (seg * node)) : Forall (fun e => P (snd e)) l :=
              match l with
              | [] => Forall_nil _
              | e :: r => Forall_cons e (node_ind' (snd e)) (go r)
              end) ch)
    end.
End NodeInd.

(* ---- well-formed at position pos *)
Fixpoint wf_at (pos : path) (n : node) : Prop :=
  match n with
  | Node p ch ifs =>
      p = pos /\ NoDup (map fst ch) /\
      (fix go (l : list (seg * node)) : Prop :=
         match l with [] => True | e :: r => wf_at (pos ++ [fst e]) (snd e) /\ go r end) ch
  end.

Lemma wf_at_unfold pos p ch ifs :
  wf_at pos (Node p ch ifs) <->
  p = pos /\ NoDup (map fst ch) /\ Forall (fun e => wf_at (pos ++ [fst e]) (snd e)) ch.
Proof.
  cbn. split; intros [H1 [H2 H3]]; (split; [exact H1|]; split; [exact H2|]).
  - induction ch as [|e r IH]; [constructor|]. destruct H3 as [Ha Hb]. inversion H2; subst.
    constructor; [exact Ha | apply IH; assumption].
  - induction ch as [|e r IH]; [exact I|]. inversion H3; subst. inversion H2; subst.
    split; [assumption | apply IH; assumption].
Qed.

Lemma wf_npath pos n : wf_at pos n -> npath n = pos.
Proof. destruct n as [p ch ifs]. rewrite wf_at_unfold. intros [H _]. exact H. Qed.

Lemma wf_new pos : wf_at pos (new_node pos).
Proof. unfold new_node. rewrite wf_at_unfold. split; [reflexivity|]. split; constructor. Qed.

Lemma find_child_in i l c : find_child i l = Some c -> In (i, c) l.
Proof.
  induction l as [|[j c'] l IH]; cbn; [discriminate|].
  destruct (lbeq i j) eqn:E.
  - apply lbeq_eq in E; subst. intros H; inversion H; subst. left; reflexivity.
  - intros H; right; apply IH; exact H.
Qed.

Lemma wf_child pos n i c : wf_at pos n -> find_child i (children n) = Some c -> wf_at (pos ++ [i]) c.
Proof.
  destruct n as [p ch ifs]. rewrite wf_at_unfold. intros [_ [_ HF]] Hc. cbn in Hc.
  apply find_child_in in Hc. rewrite Forall_forall in HF. apply (HF (i, c) Hc).
Qed.

Lemma wf_get_child : forall m pos n c, wf_at pos n -> get_child n m = Some c -> wf_at (pos ++ m) c.
Proof.
  induction m as [|i m IH]; intros pos n c Hwf Hg; cbn in Hg.
  - inversion Hg; subst. rewrite app_nil_r. exact Hwf.
  - destruct (find_child i (children n)) as [c0|] eqn:Hc; [|discriminate].
    replace (pos ++ i :: m) with ((pos ++ [i]) ++ m) by (rewrite <- app_assoc; reflexivity).
    eapply IH; [eapply wf_child; eassumption | exact Hg].
Qed.

Lemma in_del_child i e l : In e (del_child i l) -> In e l /\ fst e <> i.
Proof.
  unfold del_child. rewrite filter_In. intros [H1 H2]. split; [exact H1|].
  apply negb_true_iff in H2. apply lbeq_false in H2. intros Heq. apply H2. symmetry. exact Heq.
Qed.

Lemma nodup_del_child i l : NoDup (map fst l) -> NoDup (map fst (del_child i l)).
Proof.
  induction l as [|[j c] l IH]; cbn; intros H; [constructor|]. inversion H; subst.
  destruct (lbeq i j); cbn; [apply IH; assumption|].
  constructor; [|apply IH; assumption].
  intros Hin. apply H2. apply in_map_iff in Hin as [e [He Hin]]. apply in_del_child in Hin as [Hin _].
  apply in_map_iff. exists e. split; assumption.
Qed.

Lemma wf_put_child pos n i c : wf_at pos n -> wf_at (pos ++ [i]) c -> wf_at pos (put_child i c n).
Proof.
  destruct n as [p ch ifs]. cbn [put_child]. rewrite !wf_at_unfold. intros [H1 [H2 H3]] Hc.
  split; [exact H1|]. split.
  - cbn. constructor; [|apply nodup_del_child; exact H2].
    intros Hin. apply in_map_iff in Hin as [e [He Hin]]. apply in_del_child in Hin as [_ Hne]. congruence.
  - constructor; [exact Hc|]. rewrite Forall_forall in *. intros e He. apply in_del_child in He as [He _]. apply H3; exact He.
Qed.

(* get_child_mut + a mutation that keeps the node well-formed keeps the tree well-formed; the
   `node_path` string is the position *)
Lemma with_node_wf {R} (f : node -> option path -> node * R)
  (Hf : forall c m pos, wf_at pos c -> wf_at pos (fst (f c m))) :
  forall p n create pos mgr n' r,
    wf_at pos n -> with_node n p create pos mgr f = Some (n', r) -> wf_at pos n'.
Proof.
  induction p as [|i rest IH]; intros n create pos mgr n' r Hwf H; cbn in H.
  - inversion H as [H1]. replace n' with (fst (f n mgr)) by (rewrite H1; reflexivity). apply Hf; exact Hwf.
  - set (mgr' := match find_iface OM (ifaces n) with Some _ => Some (npath n) | None => mgr end) in H.
    destruct (find_child i (children n)) as [c0|] eqn:Hc.
    + destruct (with_node c0 rest create (pos ++ [i]) mgr' f) as [[c' r']|] eqn:Hw; [|discriminate].
      inversion H; subst. apply wf_put_child; [exact Hwf|].
      eapply IH; [|exact Hw]. eapply wf_child; eassumption.
    + destruct create; [|discriminate].
      destruct (with_node (new_node (pos ++ [i])) rest true (pos ++ [i]) mgr' f) as [[c' r']|] eqn:Hw; [|discriminate].
      inversion H; subst. apply wf_put_child; [exact Hwf|].
      eapply IH; [|exact Hw]. apply wf_new.
Qed.

Lemma wf_add_arc k id c pos : wf_at pos c -> wf_at pos (fst (add_arc_interface k id c)).
Proof. destruct c as [p ch ifs]; cbn. destruct (find_iface k ifs); cbn; intros H; exact H. Qed.

Lemma wf_remove_iface k c pos : wf_at pos c -> wf_at pos (fst (remove_interface k c)).
Proof. destruct c as [p ch ifs]; cbn. destruct (find_iface k ifs); cbn; intros H; exact H. Qed.

Lemma wf_remove_node last c pos : wf_at pos c -> wf_at pos (fst (remove_node last c)).
Proof.
  destruct c as [p ch ifs]. unfold remove_node. destruct (find_child last ch); cbn [fst]; [|intros H; exact H].
  intros Hw. rewrite wf_at_unfold in Hw. rewrite wf_at_unfold. destruct Hw as [H1 [H2 H3]].
  split; [exact H1|]. split; [apply nodup_del_child; exact H2|].
  rewrite Forall_forall in *. intros e He. apply in_del_child in He as [He _]. apply H3; exact He.
Qed.

Lemma at_wf t p k id : wf_at [] t -> wf_at [] (fst (fst (at_ t p k id))).
Proof.
  intros Hwf. unfold at_.
  destruct (with_node _ _ _ _ _ _) as [[t' [[added mgr] n']]|] eqn:Hw; [|exact Hwf].
  assert (Hwf' : wf_at [] t').
  { refine (with_node_wf _ _ _ _ _ _ _ _ _ Hwf Hw). intros c m pos H.
    apply (wf_add_arc k id) in H. destruct (add_arc_interface k id c); exact H. }
  destruct added; [|exact Hwf']. destruct (iface_eqb k OM); [exact Hwf'|].
  destruct mgr; [|exact Hwf']. destruct (get_properties n' k); exact Hwf'.
Qed.

Lemma remove_wf t p k : wf_at [] t -> wf_at [] (fst (fst (remove t p k))).
Proof.
  intros Hwf. unfold remove.
  destruct (with_node _ _ _ _ _ _) as [[t1 [[removed mgr] destroy]]|] eqn:Hw; [|exact Hwf].
  assert (Hwf1 : wf_at [] t1).
  { refine (with_node_wf _ _ _ _ _ _ _ _ _ Hwf Hw). intros c m pos H.
    apply (wf_remove_iface k) in H. destruct (remove_interface k c); exact H. }
  destruct removed; [cbn [negb] | exact Hwf1]. destruct destroy; [|exact Hwf1].
  destruct (rev p) as [|last rparent]; [exact Hwf1|].
  destruct (with_node t1 _ _ _ _ _) as [[t2 u]|] eqn:Hd; [|exact Hwf1].
  refine (with_node_wf _ _ _ _ _ _ _ _ _ Hwf1 Hd). intros c m pos H.
  apply (wf_remove_node last) in H. destruct (remove_node last c); exact H.
Qed.

(* ---- what get_managed_objects lists ---- *)
Lemma v_get_app l1 l2 o : v_get (l1 ++ l2) o = match v_get l1 o with Some x => Some x | None => v_get l2 o end.
Proof.
  induction l1 as [|[o' m] l1 IH]; cbn; [reflexivity|]. destruct (path_eqb o o'); [reflexivity | exact IH].
Qed.

Lemma gmo_node_unfold p ch ifs : gmo_node (Node p ch ifs) = (p, user_ifaces ifs) :: gmo_children ch.
Proof.
  reflexivity.
Qed.

Lemma prefix_snoc_other pos i j r : i <> j -> prefix (pos ++ [i]) (pos ++ j :: r) = false.
Proof.
  intros Hne. rewrite prefix_app_l. cbn. apply lbeq_false in Hne. rewrite Hne. reflexivity.
Qed.

(* the entry a subtree lists for an object below it *)
Definition entry_of (c : node) (r : path) : option ifmap :=
  match get_child c r with Some c' => Some (user_ifaces (ifaces c')) | None => None end.

(* what is known of one child (i, c) placed below position pos *)
Definition child_ok (pos : path) (e : seg * node) : Prop :=
  (forall r, v_get (gmo_node (snd e)) ((pos ++ [fst e]) ++ r) = entry_of (snd e) r) /\
  (forall o, prefix (pos ++ [fst e]) o = false -> v_get (gmo_node (snd e)) o = None).

Lemma children_out pos ch o :
  Forall (child_ok pos) ch ->
  (forall e, In e ch -> prefix (pos ++ [fst e]) o = false) -> v_get (gmo_children ch) o = None.
Proof.
  induction ch as [|[i c] rest IH]; intros Hok Ho; [reflexivity|].
  cbn [gmo_children]. rewrite v_get_app. inversion Hok; subst.
  destruct H1 as [_ Hb]. cbn [fst snd] in Hb.
  rewrite (Hb o (Ho (i, c) (or_introl eq_refl))).
  apply IH; [assumption | intros e He; apply Ho; right; exact He].
Qed.

Lemma children_get pos ch :
  NoDup (map fst ch) -> Forall (child_ok pos) ch ->
  forall j r, v_get (gmo_children ch) (pos ++ j :: r) =
              match find_child j ch with Some c => entry_of c r | None => None end.
Proof.
  induction ch as [|[i c] rest IH]; intros Hnd Hok j r; [reflexivity|].
  cbn [gmo_children find_child]. rewrite v_get_app.
  inversion Hok; subst. inversion Hnd; subst. destruct H1 as [Ha Hb]. cbn [fst snd] in *.
  destruct (lbeq j i) eqn:Eji.
  - apply lbeq_eq in Eji; subst j.
    replace (pos ++ i :: r) with ((pos ++ [i]) ++ r) by (rewrite <- app_assoc; reflexivity).
    rewrite Ha. destruct (entry_of c r); [reflexivity|].
    apply (children_out pos); [assumption|].
    intros e He. rewrite <- app_assoc. cbn [app]. apply prefix_snoc_other.
    intros Heq. apply H3. apply in_map_iff. exists e. split; [exact Heq | exact He].
  - apply lbeq_false in Eji. rewrite Hb; [apply IH; assumption|].
    apply prefix_snoc_other. congruence.
Qed.

Lemma gmo_node_get : forall n pos i, wf_at (pos ++ [i]) n -> child_ok pos (i, n).
Proof.
  induction n as [p ch ifs IHch] using node_ind'. intros pos i Hwf.
  rewrite wf_at_unfold in Hwf. destruct Hwf as [-> [Hnd Hall]].
  assert (Hok : Forall (child_ok (pos ++ [i])) ch).
  { rewrite Forall_forall in *. intros [j c] He. apply (IHch (j, c) He). apply (Hall (j, c) He). }
  unfold child_ok; cbn [fst snd]. rewrite gmo_node_unfold. split.
  - intros r. cbn [v_get]. destruct r as [|j r].
    + rewrite app_nil_r, path_eqb_refl. reflexivity.
    + destruct (path_eqb ((pos ++ [i]) ++ j :: r) (pos ++ [i])) eqn:E;
        [apply path_eqb_eq in E; exfalso; exact (path_neq_app _ _ _ E)|].
      rewrite (children_get _ _ Hnd Hok). unfold entry_of. cbn [get_child children].
      destruct (find_child j ch); reflexivity.
  - intros o Ho. cbn [v_get].
    destruct (path_eqb o (pos ++ [i])) eqn:E; [apply path_eqb_eq in E; subst; rewrite prefix_refl in Ho; discriminate|].
    apply (children_out _ _ _ Hok). intros e He.
    destruct (prefix ((pos ++ [i]) ++ [fst e]) o) eqn:E2; [|reflexivity].
    apply prefix_app_weaken in E2. congruence.
Qed.

Lemma wf_children_ok pos n : wf_at pos n -> NoDup (map fst (children n)) /\ Forall (child_ok pos) (children n).
Proof.
  destruct n as [p ch ifs]. rewrite wf_at_unfold. intros [_ [Hnd Hall]]. cbn [children]. split; [exact Hnd|].
  rewrite Forall_forall in *. intros [j c] He. apply gmo_node_get. apply (Hall (j, c) He).
Qed.

(* GetManagedObjects answered by the node at position m: objects strictly below m, each with the
   non-standard interfaces of its node; nothing else *)
Lemma gmo_get_below m n j r : wf_at m n ->
  v_get (get_managed_objects n) (m ++ j :: r) = entry_of n (j :: r).
Proof.
  intros Hwf. destruct (wf_children_ok _ _ Hwf) as [Hnd Hok]. unfold get_managed_objects.
  rewrite (children_get _ _ Hnd Hok). unfold entry_of. cbn [get_child]. destruct (find_child j (children n)); reflexivity.
Qed.

Lemma gmo_get_outside m n o : wf_at m n -> strict_prefix m o = false -> v_get (get_managed_objects n) o = None.
Proof.
  intros Hwf Ho. destruct (wf_children_ok _ _ Hwf) as [_ Hok]. unfold get_managed_objects.
  apply (children_out _ _ _ Hok). intros e He.
  destruct (prefix (m ++ [fst e]) o) eqn:E; [|reflexivity].
  apply prefix_app in E as [r ->]. rewrite <- app_assoc in Ho. rewrite strict_prefix_app_true in Ho; [discriminate|]. discriminate.
Qed.

Lemma nodup_app {A} (l1 l2 : list A) :
  NoDup l1 -> NoDup l2 -> (forall a, In a l1 -> In a l2 -> False) -> NoDup (l1 ++ l2).
Proof.
  induction l1 as [|x l1 IH]; intros H1 H2 Hd; cbn; [exact H2|].
  inversion H1; subst. constructor.
  - rewrite in_app_iff. intros [Hx | Hx]; [contradiction|]. apply (Hd x); [left; reflexivity | exact Hx].
  - apply IH; [assumption | assumption|]. intros a Ha1 Ha2. apply (Hd a); [right; exact Ha1 | exact Ha2].
Qed.

Lemma gmo_keys_prefix : forall n pos, wf_at pos n -> forall o, In o (map fst (gmo_node n)) -> prefix pos o = true.
Proof.
  induction n as [p ch ifs IHch] using node_ind'. intros pos Hwf o Ho.
  rewrite wf_at_unfold in Hwf. destruct Hwf as [-> [_ Hall]]. rewrite gmo_node_unfold in Ho. cbn in Ho.
  destruct Ho as [<- | Ho]; [apply prefix_refl|].
  induction ch as [|[i c] rest IH]; [contradiction|].
  cbn [gmo_children] in Ho. rewrite map_app, in_app_iff in Ho.
  inversion IHch; subst. inversion Hall; subst. cbn [fst snd] in *.
  destruct Ho as [Ho | Ho]; [|apply IH; assumption].
  specialize (H1 _ H3 o Ho). apply prefix_app in H1 as [r ->]. rewrite <- app_assoc. apply prefix_app_true.
Qed.

Lemma gmo_children_keys pos ch :
  Forall (fun e => wf_at (pos ++ [fst e]) (snd e)) ch ->
  forall o, In o (map fst (gmo_children ch)) -> exists e r, In e ch /\ o = (pos ++ [fst e]) ++ r.
Proof.
  induction ch as [|[i c] rest IH]; intros Hall o Ho; [destruct Ho|].
  cbn [gmo_children] in Ho. rewrite map_app, in_app_iff in Ho. inversion Hall; subst. cbn [fst snd] in *.
  destruct Ho as [Ho | Ho].
  - pose proof (gmo_keys_prefix c _ H1 o Ho) as Hp. apply prefix_app in Hp as [r ->].
    exists (i, c), r. split; [left; reflexivity | reflexivity].
  - destruct (IH H2 o Ho) as [e [r [He Hr]]]. exists e, r. split; [right; exact He | exact Hr].
Qed.

Lemma gmo_node_nodup : forall n pos, wf_at pos n -> NoDup (map fst (gmo_node n)).
Proof.
  induction n as [p ch ifs IHch] using node_ind'. intros pos Hwf.
  rewrite wf_at_unfold in Hwf. destruct Hwf as [-> [Hnd Hall]]. rewrite gmo_node_unfold. cbn [map fst].
  constructor.
  - intros Hin. destruct (gmo_children_keys _ _ Hall _ Hin) as [e [r [_ Hr]]]. rewrite <- app_assoc in Hr. symmetry in Hr.
    exact (path_neq_app _ _ _ Hr).
  - induction ch as [|[i c] rest IH]; [constructor|].
    cbn [gmo_children]. rewrite map_app. inversion IHch; subst. inversion Hall; subst. inversion Hnd; subst. cbn [fst snd] in *.
    apply nodup_app; [eapply H1; eassumption | apply IH; assumption|].
    intros o Ho1 Ho2.
    pose proof (gmo_keys_prefix c _ H3 o Ho1) as Hp. apply prefix_app in Hp as [r ->].
    destruct (gmo_children_keys _ _ H4 _ Ho2) as [e [r' [He Hr']]].
    rewrite <- !app_assoc in Hr'. apply app_inv_head in Hr'. cbn in Hr'.
    inversion Hr'; subst. apply H5. apply in_map_iff. exists e. split; [reflexivity | exact He].
Qed.

Lemma gmo_nodup m n : wf_at m n -> NoDup (map fst (get_managed_objects n)).
Proof.
  intros Hwf. pose proof (gmo_node_nodup n m Hwf) as H. destruct n as [p ch ifs].
  rewrite gmo_node_unfold in H. cbn in H. inversion H; subst. exact H3.
Qed.
