(* C25/Proofs.v — outside the known class the client's replayed views equal the managers'
   listings after every step; the class refutes the full statement. *)
From ZV Require Import Base.Bytes Base.Res Base.WinnowFacts C24.Ops C24.Model C24.Facts C24.Proofs
  C25.Model C25.Spec C25.System C25.Tree C25.ViewFacts.

(* ---- which manager get_child_mut reports *)
Lemma mgr_of_zero : forall p n acc, mgrs_above n p = 0 -> mgr_of n p acc = acc.
Proof.
  induction p as [|i rest IH]; intros n acc H; cbn in *; [reflexivity|].
  destruct (find_iface OM (ifaces n)); [cbn in H; discriminate|]. cbn in H.
  destruct (find_child i (children n)); [apply IH; exact H | reflexivity].
Qed.

(* a manager reported for the node at pos ++ p is a proper ancestor of it *)
Lemma mgr_of_above : forall p n pos acc m0, wf_at pos n -> mgr_of n p acc = Some m0 ->
  acc = Some m0 \/ strict_prefix m0 (pos ++ p) = true.
Proof.
  induction p as [|i rest IH]; intros n pos acc m0 Hwf H; cbn in H; [left; exact H|].
  assert (Hhere : match find_iface OM (ifaces n) with Some _ => Some (npath n) | None => acc end = Some m0 ->
                  acc = Some m0 \/ strict_prefix m0 (pos ++ i :: rest) = true).
  { destruct (find_iface OM (ifaces n)); [|left; assumption].
    rewrite (wf_npath _ _ Hwf). intros Hm; injection Hm as <-.
    right. apply strict_prefix_app_true. discriminate. }
  destruct (find_child i (children n)) as [c|] eqn:Hc; [|exact (Hhere H)].
  destruct (IH c (pos ++ [i]) _ m0 (wf_child _ _ _ _ Hwf Hc) H) as [Hacc | Hs]; [exact (Hhere Hacc)|].
  right. rewrite <- app_assoc in Hs. exact Hs.
Qed.

(* when at most one manager is above, it is the one reported *)
Lemma mgr_of_unique : forall r n pos acc r', wf_at pos n -> r' <> [] ->
  ulookup n r OM <> None -> mgrs_above n (r ++ r') <= 1 -> mgr_of n (r ++ r') acc = Some (pos ++ r).
Proof.
  induction r as [|i r IH]; intros n pos acc r' Hwf Hr' Hl Hm.
  - destruct r' as [|j r']; [contradiction|]. cbn in *. unfold ulookup in Hl; cbn in Hl.
    destruct (find_iface OM (ifaces n)); [|contradiction].
    rewrite (wf_npath _ _ Hwf), app_nil_r.
    destruct (find_child j (children n)); [apply mgr_of_zero; lia | reflexivity].
  - rewrite ulookup_cons in Hl. cbn in *. destruct (find_child i (children n)) as [c|] eqn:Hc; [|contradiction].
    rewrite (IH c (pos ++ [i]) _ r' (wf_child _ _ _ _ Hwf Hc) Hr' Hl) by lia.
    rewrite <- app_assoc. reflexivity.
Qed.

(* at the root *)
Lemma M1 t p m0 : wf_at [] t -> mgr_of t p None = Some m0 -> strict_prefix m0 p = true.
Proof. intros Hwf H. destruct (mgr_of_above _ _ _ _ _ Hwf H) as [Hx | Hs]; [discriminate | exact Hs]. Qed.

Lemma M2 t p m : wf_at [] t -> strict_prefix m p = true -> ulookup t m OM <> None ->
  mgrs_above t p <= 1 -> mgr_of t p None = Some m.
Proof.
  intros Hwf Hs Hl Hm. apply strict_prefix_app in Hs as [r' [Hr' ->]].
  apply (mgr_of_unique m t [] None r' Hwf Hr' Hl Hm).
Qed.

Lemma M0 t p m : strict_prefix m p = true -> ulookup t m OM <> None -> 1 <= mgrs_above t p.
Proof.
  revert t p. induction m as [|i m IH]; intros t p Hs Hl; destruct p as [|j p]; try discriminate; cbn in *.
  - unfold ulookup in Hl; cbn in Hl. destruct (find_iface OM (ifaces t)); [lia | contradiction].
  - apply andb_true_iff in Hs as [Hij Hs]. apply lbeq_eq in Hij; subst j. rewrite ulookup_cons in Hl.
    destruct (find_child i (children t)) as [c|]; [|contradiction]. specialize (IH c p Hs Hl). lia.
Qed.

(* ---- the invariant *)
Definition J (t : node) (vs : views) : Prop :=
  wf_at [] t /\
  (forall m, answers t m = true -> forall o k, triple (view_of vs m) o k = L t m o k) /\
  (forall m, answers t m = false -> vs_get vs m = None).

Lemma J_init : J root0 [].
Proof.
  split; [apply wf_new|]. split; [|reflexivity].
  intros m Hm. rewrite answers_spec in Hm. unfold ulookup in Hm.
  destruct m as [|i m]; cbn in Hm; discriminate.
Qed.

(* closing a step: the end-of-step filter takes care of the paths where nobody answers *)
Lemma J_step t1 vs sigs :
  wf_at [] t1 ->
  (forall m, answers t1 m = true -> forall o k, triple (view_of (apply_signals vs sigs) m) o k = L t1 m o k) ->
  J t1 (observe_step vs sigs (answers t1)).
Proof.
  intros Hwf H. split; [exact Hwf|]. unfold observe_step. split.
  - intros m Hm o k. unfold view_of. rewrite vs_get_filter, Hm. apply (H m Hm).
  - intros m Hm. rewrite vs_get_filter, Hm. reflexivity.
Qed.

Lemma is_std_std3 k : is_std k = false -> std3 k = false.
Proof. destruct k; cbn; intros H; try reflexivity; discriminate. Qed.

Lemma U_congr t1 t o k : (is_std k = false -> ulookup t1 o k = ulookup t o k) -> U t1 o k = U t o k.
Proof. unfold U. destruct (is_std k); [reflexivity|]. intros H. rewrite H; reflexivity. Qed.

Lemma answers_congr t1 t m : ulookup t1 m OM = ulookup t m OM -> answers t1 m = answers t m.
Proof. rewrite !answers_spec. intros ->. reflexivity. Qed.

Lemma answers_ulookup t m : answers t m = true -> ulookup t m OM <> None.
Proof. rewrite answers_spec. destruct (ulookup t m OM); discriminate. Qed.

(* a step that changes no lookup and emits nothing *)
Lemma noop_J t t1 vs :
  wf_at [] t1 -> (forall q k', std3 k' = false -> ulookup t1 q k' = ulookup t q k') ->
  J t vs -> J t1 (observe_step vs [] (answers t1)).
Proof.
  intros Hwf1 Hsame [Hwf [J2 J3]]. apply J_step; [exact Hwf1|].
  intros m Hm o k. cbn [apply_signals fold_left].
  rewrite (answers_congr t1 t m (Hsame m OM eq_refl)) in Hm. rewrite (J2 m Hm).
  unfold L. destruct (strict_prefix m o); [|reflexivity].
  symmetry. apply U_congr. intros Hk. apply Hsame. apply is_std_std3; exact Hk.
Qed.

(* the signal (if any) goes to the view of the manager get_child_mut reported *)
Lemma single_view vs (mgr : option path) (mk : path -> signal) m :
  (forall m0, sig_mgr (mk m0) = m0) ->
  view_of (apply_signals vs (match mgr with Some m0 => [mk m0] | None => [] end)) m =
  match mgr with
  | Some m0 => if path_eqb m m0 then apply_view (view_of vs m0) (mk m0) else view_of vs m
  | None => view_of vs m
  end.
Proof.
  intros Hmk. destruct mgr as [m0|]; [|reflexivity].
  cbn [apply_signals fold_left]. rewrite view_of_apply, Hmk. reflexivity.
Qed.

Lemma strict_prefix_eqb_false m o : strict_prefix m o = true -> path_eqb m o = false.
Proof.
  intros H. apply path_eqb_false. intros ->. rewrite strict_prefix_irrefl in H. discriminate.
Qed.

(* ---- one step preserves the invariant *)
(* One change, one signal.  The step sets the lookup of (p, k) to w and nothing else; the manager
   get_child_mut reported, if any, is sent a signal that sets the triple (p, k) of a view to v.
   Either it is the manager interface itself that goes (no triple changes), or a user interface
   changes below at most one manager: then that manager is the one reported. *)
Lemma step_single t vs p k (w : option N) (v : option props) (sig : path -> signal) t1 :
  J t vs -> wf_at [] t1 ->
  (k = OM /\ w = None /\ v = None) \/
  (is_std k = false /\ mgrs_above t p <= 1 /\
   v = match w with Some id => Some (props_of k id) | None => None end) ->
  (forall m0, sig_mgr (sig m0) = m0) ->
  (forall m0 vw o k',
     triple (apply_view vw (sig m0)) o k' = if path_eqb o p && iface_eqb k' k then v else triple vw o k') ->
  (forall q k', std3 k' = false ->
     ulookup t1 q k' = if path_eqb q p && iface_eqb k' k then w else ulookup t q k') ->
  J t1 (observe_step vs (match mgr_of t p None with Some m0 => [sig m0] | None => [] end) (answers t1)).
Proof.
  intros [Hwf [J2 J3]] Hwf1 Hcond Hmk Hsig Hup. apply J_step; [exact Hwf1|].
  intros m Hm o k'.
  assert (Hans : answers t m = true).
  { rewrite answers_spec in *. rewrite (Hup m OM eq_refl) in Hm.
    destruct (path_eqb m p && iface_eqb OM k) eqn:E; [|exact Hm].
    apply andb_true_iff in E as [_ E]. apply iface_eqb_eq in E. subst k.
    destruct Hcond as [(_ & -> & _) | (Hk & _)]; discriminate. }
  assert (HU : U t1 o k' = if path_eqb o p && iface_eqb k' k then v else U t o k').
  { unfold U. destruct (path_eqb o p && iface_eqb k' k) eqn:E.
    - apply andb_true_iff in E as [E1 E2]. apply path_eqb_eq in E1. apply iface_eqb_eq in E2. subst o k'.
      destruct Hcond as [(-> & _ & ->) | (Hk & _ & ->)]; [reflexivity|].
      rewrite Hk, (Hup p k (is_std_std3 _ Hk)), path_eqb_refl, iface_eqb_refl. reflexivity.
    - destruct (is_std k') eqn:Es; [reflexivity|]. rewrite (Hup o k' (is_std_std3 _ Es)), E. reflexivity. }
  rewrite (single_view vs (mgr_of t p None) sig m Hmk). unfold L. rewrite HU.
  pose proof (J2 m Hans o k') as Hold. unfold L in Hold.
  destruct (path_eqb o p && iface_eqb k' k) eqn:E.
  2:{ (* another triple: whichever view is m's, it has not changed *)
      destruct (mgr_of t p None) as [m0|]; [|exact Hold]. destruct (path_eqb m m0) eqn:Emm; [|exact Hold].
      apply path_eqb_eq in Emm; subst m0. rewrite Hsig, E. exact Hold. }
  apply andb_true_iff in E as [E1 E2]. apply path_eqb_eq in E1. apply iface_eqb_eq in E2. subst o k'.
  (* a manager that was not signalled does not list (p, k), before or after *)
  assert (Hmiss : mgr_of t p None <> Some m ->
            (if strict_prefix m p then U t p k else None) = (if strict_prefix m p then v else None)).
  { intros Hne. destruct (strict_prefix m p) eqn:Es; [|reflexivity].
    destruct Hcond as [(-> & _ & ->) | (Hk & Hmg & _)]; [reflexivity|].
    destruct Hne. apply M2; [exact Hwf | exact Es | apply answers_ulookup; exact Hans | exact Hmg]. }
  destruct (mgr_of t p None) as [m0|] eqn:Emg.
  - destruct (path_eqb m m0) eqn:Emm.
    + apply path_eqb_eq in Emm; subst m0.
      rewrite Hsig, path_eqb_refl, iface_eqb_refl, (M1 _ _ _ Hwf Emg). reflexivity.
    + rewrite Hold. apply Hmiss. intros H; injection H as ->. rewrite path_eqb_refl in Emm. discriminate.
  - rewrite Hold. apply Hmiss. discriminate.
Qed.

(* registering a user interface where it was absent, at most one manager above *)
Lemma step_at_user t vs p k id root' :
  J t vs -> is_std k = false -> mgrs_above t p <= 1 -> wf_at [] root' ->
  (forall q k', std3 k' = false ->
     ulookup root' q k' = if path_eqb q p && iface_eqb k' k then Some id else ulookup t q k') ->
  J root' (observe_step vs (match mgr_of t p None with Some m0 => [SAdded m0 p [(k, props_of k id)]] | None => [] end)
                        (answers root')).
Proof.
  intros HJ Hk Hmg Hwf' Hup.
  apply (step_single t vs p k (Some id) (Some (props_of k id)) (fun m0 => SAdded m0 p [(k, props_of k id)]));
    auto.
  intros m0 vw o k'. rewrite triple_added. cbn [if_get].
  destruct (path_eqb o p), (iface_eqb k' k); reflexivity.
Qed.

(* registering an ObjectManager where there was none *)
Lemma step_at_om t vs p id root' n' :
  J t vs -> ulookup t p OM = None -> wf_at [] root' -> get_child root' p = Some n' ->
  (forall q k', std3 k' = false ->
     ulookup root' q k' = if path_eqb q p && iface_eqb k' OM then Some id else ulookup t q k') ->
  J root' (observe_step vs (burst p (get_managed_objects n')) (answers root')).
Proof.
  intros [Hwf [J2 J3]] Hnone Hwf' Hget Hup. apply J_step; [exact Hwf'|].
  intros m Hm o k'.
  assert (HU : forall o k', U root' o k' = U t o k').
  { intros o0 k0. apply U_congr. intros Es. rewrite (Hup o0 k0 (is_std_std3 _ Es)).
    replace (iface_eqb k0 OM) with false; [rewrite andb_false_r; reflexivity|].
    symmetry. apply iface_eqb_false. intros ->. discriminate. }
  destruct (path_eqb m p) eqn:Emp.
  - apply path_eqb_eq in Emp; subst m.
    assert (Hlst : listing root' p = Some (get_managed_objects n')).
    { unfold listing, call_gmo. rewrite Hget.
      pose proof (Hup p OM eq_refl) as H. rewrite path_eqb_refl in H. cbn in H.
      unfold ulookup in H. rewrite Hget in H. rewrite H. reflexivity. }
    pose proof (wf_get_child p [] root' n' Hwf' Hget) as Hwn. cbn in Hwn.
    rewrite (burst_same p _ (gmo_nodup p n' Hwn)).
    assert (Hempty : forall o k, triple (view_of vs p) o k = None).
    { intros o0 k0. unfold view_of. rewrite J3; [reflexivity|]. rewrite answers_spec, Hnone. reflexivity. }
    rewrite Hempty. rewrite <- (listing_triple root' p _ Hwf' Hlst). unfold triple.
    destruct (v_get (get_managed_objects n') o) as [ifm|]; [|reflexivity].
    destruct (if_get ifm k'); reflexivity.
  - apply path_eqb_false in Emp. rewrite (burst_other p _ vs m Emp).
    assert (Hans : answers t m = true).
    { rewrite <- Hm. symmetry. apply answers_congr. rewrite Hup by reflexivity.
      destruct (path_eqb m p) eqn:E; [apply path_eqb_eq in E; contradiction | reflexivity]. }
    rewrite (J2 m Hans). unfold L. rewrite HU. reflexivity.
Qed.

(* a removal; where it deletes the node, no lookup but that of (p, k) changes either *)
Lemma step_rm_keep t vs p k root' :
  J t vs -> (k = OM \/ (is_std k = false /\ mgrs_above t p <= 1)) -> wf_at [] root' ->
  (forall q k', std3 k' = false ->
     ulookup root' q k' = if path_eqb q p && iface_eqb k' k then None else ulookup t q k') ->
  J root' (observe_step vs (match mgr_of t p None with Some m0 => [SRemoved m0 p [k]] | None => [] end)
                        (answers root')).
Proof.
  intros HJ Hcond Hwf' Hup.
  apply (step_single t vs p k None None (fun m0 => SRemoved m0 p [k])); auto.
  - destruct Hcond as [-> | [Hk Hmg]]; auto.
  - intros m0 vw o k'. rewrite triple_removed. cbn [existsb]. rewrite orb_false_r. reflexivity.
Qed.

(* ---- histories *)
Lemma lookup_cases t p k :
  match ulookup t p k with
  | Some id => lookup t p k = Ok id
  | None => lookup t p k = Err InterfaceNotFound
  end.
Proof.
  unfold ulookup, lookup. destruct (get_child t p) as [n|]; [|reflexivity].
  destruct (find_iface k (ifaces n)); reflexivity.
Qed.

(* an effective step outside the class *)
Lemma unflagged t p kk :
  (if not_km kk && Nat.leb 2 (mgrs_above t p) then Some NestedManagers else None) = None ->
  ik kk = OM \/ (is_std (ik kk) = false /\ mgrs_above t p <= 1).
Proof.
  intros H. destruct (not_km kk) eqn:Ek; [right | left; destruct kk; (reflexivity || discriminate)].
  split; [destruct kk; (reflexivity || discriminate)|].
  cbn [andb] in H. destruct (Nat.leb_spec 2 (mgrs_above t p)); [discriminate | lia].
Qed.

Lemma sys_step_J t vs o :
  J t vs -> flag25 t o = None -> J (fst (sys_step t vs o)) (snd (sys_step t vs o)).
Proof.
  intros HJ Hflag. pose proof HJ as [Hwf _]. unfold sys_step.
  destruct o as [p kk id | p kk]; cbn [mstep flag25] in *;
    pose proof (lookup_cases t p (ik kk)) as Hl.
  - destruct (at_full t p (ik kk) id (ik_not_std3 kk)) as [t' H].
    pose proof (at_wf t p (ik kk) id Hwf) as Hwf'.
    destruct (ulookup t p (ik kk)) eqn:Eu; rewrite Hl in Hflag.
    + destruct H as [Hat Hsame]. rewrite Hat in *. apply (noop_J t t' vs Hwf' Hsame HJ).
    + destruct H as [[n' [Hget Hat]] Hup]. rewrite Hat in *. cbn [fst snd] in *.
      destruct (unflagged _ _ _ Hflag) as [Hom | [Hk Hmg]].
      * rewrite Hom in *. apply (step_at_om t vs p id t' n' HJ Eu Hwf' Hget Hup).
      * replace (iface_eqb (ik kk) OM) with false by (destruct kk; (reflexivity || discriminate)).
        apply (step_at_user t vs p (ik kk) id t' HJ Hk Hmg Hwf' Hup).
  - destruct (remove_full t p (ik kk) (ik_not_std3 kk)) as [t' H].
    pose proof (remove_wf t p (ik kk) Hwf) as Hwf'.
    destruct (ulookup t p (ik kk)); rewrite Hl in Hflag.
    + destruct H as [[b [Hrm _]] Hup]. rewrite Hrm in *.
      apply (step_rm_keep t vs p (ik kk) t' HJ (unflagged _ _ _ Hflag) Hwf' Hup).
    + destruct H as [Hrm Hsame]. rewrite Hrm in *. apply (noop_J t t' vs Hwf' Hsame HJ).
Qed.

Lemma sys_step_tree t vs o : fst (sys_step t vs o) = fst (fst (mstep t o)).
Proof. unfold sys_step. destruct (mstep t o) as [[t1 x] sg]. reflexivity. Qed.

Lemma sys_run_J : forall h t vs, J t vs -> first_flag25 t h = None ->
  J (fst (sys_run t vs h)) (snd (sys_run t vs h)).
Proof.
  induction h as [|o h IH]; intros t vs HJ Hf; cbn [sys_run]; [exact HJ|].
  cbn [first_flag25] in Hf. destruct (flag25 t o) eqn:Ef; [discriminate|].
  pose proof (sys_step_J t vs o HJ Ef) as HJ1. rewrite <- sys_step_tree with (vs := vs) in Hf.
  destruct (sys_step t vs o) as [t1 vs1]. cbn [fst snd] in *. apply IH; assumption.
Qed.

Lemma first_flag25_app : forall pre post t, first_flag25 t (pre ++ post) = None -> first_flag25 t pre = None.
Proof.
  induction pre as [|o pre IH]; intros post t H; cbn in *; [reflexivity|].
  destruct (flag25 t o); [discriminate|]. eapply IH; exact H.
Qed.

Lemma J_in_sync t vs : J t vs -> in_sync (t, vs).
Proof.
  intros [Hwf [J2 _]] m lst Hl o k. cbn [fst snd] in *.
  rewrite (listing_triple t m lst Hwf Hl). apply J2. unfold answers. rewrite Hl. reflexivity.
Qed.

Definition C25_full_statement : Prop := forall h pre post, h = pre ++ post -> in_sync (after pre).

Theorem sync_partial : forall h, ~ Known_C25 h -> forall pre post, h = pre ++ post -> in_sync (after pre).
Proof.
  intros h Hk pre post ->.
  assert (Hf : first_flag25 root0 pre = None).
  { apply (first_flag25_app pre post). unfold Known_C25 in Hk.
    destruct (first_flag25 root0 (pre ++ post)); [exfalso; apply Hk; discriminate | reflexivity]. }
  pose proof (sys_run_J pre root0 [] J_init Hf) as HJ. unfold after.
  destruct (sys_run root0 [] pre) as [t vs]. apply J_in_sync. exact HJ.
Qed.

(* ---- concrete histories *)
Definition sa : seg := B "a".
Definition sb : seg := B "b".
Definition h_nested : list op := [At [] KM 1; At [sa] KM 2; At [sa; sb] K1 3].
Definition h_silent : list op := [At [] KM 1; At [sa] K1 2; At [sa; sb] K2 3; Rm [sa] K1].

(* the outer manager lists /a/b with I1 (Val = 3), its client never heard of it *)
Lemma nested_refuted :
  (exists lst, listing (fst (after h_nested)) [] = Some lst /\
     triple lst [sa; sb] I1 = Some [(B "Val", 3%N)] /\
     triple (view_of (snd (after h_nested)) []) [sa; sb] I1 = None) /\
  first_flag25 root0 h_nested = Some NestedManagers.
Proof. split; [eexists; split; [vm_compute; reflexivity | split; vm_compute; reflexivity] | vm_compute; reflexivity]. Qed.

(* repaired by f5fe3276: the node /a keeps its child, nothing disappears silently; the history is
   outside the known class and the client of / agrees with the listing on /a/b *)
Lemma silent_repaired :
  first_flag25 root0 h_silent = None /\
  exists lst, listing (fst (after h_silent)) [] = Some lst /\
     triple lst [sa; sb] I2 = Some [] /\
     triple (view_of (snd (after h_silent)) []) [sa; sb] I2 = Some [].
Proof. split; [vm_compute; reflexivity|]. eexists; split; [vm_compute; reflexivity | split; vm_compute; reflexivity]. Qed.

Lemma full_statement_false : ~ C25_full_statement.
Proof.
  intros H. specialize (H h_nested h_nested [] (eq_sym (app_nil_r _))).
  destruct nested_refuted as [[lst [Hl [H1 H2]]] _].
  specialize (H [] lst Hl [sa; sb] I1). rewrite H1, H2 in H. discriminate.
Qed.

(* non-vacuity: one manager at /, objects below it at two levels, a property-carrying interface
   re-registered with a new value, a leaf removed (node deleted), the manager removed and registered
   again over a populated tree; the final listing is not empty *)
Definition h_sync : list op :=
  [At [] KM 1; At [sa] K1 2; At [sa; sb] K2 3; At [sa; sb] K1 4; Rm [sa; sb] K1; At [sa; sb] K1 6;
   Rm [sa; sb] K2; Rm [] KM; At [sa] K3 9; At [] KM 10; Rm [sa] K3; At [B "x"] K1 12].

Lemma h_sync_ok : ~ Known_C25 h_sync /\
  exists lst, listing (fst (after h_sync)) [] = Some lst /\
    triple lst [sa; sb] I1 = Some [(B "Val", 6%N)] /\ triple lst [sa] I1 = Some [(B "Val", 2%N)] /\
    triple lst [B "x"] I1 = Some [(B "Val", 12%N)].
Proof.
  split; [intros H; apply H; vm_compute; reflexivity|].
  eexists. split; [vm_compute; reflexivity|]. repeat split; vm_compute; reflexivity.
Qed.
