(* C25/ViewFacts.v — the client's views under signals (C25/Spec.v), and the triples of a listing
   in terms of the tree. *)
From ZV Require Import Base.Bytes Base.Res Base.WinnowFacts C24.Ops C24.Model C24.Facts
  C25.Model C25.Spec C25.System C25.Tree.

(* ---- interface maps *)
Lemma if_get_app a b k : if_get (a ++ b) k = match if_get a k with Some ps => Some ps | None => if_get b k end.
Proof.
  induction a as [|[k' ps] a IH]; cbn; [reflexivity|]. destruct (iface_eqb k k'); [reflexivity | exact IH].
Qed.

Lemma if_get_del m k k' : if_get (if_del m k) k' = if iface_eqb k' k then None else if_get m k'.
Proof.
  unfold if_del. induction m as [|[k2 ps] m IH]; cbn; [destruct (iface_eqb k' k); reflexivity|].
  destruct (iface_eqb k k2) eqn:E; cbn; rewrite IH.
  - apply iface_eqb_eq in E; subst k2. destruct (iface_eqb k' k); reflexivity.
  - destruct (iface_eqb k' k2) eqn:E2; [|reflexivity].
    apply iface_eqb_eq in E2; subst k2. apply iface_eqb_false in E.
    destruct (iface_eqb k' k) eqn:E3; [apply iface_eqb_eq in E3; congruence | reflexivity].
Qed.

Lemma if_get_fold_del ks : forall m k,
  if_get (fold_left if_del ks m) k = if existsb (iface_eqb k) ks then None else if_get m k.
Proof.
  induction ks as [|k0 ks IH]; intros m k; cbn; [reflexivity|].
  rewrite IH, if_get_del. destruct (iface_eqb k k0), (existsb (iface_eqb k) ks); reflexivity.
Qed.

(* ---- one view under one signal *)
Lemma triple_added v g o ifs o' k :
  triple (apply_view v (SAdded g o ifs)) o' k =
  if path_eqb o' o then match if_get ifs k with Some ps => Some ps | None => triple v o' k end
  else triple v o' k.
Proof.
  unfold triple; cbn. destruct (path_eqb o' o) eqn:E; [|reflexivity]. apply path_eqb_eq in E; subst o'.
  rewrite if_get_app. destruct (if_get ifs k); [reflexivity|].
  destruct (v_get v o); reflexivity.
Qed.

Lemma triple_removed v g o ks o' k :
  triple (apply_view v (SRemoved g o ks)) o' k =
  if path_eqb o' o && existsb (iface_eqb k) ks then None else triple v o' k.
Proof.
  unfold triple; cbn. destruct (v_get v o) as [m|] eqn:Ev; cbn.
  - destruct (path_eqb o' o) eqn:E; cbn; [|reflexivity].
    apply path_eqb_eq in E; subst o'. rewrite Ev, if_get_fold_del. reflexivity.
  - destruct (path_eqb o' o) eqn:E; cbn; [|reflexivity].
    apply path_eqb_eq in E; subst o'. rewrite Ev. destruct (existsb (iface_eqb k) ks); reflexivity.
Qed.

(* ---- the views under one signal, under the end-of-step filter *)
Lemma view_of_apply vs s m :
  view_of (apply_signal vs s) m = if path_eqb m (sig_mgr s) then apply_view (view_of vs (sig_mgr s)) s else view_of vs m.
Proof. unfold apply_signal, view_of; cbn. destruct (path_eqb m (sig_mgr s)); reflexivity. Qed.

Lemma vs_get_filter (f : path -> bool) vs m :
  vs_get (filter (fun e => f (fst e)) vs) m = if f m then vs_get vs m else None.
Proof.
  induction vs as [|[m' v] vs IH]; cbn; [destruct (f m); reflexivity|].
  destruct (f m') eqn:Ef; cbn.
  - destruct (path_eqb m m') eqn:E; [apply path_eqb_eq in E; subst; rewrite Ef; reflexivity | exact IH].
  - destruct (path_eqb m m') eqn:E; [apply path_eqb_eq in E; subst; rewrite IH, Ef; reflexivity | exact IH].
Qed.

(* ---- replaying the burst of a freshly registered manager *)
Definition burst (p : path) (l : view) : list signal := map (fun e => SAdded p (fst e) (snd e)) l.

Lemma v_get_in l o m : v_get l o = Some m -> In (o, m) l.
Proof.
  induction l as [|[o' m'] l IH]; cbn; [discriminate|].
  destruct (path_eqb o o') eqn:E.
  - apply path_eqb_eq in E; subst. intros H; inversion H; subst. left; reflexivity.
  - intros H; right; apply IH; exact H.
Qed.

Lemma v_get_not_in l o : ~ In o (map fst l) -> v_get l o = None.
Proof.
  intros H. destruct (v_get l o) eqn:E; [|reflexivity].
  apply v_get_in in E. exfalso. apply H. apply in_map_iff. exists (o, i). split; [reflexivity | exact E].
Qed.

Lemma apply_signals_cons vs s ss : apply_signals vs (s :: ss) = apply_signals (apply_signal vs s) ss.
Proof. reflexivity. Qed.
Lemma burst_cons p e l : burst p (e :: l) = SAdded p (fst e) (snd e) :: burst p l.
Proof. reflexivity. Qed.

(* all signals of a burst go to the view kept for p; nobody else's view changes *)
Lemma burst_other p l : forall vs m, m <> p -> view_of (apply_signals vs (burst p l)) m = view_of vs m.
Proof.
  induction l as [|e l IH]; intros vs m Hm; [reflexivity|].
  rewrite burst_cons, apply_signals_cons, IH by exact Hm. rewrite view_of_apply. cbn [sig_mgr].
  destruct (path_eqb m p) eqn:E; [apply path_eqb_eq in E; contradiction | reflexivity].
Qed.

Lemma burst_same p l : NoDup (map fst l) -> forall vs o k,
  triple (view_of (apply_signals vs (burst p l)) p) o k =
  match v_get l o with
  | Some m => match if_get m k with Some ps => Some ps | None => triple (view_of vs p) o k end
  | None => triple (view_of vs p) o k
  end.
Proof.
  induction l as [|[o1 m1] l IH]; intros Hnd vs o k; [reflexivity|].
  inversion Hnd; subst. rewrite burst_cons, apply_signals_cons. cbn [fst snd].
  rewrite IH by assumption. rewrite view_of_apply. cbn [sig_mgr]. rewrite path_eqb_refl.
  cbn [v_get]. destruct (path_eqb o o1) eqn:E.
  - apply path_eqb_eq in E; subst o1. rewrite (v_get_not_in l o H1).
    rewrite triple_added, path_eqb_refl. reflexivity.
  - rewrite triple_added, E. reflexivity.
Qed.

(* ---- the triples of a listing, from the tree ---- *)
(* what an object contributes: its non-standard interfaces with their current properties *)
Definition U (t : node) (o : path) (k : iface) : option props :=
  if is_std k then None else match ulookup t o k with Some id => Some (props_of k id) | None => None end.
(* what the manager at m should list *)
Definition L (t : node) (m o : path) (k : iface) : option props :=
  if strict_prefix m o then U t o k else None.

Lemma if_get_user_ifaces ifs k :
  if_get (user_ifaces ifs) k =
  if is_std k then None else match find_iface k ifs with Some id => Some (props_of k id) | None => None end.
Proof.
  unfold user_ifaces. induction ifs as [|[k' v] ifs IH]; cbn; [destruct (is_std k); reflexivity|].
  destruct (is_std k') eqn:Es; cbn.
  - rewrite IH. destruct (iface_eqb k k') eqn:E; [|reflexivity].
    apply iface_eqb_eq in E; subst. rewrite Es. reflexivity.
  - destruct (iface_eqb k k') eqn:E; [|exact IH].
    apply iface_eqb_eq in E; subst. rewrite Es. reflexivity.
Qed.

Lemma listing_some t m lst :
  listing t m = Some lst ->
  exists n, get_child t m = Some n /\ find_iface OM (ifaces n) <> None /\ lst = get_managed_objects n.
Proof.
  unfold listing, call_gmo. destruct (get_child t m) as [n|]; [|discriminate].
  destruct (find_iface OM (ifaces n)) eqn:E; [|discriminate].
  intros H; inversion H; subst. exists n. split; [reflexivity|]. split; [rewrite E; discriminate | reflexivity].
Qed.

Lemma answers_spec t m : answers t m = is_some (ulookup t m OM).
Proof.
  unfold answers, listing, call_gmo, ulookup. destruct (get_child t m) as [n|]; [|reflexivity].
  destruct (find_iface OM (ifaces n)); reflexivity.
Qed.

Lemma listing_triple t m lst :
  wf_at [] t -> listing t m = Some lst -> forall o k, triple lst o k = L t m o k.
Proof.
  intros Hwf Hl o k. destruct (listing_some _ _ _ Hl) as [n [Hn [_ ->]]].
  pose proof (wf_get_child m [] t n Hwf Hn) as Hwn. cbn in Hwn.
  unfold triple, L. destruct (strict_prefix m o) eqn:E.
  - apply strict_prefix_app in E as [r [Hr ->]]. destruct r as [|j r]; [contradiction|].
    rewrite (gmo_get_below m n j r Hwn). unfold entry_of, U, ulookup.
    rewrite get_child_app, Hn. destruct (get_child n (j :: r)); [apply if_get_user_ifaces | destruct (is_std k); reflexivity].
  - rewrite (gmo_get_outside m n o Hwn E). reflexivity.
Qed.
