(* Base/SigParseFacts.v — the signature parser reads back what [show] prints, for every signature that is
   a single complete type (no unit, non-empty structs, maybe only under the gvariant flag):
   parse_sig gv (show g) = Some g. *)
From ZV Require Import Base.Bytes Base.Sig Base.SigParse.
From Coq Require Import Lia.

(* signatures whose textual form is a single complete type *)
Fixpoint printable (s : sig) : bool :=
  match s with
  | SUnit | SMaybe _ => false
  | SArray c => printable c
  | SDict k v => printable k && printable v
  | SStruct fs => (match fs with [] => false | _ => true end) && forallb printable fs
  | _ => true
  end.

(* the same for a parser run with flag [gv]: `m` is a type only with the gvariant feature *)
Fixpoint printable_gv (gv : bool) (s : sig) : bool :=
  match s with
  | SUnit => false
  | SMaybe c => gv && printable_gv gv c
  | SArray c => printable_gv gv c
  | SDict k v => printable_gv gv k && printable_gv gv v
  | SStruct fs => (match fs with [] => false | _ => true end) && forallb (printable_gv gv) fs
  | _ => true
  end.

Lemma printable_any_gv gv : forall g, printable g = true -> printable_gv gv g = true.
Proof.
  induction g using sig_ind'; cbn [printable printable_gv]; intros Hp; try discriminate; auto.
  - apply andb_true_iff in Hp as [Hk Hv]. now rewrite IHg1, IHg2.
  - apply andb_true_iff in Hp as [Hne Hall]. rewrite Hne. cbn [andb].
    rewrite forallb_forall in *. rewrite Forall_forall in H. auto.
Qed.

(* fuel needed by parse_one / parse_many *)
Fixpoint pf (s : sig) : nat :=
  match s with
  | SArray c | SMaybe c => S (pf c)
  | SDict k v => S (Nat.max (pf k) (pf v))
  | SStruct fs => S ((fix pfs (l : list sig) : nat := match l with [] => 0 | x :: r => S (Nat.max (pf x) (pfs r)) end) fs)
  | _ => 1
  end.
Fixpoint pfs (l : list sig) : nat := match l with [] => 0 | x :: r => S (Nat.max (pf x) (pfs r)) end.
Lemma pf_struct fs : pf (SStruct fs) = S (pfs fs).
Proof. reflexivity. Qed.

Definition stops (rest : bytes) : Prop := rest = [] \/ exists t, rest = ")"%byte :: t.

Lemma parse_one_stop f gv rest : stops rest -> parse_one f gv rest = None.
Proof. intros [->|[t ->]]; destruct f; reflexivity. Qed.

Lemma show_head_gv gv g : printable_gv gv g = true ->
  exists ch t, show g = ch :: t /\ beq ch "{"%byte = false.
Proof. destruct g; cbn; intros H; try discriminate; eexists; eexists; split; reflexivity. Qed.

Lemma basic_simple g : is_basic g = true -> g <> SFd ->
  exists ch, show g = [ch] /\ simple_of ch = Some g.
Proof. destruct g; cbn; intros H N; try discriminate; try (eexists; split; reflexivity). congruence. Qed.

Section RoundTrip.
  Variable gv : bool.

  Definition reads_back (g : sig) : Prop :=
    forall f rest, pf g <= f -> parse_one f gv (show g ++ rest) = Some (g, rest).

  Lemma parse_many_shows l : Forall reads_back l -> forall f r, stops r -> pfs l <= f ->
    parse_many f gv (concat (map show l) ++ r) = (l, r).
  Proof.
    induction 1 as [|x l Hx _ IH]; intros f r Hr Hf.
    - destruct f; [reflexivity|]. cbn [map concat app parse_many]. now rewrite parse_one_stop.
    - cbn [pfs] in Hf. destruct f as [|f]; [lia|]. cbn [map concat]. rewrite <- app_assoc.
      cbn [parse_many]. rewrite Hx by lia. rewrite IH by (assumption || lia). reflexivity.
  Qed.

  Lemma parse_one_show : forall g, printable_gv gv g = true -> reads_back g.
  Proof.
    induction g using sig_ind'; intros Hp f rest Hf; try discriminate Hp;
      try (destruct f; [cbn in Hf; lia|reflexivity]);
      cbn [printable_gv] in Hp; (destruct f as [|f]; [cbn in Hf; lia|]).
    - (* array: the element's first character is not "{", so the dict alternative is not taken *)
      cbn [pf] in Hf. destruct (show_head_gv gv g Hp) as (ch & t & Hs & Hne).
      specialize (IHg Hp f rest ltac:(lia)). rewrite Hs in IHg.
      change (show (SArray g) ++ rest) with ("a"%byte :: show g ++ rest). rewrite Hs.
      cbn [parse_one simple_of app] in IHg |- *. rewrite Hne, IHg. reflexivity.
    - (* dict *)
      apply andb_true_iff in Hp as [Hk Hv]. cbn [pf] in Hf.
      change (show (SDict g1 g2) ++ rest) with ("a"%byte :: "{"%byte :: (show g1 ++ show g2 ++ B "}") ++ rest).
      cbn [parse_one simple_of]. rewrite <- app_assoc. rewrite IHg1 by (assumption || lia).
      rewrite <- app_assoc. rewrite IHg2 by (assumption || lia). reflexivity.
    - (* struct *)
      apply andb_true_iff in Hp as [Hne Hall]. rewrite pf_struct in Hf.
      assert (HF : Forall reads_back fs).
      { rewrite Forall_forall in *. rewrite forallb_forall in Hall. auto. }
      change (show (SStruct fs) ++ rest) with ("("%byte :: (concat (map show fs) ++ B ")") ++ rest).
      cbn [parse_one simple_of]. rewrite <- app_assoc.
      rewrite (parse_many_shows fs HF f (B ")" ++ rest)) by ((right; eexists; reflexivity) || lia).
      destruct fs; [discriminate Hne|]. reflexivity.
    - (* maybe *)
      apply andb_true_iff in Hp as [Hgv Hp]. cbn [pf] in Hf.
      change (show (SMaybe g) ++ rest) with ("m"%byte :: show g ++ rest).
      cbn [parse_one simple_of]. rewrite IHg by (assumption || lia). rewrite Hgv. reflexivity.
  Qed.

  Lemma pfs_le l : Forall (fun g => printable_gv gv g = true /\ pf g <= 2 * length (show g)) l ->
    pfs l <= 2 * length (concat (map show l)) + 1.
  Proof.
    induction 1 as [|x r [Hp Hx] _ IH]; [cbn; lia|]. cbn [pfs map concat]. rewrite app_length.
    destruct (show_head_gv gv x Hp) as (ch & t & Hs & _). rewrite Hs in *. cbn [length] in *. lia.
  Qed.

  Lemma pf_bound_gv g : printable_gv gv g = true -> pf g <= 2 * length (show g).
  Proof.
    induction g using sig_ind'; intros Hp; try discriminate Hp; try (cbn; lia); cbn [printable_gv] in Hp.
    - specialize (IHg Hp). cbn [pf show]. rewrite app_length. cbn. lia.
    - apply andb_true_iff in Hp as [Hk Hv]. specialize (IHg1 Hk). specialize (IHg2 Hv).
      cbn [pf show]. rewrite !app_length. cbn. lia.
    - apply andb_true_iff in Hp as [_ Hall]. rewrite pf_struct. cbn [show]. rewrite !app_length. cbn.
      assert (HF : Forall (fun g => printable_gv gv g = true /\ pf g <= 2 * length (show g)) fs).
      { rewrite Forall_forall in *. rewrite forallb_forall in Hall. auto. }
      apply pfs_le in HF. lia.
    - apply andb_true_iff in Hp as [_ Hp]. specialize (IHg Hp). cbn [pf show]. rewrite app_length. cbn. lia.
  Qed.

  Theorem parse_sig_show g : printable_gv gv g = true -> parse_sig gv (show g) = Some g.
  Proof.
    intros Hp. unfold parse_sig. destruct (show_head_gv gv g Hp) as (ch & t & Hs & _).
    rewrite Hs. rewrite <- Hs. unfold sig_fuel.
    pose proof (pf_bound_gv g Hp) as Hb.
    assert (H1 : parse_many (2 * length (show g) + 2) gv (show g) = ([g], [])).
    { replace (2 * length (show g) + 2) with (S (2 * length (show g) + 1)) by lia. cbn [parse_many].
      pose proof (parse_one_show g Hp (2 * length (show g) + 1) [] ltac:(lia)) as Hx.
      rewrite app_nil_r in Hx. rewrite Hx.
      assert (Hn : forall k, parse_many k gv [] = ([], [])) by (intros [|[|k]]; reflexivity).
      now rewrite Hn. }
    rewrite H1. reflexivity.
  Qed.

  (* the D-Bus types, under either flag *)
  Lemma parse_show_mutual g : printable g = true -> reads_back g.
  Proof. intros Hp. apply parse_one_show, printable_any_gv, Hp. Qed.
  Theorem parse_show g : printable g = true -> parse_sig gv (show g) = Some g.
  Proof. intros Hp. apply parse_sig_show, printable_any_gv, Hp. Qed.
End RoundTrip.

Lemma show_head g : printable g = true -> exists ch t, show g = ch :: t /\ beq ch "{"%byte = false.
Proof. intros Hp. exact (show_head_gv false g (printable_any_gv false g Hp)). Qed.
Lemma pf_bound g : printable g = true -> pf g <= 2 * length (show g).
Proof. intros Hp. apply (pf_bound_gv false), printable_any_gv, Hp. Qed.
