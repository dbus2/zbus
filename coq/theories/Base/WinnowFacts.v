(* Base/WinnowFacts.v — the basic facts about byte and byte-string equality ([beq], [lbeq], [starts_with]),
   when no element of a list passes a test ([existsb_false]) or every element passes a weaker one ([forallb_impl]), and
   what `separated(min.., first_then f g, one_of sep)` followed by eof accepts:
   exactly the strings whose split on [sep] has at least [min] pieces, every piece matching f g*. *)
From ZV Require Import Base.Bytes Base.Winnow.
From Coq Require Import Lia.

Lemma beq_refl c : beq c c = true.
Proof. unfold beq. apply Byte.byte_dec_lb. reflexivity. Qed.
Lemma beq_eq a b : beq a b = true -> a = b.
Proof. unfold beq. apply Byte.byte_dec_bl. Qed.
Lemma beq_neq a b : beq a b = false -> a <> b.
Proof. intros H E. subst. rewrite beq_refl in H. discriminate. Qed.
Lemma beq_sym a b : beq a b = beq b a.
Proof. apply Bool.eq_true_iff_eq. split; intro H; apply beq_eq in H; subst; apply beq_refl. Qed.

Lemma lbeq_eq a : forall b, lbeq a b = true <-> a = b.
Proof.
  induction a as [|x a IH]; intros [|y b]; cbn; split; intro H; try reflexivity; try discriminate.
  - apply andb_true_iff in H as [H1 H2]. apply beq_eq in H1. apply IH in H2. congruence.
  - inversion H; subst. rewrite beq_refl. cbn. apply IH. reflexivity.
Qed.
Lemma lbeq_refl a : lbeq a a = true.
Proof. apply lbeq_eq. reflexivity. Qed.

(* any boolean equality that decides [=] *)
Section Eqb.
  Context {A} (eqb : A -> A -> bool) (eqb_eq : forall a b, eqb a b = true <-> a = b).
  Lemma eqb_false a b : eqb a b = false <-> a <> b.
  Proof. rewrite <- eqb_eq. symmetry. apply Bool.not_true_iff_false. Qed.
  Lemma eqb_sym a b : eqb a b = eqb b a.
  Proof. apply Bool.eq_true_iff_eq. rewrite !eqb_eq. split; apply eq_sym. Qed.
End Eqb.

Lemma lbeq_false a b : lbeq a b = false <-> a <> b.
Proof. apply (eqb_false lbeq lbeq_eq). Qed.
Lemma lbeq_sym a b : lbeq a b = lbeq b a.
Proof. apply (eqb_sym lbeq lbeq_eq). Qed.

Lemma starts_with_app p : forall l, starts_with p l = true -> l = p ++ skipn (length p) l.
Proof.
  induction p as [|a p IH]; intros l H; [reflexivity|].
  destruct l as [|b l]; [discriminate|]. cbn in H. apply andb_true_iff in H as [H1 H2].
  apply beq_eq in H1. subst b. cbn. f_equal. now apply IH.
Qed.

Lemma existsb_false {A} (f : A -> bool) l : existsb f l = false <-> Forall (fun x => f x = false) l.
Proof.
  induction l as [|x l IH]; cbn; [split; [constructor|reflexivity]|]. now rewrite orb_false_iff, Forall_cons_iff, IH.
Qed.

Lemma forallb_impl_in {A} (f g : A -> bool) l :
  (forall x, In x l -> f x = true -> g x = true) -> forallb f l = true -> forallb g l = true.
Proof. rewrite !forallb_forall. auto. Qed.
Lemma forallb_impl {A} (f g : A -> bool) l : (forall x, f x = true -> g x = true) -> forallb f l = true -> forallb g l = true.
Proof. intros H. apply forallb_impl_in. intros x _. apply H. Qed.

Lemma split_on_aux_spec sep l : forall cur,
  split_on_aux sep l cur =
  match split_on_aux sep l [] with p :: ps => (rev cur ++ p) :: ps | [] => [] end.
Proof.
  induction l as [|c l IH]; intros cur; cbn.
  - now rewrite app_nil_r.
  - destruct (beq c sep).
    + now rewrite app_nil_r.
    + rewrite (IH (c :: cur)), (IH [c]). destruct (split_on_aux sep l []); [reflexivity|].
      cbn. now rewrite <- app_assoc.
Qed.

Lemma split_on_nil sep : split_on sep [] = [[]].
Proof. reflexivity. Qed.

Lemma split_on_cons sep c l :
  split_on sep (c :: l) =
  if beq c sep then [] :: split_on sep l
  else match split_on sep l with p :: ps => (c :: p) :: ps | [] => [] end.
Proof.
  unfold split_on. cbn. destruct (beq c sep); [reflexivity|].
  rewrite split_on_aux_spec. reflexivity.
Qed.

Lemma split_on_nonempty sep l : split_on sep l <> [].
Proof.
  induction l as [|c l IH]; [discriminate|]. rewrite split_on_cons.
  destruct (beq c sep); [discriminate|]. destruct (split_on sep l); [contradiction|discriminate].
Qed.

Definition no_sep (sep : byte) (w : bytes) : Prop := Forall (fun c => beq c sep = false) w.

Lemma split_on_word sep w r : no_sep sep w ->
  split_on sep (w ++ r) = match split_on sep r with p :: ps => (w ++ p) :: ps | [] => [] end.
Proof.
  induction 1 as [|c w Hc Hw IH]; cbn [app].
  - destruct (split_on sep r); reflexivity.
  - rewrite split_on_cons, Hc, IH. destruct (split_on sep r); reflexivity.
Qed.

Lemma join_split sep l : join [sep] (split_on sep l) = l.
Proof.
  induction l as [|c l IH]; [reflexivity|]. rewrite split_on_cons.
  destruct (beq c sep) eqn:E.
  - apply beq_eq in E. subst c. pose proof (split_on_nonempty sep l) as Hn.
    destruct (split_on sep l) as [|p ps] eqn:Es; [contradiction|]. cbn in *. now rewrite IH.
  - pose proof (split_on_nonempty sep l) as Hn.
    destruct (split_on sep l) as [|p ps] eqn:Es; [contradiction|].
    destruct ps; cbn in *; now rewrite <- IH.
Qed.

Lemma split_join sep es : es <> [] -> Forall (no_sep sep) es -> split_on sep (join [sep] es) = es.
Proof.
  induction es as [|e es IH]; [contradiction|]. intros _ H. inversion H as [|? ? He Hes]; subst.
  destruct es as [|e2 es].
  - cbn [join]. pose proof (split_on_word sep e [] He) as Hw. rewrite app_nil_r in Hw. rewrite Hw. cbn.
    now rewrite app_nil_r.
  - change (join [sep] (e :: e2 :: es)) with (e ++ [sep] ++ join [sep] (e2 :: es)).
    rewrite split_on_word by assumption. cbn [app]. rewrite split_on_cons, beq_refl.
    rewrite IH by (try discriminate; assumption). now rewrite app_nil_r.
Qed.

Definition first_then (f g : byte -> bool) : parser := pseq (one_of f) (take_while0 g).

Lemma take_while1_first_then g inp : take_while1 g inp = first_then g g inp.
Proof. destruct inp as [|c r]; cbn; [reflexivity|]. unfold first_then, pseq, one_of. destruct (g c); reflexivity. Qed.

Definition okb (f g : byte -> bool) (e : bytes) : bool :=
  match e with c :: r => f c && forallb g r | [] => false end.

Lemma drop_while_spec g inp :
  exists w, inp = w ++ drop_while g inp /\ forallb g w = true /\
            match drop_while g inp with [] => True | d :: _ => g d = false end.
Proof.
  induction inp as [|c r IH]; cbn.
  - exists []. auto.
  - destruct (g c) eqn:E.
    + destruct IH as (w & H1 & H2 & H3). exists (c :: w). cbn. rewrite E, H2. split; [now rewrite <- H1|auto].
    + exists []. cbn. auto.
Qed.

Lemma first_then_some f g inp r : first_then f g inp = Some r ->
  exists c w, inp = c :: w ++ r /\ f c = true /\ forallb g w = true /\
              match r with [] => True | d :: _ => g d = false end.
Proof.
  unfold first_then, pseq, one_of, take_while0. destruct inp as [|c t]; [discriminate|].
  destruct (f c) eqn:E; [|discriminate]. intros H. inversion H; subst.
  destruct (drop_while_spec g t) as (w & H1 & H2 & H3). exists c, w. rewrite <- H1. auto.
Qed.

Lemma first_then_none f g inp : first_then f g inp = None ->
  match inp with [] => True | d :: _ => f d = false end.
Proof.
  unfold first_then, pseq, one_of, take_while0. destruct inp as [|c t]; [auto|].
  destruct (f c); [discriminate|auto].
Qed.

Section Separated.
  Variables (f g : byte -> bool) (sep : byte).
  Hypothesis f_sep : f sep = false.
  Hypothesis g_sep : g sep = false.
  Let E := first_then f g.
  Let S := one_of (fun x => beq x sep).
  Let ok := okb f g.

  Lemma not_sep_f c : f c = true -> beq c sep = false.
  Proof. intros H. destruct (beq c sep) eqn:Eq; [|reflexivity]. apply beq_eq in Eq. subst. congruence. Qed.
  Lemma not_sep_g w : forallb g w = true -> no_sep sep w.
  Proof.
    induction w as [|c w IH]; cbn; [constructor|]. intros H. apply andb_true_iff in H as [H1 H2].
    constructor; [|now apply IH]. destruct (beq c sep) eqn:Eq; [|reflexivity]. apply beq_eq in Eq. subst. congruence.
  Qed.

  Lemma ok_no_sep e : ok e = true -> no_sep sep e.
  Proof.
    destruct e as [|c r]; [discriminate|]. cbn. intros H. apply andb_true_iff in H as [H1 H2].
    constructor; [now apply not_sep_f|now apply not_sep_g].
  Qed.

  (* what remains after an element decides the rest of the parse *)
  Definition tailok (min count : nat) (inp : bytes) : bool :=
    match inp with
    | [] => Nat.leb min count
    | c :: rest => beq c sep && forallb ok (split_on sep rest)
                   && Nat.leb min (count + length (split_on sep rest))
    end.

  Lemma elem_none rest : E rest = None -> forallb ok (split_on sep rest) = false.
  Proof.
    intros H. apply first_then_none in H. destruct rest as [|d t]; [reflexivity|].
    rewrite split_on_cons. destruct (beq d sep) eqn:Ed; [reflexivity|].
    pose proof (split_on_nonempty sep t) as Hn. destruct (split_on sep t); [contradiction|].
    cbn. now rewrite H.
  Qed.

  Lemma elem_some rest r2 min count : E rest = Some r2 ->
    forallb ok (split_on sep rest) && Nat.leb min (count + length (split_on sep rest))
    = tailok min (Datatypes.S count) r2.
  Proof.
    intros H. apply first_then_some in H as (c & w & -> & Hc & Hw & Hr).
    change (c :: w ++ r2) with ((c :: w) ++ r2).
    assert (Hns : no_sep sep (c :: w)) by (constructor; [now apply not_sep_f|now apply not_sep_g]).
    rewrite split_on_word by assumption.
    destruct r2 as [|d r3].
    - cbn. rewrite app_nil_r. cbn. rewrite Hc, Hw. cbn. f_equal. lia.
    - rewrite split_on_cons. cbn [tailok]. destruct (beq d sep) eqn:Ed.
      + cbn [app forallb length]. rewrite app_nil_r. cbn [ok okb]. fold ok. rewrite Hc, Hw. cbn.
        f_equal. f_equal. lia.
      + pose proof (split_on_nonempty sep r3) as Hn. destruct (split_on sep r3) as [|p ps]; [contradiction|].
        cbn [forallb]. replace (ok ((c :: w) ++ d :: p)) with false; [reflexivity|].
        cbn. rewrite forallb_app. cbn. rewrite Hr. now rewrite !andb_false_r.
  Qed.

  Lemma sep_loop_spec : forall fuel min count inp, length inp < fuel ->
    match sep_loop fuel min count E S inp with Some [] => true | _ => false end = tailok min count inp.
  Proof.
    induction fuel as [|fuel IH]; intros min count inp Hf; [lia|].
    cbn [sep_loop]. destruct inp as [|c rest].
    - unfold S, one_of. cbn [tailok].
      destruct (Nat.ltb_spec count min); destruct (Nat.leb_spec min count); try lia; reflexivity.
    - unfold S at 1. cbn [one_of tailok]. destruct (beq c sep) eqn:Ec.
      + destruct (E rest) as [r2|] eqn:Ee.
        * rewrite IH.
          -- cbn [andb]. symmetry. now apply elem_some.
          -- apply first_then_some in Ee as (c1 & w & -> & _). cbn in Hf. rewrite app_length in Hf. cbn. lia.
        * rewrite (elem_none _ Ee). cbn [andb]. destruct (Nat.ltb count min); reflexivity.
      + cbn [andb]. destruct (Nat.ltb count min); reflexivity.
  Qed.

  Theorem separated_spec min s : 1 <= min ->
    parse_all (separated min E S) s
    = forallb ok (split_on sep s) && Nat.leb min (length (split_on sep s)).
  Proof.
    intros Hm. unfold parse_all, separated. destruct (E s) as [r|] eqn:Ee.
    - rewrite sep_loop_spec by lia. symmetry. now apply (elem_some s r min 0).
    - rewrite (elem_none _ Ee). destruct min; [lia|]. reflexivity.
  Qed.

  Theorem separated0_spec s :
    parse_all (separated 0 E S) s
    = match s with [] => true | _ => forallb ok (split_on sep s) end.
  Proof.
    unfold parse_all, separated. destruct (E s) as [r|] eqn:Ee.
    - rewrite sep_loop_spec by lia. rewrite <- (elem_some s r 0 0 Ee). cbn [Nat.leb]. rewrite andb_true_r.
      destruct s; [discriminate Ee|reflexivity].
    - cbn. rewrite (elem_none _ Ee). destruct s; reflexivity.
  Qed.
End Separated.
