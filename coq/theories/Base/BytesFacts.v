(* Base/BytesFacts.v — what [len], [takeN], [dropN], [bn] and [nb] of Base/Bytes.v do: lengths of lists built with
   [::] and [++], taking and dropping a prefix of known length, bytes against the numbers below 256. *)
From ZV Require Import Base.Bytes.
From Coq Require Import Lia.
Local Open Scope N_scope.

Lemma len_nil : len [] = 0. Proof. reflexivity. Qed.
Lemma len_cons c (l : bytes) : len (c :: l) = 1 + len l.
Proof. unfold len. cbn [length]. lia. Qed.
Lemma len_app (a b : bytes) : len (a ++ b) = len a + len b.
Proof. unfold len. rewrite app_length. lia. Qed.

Lemma firstn_add {A} n m (l : list A) : firstn (n + m) l = firstn n l ++ firstn m (skipn n l).
Proof.
  revert l. induction n as [|n IH]; intros l; [reflexivity|].
  destruct l; cbn; [now rewrite firstn_nil|]. now rewrite IH.
Qed.
Lemma skipn_add {A} n m (l : list A) : skipn m (skipn n l) = skipn (n + m) l.
Proof.
  revert l. induction n as [|n IH]; intros l; [reflexivity|].
  destruct l; cbn; [now rewrite skipn_nil|]. apply IH.
Qed.

Lemma takeN_app (a b : bytes) : takeN (len a) (a ++ b) = a.
Proof. unfold takeN, len. rewrite Nat2N.id. rewrite firstn_app, Nat.sub_diag, firstn_all. cbn. apply app_nil_r. Qed.
Lemma dropN_app (a b : bytes) : dropN (len a) (a ++ b) = b.
Proof. unfold dropN, len. rewrite Nat2N.id. rewrite skipn_app, Nat.sub_diag, skipn_all. reflexivity. Qed.
Lemma len_takeN (l : bytes) n : n <= len l -> len (takeN n l) = n.
Proof. unfold len, takeN. intros H. rewrite firstn_length. lia. Qed.
Lemma len_dropN (l : bytes) n : len (dropN n l) = len l - n.
Proof. unfold len, dropN. rewrite skipn_length. lia. Qed.
Lemma dropN_dropN {A} a b (l : list A) : dropN b (dropN a l) = dropN (a + b) l.
Proof. unfold dropN. rewrite skipn_add. f_equal. lia. Qed.

Lemma bn_lt c : bn c < 256.
Proof. unfold bn. pose proof (Byte.to_N_bounded c). lia. Qed.
Lemma nb_bn c : nb (bn c) = c.
Proof. unfold nb. rewrite N.mod_small by apply bn_lt. unfold bn. now rewrite Byte.of_to_N. Qed.
Lemma bn_inj x y : bn x = bn y -> x = y.
Proof. intros H. rewrite <- (nb_bn x), H. apply nb_bn. Qed.
Lemma bn_nb_mod n : bn (nb n) = n mod 256.
Proof.
  unfold bn, nb. destruct (Byte.of_N (n mod 256)) eqn:E.
  - now apply Byte.to_of_N.
  - apply Byte.of_N_None_iff in E. pose proof (N.mod_lt n 256). lia.
Qed.
Lemma bn_nb n : n < 256 -> bn (nb n) = n.
Proof. intros H. rewrite bn_nb_mod. now apply N.mod_small. Qed.
