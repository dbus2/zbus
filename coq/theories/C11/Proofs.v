(* C11/Proofs.v — layout of built messages and the round trip through the parser. *)
From ZV Require Import Base.Bytes Base.BytesFacts Base.Res Base.Sig C10.Model C11.Model C11.Spec C11.Body C11.BodySpec
     C11.Lemmas C11.AtPos C11.SigProofs C11.NamesAscii C11.Invariants.
From ZV Require C22.Facts.
From Coq Require Import Lia.
Open Scope N_scope.

(* ---------- what a well-formed header / body is ---------- *)
Definition optb (f : bytes -> bool) (o : option bytes) : bool := match o with Some s => f s | None => true end.
Definition optn (o : option N) : bool := match o with Some n => (1 <=? n) && (n <? two32) | None => true end.
(* any subset of the header fields, each a valid name of its kind; type 1..4; known flag bits; serial and reply serial non-zero u32 *)
Definition hdr_valid (h : hdr) : bool :=
  (1 <=? h_type h) && (h_type h <=? 4) && (h_flags h <=? 7) && (1 <=? h_serial h) && (h_serial h <? two32)
  && optb validate_object_path (h_path h) && optb validate_interface (h_iface h) && optb validate_member (h_member h)
  && optb validate_error (h_errname h) && optn (h_reply h) && optb validate_bus (h_dest h) && optb validate_unique (h_sender h)
  && optb (fun s => len s <? two32) (h_path h).     (* names are at most 255 bytes by their grammar; a path has no limit of its own *)
(* body signature: nothing or complete types, at most 255 bytes on the wire; the number of descriptors is a u32 *)
Definition body_valid (bsig : sig) (nfds : N) : bool :=
  body_sig_ok bsig && (len (show_np bsig) <=? 255) && (nfds <? two32).

(* a D-Bus string: valid UTF-8 without NUL, shorter than 4 GiB *)
Definition dstr (s : bytes) : Prop := has_nul s = false /\ utf8_valid s = true /\ len s < two32.

(* the numbers of the fixed header *)
Definition hdr_nums (h : hdr) : Prop := 1 <= h_type h <= 4 /\ h_flags h <= 7 /\ 1 <= h_serial h < two32.

(* proofs use these facts and leave [hdr_valid] folded: [lia] reads every boolean hypothesis of the context, and
   unfolds a name validator it finds there down to its parser *)
Lemma hdr_valid_inv h : hdr_valid h = true ->
  hdr_nums h /\
  optb validate_object_path (h_path h) = true /\ optb validate_interface (h_iface h) = true /\
  optb validate_member (h_member h) = true /\ optb validate_error (h_errname h) = true /\ optn (h_reply h) = true /\
  optb validate_bus (h_dest h) = true /\ optb validate_unique (h_sender h) = true /\
  optb (fun s => len s <? two32) (h_path h) = true.
Proof. unfold hdr_valid, hdr_nums. rewrite !Bool.andb_true_iff, !N.leb_le, N.ltb_lt. tauto. Qed.

(* ---------- the fields record without the offsets ---------- *)
Record pfields := {
  p_path : option bytes; p_iface : option bytes; p_member : option bytes; p_errname : option bytes;
  p_reply : option N; p_dest : option bytes; p_sender : option bytes; p_sig : sig; p_fds : option N }.
Definition omf (o : option (bytes * N)) : option bytes := option_map fst o.
Definition proj (fs : fields) : pfields :=
  {| p_path := omf (f_path fs); p_iface := omf (f_iface fs); p_member := omf (f_member fs); p_errname := omf (f_errname fs);
     p_reply := f_reply fs; p_dest := omf (f_dest fs); p_sender := omf (f_sender fs); p_sig := f_sig fs; p_fds := f_fds fs |}.
Definition pempty : pfields :=
  {| p_path := None; p_iface := None; p_member := None; p_errname := None; p_reply := None; p_dest := None;
     p_sender := None; p_sig := SUnit; p_fds := None |}.

Definition set_path o pf := {| p_path := o; p_iface := p_iface pf; p_member := p_member pf; p_errname := p_errname pf; p_reply := p_reply pf; p_dest := p_dest pf; p_sender := p_sender pf; p_sig := p_sig pf; p_fds := p_fds pf |}.
Definition set_iface o pf := {| p_path := p_path pf; p_iface := o; p_member := p_member pf; p_errname := p_errname pf; p_reply := p_reply pf; p_dest := p_dest pf; p_sender := p_sender pf; p_sig := p_sig pf; p_fds := p_fds pf |}.
Definition set_member o pf := {| p_path := p_path pf; p_iface := p_iface pf; p_member := o; p_errname := p_errname pf; p_reply := p_reply pf; p_dest := p_dest pf; p_sender := p_sender pf; p_sig := p_sig pf; p_fds := p_fds pf |}.
Definition set_errname o pf := {| p_path := p_path pf; p_iface := p_iface pf; p_member := p_member pf; p_errname := o; p_reply := p_reply pf; p_dest := p_dest pf; p_sender := p_sender pf; p_sig := p_sig pf; p_fds := p_fds pf |}.
Definition set_reply o pf := {| p_path := p_path pf; p_iface := p_iface pf; p_member := p_member pf; p_errname := p_errname pf; p_reply := o; p_dest := p_dest pf; p_sender := p_sender pf; p_sig := p_sig pf; p_fds := p_fds pf |}.
Definition set_dest o pf := {| p_path := p_path pf; p_iface := p_iface pf; p_member := p_member pf; p_errname := p_errname pf; p_reply := p_reply pf; p_dest := o; p_sender := p_sender pf; p_sig := p_sig pf; p_fds := p_fds pf |}.
Definition set_sender o pf := {| p_path := p_path pf; p_iface := p_iface pf; p_member := p_member pf; p_errname := p_errname pf; p_reply := p_reply pf; p_dest := p_dest pf; p_sender := o; p_sig := p_sig pf; p_fds := p_fds pf |}.
Definition set_sig g pf := {| p_path := p_path pf; p_iface := p_iface pf; p_member := p_member pf; p_errname := p_errname pf; p_reply := p_reply pf; p_dest := p_dest pf; p_sender := p_sender pf; p_sig := g; p_fds := p_fds pf |}.
Definition set_fds o pf := {| p_path := p_path pf; p_iface := p_iface pf; p_member := p_member pf; p_errname := p_errname pf; p_reply := p_reply pf; p_dest := p_dest pf; p_sender := p_sender pf; p_sig := p_sig pf; p_fds := o |}.

(* FieldsVisitor on written values: what it checks, what it assigns *)
Definition pcheck (f : N * wval) : bool :=
  match fst f, snd f with
  | 1, WPath _ | 9, WU32 _ => true
  | 2, WStr s => validate_interface s
  | 3, WStr s => validate_member s
  | 4, WStr s => validate_error s
  | 5, WU32 n => negb (n =? 0)
  | 6, WStr s => validate_bus s
  | 7, WStr s => validate_unique s
  | 8, WSig s => match parse_sig s with Some _ => true | None => false end
  | _, _ => false
  end.
Definition sig_of (s : bytes) : sig := match parse_sig s with Some g => g | None => SUnit end.
Definition pupd (pf : pfields) (f : N * wval) : pfields :=
  match fst f, snd f with
  | 1, WPath s => set_path (Some s) pf
  | 2, WStr s => set_iface (Some s) pf
  | 3, WStr s => set_member (Some s) pf
  | 4, WStr s => set_errname (Some s) pf
  | 5, WU32 n => set_reply (Some n) pf
  | 6, WStr s => set_dest (Some s) pf
  | 7, WStr s => set_sender (Some s) pf
  | 8, WSig s => set_sig (sig_of s) pf
  | 9, WU32 n => set_fds (Some n) pf
  | _, _ => pf
  end.

(* a field the serializer writes as the specification says and the reader accepts *)
Definition field_ok (f : N * wval) : Prop :=
  1 <= fst f <= 9 /\ pcheck f = true /\
  match snd f with
  | WStr s => dstr s
  | WPath s => dstr s /\ validate_object_path s = true
  | WSig s => len s < 256 /\ exists g, parse_sig s = Some g
  | WU32 n => n < two32
  end.

Definition fval_of (pos : N) (v : wval) : fval :=
  let st := pos + padding pos 8 + 4 + 4 in       (* after code and signature, then after the length word *)
  match v with
  | WStr s => FStr s st
  | WPath s => FPath s st
  | WSig s => FSig (sig_of s)
  | WU32 n => FU32 n
  end.

Lemma code_cases c : 1 <= c <= 9 -> c = 1 \/ c = 2 \/ c = 3 \/ c = 4 \/ c = 5 \/ c = 6 \/ c = 7 \/ c = 8 \/ c = 9.
Proof. lia. Qed.

Lemma set_field_proj fs pos f : 1 <= fst f <= 9 -> pcheck f = true ->
  exists fs', set_field fs (fst f) (fval_of pos (snd f)) = Ok fs' /\ proj fs' = pupd (proj fs) f.
Proof.
  destruct f as [code v]. cbn [fst snd]. intros Hc H.
  destruct (code_cases code Hc) as [->|[->|[->|[->|[->|[->|[->|[->| ->]]]]]]]]; destruct v as [s|s|s|n]; try discriminate H;
    cbn [pcheck fst snd] in H; cbn [set_field fval_of]; rewrite ?H; try (destruct (n =? 0); [discriminate H|]);
    eexists; (split; reflexivity).
Qed.

(* ---------- one header field, decoded where the specification puts it ---------- *)
Lemma len_spec_element e f : len (spec_element e f) =
  4 + match snd f with WStr s | WPath s => 4 + len s + 1 | WSig s => 1 + len s + 1 | WU32 _ => 4 end.
Proof.
  unfold spec_element. rewrite len_app. change (len [_; _; _; _]) with 4. f_equal.
  destruct (snd f); cbn [spec_value]; rewrite ?len_app, ?len_u32, ?len_cons, ?len_nil; lia.
Qed.

Lemma spec_element_pos e f : 4 <= len (spec_element e f).
Proof. rewrite len_spec_element. lia. Qed.

(* the signature of a variant, where a marshalled one is found *)
Lemma variant_sig_at e b pos vs : wf vs = true -> len (show vs) < 256 ->
  at_pos b pos ([nb (len (show vs))] ++ show vs ++ [x00]) ->
  variant_sig e b pos = Ok (vs, pos + 1 + len (show vs) + 1).
Proof.
  intros Hwf Hl H. pose proof (parse_show vs Hwf) as Hp. pose proof (parse_sig_chars _ _ Hp) as Hch.
  pose proof (at_pos_len _ _ _ H) as Hlen. rewrite !len_app in Hlen. change (len [_]) with 1 in Hlen.
  unfold variant_sig. rewrite (de_str_narrow_at e b pos _ H Hl (ascii_no_nul _ Hch) (ascii_utf8 _ Hch)). cbn [bind].
  apply at_pos_app in H. destruct H as [Hlb H]. apply at_pos_app in H. destruct H as [Hs _]. change (len [_]) with 1 in Hs.
  rewrite Hp, (at_pos_nth _ _ _ _ Hlb), bn_nb by exact Hl. rewrite (at_pos_take _ _ _ Hs), Hp, N.eqb_refl.
  replace (len b <? pos + 1 + len (show vs)) with false by lia.
  replace (len b <? pos + 1 + len (show vs) + 1) with false by lia.
  destruct vs; try discriminate Hwf; reflexivity.
Qed.

Definition vsig (v : wval) : sig :=
  match v with WStr _ => SStr | WPath _ => SObjPath | WSig _ => SSig | WU32 _ => SU32 end.

Lemma de_field_spec e b pos code v :
  field_ok (code, v) -> at_pos b pos (zeros (padding pos 8) ++ spec_element e (code, v)) ->
  de_field e b pos = Ok (code, fval_of pos v, pos + padding pos 8 + len (spec_element e (code, v))).
Proof.
  intros (Hcode & _ & Hv) H. cbn [fst snd] in Hcode, Hv.
  pose proof (padding_aligned pos 8 ltac:(lia)) as Hq.
  rewrite len_spec_element. unfold fval_of. cbn [snd]. set (q := pos + padding pos 8) in *.
  apply at_pos_app in H. destruct H as [H0 H1]. rewrite len_zeros in H1. fold q in H1.
  unfold spec_element in H1. cbn [fst snd] in H1.
  replace [nb code; nb 1; sig_char v; x00] with ([nb code] ++ ([nb (len (show (vsig v)))] ++ show (vsig v) ++ [x00])) in H1
    by (destruct v; reflexivity).
  rewrite <- app_assoc in H1. apply at_pos_app in H1. destruct H1 as [Hc H1]. change (len [nb code]) with 1 in H1.
  apply at_pos_app in H1. destruct H1 as [Hsg Hval].
  unfold de_field. rewrite (parse_padding_at' b pos 8 H0). fold q. cbn [bind].
  rewrite (de_u8_at' b q _ Hc). cbn [bind]. rewrite bn_nb by lia.
  rewrite de_variant_eq, (variant_sig_at e b (q + 1) (vsig v)) by (exact Hsg || (destruct v; reflexivity)). cbn [bind].
  replace (len (_ ++ _ ++ [x00])) with 3 in Hval by (destruct v; reflexivity).
  replace (len (show (vsig v))) with 1 by (destruct v; reflexivity).
  replace (q + 1 + 3) with (q + 4) in Hval by lia. replace (q + 1 + 1 + 1 + 1) with (q + 4) by lia.
  assert (Hq4 : (q + 4) mod 4 = 0) by lia.
  destruct v as [s|s|s|n]; cbn [vsig variant_tail spec_value] in *.
  - destruct Hv as (Hz & Hu & Hl). rewrite (de_str_wide_at e b (q + 4) s Hval Hq4 Hl Hz Hu). cbn [bind].
    f_equal; f_equal; lia.
  - destruct Hv as ((Hz & Hu & Hl) & Hp). rewrite (de_str_wide_at e b (q + 4) s Hval Hq4 Hl Hz Hu). cbn [bind]. rewrite Hp.
    cbn [bind]. f_equal; f_equal; lia.
  - destruct Hv as (Hl & g & Hg). pose proof (parse_sig_chars _ _ Hg) as Hch.
    rewrite (de_str_narrow_at e b (q + 4) s Hval Hl (ascii_no_nul _ Hch) (ascii_utf8 _ Hch)). cbn [bind].
    unfold sig_of. rewrite Hg. cbn [bind]. f_equal; f_equal; lia.
  - rewrite (de_u32_at' e b (q + 4) n Hval Hq4 Hv). cbn [bind]. f_equal; f_equal; lia.
Qed.

(* ---------- the whole field array ---------- *)
Lemma spec_array_cons2 e f g r : spec_array e (f :: g :: r) = pad8 (spec_element e f) ++ spec_array e (g :: r).
Proof. reflexivity. Qed.

Lemma len_pad8 x : len (pad8 x) = len x + padding (len x) 8.
Proof. unfold pad8. rewrite len_app, len_zeros. reflexivity. Qed.

(* an element takes at least the four bytes of its code and signature *)
Lemma spec_array_length e l : N.of_nat (length l) <= len (spec_array e l).
Proof.
  induction l as [|f r IH]; [cbn; lia|]. pose proof (spec_element_pos e f) as Hf.
  destruct r as [|g r]; [cbn [spec_array length]; lia|].
  rewrite spec_array_cons2, len_app, len_pad8. cbn [length] in *. lia.
Qed.

(* the array as it stands at position [pos], which need not be aligned: the serializer writes it element by element,
   each preceded by its padding, and the reader consumes it the same way *)
Definition field_array (e : endian) (pos : N) (l : list (N * wval)) : bytes :=
  match l with [] => [] | _ => zeros (padding pos 8) ++ spec_array e l end.

Lemma field_array_cons e pos f r : field_array e pos (f :: r) =
  (zeros (padding pos 8) ++ spec_element e f) ++ field_array e (pos + padding pos 8 + len (spec_element e f)) r.
Proof.
  destruct r as [|g r]; cbn [field_array]; [cbn [spec_array]; rewrite app_nil_r; reflexivity|].
  rewrite spec_array_cons2, padding_add by (lia || apply padding_aligned; lia).
  unfold pad8. rewrite <- !app_assoc. reflexivity.
Qed.

Lemma field_array_aligned e pos l : pos mod 8 = 0 -> field_array e pos l = spec_array e l.
Proof. intros H. destruct l; [reflexivity|]. unfold field_array. rewrite padding_0 by (lia || exact H). reflexivity. Qed.

Lemma loop_spec e b endp : forall l fuel pos fs, Forall field_ok l ->
  at_pos b pos (field_array e pos l) -> endp = pos + len (field_array e pos l) -> (length l <= fuel)%nat ->
  exists fs', de_fields_loop fuel e b endp pos fs = Ok (fs', endp) /\ proj fs' = fold_left pupd l (proj fs).
Proof.
  induction l as [|[code v] r IH]; intros fuel pos fs Hall Hat Hend Hfuel.
  - exists fs. split; [|reflexivity]. change (len (field_array e pos [])) with 0 in Hend. rewrite N.add_0_r in Hend. subst endp.
    destruct fuel; cbn [de_fields_loop]; rewrite N.eqb_refl; reflexivity.
  - apply Forall_cons_iff in Hall. destruct Hall as [Hf Hr]. destruct fuel as [|fuel]; [cbn in Hfuel; lia|].
    rewrite field_array_cons in Hat, Hend. apply at_pos_app in Hat. destruct Hat as [Hel Hrest].
    rewrite !len_app, len_zeros in Hend. rewrite len_app, len_zeros, N.add_assoc in Hrest.
    pose proof (spec_element_pos e (code, v)) as Hpos. destruct Hf as (Hc & Hck & Hv).
    destruct (set_field_proj fs pos (code, v) Hc Hck) as (fs1 & Hs & Hj). cbn [fst snd] in Hc, Hs.
    cbn [de_fields_loop]. replace (pos =? endp) with false by lia.
    rewrite (de_field_spec e b pos code v (conj Hc (conj Hck Hv)) Hel). cbn [bind].
    replace (endp <? _) with false by lia. replace (code =? 0) with false by lia. replace (9 <? code) with false by lia.
    rewrite Hs. cbn [bind fold_left]. rewrite <- Hj. apply IH; [exact Hr|exact Hrest|lia|cbn [length] in Hfuel; lia].
Qed.

(* ---------- the header fields of a valid header ---------- *)
Definition ofield {A} (c : N) (w : A -> wval) (o : option A) : list (N * wval) :=
  match o with Some x => [(c, w x)] | None => [] end.
Definition osig (g : sig) : option bytes := match g with SUnit => None | _ => Some (show_np g) end.

(* nine optional fields; every property of the list is shown for one optional field and carried over by [++] *)
Lemma spec_fields_ofields h bsig nfds : spec_fields h bsig nfds =
  ofield 1 WPath (h_path h) ++ ofield 2 WStr (h_iface h) ++ ofield 3 WStr (h_member h) ++ ofield 4 WStr (h_errname h)
  ++ ofield 5 WU32 (h_reply h) ++ ofield 6 WStr (h_dest h) ++ ofield 7 WStr (h_sender h)
  ++ ofield 8 WSig (osig bsig) ++ ofield 9 WU32 (if nfds =? 0 then None else Some nfds).
Proof. unfold spec_fields. destruct bsig, (nfds =? 0); reflexivity. Qed.

Lemma osig_some g s : osig g = Some s -> s = show_np g /\ wf g = body_sig_ok g.
Proof. destruct g; intros [= <-]; split; reflexivity. Qed.
Lemma osig_none g : osig g = None -> g = SUnit.
Proof. destruct g; intros [=]; reflexivity. Qed.

Definition expected (h : hdr) (bsig : sig) (nfds : N) : pfields :=
  {| p_path := h_path h; p_iface := h_iface h; p_member := h_member h; p_errname := h_errname h; p_reply := h_reply h;
     p_dest := h_dest h; p_sender := h_sender h; p_sig := norm_sig bsig; p_fds := if nfds =? 0 then None else Some nfds |}.

(* [upd None pf = pf] is asked for through the getter: on a nest of setters, comparing [upd None pf] with [pf] directly
   sends the conversion test down every field of every level *)
Lemma fold_ofield {A} c (w : A -> wval) (get : pfields -> option A) (upd : option A -> pfields -> pfields) o pf :
  (forall x, pupd pf (c, w x) = upd (Some x) pf) -> (forall pf', upd (get pf') pf' = pf') -> get pf = None ->
  fold_left pupd (ofield c w o) pf = upd o pf.
Proof. intros Hs Hg Hn. destruct o; cbn [ofield fold_left]; [apply Hs|rewrite <- Hn; symmetry; apply Hg]. Qed.

Lemma fold_sig pf bsig : p_sig pf = SUnit -> body_sig_ok bsig = true ->
  fold_left pupd (ofield 8 WSig (osig bsig)) pf = set_sig (norm_sig bsig) pf.
Proof.
  intros Hs Hb. destruct (osig bsig) as [s|] eqn:E; cbn [ofield fold_left pupd fst snd].
  - apply osig_some in E. destruct E as [-> E]. unfold sig_of. rewrite parse_show_np by (rewrite E; exact Hb). reflexivity.
  - apply osig_none in E. subst bsig. destruct pf. cbn in Hs. subst. reflexivity.
Qed.

Lemma fold_spec_fields h bsig nfds : body_sig_ok bsig = true ->
  fold_left pupd (spec_fields h bsig nfds) pempty = expected h bsig nfds.
Proof.
  intros Hb. rewrite spec_fields_ofields, !fold_left_app.
  rewrite (fold_ofield 1 WPath p_path set_path), (fold_ofield 2 WStr p_iface set_iface), (fold_ofield 3 WStr p_member set_member),
    (fold_ofield 4 WStr p_errname set_errname), (fold_ofield 5 WU32 p_reply set_reply), (fold_ofield 6 WStr p_dest set_dest),
    (fold_ofield 7 WStr p_sender set_sender), (fold_sig _ bsig), (fold_ofield 9 WU32 p_fds set_fds)
    by (reflexivity || exact Hb || (intros []; reflexivity)).
  reflexivity.
Qed.

Lemma Forall_ofield {A} (P : N * wval -> Prop) c (w : A -> wval) o :
  (forall x, o = Some x -> P (c, w x)) -> Forall P (ofield c w o).
Proof. intros H. destruct o; constructor; [apply H; reflexivity|constructor]. Qed.

(* a name field: the validator of its kind is what the reader checks, and admits only short ASCII strings *)
Lemma name_fields_ok c v o : 1 <= c <= 9 -> (forall s, pcheck (c, WStr s) = v s) ->
  (forall s, v s = true -> forallb C22.Facts.name_char s = true) -> (forall s, v s = true -> len s < two32) ->
  optb v o = true -> Forall field_ok (ofield c WStr o).
Proof.
  intros Hc Hck Hch Hlen Hv. apply Forall_ofield. intros s ->. cbn [optb] in Hv.
  destruct (name_chars_str s (Hch s Hv)). repeat split; cbn [fst snd]; auto; try apply Hc. rewrite Hck. exact Hv.
Qed.

Lemma field_ok_spec_fields h bsig nfds : hdr_valid h = true -> body_valid bsig nfds = true ->
  Forall field_ok (spec_fields h bsig nfds).
Proof.
  intros Hh Hb. destruct (hdr_valid_inv h Hh) as (_ & V1 & V2 & V3 & V4 & V5 & V6 & V7 & L1). clear Hh.
  unfold body_valid in Hb. rewrite !Bool.andb_true_iff, N.leb_le, N.ltb_lt in Hb. destruct Hb as [[Hsig Hl8] Hn].
  rewrite spec_fields_ofields. repeat (apply Forall_app; split).
  - apply Forall_ofield. intros s E. rewrite E in V1, L1. cbn [optb] in V1, L1. apply N.ltb_lt in L1.
    destruct (name_chars_str s (C22.Facts.object_path_chars s V1)). repeat split; cbn [fst snd]; auto; easy.
  - apply (name_fields_ok 2 validate_interface); [easy|reflexivity|exact C22.Facts.interface_chars|exact iface_len|exact V2].
  - apply (name_fields_ok 3 validate_member); [easy|reflexivity|exact C22.Facts.member_chars|exact member_len|exact V3].
  - apply (name_fields_ok 4 validate_error); [easy|reflexivity|exact C22.Facts.interface_chars|exact iface_len|exact V4].
  - apply Forall_ofield. intros n E. rewrite E in V5. cbn [optn] in V5. clear - V5. repeat split; cbn [fst snd pcheck]; lia.
  - apply (name_fields_ok 6 validate_bus); [easy|reflexivity|exact bus_chars|exact bus_len|exact V6].
  - apply (name_fields_ok 7 validate_unique); [easy|reflexivity|exact C22.Facts.unique_chars|exact unique_len|exact V7].
  - apply Forall_ofield. intros s E. apply osig_some in E. destruct E as [-> E].
    pose proof (parse_show_np bsig ltac:(rewrite E; exact Hsig)) as Hp.
    repeat split; cbn [fst snd pcheck]; try easy; [rewrite Hp; reflexivity|clear - Hl8; lia|eauto].
  - apply Forall_ofield. intros n E. destruct (nfds =? 0); [discriminate|]. injection E as <-.
    repeat split; cbn [fst snd]; easy.
Qed.

(* ---------- layout: the serializer model writes what the specification formula says ---------- *)
Lemma ser_field_spec e pos f : field_ok f -> ser_field e pos f = Ok (zeros (padding pos 8) ++ spec_element e f).
Proof.
  destruct f as [code v]. intros (_ & _ & Hv). cbn [fst snd] in *. unfold ser_field, w_pad, spec_element. cbn [fst snd].
  pose proof (padding_aligned pos 8 ltac:(lia)) as Hq. rewrite len_zeros.
  assert (Hp4 : padding (pos + padding pos 8 + 1 + 3) 4 = 0) by (unfold padding; lia).
  destruct v as [s|s|s|n]; cbn [sig_char spec_value].
  - destruct Hv as (_ & _ & Hl). replace (two32 <=? len s) with false by lia. rewrite Hp4. reflexivity.
  - destruct Hv as ((_ & _ & Hl) & _). replace (two32 <=? len s) with false by lia. rewrite Hp4. reflexivity.
  - destruct Hv as (Hl & _). replace (256 <=? len s) with false by lia. reflexivity.
  - rewrite Hp4. reflexivity.
Qed.

Lemma ser_fields_spec e : forall l pos, Forall field_ok l -> ser_fields e pos l = Ok (field_array e pos l).
Proof.
  induction l as [|f r IH]; intros pos Hall; [reflexivity|].
  inversion Hall as [|? ? Hf Hr]; subst. cbn [ser_fields]. rewrite (ser_field_spec e pos f Hf). cbn [bind].
  rewrite len_app, len_zeros, N.add_assoc, (IH _ Hr), field_array_cons. reflexivity.
Qed.

(* ---------- the shape of a message ---------- *)
Definition fixed16 (h : hdr) (body_len arr_len : N) : bytes :=
  [endian_byte (h_endian h); nb (h_type h); nb (h_flags h); nb 1]
  ++ u32_bytes (h_endian h) body_len ++ u32_bytes (h_endian h) (h_serial h) ++ u32_bytes (h_endian h) arr_len.
Definition msg_array (h : hdr) (bsig : sig) (nfds : N) : bytes := spec_array (h_endian h) (spec_fields h bsig nfds).

Definition body_offset_of (h : hdr) (bsig : sig) (body : bytes) (nfds : N) : N :=
  len (pad8 (spec_header h (len body) (spec_fields h bsig nfds))).

Lemma len_fixed16 h bl al : len (fixed16 h bl al) = 16.
Proof. unfold fixed16. rewrite !len_app, !len_u32. reflexivity. Qed.

Lemma spec_header_fixed16 h bl fl :
  spec_header h bl fl = fixed16 h bl (len (spec_array (h_endian h) fl)) ++ spec_array (h_endian h) fl.
Proof. unfold spec_header, fixed16. rewrite <- !app_assoc. reflexivity. Qed.

Lemma body_offset_eq h bsig body nfds :
  body_offset_of h bsig body nfds = 16 + len (msg_array h bsig nfds) + padding (16 + len (msg_array h bsig nfds)) 8.
Proof. unfold body_offset_of. rewrite len_pad8, spec_header_fixed16, len_app, len_fixed16. reflexivity. Qed.

Lemma spec_message_shape h bsig body nfds : spec_message h bsig body nfds =
  fixed16 h (len body) (len (msg_array h bsig nfds)) ++ msg_array h bsig nfds
  ++ zeros (padding (16 + len (msg_array h bsig nfds)) 8) ++ body.
Proof.
  unfold spec_message, pad8. rewrite spec_header_fixed16, len_app, len_fixed16, <- !app_assoc. reflexivity.
Qed.

Lemma len_spec_message h bsig body nfds : len (spec_message h bsig body nfds) = body_offset_of h bsig body nfds + len body.
Proof. apply len_app. Qed.

Lemma body_at h bsig bd nfds : at_pos (spec_message h bsig bd nfds) (body_offset_of h bsig bd nfds) bd.
Proof. unfold spec_message, body_offset_of. rewrite <- (app_nil_r bd) at 2. apply at_pos_intro. Qed.
Lemma body_offset_aligned h bsig bd nfds : body_offset_of h bsig bd nfds mod 8 = 0.
Proof. unfold body_offset_of. rewrite len_pad8. apply padding_aligned. lia. Qed.

(* a message within MAX_MESSAGE_SIZE has u32 lengths *)
Lemma spec_message_small h bsig body nfds : len (spec_message h bsig body nfds) <= max_message_size ->
  len body < two32 /\ len (msg_array h bsig nfds) < two32 /\ len (spec_message h bsig body nfds) < two32.
Proof. rewrite len_spec_message, body_offset_eq. unfold max_message_size, two32. lia. Qed.

Theorem build_bytes_spec h bsig body nfds :
  hdr_valid h = true -> body_valid bsig nfds = true -> len (spec_message h bsig body nfds) <= max_message_size ->
  build_bytes h bsig body nfds = Ok (spec_message h bsig body nfds, body_offset_of h bsig body nfds).
Proof.
  intros Hh Hb Hsz. pose proof (field_ok_spec_fields h bsig nfds Hh Hb) as Hok.
  destruct (spec_message_small _ _ _ _ Hsz) as (Hbl & Hal & _).
  rewrite len_spec_message in Hsz. unfold body_offset_of, spec_message, pad8 in *. rewrite len_app, len_zeros in Hsz.
  unfold build_bytes, ser_header. change (field_list h bsig nfds) with (spec_fields h bsig nfds).
  rewrite (ser_fields_spec _ _ _ Hok), field_array_aligned by reflexivity. cbn [bind]. unfold msg_array in Hal.
  replace (two32 <=? len body) with false by lia. replace (two32 <=? len (spec_array _ _)) with false by lia.
  cbn [bind]. fold (spec_header h (len body) (spec_fields h bsig nfds)).
  replace (max_message_size <? _) with false by lia. rewrite len_app, len_zeros, <- app_assoc. reflexivity.
Qed.

(* ---------- parsing the specification layout ---------- *)
Lemma endian_rt e : endian_of_byte (endian_byte e) = Some e.
Proof. destruct e; reflexivity. Qed.
Lemma endian_eqb_refl e : endian_eqb e e = true.
Proof. destruct e; reflexivity. Qed.

(* the two reads of the 16 fixed bytes: the primary header and the length of the field array *)
Lemma fixed16_reads h bl al rest : hdr_nums h -> bl < two32 -> al < two32 ->
  de_primary (h_endian h) (fixed16 h bl al ++ rest)
  = Ok ({| ph_endian := h_endian h; ph_type := h_type h; ph_flags := h_flags h; ph_version := 1; ph_body_len := bl;
           ph_serial := h_serial h |}, 12)
  /\ de_u32 (h_endian h) (fixed16 h bl al ++ rest) 12 = Ok (al, 16).
Proof.
  intros (Hty & Hfl & Hsn) Hbl Hal. pose proof (at_pos_prefix (fixed16 h bl al) rest) as Hb.
  set (b := fixed16 h bl al ++ rest) in *. clearbody b. set (e := h_endian h) in *. unfold fixed16 in Hb. fold e in Hb.
  change [endian_byte e; nb (h_type h); nb (h_flags h); nb 1]
    with ([endian_byte e] ++ [nb (h_type h)] ++ [nb (h_flags h)] ++ [nb 1]) in Hb.
  apply at_pos_app in Hb. destruct Hb as [H4 Hu]. change (0 + len _) with 4 in Hu.
  apply at_pos_app in Hu. destruct Hu as [Hu1 Hu]. rewrite len_u32 in Hu. change (4 + 4) with 8 in Hu.
  apply at_pos_app in Hu. destruct Hu as [Hu2 Hu3]. rewrite len_u32 in Hu3. change (8 + 4) with 12 in Hu3.
  apply at_pos_app in H4. destruct H4 as [H0 H4]. change (0 + len _) with 1 in H4.
  apply at_pos_app in H4. destruct H4 as [H1 H4]. change (1 + len _) with 2 in H4.
  apply at_pos_app in H4. destruct H4 as [H2 H3]. change (2 + len _) with 3 in H3.
  split; [|exact (de_u32_at' e b 12 al Hu3 eq_refl Hal)].
  unfold de_primary. rewrite parse_padding_aligned by (reflexivity || lia). cbn [bind].
  rewrite (de_u8_at' b 0 _ H0). cbn [bind]. rewrite nb_bn, endian_rt. change (0 + 1) with 1.
  rewrite (de_u8_at' b 1 _ H1). cbn [bind]. rewrite bn_nb by lia. change (1 + 1) with 2.
  replace ((1 <=? h_type h) && (h_type h <=? 4)) with true by lia. cbn [negb].
  rewrite (de_u8_at' b 2 _ H2). cbn [bind]. rewrite bn_nb by lia. change (2 + 1) with 3.
  rewrite (de_u8_at' b 3 _ H3). cbn [bind]. change (bn (nb 1)) with 1. change (3 + 1) with 4.
  rewrite (de_u32_at' e b 4 bl Hu1) by (reflexivity || lia). cbn [bind]. change (4 + 4) with 8.
  rewrite (de_u32_at' e b 8 (h_serial h) Hu2) by (reflexivity || lia). cbn [bind]. change (8 + 4) with 12.
  replace (h_serial h =? 0) with false by lia. rewrite (N.mod_small (h_flags h) 8) by lia. reflexivity.
Qed.

(* Message::from_raw_parts, once its reads are known *)
Lemma from_raw_parts_intro e b r ph alen fs p :
  b = endian_byte e :: r -> de_primary e b = Ok (ph, 12) -> de_u32 e b 12 = Ok (alen, 16) -> de_fields e b = Ok (fs, p) ->
  16 + alen + padding (16 + alen) 8 <= len b ->
  from_raw_parts e b = Ok {| m_ph := ph; m_qf := quick_fields b fs; m_bytes := b;
                             m_body_offset := 16 + alen + padding (16 + alen) 8 |}.
Proof.
  intros Eb Hp Hu Hf Hlen. unfold from_raw_parts. rewrite Eb at 1. rewrite endian_rt, endian_eqb_refl. cbn [negb].
  rewrite Hp. cbn [bind N.eqb Pos.eqb negb]. unfold data_slice. replace (len b <? 12) with false by lia. cbn [bind].
  rewrite Hu. cbn [bind]. rewrite Hf. cbn [bind]. cbv zeta.
  replace (len b <? 16 + alen + padding (16 + alen) 8) with false by lia. reflexivity.
Qed.

(* cached positions of a message shorter than 4 GiB give the strings back, if they are valid *)
Lemma fp_read_exact v b o : ostr_at b o -> len b < two32 -> ovalid v o -> fp_read v b (fp_new b o) = Ok (omf o).
Proof.
  destruct o as [[s st]|]; [|reflexivity]. cbn [ostr_at ovalid fp_new omf option_map fst].
  intros (H2 & Hle & Hs & Hu) Hb Hv. unfold fp_build.
  replace ((st <=? len b) && (st + len s <=? len b) && (st <? two32) && (st + len s <? two32)) with true by lia.
  unfold fp_read.
  replace ((st <=? 1) && (st + len s =? 0)) with false by lia.
  replace ((st + len s <? st) || (len b <? st + len s)) with false by lia.
  replace (st + len s - st) with (len s) by lia. rewrite Hs, Hu, Hv. reflexivity.
Qed.

Definition hview_of (ph : phdr) (pf : pfields) : hview :=
  {| hv_ph := ph; hv_path := p_path pf; hv_iface := p_iface pf; hv_member := p_member pf; hv_errname := p_errname pf;
     hv_reply := p_reply pf; hv_dest := p_dest pf; hv_sender := p_sender pf; hv_sig := p_sig pf; hv_fds := p_fds pf |}.

Lemma header_exact ph b fs off : fields_inv b fs -> len b < two32 ->
  header {| m_ph := ph; m_qf := quick_fields b fs; m_bytes := b; m_body_offset := off |} = Ok (hview_of ph (proj fs)).
Proof.
  intros (I1 & I2 & I3 & I4 & I5 & I6 & V1 & V2 & V3 & V4 & V5 & V6) Hlen. unfold header.
  cbn [m_bytes m_qf m_ph quick_fields q_path q_iface q_member q_errname q_reply q_dest q_sender q_sig q_fds].
  do 6 (rewrite fp_read_exact by assumption; cbn [bind]). reflexivity.
Qed.

Definition parsed_msg (h : hdr) (bsig : sig) (body : bytes) (nfds : N) (fs : fields) : msg :=
  let b := spec_message h bsig body nfds in
  {| m_ph := {| ph_endian := h_endian h; ph_type := h_type h; ph_flags := h_flags h; ph_version := 1;
                ph_body_len := len body; ph_serial := h_serial h |};
     m_qf := quick_fields b fs; m_bytes := b; m_body_offset := body_offset_of h bsig body nfds |}.

Lemma parse_spec_message h bsig body nfds :
  hdr_valid h = true -> body_valid bsig nfds = true -> len (spec_message h bsig body nfds) <= max_message_size ->
  exists fs, proj fs = expected h bsig nfds /\ fields_inv (spec_message h bsig body nfds) fs /\
             de_primary (h_endian h) (spec_message h bsig body nfds) = Ok (m_ph (parsed_msg h bsig body nfds fs), 12) /\
             de_fields (h_endian h) (spec_message h bsig body nfds) = Ok (fs, 16 + len (msg_array h bsig nfds)) /\
             from_raw_parts (h_endian h) (spec_message h bsig body nfds) = Ok (parsed_msg h bsig body nfds fs).
Proof.
  intros Hh Hb Hsz. pose proof (field_ok_spec_fields h bsig nfds Hh Hb) as Hok.
  apply hdr_valid_inv in Hh. destruct Hh as [Hnums _]. apply andb_prop in Hb. destruct Hb as [Hb _]. apply andb_prop in Hb.
  destruct Hb as [Hsig _]. destruct (spec_message_small _ _ _ _ Hsz) as (Hbl & Hal & _).
  unfold parsed_msg. rewrite body_offset_eq. pose proof (len_spec_message h bsig body nfds) as Hlen. rewrite body_offset_eq in Hlen.
  pose proof (spec_message_shape h bsig body nfds) as Eb.
  set (b := spec_message h bsig body nfds) in *. set (e := h_endian h). set (arr := msg_array h bsig nfds) in *.
  destruct (fixed16_reads h (len body) (len arr) (arr ++ zeros (padding (16 + len arr) 8) ++ body) Hnums Hbl Hal) as [Hprim Hu32].
  rewrite <- Eb in Hprim, Hu32.
  assert (Hat : at_pos b 16 arr).
  { rewrite Eb, <- (len_fixed16 h (len body) (len arr)). apply at_pos_intro. }
  destruct (loop_spec e b (16 + len arr) (spec_fields h bsig nfds) (S (length b)) 16 fields_empty Hok) as (fs & Hloop & Hj).
  { rewrite field_array_aligned by reflexivity. exact Hat. }
  { rewrite field_array_aligned by reflexivity. reflexivity. }
  { pose proof (spec_array_length e (spec_fields h bsig nfds)) as Hn. change (spec_array _ _) with arr in Hn.
    unfold len in *. lia. }
  assert (Hdf : de_fields e b = Ok (fs, 16 + len arr)).
  { unfold de_fields. fold e in Hu32. rewrite Hu32. cbn [bind]. rewrite parse_padding_aligned by (reflexivity || lia). exact Hloop. }
  exists fs. split; [rewrite Hj; apply fold_spec_fields; exact Hsig|]. split; [exact (de_fields_ok _ _ _ _ Hdf)|]. split; [exact Hprim|].
  split; [exact Hdf|]. eapply from_raw_parts_intro; [rewrite Eb; reflexivity|exact Hprim|exact Hu32|exact Hdf|lia].
Qed.

Lemma header_parsed h bsig body nfds fs :
  len (spec_message h bsig body nfds) < two32 ->
  proj fs = expected h bsig nfds -> fields_inv (spec_message h bsig body nfds) fs ->
  header (parsed_msg h bsig body nfds fs) = Ok (view h bsig body nfds).
Proof. intros Hlen Hj Hinv. unfold parsed_msg. rewrite (header_exact _ _ _ _ Hinv Hlen), Hj. reflexivity. Qed.

Lemma body_parsed h bsig bd nfds fs : body (parsed_msg h bsig bd nfds fs) = Ok bd.
Proof.
  unfold body, parsed_msg, data_slice, body_offset_of, spec_message. cbn [m_bytes m_body_offset].
  rewrite len_app. replace (_ <? _) with false by lia. rewrite dropN_app. reflexivity.
Qed.

(* C11, round trip: what the builder writes is parsed back to the same header, signature and body *)
Theorem roundtrip h bsig bd nfds :
  hdr_valid h = true -> body_valid bsig nfds = true -> len (spec_message h bsig bd nfds) <= max_message_size ->
  exists bytes off m,
    build_bytes h bsig bd nfds = Ok (bytes, off) /\
    from_raw_parts (h_endian h) bytes = Ok m /\
    header m = Ok (view h bsig bd nfds) /\
    body m = Ok bd /\
    m_body_offset m = off.
Proof.
  intros Hh Hb Hsz.
  destruct (parse_spec_message h bsig bd nfds Hh Hb Hsz) as (fs & Hj & Hinv & _ & _ & Hp).
  exists (spec_message h bsig bd nfds), (body_offset_of h bsig bd nfds), (parsed_msg h bsig bd nfds fs).
  split; [apply build_bytes_spec; assumption|]. split; [exact Hp|].
  split; [apply header_parsed; auto; apply spec_message_small; exact Hsz|].
  split; [apply body_parsed|reflexivity].
Qed.

(* the accessors of the Message returned by the builder itself (its header cache is produced by the same decoders) *)
Theorem built_accessors h bsig bd nfds :
  hdr_valid h = true -> body_valid bsig nfds = true -> len (spec_message h bsig bd nfds) <= max_message_size ->
  exists m, build h bsig bd nfds = Ok m /\ m_bytes m = spec_message h bsig bd nfds /\
            header m = Ok (view h bsig bd nfds) /\ body m = Ok bd.
Proof.
  intros Hh Hb Hsz.
  destruct (parse_spec_message h bsig bd nfds Hh Hb Hsz) as (fs & Hj & Hinv & Hpr & Hdf & _).
  exists (parsed_msg h bsig bd nfds fs).
  unfold build. rewrite (build_bytes_spec h bsig bd nfds Hh Hb Hsz). cbn [bind]. rewrite Hpr. cbn [bind]. rewrite Hdf.
  split; [reflexivity|]. split; [reflexivity|].
  split; [apply header_parsed; auto; apply spec_message_small; exact Hsz|apply body_parsed].
Qed.

Lemma filter_ofield {A} k c (w : A -> wval) o :
  filter (fun f => fst f =? k) (ofield c w o) = if c =? k then ofield c w o else [].
Proof. destruct o; cbn [ofield filter fst]; destruct (c =? k); reflexivity. Qed.

(* C11, layout: the properties the statement names, read off the specification formula *)
Theorem layout h bsig body nfds :
  hdr_valid h = true -> body_valid bsig nfds = true -> len (spec_message h bsig body nfds) <= max_message_size ->
  exists bytes off,
    build_bytes h bsig body nfds = Ok (bytes, off) /\
    bytes = spec_message h bsig body nfds /\
    off mod 8 = 0 /\                                               (* the body starts on an 8-byte boundary *)
    len bytes = off + len body /\ dropN off bytes = body /\        (* and is the rest of the message *)
    takeN 4 (dropN 4 bytes) = u32_bytes (h_endian h) (len body) /\ (* declared body length = actual *)
    filter (fun f => fst f =? 9) (spec_fields h bsig nfds) = (if nfds =? 0 then [] else [(9, WU32 nfds)]).  (* UNIX_FDS present iff there are fds, and counts them *)
Proof.
  intros Hh Hb Hsz. exists (spec_message h bsig body nfds), (body_offset_of h bsig body nfds).
  split; [apply build_bytes_spec; assumption|]. split; [reflexivity|].
  split; [apply body_offset_aligned|]. split; [apply len_spec_message|].
  split; [unfold spec_message, body_offset_of; apply dropN_app|]. split.
  - rewrite spec_message_shape. unfold fixed16. rewrite <- !app_assoc.
    apply slice_app; [reflexivity|rewrite len_u32; reflexivity].
  - rewrite spec_fields_ofields, !filter_app, !filter_ofield. cbn [N.eqb Pos.eqb app]. destruct (nfds =? 0); reflexivity.
Qed.

(* ---------- typed body values for the shapes s, u, (su) ---------- *)
Theorem typed_s h nfds s : dstr s ->
  let bd := enc_s (h_endian h) s in
  dec_typed (ShS s) (h_endian h) (spec_message h SStr bd nfds) (body_offset_of h SStr bd nfds) nfds = Ok (TS s).
Proof.
  intros (Hz & Hu & Hl) bd. pose proof (body_at h SStr bd nfds) as Hat. pose proof (body_offset_aligned h SStr bd nfds) as Hal.
  cbn [dec_typed]. subst bd. unfold enc_s in *.
  rewrite (de_str_wide_at _ _ _ s Hat) by (auto; lia). reflexivity.
Qed.

Theorem typed_u h nfds n : n < two32 ->
  let bd := enc_u (h_endian h) n in
  dec_typed (ShU n) (h_endian h) (spec_message h SU32 bd nfds) (body_offset_of h SU32 bd nfds) nfds = Ok (TU n).
Proof.
  intros Hn bd. pose proof (body_at h SU32 bd nfds) as Hat. pose proof (body_offset_aligned h SU32 bd nfds) as Hal.
  cbn [dec_typed]. subst bd. unfold enc_u in *.
  rewrite (de_u32_at' _ _ _ n Hat) by (auto; lia). reflexivity.
Qed.

Theorem typed_su h nfds s n : dstr s -> n < two32 ->
  let bd := enc_su (h_endian h) s n in
  let g := SStruct [SStr; SU32] in
  dec_typed (ShSU s n) (h_endian h) (spec_message h g bd nfds) (body_offset_of h g bd nfds) nfds = Ok (TSU s n).
Proof.
  intros (Hz & Hu & Hl) Hn bd g. pose proof (body_at h g bd nfds) as Hat. pose proof (body_offset_aligned h g bd nfds) as Hal.
  set (off := body_offset_of h g bd nfds) in *. set (b := spec_message h g bd nfds) in *.
  cbn [dec_typed]. rewrite parse_padding_aligned by (auto; lia). cbn [bind].
  subst bd. unfold enc_su, pad4, enc_s in Hat. rewrite <- !app_assoc in Hat.
  assert (Hs : at_pos b off (u32_bytes (h_endian h) (len s) ++ s ++ [x00])).
  { rewrite !app_assoc in Hat. apply at_pos_app in Hat. destruct Hat as [Hat _].
    apply at_pos_app in Hat. destruct Hat as [Hat _]. rewrite <- !app_assoc in Hat. exact Hat. }
  rewrite (de_str_wide_at _ _ _ s Hs) by (auto; lia). cbn [bind].
  assert (Hn' : at_pos b (off + 4 + len s + 1) (zeros (padding (off + 4 + len s + 1) 4) ++ u32_bytes (h_endian h) n)).
  { apply at_pos_app in Hat. destruct Hat as [_ Hat]. rewrite len_u32 in Hat.
    apply at_pos_app in Hat. destruct Hat as [_ Hat].
    apply at_pos_app in Hat. destruct Hat as [_ Hat]. change (len [x00]) with 1 in Hat.
    rewrite !len_app, len_u32 in Hat. change (len [x00]) with 1 in Hat.
    rewrite <- (padding_add off _ 4) in Hat by lia.
    replace (off + (4 + (len s + 1))) with (off + 4 + len s + 1) in Hat by lia. exact Hat. }
  rewrite (de_u32_pad_at _ _ _ n Hn' Hn). reflexivity.
Qed.

(* ---------- array of strings ---------- *)
Fixpoint tail_strs (e : endian) (n : N) (l : list bytes) : bytes :=
  match l with
  | [] => []
  | s :: r => zeros (padding n 4) ++ enc_s e s ++ tail_strs e (n + padding n 4 + len (enc_s e s)) r
  end.
Lemma enc_strs_tail e : forall l acc, enc_strs e acc l = acc ++ tail_strs e (len acc) l.
Proof.
  induction l as [|s r IH]; intros acc; cbn [enc_strs tail_strs]; [rewrite app_nil_r; reflexivity|].
  rewrite IH. unfold pad4. rewrite !len_app, len_zeros. rewrite <- !app_assoc. reflexivity.
Qed.
Lemma len_enc_s e s : len (enc_s e s) = 4 + len s + 1.
Proof. unfold enc_s. rewrite !len_app, len_u32. change (len [x00]) with 1. lia. Qed.

Lemma de_strs_tail e b : forall l fuel pos n acc, Forall dstr l -> (pos - n) mod 4 = 0 -> n <= pos ->
  at_pos b pos (tail_strs e n l) -> (length l < fuel)%nat ->
  de_strs fuel e b (pos + len (tail_strs e n l)) pos acc = Ok (rev acc ++ l).
Proof.
  induction l as [|s r IH]; intros fuel pos n acc Hall Hmod Hle Hat Hf.
  - cbn [tail_strs]. change (len []) with 0. rewrite N.add_0_r. destruct fuel; cbn [de_strs]; rewrite N.eqb_refl, app_nil_r; reflexivity.
  - inversion Hall as [|? ? (Hz & Hu & Hl) Hr]; subst. destruct fuel as [|fuel]; [cbn in Hf; lia|].
    cbn [tail_strs] in *. assert (Hp : padding pos 4 = padding n 4).
    { replace pos with (pos - n + n) at 1 by lia. apply padding_add; [lia|exact Hmod]. }
    rewrite <- Hp in *.
    pose proof (padding_aligned pos 4 ltac:(lia)) as Hal.
    apply at_pos_app in Hat. destruct Hat as [H0 Hat]. rewrite len_zeros in Hat.
    apply at_pos_app in Hat. destruct Hat as [Hs Hat]. rewrite len_enc_s in Hat.
    cbn [de_strs]. rewrite !len_app, len_zeros, len_enc_s.
    replace (pos =? _) with false by lia.
    rewrite (parse_padding_at' b pos 4 H0). cbn [bind]. unfold enc_s in Hs.
    rewrite (de_str_wide_at e b _ s Hs Hal Hl Hz Hu). cbn [bind].
    replace (_ <? _) with false by lia.
    specialize (IH fuel (pos + padding pos 4 + (4 + len s + 1)) (n + padding pos 4 + len (enc_s e s)) (s :: acc) Hr).
    rewrite len_enc_s in IH.
    replace (pos + (padding pos 4 + (4 + len s + 1 + len (tail_strs e (n + padding pos 4 + (4 + len s + 1)) r))))
      with (pos + padding pos 4 + (4 + len s + 1) + len (tail_strs e (n + padding pos 4 + (4 + len s + 1)) r)) by lia.
    replace (pos + padding pos 4 + 4 + len s + 1) with (pos + padding pos 4 + (4 + len s + 1)) by lia.
    rewrite IH; [cbn [rev]; rewrite <- app_assoc; reflexivity| | |exact Hat|cbn [length] in Hf; lia].
    + replace (pos + padding pos 4 + (4 + len s + 1) - (n + padding pos 4 + (4 + len s + 1))) with (pos - n) by lia. exact Hmod.
    + lia.
Qed.

Lemma tail_strs_len e l : forall n, N.of_nat (length l) <= len (tail_strs e n l).
Proof.
  induction l as [|s r IH]; intros n; [cbn; lia|].
  cbn [tail_strs length]. rewrite !len_app, len_enc_s. specialize (IH (n + padding n 4 + (4 + len s + 1))). lia.
Qed.

Theorem typed_as h nfds l : Forall dstr l -> len (enc_as (h_endian h) l) < two32 ->
  let bd := enc_as (h_endian h) l in
  let g := SArray SStr in
  dec_typed (ShAS l) (h_endian h) (spec_message h g bd nfds) (body_offset_of h g bd nfds) nfds = Ok (TAS l).
Proof.
  intros Hall Hlen bd g. pose proof (body_at h g bd nfds) as Hat. pose proof (body_offset_aligned h g bd nfds) as Hal.
  set (off := body_offset_of h g bd nfds) in *. set (b := spec_message h g bd nfds) in *.
  subst bd. unfold enc_as in *. rewrite enc_strs_tail in *. cbn [app] in *. change (len []) with 0 in *.
  rewrite len_app, len_u32 in Hlen.
  apply at_pos_app in Hat. destruct Hat as [Hn Hat]. rewrite len_u32 in Hat.
  cbn [dec_typed]. rewrite (de_u32_at' _ b off _ Hn) by (lia || (unfold two32 in *; lia)). cbn [bind].
  rewrite parse_padding_aligned by lia. cbn [bind].
  rewrite (de_strs_tail (h_endian h) b l (S (length b)) (off + 4) 0 [] Hall); [reflexivity| | |exact Hat|].
  - replace (off + 4 - 0) with (off + 4) by lia. lia.
  - lia.
  - apply at_pos_len in Hat. pose proof (tail_strs_len (h_endian h) l 0). unfold len in *. lia.
Qed.

(* ---------- two descriptors (possibly the same one twice): each index resolves to the file it was ---------- *)
Theorem typed_hh h i j :
  let bd := enc_hh (h_endian h) in
  let g := SStruct [SFd; SFd] in
  dec_typed (ShHH i j) (h_endian h) (spec_message h g bd 2) (body_offset_of h g bd 2) 2 = Ok (TFiles [i; j]).
Proof.
  intros bd g. pose proof (body_at h g bd 2) as Hat. pose proof (body_offset_aligned h g bd 2) as Hal.
  set (off := body_offset_of h g bd 2) in *. set (b := spec_message h g bd 2) in *.
  subst bd. unfold enc_hh in Hat. apply at_pos_app in Hat. destruct Hat as [H0 H1]. rewrite len_u32 in H1.
  cbn [dec_typed shape_files]. rewrite parse_padding_aligned by lia. cbn [bind].
  unfold de_fd_file. rewrite (de_u32_at' _ b off 0 H0) by (unfold two32; lia). cbn [bind nth_error N.to_nat].
  rewrite (de_u32_at' _ b (off + 4) 1 H1) by (unfold two32; lia). reflexivity.
Qed.
