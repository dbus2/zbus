(* C11/Lemmas.v — arithmetic and list facts, "the buffer holds the bytes x at absolute offset pos", and the deserializer
   primitives evaluated there. *)
From ZV Require Import Base.Bytes Base.BytesFacts Base.Res Base.Sig C11.Model.
(* These three register their instances when required, not when imported: every file that requires this one has [lia]
   over N with boolean comparisons, [/] and [mod] (ZifyN makes each call turn div/mod into equations, which is not free). *)
From Coq Require Import Lia ZifyBool ZifyN ZifyNat.
Open Scope N_scope.

(* ---------- len / takeN / dropN ---------- *)
Lemma len_zeros n : len (zeros n) = n.
Proof. unfold len, zeros. rewrite repeat_length. lia. Qed.

Lemma slice_app (pre s post : bytes) pos n :
  pos = len pre -> n = len s -> takeN n (dropN pos (pre ++ s ++ post)) = s.
Proof. intros -> ->. rewrite dropN_app. apply takeN_app. Qed.
Lemma take_drop_len (l : bytes) pos n : pos + n <= len l -> len (takeN n (dropN pos l)) = n.
Proof. intros H. apply len_takeN. rewrite len_dropN. lia. Qed.
Lemma take_drop_split (l : bytes) pos n : pos + n <= len l ->
  l = takeN pos l ++ takeN n (dropN pos l) ++ dropN (pos + n) l.
Proof.
  intros H. rewrite <- dropN_dropN. unfold takeN, dropN.
  rewrite (firstn_skipn (N.to_nat n)). rewrite firstn_skipn. reflexivity.
Qed.

(* ---------- bytes and u32 ---------- *)
Lemma len_u32 e n : len (u32_bytes e n) = 4.
Proof. destruct e; reflexivity. Qed.
Lemma rd_u32_bytes e n : n < two32 -> rd_u32 e (u32_bytes e n) = n.
Proof.
  unfold two32. intros H.
  (* the four digits of n in base 256, one division at a time *)
  assert (E : n mod 256 + 256 * ((n / 256) mod 256) + 65536 * ((n / 65536) mod 256) + 16777216 * ((n / 16777216) mod 256) = n).
  { change 65536 with (256 * 256). change 16777216 with (256 * 256 * 256). rewrite <- !N.div_div by lia.
    pose proof (N.div_mod' n 256). pose proof (N.div_mod' (n / 256) 256). pose proof (N.div_mod' (n / 256 / 256) 256).
    assert (n / 256 / 256 / 256 < 256) by (rewrite !N.div_div by lia; apply N.div_lt_upper_bound; lia).
    rewrite (N.mod_small (n / 256 / 256 / 256)) by assumption. lia. }
  destruct e; unfold rd_u32, u32_bytes; cbn [rev app]; rewrite !bn_nb_mod; exact E.
Qed.
Lemma rd_u32_lt e l : rd_u32 e l < two32.
Proof.
  unfold rd_u32, two32. destruct e.
  - destruct l as [|a [|b [|c [|d [|? ?]]]]]; try lia.
    pose proof (bn_lt a); pose proof (bn_lt b); pose proof (bn_lt c); pose proof (bn_lt d). lia.
  - destruct (rev l) as [|a [|b [|c [|d [|? ?]]]]]; try lia.
    pose proof (bn_lt a); pose proof (bn_lt b); pose proof (bn_lt c); pose proof (bn_lt d). lia.
Qed.

(* ---------- padding ---------- *)
Lemma padding_lt pos a : 0 < a -> padding pos a < a.
Proof. intros. unfold padding. apply N.mod_lt. lia. Qed.
Lemma padding_aligned pos a : 0 < a -> (pos + padding pos a) mod a = 0.
Proof.
  intros Ha. unfold padding.
  destruct (N.eq_dec (pos mod a) 0) as [E|E].
  - rewrite E, N.sub_0_r, N.mod_same, N.add_0_r by lia. exact E.
  - assert (pos mod a < a) by (apply N.mod_lt; lia).
    rewrite (N.mod_small (a - pos mod a)) by lia.
    rewrite (N.div_mod pos a) at 1 by lia.
    replace (a * (pos / a) + pos mod a + (a - pos mod a)) with (a + (pos / a) * a) by lia.
    rewrite N.mod_add by lia. apply N.mod_same. lia.
Qed.
Lemma padding_0 pos a : 0 < a -> pos mod a = 0 -> padding pos a = 0.
Proof. intros Ha E. unfold padding. rewrite E, N.sub_0_r. apply N.mod_same. lia. Qed.
Lemma padding_add q n a : 0 < a -> q mod a = 0 -> padding (q + n) a = padding n a.
Proof. intros Ha Hq. unfold padding. rewrite N.add_mod, Hq, N.add_0_l, N.mod_mod by lia. reflexivity. Qed.
Lemma padding8_4 pos : pos mod 8 = 0 -> padding (pos + 4) 4 = 0.
Proof. intros. unfold padding. lia. Qed.
Lemma mod8_mod4 pos : pos mod 8 = 0 -> pos mod 4 = 0.
Proof. lia. Qed.

Lemma all_zero_zeros n : all_zero (zeros n) = true.
Proof. unfold all_zero, zeros. induction (N.to_nat n); cbn; auto. Qed.

(* ---------- the buffer holds the bytes x at absolute offset pos ---------- *)
Definition at_pos (b : bytes) (pos : N) (x : bytes) : Prop :=
  pos <= len b /\ exists rest, dropN pos b = x ++ rest.

Lemma at_pos_intro pre x post : at_pos (pre ++ x ++ post) (len pre) x.
Proof. split; [rewrite len_app; lia|]. exists post. apply dropN_app. Qed.

Lemma at_pos_prefix x rest : at_pos (x ++ rest) 0 x.
Proof. exact (at_pos_intro [] x rest). Qed.

Lemma at_pos_slice b pos n : pos + n <= len b -> at_pos b pos (takeN n (dropN pos b)).
Proof. intros H. split; [lia|]. exists (dropN n (dropN pos b)). symmetry. apply firstn_skipn. Qed.

Lemma at_pos_len b pos x : at_pos b pos x -> pos + len x <= len b.
Proof.
  intros (Hle & rest & H). apply (f_equal len) in H. rewrite len_dropN, len_app in H. lia.
Qed.

Lemma at_pos_app b pos x y : at_pos b pos (x ++ y) -> at_pos b pos x /\ at_pos b (pos + len x) y.
Proof.
  intros Hxy. pose proof (at_pos_len _ _ _ Hxy) as Hl. rewrite len_app in Hl.
  destruct Hxy as (Hle & rest & H). split.
  - split; [exact Hle|]. exists (y ++ rest). rewrite H. apply app_assoc_reverse.
  - split; [lia|]. exists rest. rewrite <- dropN_dropN. rewrite H. rewrite <- app_assoc. apply dropN_app.
Qed.

Lemma at_pos_take b pos x : at_pos b pos x -> takeN (len x) (dropN pos b) = x.
Proof. intros (_ & rest & H). rewrite H. apply takeN_app. Qed.

Lemma at_pos_nth b pos c r : at_pos b pos (c :: r) -> nth_error b (N.to_nat pos) = Some c.
Proof.
  intros (Hle & rest & H). unfold dropN in H.
  rewrite <- (firstn_skipn (N.to_nat pos) b). rewrite H.
  rewrite nth_error_app2 by (rewrite firstn_length; lia).
  rewrite firstn_length. unfold len in Hle.
  replace (N.to_nat pos - Nat.min (N.to_nat pos) (length b))%nat with 0%nat by lia. reflexivity.
Qed.

(* ---------- primitives at a known position ---------- *)
Lemma next_slice_at' b pos s : at_pos b pos s -> next_slice b pos (len s) = Ok (s, pos + len s).
Proof.
  intros H. pose proof (at_pos_len _ _ _ H). unfold next_slice.
  destruct (len b <? pos + len s) eqn:E; [lia|]. rewrite (at_pos_take _ _ _ H). reflexivity.
Qed.

Lemma parse_padding_at' b pos a : at_pos b pos (zeros (padding pos a)) -> parse_padding b pos a = Ok (pos + padding pos a).
Proof.
  intros H. pose proof (at_pos_len _ _ _ H) as Hl. rewrite len_zeros in Hl. unfold parse_padding.
  destruct (padding pos a =? 0) eqn:E; [f_equal; lia|].
  destruct (len b <? pos + padding pos a) eqn:E2; [lia|].
  pose proof (at_pos_take _ _ _ H) as Ht. rewrite len_zeros in Ht. rewrite Ht, all_zero_zeros. reflexivity.
Qed.
Lemma parse_padding_zeros pre post pos a :
  pos = len pre -> parse_padding (pre ++ zeros (padding pos a) ++ post) pos a = Ok (pos + padding pos a).
Proof. intros ->. apply parse_padding_at', at_pos_intro. Qed.
Lemma parse_padding_aligned b pos a : 0 < a -> pos mod a = 0 -> parse_padding b pos a = Ok pos.
Proof. intros Ha E. unfold parse_padding. rewrite (padding_0 pos a Ha E). reflexivity. Qed.

Lemma de_u8_at' b pos c : at_pos b pos [c] -> de_u8 b pos = Ok (bn c, pos + 1).
Proof.
  intros H. unfold de_u8. pose proof (next_slice_at' b pos [c] H) as Hs. change (len [c]) with 1 in Hs. rewrite Hs. reflexivity.
Qed.

Lemma de_u32_pad_at e b pos n : at_pos b pos (zeros (padding pos 4) ++ u32_bytes e n) -> n < two32 ->
  de_u32 e b pos = Ok (n, pos + padding pos 4 + 4).
Proof.
  intros H Hn. apply at_pos_app in H. destruct H as [H0 H1]. rewrite len_zeros in H1.
  unfold de_u32. rewrite (parse_padding_at' b pos 4 H0). cbn [bind].
  pose proof (next_slice_at' b _ _ H1) as Hs. rewrite len_u32 in Hs. rewrite Hs. cbn [bind].
  rewrite rd_u32_bytes by exact Hn. reflexivity.
Qed.

Lemma de_u32_at' e b pos n : at_pos b pos (u32_bytes e n) -> pos mod 4 = 0 -> n < two32 -> de_u32 e b pos = Ok (n, pos + 4).
Proof.
  intros H Hal Hn. pose proof (de_u32_pad_at e b pos n) as P.
  rewrite (padding_0 pos 4 eq_refl Hal) in P. rewrite N.add_0_r in P. exact (P H Hn).
Qed.
Lemma de_u32_at e pre n post pos :
  pos = len pre -> pos mod 4 = 0 -> n < two32 ->
  de_u32 e (pre ++ u32_bytes e n ++ post) pos = Ok (n, pos + 4).
Proof. intros ->. apply de_u32_at', at_pos_intro. Qed.

(* ---------- success of the primitives: positions only grow, and stay inside the buffer ---------- *)
Lemma parse_padding_ok b pos a p : parse_padding b pos a = Ok p -> pos <= p /\ (p = pos \/ p <= len b).
Proof.
  unfold parse_padding. destruct (padding pos a =? 0); [intros [= <-]; lia|].
  destruct (len b <? pos + padding pos a) eqn:E; [discriminate|].
  destruct (all_zero _); [intros [= <-]; lia|discriminate].
Qed.
Lemma parse_padding_mod b pos a p : 0 < a -> parse_padding b pos a = Ok p -> p = pos + padding pos a.
Proof.
  intros Ha. unfold parse_padding. destruct (padding pos a =? 0) eqn:E0; [intros [= <-]; lia|].
  destruct (len b <? pos + padding pos a); [discriminate|].
  destruct (all_zero _); [intros [= <-]; lia|discriminate].
Qed.
Lemma next_slice_ok b pos n s p : next_slice b pos n = Ok (s, p) ->
  p = pos + n /\ p <= len b /\ s = takeN n (dropN pos b) /\ len s = n.
Proof.
  unfold next_slice. destruct (len b <? pos + n) eqn:E; [discriminate|]. intros [= <- <-].
  repeat split; try lia. apply take_drop_len. lia.
Qed.
