(* C11/NamesAscii.v — every string accepted by a name / object-path validator is ASCII without NUL, hence a
   well-formed UTF-8 D-Bus string, and a name is shorter than 4 GiB (the alphabet of validated names is C22/Facts.v's). *)
From ZV Require Import Base.Bytes Base.Res Base.Sig C10.Model C11.Model C11.SigProofs.
From ZV Require C22.Facts Base.WinnowFacts.
From Coq Require Import Lia.
Open Scope N_scope.

Lemma name_char_ascii c : C22.Facts.name_char c = true -> ascii_nz c = true.
Proof. intros H. destruct c; try reflexivity; discriminate H. Qed.

Lemma name_chars_str s : forallb C22.Facts.name_char s = true -> has_nul s = false /\ utf8_valid s = true.
Proof.
  intros H. assert (forallb ascii_nz s = true) by (revert H; apply WinnowFacts.forallb_impl; apply name_char_ascii).
  split; [apply ascii_no_nul|apply ascii_utf8]; assumption.
Qed.

Lemma bus_chars s : validate_bus s = true -> forallb C22.Facts.name_char s = true.
Proof.
  unfold validate_bus. intros H. apply Bool.orb_true_iff in H.
  destruct H; [apply C22.Facts.unique_chars|apply C22.Facts.well_known_chars]; assumption.
Qed.

(* every name validator ends with the 255-byte limit *)
Lemma len255 (p : bool) (s : bytes) : p && negb (Nat.ltb 255 (length s)) = true -> len s < two32.
Proof.
  intros H. apply andb_prop in H. destruct H as [_ H]. unfold len, two32.
  destruct (Nat.ltb_spec 255 (length s)); [discriminate|lia].
Qed.
Lemma iface_len s : validate_interface s = true -> len s < two32.
Proof. apply len255. Qed.
Lemma member_len s : validate_member s = true -> len s < two32.
Proof. apply len255. Qed.
Lemma unique_len s : validate_unique s = true -> len s < two32.
Proof. apply len255. Qed.
Lemma bus_len s : validate_bus s = true -> len s < two32.
Proof.
  unfold validate_bus. intros H. apply Bool.orb_true_iff in H. destruct H as [H|H]; [apply unique_len; exact H|].
  revert H. apply len255.
Qed.
