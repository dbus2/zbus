(* C11/SigProofs.v — the signature parser reads back what Signature::to_string / to_string_no_parens print,
   and only accepts ASCII without NUL. *)
From ZV Require Import Base.Bytes Base.Res Base.Sig C11.Model C11.Spec.
From Coq Require Import Lia.
Open Scope N_scope.

(* a D-Bus complete type: no unit, no maybe, no empty structure (dict keys are not restricted by this parser) *)
Fixpoint wf (s : sig) : bool :=
  match s with
  | SUnit | SMaybe _ => false
  | SArray c => wf c
  | SDict k v => wf k && wf v
  | SStruct fs => match fs with [] => false | _ => forallb wf fs end
  | _ => true
  end.

(* a body signature: nothing, or one complete type, or several (printed without the outer parentheses) *)
Definition body_sig_ok (s : sig) : bool := match s with SUnit => true | _ => wf s end.

Lemma show_head s : wf s = true -> exists c r, show s = c :: r /\ beq c "{" = false.
Proof.
  destruct s; cbn; try discriminate; intros _; eexists; eexists; (split; reflexivity).
Qed.

Lemma run_show s : wf s = true -> forall rest st top,
  sig_run (show s ++ rest) st top =
  match complete s st top with Some (st', top') => sig_run rest st' top' | None => None end.
Proof.
  induction s using sig_ind'; cbn [wf]; try discriminate; intros Hwf rest st top;
    try (cbn; reflexivity).
  - (* array *)
    cbn [show]. rewrite <- app_assoc. cbn [app B list_byte_of_string sig_run simple_sig beq Byte.eqb].
    change (Byte.eqb "a" "y") with false. cbn.
    destruct (show_head s Hwf) as (c & r & E & Hc).
    remember (show s ++ rest) as l eqn:El.
    assert (Hl : l = c :: (r ++ rest)) by (subst l; rewrite E; reflexivity).
    destruct l as [|c2 l']; [discriminate|]. injection Hl as -> ->. rewrite Hc.
    rewrite El. rewrite IHs by exact Hwf. reflexivity.
  - (* dict *)
    apply andb_prop in Hwf. destruct Hwf as [Hk Hv].
    cbn [show]. rewrite <- !app_assoc. cbn.
    rewrite IHs1 by exact Hk. cbn [complete]. rewrite IHs2 by exact Hv. cbn [complete]. cbn. reflexivity.
  - (* struct *)
    cbn [show]. rewrite <- !app_assoc. cbn.
    assert (Hin : forall fs', Forall (fun s => wf s = true -> forall rest st top,
                     sig_run (show s ++ rest) st top =
                     match complete s st top with Some (st', top') => sig_run rest st' top' | None => None end) fs' ->
                   forallb wf fs' = true -> forall acc rest',
                   sig_run (concat (map show fs') ++ rest') (FStruct acc :: st) top
                   = sig_run rest' (FStruct (rev fs' ++ acc) :: st) top).
    { induction fs' as [|f fs' IHf]; intros HF Hall acc rest'; [reflexivity|].
      inversion HF as [|? ? Hf HF']; subst. cbn in Hall. apply andb_prop in Hall. destruct Hall as [Hwf1 Hall].
      cbn [map concat]. rewrite <- app_assoc. rewrite Hf by exact Hwf1. cbn [complete].
      rewrite IHf by assumption. cbn [rev]. rewrite <- app_assoc. reflexivity. }
    destruct fs as [|f0 fs0]; [discriminate|].
    rewrite (Hin (f0 :: fs0) H Hwf [] (")"%byte :: rest)). rewrite app_nil_r.
    cbn [sig_run simple_sig]. cbn.
    change (rev fs0 ++ [f0]) with (rev (f0 :: fs0)).
    destruct (rev (f0 :: fs0)) as [|x acc] eqn:Er.
    { apply (f_equal (@length _)) in Er. rewrite rev_length in Er. discriminate. }
    change (rev acc ++ [x]) with (rev (x :: acc)). rewrite <- Er. rewrite rev_involutive. reflexivity.
Qed.

Lemma run_show_list fs : forallb wf fs = true -> forall rest top,
  sig_run (concat (map show fs) ++ rest) [] top = sig_run rest [] (rev fs ++ top).
Proof.
  induction fs as [|f fs IH]; intros Hall rest top; [reflexivity|].
  cbn in Hall. apply andb_prop in Hall. destruct Hall as [Hf Hall].
  cbn [map concat]. rewrite <- app_assoc. rewrite run_show by exact Hf. cbn [complete].
  rewrite IH by exact Hall. cbn [rev]. rewrite <- app_assoc. reflexivity.
Qed.

(* what a reader gets back from the SIGNATURE header field *)
Theorem parse_show_np s : wf s = true -> parse_sig (show_np s) = Some (norm_sig s).
Proof.
  intros Hwf. unfold parse_sig.
  destruct s; try discriminate;
    try (cbn [show_np]; rewrite <- (app_nil_r (show _)); rewrite run_show by exact Hwf; reflexivity).
  cbn [show_np]. cbn [wf] in Hwf. destruct fs as [|f0 fs0]; [discriminate|].
  rewrite <- (app_nil_r (concat _)). rewrite run_show_list by exact Hwf.
  cbn [sig_run]. rewrite app_nil_r, rev_involutive.
  destruct fs0; reflexivity.
Qed.

Theorem parse_show s : wf s = true -> parse_sig (show s) = Some s.
Proof.
  intros Hwf. unfold parse_sig. rewrite <- (app_nil_r (show s)). rewrite run_show by exact Hwf. reflexivity.
Qed.

(* ---------- accepted signatures are ASCII without NUL ---------- *)
Definition ascii_nz (c : byte) : bool := (0 <? bn c) && (bn c <? 128).
Definition sigchar (c : byte) : bool :=
  match simple_sig c with
  | Some _ => true
  | None => beq c "a" || beq c "(" || beq c ")" || beq c "{" || beq c "}"
  end.
Lemma sigchar_ascii c : sigchar c = true -> ascii_nz c = true.
Proof. intros H. destruct c; try reflexivity; discriminate H. Qed.

Lemma sig_run_chars n : forall l st top r, (length l <= n)%nat -> sig_run l st top = Some r -> forallb ascii_nz l = true.
Proof.
  induction n as [|n IH]; intros l st top r Hn H.
  - destruct l; [reflexivity|cbn in Hn; lia].
  - destruct l as [|c l]; [reflexivity|]. cbn [forallb].
    assert (Hc : sigchar c = true).
    { destruct (sigchar c) eqn:E; [reflexivity|]. exfalso. unfold sigchar in E. cbn [sig_run] in H.
      destruct (simple_sig c); [discriminate|].
      apply Bool.orb_false_iff in E. destruct E as [E E5]. apply Bool.orb_false_iff in E. destruct E as [E E4].
      apply Bool.orb_false_iff in E. destruct E as [E E3]. apply Bool.orb_false_iff in E. destruct E as [E1 E2].
      rewrite E1, E2, E3, E5 in H. discriminate. }
    rewrite (sigchar_ascii c Hc). cbn [andb]. cbn [sig_run] in H. cbn in Hn.
    destruct (simple_sig c).
    + destruct (complete s st top) as [[st' top']|]; [|discriminate]. eapply IH; [|exact H]. lia.
    + destruct (beq c "a").
      * destruct l as [|c2 l']; [discriminate|].
        destruct (beq c2 "{") eqn:E2.
        -- cbn [forallb]. apply Byte.byte_dec_bl in E2. subst c2. cbn [ascii_nz]. change (ascii_nz "{") with true. cbn [andb].
           eapply IH; [|exact H]. cbn in Hn. lia.
        -- eapply IH; [|exact H]. lia.
      * destruct (beq c "(").
        { eapply IH; [|exact H]. lia. }
        destruct (beq c ")").
        { destruct st as [|[|[|x acc]| | |] st']; try discriminate.
          destruct (complete _ st' top) as [[st2 top2]|]; [|discriminate]. eapply IH; [|exact H]. lia. }
        destruct (beq c "}"); [|discriminate].
        destruct st as [|[| | | |k v] st']; try discriminate.
        destruct (complete _ st' top) as [[st2 top2]|]; [|discriminate]. eapply IH; [|exact H]. lia.
Qed.

Lemma parse_sig_chars l g : parse_sig l = Some g -> forallb ascii_nz l = true.
Proof.
  unfold parse_sig. destruct (sig_run l [] []) eqn:E; [|discriminate]. intros _.
  eapply sig_run_chars; [apply Nat.le_refl|exact E].
Qed.

Lemma ascii_no_nul l : forallb ascii_nz l = true -> has_nul l = false.
Proof.
  unfold has_nul. induction l as [|c l IH]; [reflexivity|]. cbn [forallb existsb]. intros H.
  apply andb_prop in H. destruct H as [Hc Hl].
  rewrite IH by exact Hl. unfold ascii_nz in Hc. apply andb_prop in Hc. destruct Hc as [Hc _].
  destruct (bn c =? 0) eqn:E; [|reflexivity]. apply N.eqb_eq in E. rewrite E in Hc. discriminate.
Qed.
Lemma ascii_utf8 l : forallb ascii_nz l = true -> utf8_valid l = true.
Proof.
  induction l as [|c l IH]; [reflexivity|]. cbn [forallb utf8_valid]. intros H. apply andb_prop in H. destruct H as [Hc Hl].
  unfold ascii_nz in Hc. apply andb_prop in Hc. destruct Hc as [_ Hc]. rewrite Hc. apply IH. exact Hl.
Qed.

(* ---------- what the parser returns is well-formed (no unit or maybe inside, no empty structure) ---------- *)
Definition frame_wf (f : frame) : Prop :=
  match f with
  | FArr | FDictK => True
  | FStruct acc => forallb wf acc = true
  | FDictV k => wf k = true
  | FDictEnd k v => wf k = true /\ wf v = true
  end.

Lemma complete_wf s : forall st top st' top', wf s = true -> Forall frame_wf st -> forallb wf top = true ->
  complete s st top = Some (st', top') -> Forall frame_wf st' /\ forallb wf top' = true.
Proof.
  intros st. revert s. induction st as [|f st IH]; intros s top st' top' Hs Hst Ht H; cbn [complete] in H.
  - injection H as <- <-. split; [constructor|]. cbn. rewrite Hs, Ht. reflexivity.
  - inversion Hst as [|? ? Hf Hst']; subst. destruct f; try discriminate.
    + eapply IH; [| | |exact H]; auto.
    + injection H as <- <-. split; [|exact Ht]. constructor; [|exact Hst']. cbn in *. rewrite Hs, Hf. reflexivity.
    + injection H as <- <-. split; [|exact Ht]. constructor; [exact Hs|exact Hst'].
    + injection H as <- <-. split; [|exact Ht]. constructor; [split; assumption|exact Hst'].
Qed.

Lemma forallb_rev_wf l : forallb wf l = true -> forallb wf (rev l) = true.
Proof. rewrite !forallb_forall. intros H x Hx. apply H. apply in_rev. exact Hx. Qed.

Lemma simple_sig_wf c s : simple_sig c = Some s -> wf s = true.
Proof.
  unfold simple_sig.
  repeat match goal with |- (if ?x then _ else _) = _ -> _ => destruct x; [intros [= <-]; reflexivity|] end.
  discriminate.
Qed.

Lemma sig_run_wf n : forall l st top r, (length l <= n)%nat -> Forall frame_wf st -> forallb wf top = true ->
  sig_run l st top = Some r -> forallb wf r = true.
Proof.
  induction n as [|n IH]; intros l st top r Hn Hst Ht H.
  - destruct l; [|cbn in Hn; lia]. cbn in H. destruct st; [|discriminate]. injection H as <-. apply forallb_rev_wf. exact Ht.
  - destruct l as [|c l].
    { cbn in H. destruct st; [|discriminate]. injection H as <-. apply forallb_rev_wf. exact Ht. }
    cbn [sig_run] in H. cbn in Hn.
    destruct (simple_sig c) eqn:Es.
    + destruct (complete s st top) as [[st' top']|] eqn:Ec; [|discriminate].
      destruct (complete_wf _ _ _ _ _ (simple_sig_wf _ _ Es) Hst Ht Ec). eapply IH; [| | |exact H]; auto. lia.
    + destruct (beq c "a").
      * destruct l as [|c2 l']; [discriminate|]. destruct (beq c2 "{").
        -- eapply IH; [| | |exact H]; [cbn in Hn; lia|constructor; [exact I|exact Hst]|exact Ht].
        -- eapply IH; [| | |exact H]; [lia|constructor; [exact I|exact Hst]|exact Ht].
      * destruct (beq c "(").
        { eapply IH; [| | |exact H]; [lia|constructor; [reflexivity|exact Hst]|exact Ht]. }
        destruct (beq c ")").
        { destruct st as [|[|[|x acc]| | |] st']; try discriminate.
          inversion Hst as [|? ? Hf Hst']; subst.
          destruct (complete _ st' top) as [[st2 top2]|] eqn:Ec; [|discriminate].
          assert (Hw : wf (SStruct (rev (x :: acc))) = true).
          { cbn [wf]. pose proof (forallb_rev_wf _ Hf) as Hr. destruct (rev (x :: acc)) eqn:Er; [|exact Hr].
            apply (f_equal (@length _)) in Er. rewrite rev_length in Er. discriminate. }
          destruct (complete_wf _ _ _ _ _ Hw Hst' Ht Ec). eapply IH; [| | |exact H]; auto. lia. }
        destruct (beq c "}"); [|discriminate].
        destruct st as [|[| | | |k v] st']; try discriminate.
        inversion Hst as [|? ? Hf Hst']; subst. cbn in Hf. destruct Hf as [Hk Hv].
        destruct (complete _ st' top) as [[st2 top2]|] eqn:Ec; [|discriminate].
        assert (Hw : wf (SDict k v) = true) by (cbn; rewrite Hk, Hv; reflexivity).
        destruct (complete_wf _ _ _ _ _ Hw Hst' Ht Ec). eapply IH; [| | |exact H]; auto. lia.
Qed.

Lemma parse_sig_wf l s : parse_sig l = Some s -> s = SUnit \/ wf s = true.
Proof.
  unfold parse_sig. destruct (sig_run l [] []) as [r|] eqn:E; [|discriminate].
  pose proof (sig_run_wf (length l) l [] [] r (Nat.le_refl _) (Forall_nil _) (eq_refl : forallb wf [] = true) E) as Hr.
  destruct r as [|x [|y r']]; intros [= <-]; [left; reflexivity| |].
  - right. cbn in Hr. apply andb_prop in Hr. tauto.
  - right. cbn [wf]. exact Hr.
Qed.
