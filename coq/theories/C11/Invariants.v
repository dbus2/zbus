(* C11/Invariants.v — facts about the deserializer model that hold for EVERY input: positions grow and stay in the
   buffer, decoded strings are the bytes found at their recorded offset, no decoder panics, the fuel of the loops is
   never exhausted. *)
From ZV Require Import Base.Bytes Base.BytesFacts Base.Res Base.Sig C10.Model C11.Model C11.Lemmas C11.SigProofs.
From Coq Require Import Lia.
Open Scope N_scope.

Lemma bind_ok {E A B} (r : res E A) (f : A -> res E B) x :
  bind r f = Ok x -> exists a, r = Ok a /\ f a = Ok x.
Proof. destruct r; cbn; intros H; try discriminate. eauto. Qed.
Lemma bind_panic {E A B} (r : res E A) (f : A -> res E B) p :
  bind r f = Panic p -> r = Panic p \/ exists a, r = Ok a /\ f a = Panic p.
Proof. destruct r; cbn; intros H; try discriminate; eauto. left. congruence. Qed.
Lemma bind_fuel {A B} (r : R A) (f : A -> R B) :
  bind r f = Err EFuel -> r = Err EFuel \/ exists a, r = Ok a /\ f a = Err EFuel.
Proof. destruct r; cbn; intros H; try discriminate; eauto. left. congruence. Qed.

(* ---------- outcomes that are neither a panic nor the exhaustion of a loop bound of the model ---------- *)
Definition quiet {A} (r : R A) : Prop := (forall p, r <> Panic p) /\ r <> Err EFuel.

Lemma quiet_ok {A} (a : A) : quiet (Ok a : R A).
Proof. split; [intros p|]; discriminate. Qed.
Lemma quiet_err {A} e : e <> EFuel -> quiet (Err e : R A).
Proof. intros He. split; [discriminate|congruence]. Qed.
Lemma quiet_bind {A B} (r : R A) (f : A -> R B) : quiet r -> (forall a, r = Ok a -> quiet (f a)) -> quiet (bind r f).
Proof.
  intros [Hp Hf] H. destruct r as [a|e|p]; cbn [bind]; [apply H; reflexivity|apply quiet_err; congruence|].
  destruct (Hp p eq_refl).
Qed.

(* ---------- integers ---------- *)
Lemma parse_padding_quiet b pos a : quiet (parse_padding b pos a).
Proof.
  unfold parse_padding. destruct (_ =? 0); [apply quiet_ok|]. destruct (_ <? _); [now apply quiet_err|].
  destruct (all_zero _); [apply quiet_ok|now apply quiet_err].
Qed.
Lemma next_slice_quiet b pos n : quiet (next_slice b pos n).
Proof. unfold next_slice. destruct (_ <? _); [now apply quiet_err|apply quiet_ok]. Qed.

Lemma de_u32_ok e b pos n p : de_u32 e b pos = Ok (n, p) -> pos + 4 <= p /\ p <= len b /\ n < two32.
Proof.
  unfold de_u32. intros H. apply bind_ok in H. destruct H as (p0 & H0 & H).
  apply bind_ok in H. destruct H as ([l4 p1] & H1 & H). injection H as <- <-.
  apply parse_padding_ok in H0. apply next_slice_ok in H1. pose proof (rd_u32_lt e l4). lia.
Qed.
Lemma de_u32_quiet e b pos : quiet (de_u32 e b pos).
Proof.
  unfold de_u32. apply quiet_bind; [apply parse_padding_quiet|intros p0 _].
  apply quiet_bind; [apply next_slice_quiet|intros [l p1] _; apply quiet_ok].
Qed.
Lemma de_u32_no_panic e b pos p : de_u32 e b pos <> Panic p.
Proof. apply de_u32_quiet. Qed.
Lemma de_u8_ok b pos n p : de_u8 b pos = Ok (n, p) -> p = pos + 1 /\ p <= len b /\ n < 256.
Proof.
  unfold de_u8. intros H. apply bind_ok in H. destruct H as ([l1 p1] & H1 & H). injection H as <- <-.
  apply next_slice_ok in H1. destruct l1; [lia|]. pose proof (bn_lt b0). lia.
Qed.
Lemma de_u8_quiet b pos : quiet (de_u8 b pos).
Proof. unfold de_u8. apply quiet_bind; [apply next_slice_quiet|intros [l p] _; apply quiet_ok]. Qed.
Lemma de_u8_nth b pos n p : de_u8 b pos = Ok (n, p) -> exists c, nth_error b (N.to_nat pos) = Some c /\ bn c = n.
Proof.
  unfold de_u8. intros H. apply bind_ok in H. destruct H as ([l1 p1] & H1 & H). injection H as <- <-.
  apply next_slice_ok in H1. destruct H1 as (-> & Hle & E & Hl).
  pose proof (at_pos_slice b pos 1 Hle) as Ha. rewrite <- E in Ha.
  destruct l1 as [|c r]; [discriminate|]. exists c. split; [exact (at_pos_nth _ _ _ _ Ha)|reflexivity].
Qed.

(* ---------- strings ---------- *)
(* the string [s] is what the buffer holds at [st]; [2 <= st] keeps (st, st + len s) apart from (1, 0), FieldPos' "not present" *)
Definition str_at (b s : bytes) (st : N) : Prop :=
  2 <= st /\ st + len s <= len b /\ takeN (len s) (dropN st b) = s /\ utf8_valid s = true.

Lemma de_str_ok w e b pos s st p : de_str w e b pos = Ok (s, st, p) ->
  pos + 1 <= st /\ st + len s + 1 = p /\ p <= len b /\ takeN (len s) (dropN st b) = s /\ utf8_valid s = true /\ has_nul s = false.
Proof.
  unfold de_str. intros H. apply bind_ok in H. destruct H as ([n p0] & H0 & H).
  apply bind_ok in H. destruct H as ([s' p1] & H1 & H).
  destruct (has_nul s') eqn:En; [discriminate|].
  apply bind_ok in H. destruct H as ([z p2] & H2 & H).
  destruct (all_zero z); [|discriminate]. cbn [negb] in H.
  destruct (utf8_valid s') eqn:Eu; [|discriminate]. injection H as <- <- <-.
  apply next_slice_ok in H1. destruct H1 as (-> & Hle1 & Es & Hl). apply next_slice_ok in H2. destruct H2 as (-> & Hle2 & _ & _).
  assert (pos + 1 <= p0).
  { destruct w; [apply de_u32_ok in H0|apply de_u8_ok in H0]; lia. }
  rewrite Hl. repeat split; try lia; auto.
Qed.
Lemma de_str_quiet w e b pos : quiet (de_str w e b pos).
Proof.
  unfold de_str. apply quiet_bind; [destruct w; [apply de_u32_quiet|apply de_u8_quiet]|intros [n p0] _].
  apply quiet_bind; [apply next_slice_quiet|intros [s p1] _]. destruct (has_nul s); [now apply quiet_err|].
  apply quiet_bind; [apply next_slice_quiet|intros [z p2] _]. destruct (negb _); [now apply quiet_err|].
  destruct (utf8_valid s); [apply quiet_ok|now apply quiet_err].
Qed.

(* ---------- the general value decoder ---------- *)
Lemma de_value_eq vf s d e b pos : de_value vf s d e b pos =
  match s with
  | SUnit | SMaybe _ => Err EData
  | SU8 => let* (_, p) := next_slice b pos 1 in Ok p
  | SBool => let* (n, p) := de_u32 e b pos in if n <=? 1 then Ok p else Err EData
  | SI16 | SU16 => de_fixed b pos 2
  | SI32 | SU32 => de_fixed b pos 4
  | SI64 | SU64 | SF64 => de_fixed b pos 8
  | SStr => let* (_, _, p) := de_str true e b pos in Ok p
  | SObjPath => let* (s', _, p) := de_str true e b pos in if validate_object_path s' then Ok p else Err EData
  | SSig => let* (s', _, p) := de_str false e b pos in match parse_sig s' with Some _ => Ok p | None => Err EData end
  | SFd => let* (_, _) := de_u32 e b pos in Err EData
  | SArray c =>
      let* p0 := parse_padding b pos 4 in
      let* d' := inc_array d in
      let* (n, p1) := de_u32 e b p0 in
      let* start := parse_padding b p1 (align_dbus c) in
      arr_loop (de_value vf c d' e b) b (align_dbus c) (start + n) (S (length b)) start
  | SDict kt vt =>
      let* p0 := parse_padding b pos 4 in
      let* d' := inc_array d in
      let* (n, p1) := de_u32 e b p0 in
      let* start := parse_padding b p1 8 in
      dict_loop (de_value vf kt d' e b) (de_value vf vt d' e b) b (start + n) (S (length b)) start
  | SStruct fs =>
      let* p0 := parse_padding b pos 8 in
      let* d' := inc_struct d in
      struct_go (fun f q => de_value vf f d' e b q) fs p0
  | SVariant =>
      let* (vs, vstart) := variant_sig e b pos in
      let* d' := inc_variant d in
      match vf with
      | O => Err EFuel
      | S vf' => de_value vf' vs d' e b vstart
      end
  end.
Proof. destruct vf; destruct s; reflexivity. Qed.

Definition total_depth (d : depths) : N := d_struct d + d_array d + d_variant d.
Lemma depth_check_ok d d' : depth_check d = Ok d' -> d' = d /\ total_depth d <= 64.
Proof.
  unfold depth_check, total_depth. destruct (32 <? _); [discriminate|]. destruct (32 <? _); [discriminate|].
  destruct (64 <? _) eqn:E; [discriminate|]. intros [= <-]. split; [reflexivity|lia].
Qed.
Lemma depth_check_quiet d : quiet (depth_check d).
Proof. unfold depth_check. repeat (destruct (_ <? _); [now apply quiet_err|]). apply quiet_ok. Qed.
Lemma inc_no_panic d p : inc_array d <> Panic p /\ inc_struct d <> Panic p /\ inc_variant d <> Panic p.
Proof. repeat split; apply depth_check_quiet. Qed.

Lemma de_fixed_ok b pos a p : de_fixed b pos a = Ok p -> pos + a <= p /\ p <= len b.
Proof.
  unfold de_fixed. intros H. apply bind_ok in H. destruct H as (p0 & H0 & H).
  apply bind_ok in H. destruct H as ([l p1] & H1 & H). injection H as <-.
  apply parse_padding_ok in H0. apply next_slice_ok in H1. lia.
Qed.
Lemma de_fixed_quiet b pos a : quiet (de_fixed b pos a).
Proof.
  unfold de_fixed. apply quiet_bind; [apply parse_padding_quiet|intros p0 _].
  apply quiet_bind; [apply next_slice_quiet|intros [l p1] _; apply quiet_ok].
Qed.

(* the signature of a variant is a complete type, and its value starts inside the buffer *)
Lemma variant_sig_ok e b pos vs vst : variant_sig e b pos = Ok (vs, vst) -> wf vs = true /\ pos + 2 <= vst /\ vst <= len b.
Proof.
  unfold variant_sig. intros H. apply bind_ok in H. destruct H as ([[sg st0] p1] & H0 & H).
  apply de_str_ok in H0. destruct H0 as (Ha & Hb & Hc & _).
  destruct (parse_sig sg) as [sg0|]; [|discriminate].
  destruct (nth_error b (N.to_nat pos)) as [lb|]; [|discriminate].
  destruct (len b <? pos + 1 + bn lb); [discriminate|].
  destruct (parse_sig _) as [vs'|] eqn:Ep; [|discriminate].
  destruct (_ || _) eqn:Eu; [discriminate|].
  destruct (len b <? pos + 1 + bn lb + 1) eqn:Evs; [discriminate|]. injection H as <- <-.
  split; [|lia]. apply parse_sig_wf in Ep. destruct Ep as [->|Hw]; [discriminate|exact Hw].
Qed.
(* bytes[sig_start] is inside the buffer: the signature has just been read from there *)
Lemma variant_sig_quiet e b pos : quiet (variant_sig e b pos).
Proof.
  unfold variant_sig. apply quiet_bind; [apply de_str_quiet|intros [[sg st0] p1] H0].
  unfold de_str in H0. apply bind_ok in H0. destruct H0 as ([n p0] & H0 & _).
  apply de_u8_nth in H0. destruct H0 as (c & -> & _).
  destruct (parse_sig sg); [|now apply quiet_err]. destruct (len b <? _); [now apply quiet_err|].
  destruct (parse_sig _); [|now apply quiet_err]. destruct (_ || _); [now apply quiet_err|].
  destruct (len b <? _); [now apply quiet_err|apply quiet_ok].
Qed.

(* a value of a well-formed type occupies at least one byte, inside the buffer *)
Lemma arr_loop_bounds elem b al endp : (forall q p, elem q = Ok p -> q < p /\ p <= len b) ->
  forall k q p, q <= len b -> arr_loop elem b al endp k q = Ok p -> q <= p /\ p <= len b.
Proof.
  intros He. induction k as [|k IH]; intros q p Hq H; cbn [arr_loop] in H; destruct (q =? endp); try discriminate;
    try (injection H as <-; lia).
  apply bind_ok in H. destruct H as (q1 & H1 & H). apply bind_ok in H. destruct H as (q2 & H2 & H).
  destruct (endp <? q2); [discriminate|]. apply parse_padding_ok in H1. apply He in H2. apply IH in H; lia.
Qed.
Lemma dict_loop_bounds kd vd b endp : (forall q p, kd q = Ok p -> q < p /\ p <= len b) -> (forall q p, vd q = Ok p -> q < p /\ p <= len b) ->
  forall k q p, q <= len b -> dict_loop kd vd b endp k q = Ok p -> q <= p /\ p <= len b.
Proof.
  intros Hk Hv. induction k as [|k IH]; intros q p Hq H; cbn [dict_loop] in H; destruct (q =? endp); try discriminate;
    try (injection H as <-; lia).
  apply bind_ok in H. destruct H as (q1 & H1 & H). apply bind_ok in H. destruct H as (q2 & H2 & H).
  destruct (endp <? q2); [discriminate|]. apply bind_ok in H. destruct H as (q3 & H3 & H).
  destruct (endp <? q3); [discriminate|].
  apply parse_padding_ok in H1. apply Hk in H2. apply Hv in H3. apply IH in H; lia.
Qed.
Lemma struct_go_bounds fld b l : l <> [] -> Forall (fun f => forall q p, fld f q = Ok p -> q < p /\ p <= len b) l ->
  forall q p, struct_go fld l q = Ok p -> q < p /\ p <= len b.
Proof.
  intros Hne Hall. induction Hall as [|f r Hf Hr IH]; [congruence|]. intros q p H. cbn [struct_go] in H.
  apply bind_ok in H. destruct H as (q' & H1 & H). apply Hf in H1.
  destruct r as [|g r']; [cbn in H; injection H as <-; lia|]. apply IH in H; [lia|discriminate].
Qed.

Lemma wf_struct fs : wf (SStruct fs) = true -> fs <> [] /\ forall f, In f fs -> wf f = true.
Proof. cbn [wf]. destruct fs; [discriminate|]. rewrite forallb_forall. intros H. split; [discriminate|exact H]. Qed.

(* what a variant does with the value it contains: nothing at all when [vf] is used up *)
Definition vnext (vf : nat) (vs : sig) (d : depths) (e : endian) (b : bytes) (pos : N) : R N :=
  match vf with O => Err EFuel | S vf' => de_value vf' vs d e b pos end.

Lemma de_value_bounds_step vf :
  (forall vs d e b pos p, wf vs = true -> vnext vf vs d e b pos = Ok p -> pos < p /\ p <= len b) ->
  forall s d e b pos p, wf s = true -> de_value vf s d e b pos = Ok p -> pos < p /\ p <= len b.
Proof.
  intros IHvf. induction s using sig_ind'; intros d e b pos p Hw; rewrite de_value_eq; intros Hp;
    try discriminate; try (apply de_fixed_ok in Hp; lia).
  - apply bind_ok in Hp. destruct Hp as ([l1 p1] & H1 & Hp). apply next_slice_ok in H1. injection Hp as <-. lia.
  - apply bind_ok in Hp. destruct Hp as ([n p1] & H1 & Hp). apply de_u32_ok in H1.
    destruct (n <=? 1); [injection Hp as <-; lia|discriminate].
  - apply bind_ok in Hp. destruct Hp as ([[s' st] p1] & H1 & Hp). apply de_str_ok in H1. injection Hp as <-. lia.
  - apply bind_ok in Hp. destruct Hp as ([[s' st] p1] & H1 & Hp). apply de_str_ok in H1.
    destruct (parse_sig s'); [injection Hp as <-; lia|discriminate].
  - apply bind_ok in Hp. destruct Hp as ([[s' st] p1] & H1 & Hp). apply de_str_ok in H1.
    destruct (validate_object_path s'); [injection Hp as <-; lia|discriminate].
  - apply bind_ok in Hp. destruct Hp as ([vs vst] & H1 & Hp). apply bind_ok in Hp. destruct Hp as (d' & _ & Hp).
    apply variant_sig_ok in H1. destruct H1 as (Hvs & H1). apply IHvf in Hp; [lia|exact Hvs].
  - apply bind_ok in Hp. destruct Hp as ([n p1] & _ & Hp). discriminate.
  - apply bind_ok in Hp. destruct Hp as (p0 & H0 & Hp). apply bind_ok in Hp. destruct Hp as (d' & _ & Hp).
    apply bind_ok in Hp. destruct Hp as ([n p1] & H1 & Hp). apply bind_ok in Hp. destruct Hp as (start & H2 & Hp).
    apply parse_padding_ok in H0. apply de_u32_ok in H1. apply parse_padding_ok in H2.
    apply arr_loop_bounds in Hp; [lia|intros q p'; apply IHs; exact Hw|lia].
  - apply andb_prop in Hw. destruct Hw as [Hw1 Hw2].
    apply bind_ok in Hp. destruct Hp as (p0 & H0 & Hp). apply bind_ok in Hp. destruct Hp as (d' & _ & Hp).
    apply bind_ok in Hp. destruct Hp as ([n p1] & H1 & Hp). apply bind_ok in Hp. destruct Hp as (start & H2 & Hp).
    apply parse_padding_ok in H0. apply de_u32_ok in H1. apply parse_padding_ok in H2.
    apply dict_loop_bounds in Hp; [lia|intros q p'; apply IHs1; exact Hw1|intros q p'; apply IHs2; exact Hw2|lia].
  - apply wf_struct in Hw. destruct Hw as [Hne Hall].
    apply bind_ok in Hp. destruct Hp as (p0 & H0 & Hp). apply bind_ok in Hp. destruct Hp as (d' & _ & Hp).
    apply parse_padding_ok in H0. apply (struct_go_bounds _ b) in Hp; [lia|exact Hne|].
    rewrite Forall_forall in H |- *. intros f Hf q p'. apply H; [exact Hf|apply Hall; exact Hf].
Qed.

Lemma de_value_bounds : forall vf s d e b pos p, wf s = true -> de_value vf s d e b pos = Ok p -> pos < p /\ p <= len b.
Proof. induction vf as [|vf IHvf]; apply de_value_bounds_step; [discriminate|exact IHvf]. Qed.

(* ---------- no decoder panics, no loop runs out of fuel ---------- *)
Lemma arr_loop_quiet elem b al endp : (forall q, quiet (elem q)) -> (forall q p, elem q = Ok p -> q < p /\ p <= len b) ->
  forall k q, len b - q < N.of_nat k -> quiet (arr_loop elem b al endp k q).
Proof.
  intros Hq He. induction k as [|k IH]; intros q Hk; [lia|]. cbn [arr_loop]. destruct (q =? endp); [apply quiet_ok|].
  apply quiet_bind; [apply parse_padding_quiet|intros q1 H1]. apply quiet_bind; [apply Hq|intros q2 H2].
  destruct (endp <? q2); [now apply quiet_err|]. apply parse_padding_ok in H1. apply He in H2. apply IH. lia.
Qed.
Lemma dict_loop_quiet kd vd b endp : (forall q, quiet (kd q)) -> (forall q, quiet (vd q)) ->
  (forall q p, kd q = Ok p -> q < p /\ p <= len b) -> (forall q p, vd q = Ok p -> q < p /\ p <= len b) ->
  forall k q, len b - q < N.of_nat k -> quiet (dict_loop kd vd b endp k q).
Proof.
  intros Hqk Hqv Hk Hv. induction k as [|k IH]; intros q Hq; [lia|]. cbn [dict_loop]. destruct (q =? endp); [apply quiet_ok|].
  apply quiet_bind; [apply parse_padding_quiet|intros q1 H1]. apply quiet_bind; [apply Hqk|intros q2 H2].
  destruct (endp <? q2); [now apply quiet_err|]. apply quiet_bind; [apply Hqv|intros q3 H3].
  destruct (endp <? q3); [now apply quiet_err|]. apply parse_padding_ok in H1. apply Hk in H2. apply Hv in H3. apply IH. lia.
Qed.
Lemma struct_go_quiet fld l : Forall (fun f => forall q, quiet (fld f q)) l -> forall q, quiet (struct_go fld l q).
Proof.
  induction 1 as [|f r Hf Hr IH]; intros q; cbn [struct_go]; [apply quiet_ok|].
  apply quiet_bind; [apply Hf|intros q' _; apply IH].
Qed.

(* variants nest at most 64 deep (ContainerDepths), so 64 levels of [vf] minus the depth already used always suffice *)
Lemma de_value_quiet_step vf :
  (forall vs d e b pos, wf vs = true -> total_depth d <= 64 -> 65 < N.of_nat vf + total_depth d -> quiet (vnext vf vs d e b pos)) ->
  forall s d e b pos, wf s = true -> 64 < N.of_nat vf + total_depth d -> quiet (de_value vf s d e b pos).
Proof.
  intros IHvf. induction s using sig_ind'; intros d e b pos Hw Hd; rewrite de_value_eq; try discriminate Hw;
    try apply de_fixed_quiet.
  - apply quiet_bind; [apply next_slice_quiet|intros [l p] _; apply quiet_ok].
  - apply quiet_bind; [apply de_u32_quiet|intros [n p] _]. destruct (n <=? 1); [apply quiet_ok|now apply quiet_err].
  - apply quiet_bind; [apply de_str_quiet|intros [[s' st] p] _; apply quiet_ok].
  - apply quiet_bind; [apply de_str_quiet|intros [[s' st] p] _]. destruct (parse_sig s'); [apply quiet_ok|now apply quiet_err].
  - apply quiet_bind; [apply de_str_quiet|intros [[s' st] p] _].
    destruct (validate_object_path s'); [apply quiet_ok|now apply quiet_err].
  - apply quiet_bind; [apply variant_sig_quiet|intros [vs vst] H1]. apply variant_sig_ok in H1.
    apply quiet_bind; [apply depth_check_quiet|intros d' Hd']. apply depth_check_ok in Hd'. destruct Hd' as [-> Hd'].
    apply IHvf; [tauto|exact Hd'|]. unfold total_depth in *. cbn [d_struct d_array d_variant] in *. lia.
  - apply quiet_bind; [apply de_u32_quiet|intros [n p] _; now apply quiet_err].
  - apply quiet_bind; [apply parse_padding_quiet|intros p0 H0]. apply quiet_bind; [apply depth_check_quiet|intros d' Hd'].
    apply quiet_bind; [apply de_u32_quiet|intros [n p1] H1]. apply quiet_bind; [apply parse_padding_quiet|intros start H2].
    apply depth_check_ok in Hd'. destruct Hd' as [-> Hd']. apply de_u32_ok in H1. apply parse_padding_ok in H2.
    apply arr_loop_quiet; [intros q; apply IHs; [exact Hw|]|intros q p'; apply de_value_bounds; exact Hw|unfold len; lia].
    unfold total_depth in *. cbn [d_struct d_array d_variant] in *. lia.
  - apply andb_prop in Hw. destruct Hw as [Hw1 Hw2].
    apply quiet_bind; [apply parse_padding_quiet|intros p0 H0]. apply quiet_bind; [apply depth_check_quiet|intros d' Hd'].
    apply quiet_bind; [apply de_u32_quiet|intros [n p1] H1]. apply quiet_bind; [apply parse_padding_quiet|intros start H2].
    apply depth_check_ok in Hd'. destruct Hd' as [-> Hd']. apply de_u32_ok in H1. apply parse_padding_ok in H2.
    assert (Hd2 : 64 < N.of_nat vf + total_depth {| d_struct := d_struct d; d_array := d_array d + 1; d_variant := d_variant d |})
      by (unfold total_depth in *; cbn [d_struct d_array d_variant] in *; lia).
    apply dict_loop_quiet; [intros q; apply IHs1; assumption|intros q; apply IHs2; assumption
                           |intros q p'; apply de_value_bounds; exact Hw1|intros q p'; apply de_value_bounds; exact Hw2|unfold len; lia].
  - apply wf_struct in Hw. destruct Hw as [_ Hall].
    apply quiet_bind; [apply parse_padding_quiet|intros p0 _]. apply quiet_bind; [apply depth_check_quiet|intros d' Hd'].
    apply depth_check_ok in Hd'. destruct Hd' as [-> Hd'].
    apply struct_go_quiet. rewrite Forall_forall in H |- *. intros f Hf q. apply H; [exact Hf|apply Hall; exact Hf|].
    unfold total_depth in *. cbn [d_struct d_array d_variant] in *. lia.
Qed.

Lemma de_value_quiet : forall vf s d e b pos, wf s = true -> 64 < N.of_nat vf + total_depth d -> quiet (de_value vf s d e b pos).
Proof.
  induction vf as [|vf IHvf]; apply de_value_quiet_step; intros vs d e b pos Hw H64 Hd; [lia|].
  apply IHvf; [exact Hw|lia].
Qed.

(* ---------- header field values ---------- *)
Definition fval_inv (b : bytes) (v : fval) : Prop :=
  match v with
  | FStr s st => str_at b s st
  | FPath s st => str_at b s st /\ validate_object_path s = true
  | FSig _ | FU32 _ | FOther => True
  end.

(* what de_variant does once the signature is known to be the single complete type [vs] and the value starts at [vstart] *)
Definition variant_tail (vs : sig) (e : endian) (b : bytes) (vstart : N) : R (fval * N) :=
  match vs with
  | SStr => let* (s, st, p2) := de_str true e b vstart in Ok (FStr s st, p2)
  | SObjPath =>
      let* (s, st, p2) := de_str true e b vstart in
      if validate_object_path s then Ok (FPath s st, p2) else Err EData
  | SSig =>
      let* (s, _, p2) := de_str false e b vstart in
      match parse_sig s with Some g => Ok (FSig g, p2) | None => Err EData end
  | SU32 => let* (n, p2) := de_u32 e b vstart in Ok (FU32 n, p2)
  | _ => let* p2 := de_value 64 vs field_value_depths e b vstart in Ok (FOther, p2)
  end.

Lemma de_variant_eq e b pos :
  de_variant e b pos = let* (vs, vstart) := variant_sig e b pos in variant_tail vs e b vstart.
Proof.
  unfold de_variant, variant_sig. destruct (de_str false e b pos) as [[[sg st] p1]| |]; [|reflexivity|reflexivity].
  cbn [bind]. destruct (parse_sig sg); [|reflexivity]. destruct (nth_error b (N.to_nat pos)); [|reflexivity].
  destruct (len b <? _); [reflexivity|]. destruct (parse_sig _); [|reflexivity].
  destruct (_ || _); [reflexivity|]. destruct (len b <? _); reflexivity.
Qed.

Lemma variant_tail_ok vs e b vst v p : wf vs = true -> 2 <= vst -> variant_tail vs e b vst = Ok (v, p) ->
  fval_inv b v /\ vst < p.
Proof.
  intros Hw Hvst H.
  assert (Hst : forall s st p2, de_str true e b vst = Ok (s, st, p2) -> str_at b s st /\ vst < p2).
  { intros s st p2 Hs. apply de_str_ok in Hs. unfold str_at. intuition lia. }
  destruct vs; cbn [variant_tail] in H;
    try (apply bind_ok in H; destruct H as (p2 & H2 & H); injection H as <- <-; apply de_value_bounds in H2; [cbn; lia|exact Hw]).
  - apply bind_ok in H. destruct H as ([n p2] & H2 & H). injection H as <- <-. apply de_u32_ok in H2. cbn. lia.
  - apply bind_ok in H. destruct H as ([[s st] p2] & H2 & H). injection H as <- <-. apply Hst in H2. cbn. tauto.
  - apply bind_ok in H. destruct H as ([[s st] p2] & H2 & H).
    destruct (parse_sig s); [|discriminate]. injection H as <- <-. apply de_str_ok in H2. cbn. lia.
  - apply bind_ok in H. destruct H as ([[s st] p2] & H2 & H).
    destruct (validate_object_path s) eqn:Ev; [|discriminate]. injection H as <- <-. apply Hst in H2. cbn. tauto.
Qed.
Lemma variant_tail_quiet vs e b vst : wf vs = true -> quiet (variant_tail vs e b vst).
Proof.
  intros Hw. destruct vs; cbn [variant_tail];
    try (apply quiet_bind; [apply de_value_quiet; [exact Hw|reflexivity]|intros p2 _; apply quiet_ok]).
  - apply quiet_bind; [apply de_u32_quiet|intros [n p2] _; apply quiet_ok].
  - apply quiet_bind; [apply de_str_quiet|intros [[s st] p2] _; apply quiet_ok].
  - apply quiet_bind; [apply de_str_quiet|intros [[s st] p2] _]. destruct (parse_sig s); [apply quiet_ok|now apply quiet_err].
  - apply quiet_bind; [apply de_str_quiet|intros [[s st] p2] _].
    destruct (validate_object_path s); [apply quiet_ok|now apply quiet_err].
Qed.

Lemma de_field_ok e b pos code v p : 1 <= pos -> de_field e b pos = Ok (code, v, p) ->
  fval_inv b v /\ pos < p /\ pos < len b.
Proof.
  intros Hpos. unfold de_field. intros H. apply bind_ok in H. destruct H as (p0 & H0 & H).
  apply bind_ok in H. destruct H as ([c p1] & H1 & H).
  apply bind_ok in H. destruct H as ([v' p2] & H2 & H). injection H as <- <- <-.
  apply parse_padding_ok in H0. apply de_u8_ok in H1. rewrite de_variant_eq in H2.
  apply bind_ok in H2. destruct H2 as ([vs vst] & Hs & H2). apply variant_sig_ok in Hs. destruct Hs as (Hw & Hs).
  apply variant_tail_ok in H2; [|exact Hw|lia]. intuition lia.
Qed.
Lemma de_field_quiet e b pos : quiet (de_field e b pos).
Proof.
  unfold de_field. apply quiet_bind; [apply parse_padding_quiet|intros p0 _]. apply quiet_bind; [apply de_u8_quiet|intros [c p1] _].
  apply quiet_bind; [|intros [v p2] _; apply quiet_ok]. rewrite de_variant_eq.
  apply quiet_bind; [apply variant_sig_quiet|intros [vs vst] Hs]. apply variant_tail_quiet. apply variant_sig_ok in Hs. tauto.
Qed.

(* ---------- the fields record ---------- *)
Definition ostr_at (b : bytes) (o : option (bytes * N)) : Prop :=
  match o with Some (s, st) => str_at b s st | None => True end.
Definition ovalid (v : bytes -> bool) (o : option (bytes * N)) : Prop :=
  match o with Some (s, _) => v s = true | None => True end.
(* every string field is the bytes at its recorded offset, and a valid name of its kind (all six are validated at parse
   time since fix b3fdf920) *)
Definition fields_inv (b : bytes) (fs : fields) : Prop :=
  ostr_at b (f_path fs) /\ ostr_at b (f_iface fs) /\ ostr_at b (f_member fs) /\ ostr_at b (f_errname fs)
  /\ ostr_at b (f_dest fs) /\ ostr_at b (f_sender fs)
  /\ ovalid validate_object_path (f_path fs) /\ ovalid validate_interface (f_iface fs) /\ ovalid validate_member (f_member fs)
  /\ ovalid validate_error (f_errname fs) /\ ovalid validate_bus (f_dest fs) /\ ovalid validate_unique (f_sender fs).

Lemma fields_inv_empty b : fields_inv b fields_empty.
Proof. unfold fields_inv, fields_empty; cbn. tauto. Qed.

Lemma set_field_inv b fs code v fs' : fields_inv b fs -> fval_inv b v -> set_field fs code v = Ok fs' -> fields_inv b fs'.
Proof.
  unfold fields_inv. intros (H1 & H2 & H3 & H4 & H5 & H6 & V1 & V2 & V3 & V4 & V5 & V6) Hv H.
  unfold set_field in H.
  repeat match type of H with
         | (if ?x then _ else _) = _ => destruct x eqn:?; try discriminate
         | match ?x with _ => _ end = _ => destruct x; try discriminate
         end;
    injection H as <-; cbn [f_path f_iface f_member f_errname f_reply f_dest f_sender f_sig f_fds ostr_at ovalid]; cbn [fval_inv] in Hv;
    repeat match goal with Hn : negb _ = false |- _ => apply Bool.negb_false_iff in Hn end;
    refine (conj _ (conj _ (conj _ (conj _ (conj _ (conj _ (conj _ (conj _ (conj _ (conj _ (conj _ _)))))))))));
    try assumption; try (apply Hv).
Qed.

Lemma set_field_quiet fs code v : quiet (set_field fs code v).
Proof.
  unfold set_field.
  repeat match goal with
         | |- context [match ?x with _ => _ end] => destruct x; try apply quiet_ok; try (now apply quiet_err)
         end.
Qed.

(* ---------- the loop ---------- *)
Lemma loop_inv fuel : forall e b endp pos fs fs' p, 1 <= pos -> fields_inv b fs ->
  de_fields_loop fuel e b endp pos fs = Ok (fs', p) -> fields_inv b fs' /\ p = endp.
Proof.
  induction fuel as [|f IH]; intros e b endp pos fs fs' p Hpos Hinv H; cbn [de_fields_loop] in H.
  - destruct (pos =? endp) eqn:E; [|discriminate]. injection H as <- <-. split; [assumption|lia].
  - destruct (pos =? endp) eqn:E; [injection H as <- <-; split; [assumption|lia]|].
    apply bind_ok in H. destruct H as ([[code v] p'] & Hf & H).
    destruct (endp <? p'); [discriminate|]. destruct (code =? 0); [discriminate|].
    apply de_field_ok in Hf; [|assumption]. destruct Hf as (Hv & Hlt & _).
    destruct (9 <? code).
    { eapply IH; [| |exact H]; [lia|assumption]. }
    apply bind_ok in H. destruct H as (fs1 & Hs & H).
    eapply IH; [| |exact H]; [lia|]. eapply set_field_inv; eauto.
Qed.

(* every iteration consumes at least the code byte, which lies inside the buffer: the fuel is never the limit *)
Lemma loop_quiet fuel : forall e b endp pos fs, 1 <= pos -> len b - pos < N.of_nat fuel ->
  quiet (de_fields_loop fuel e b endp pos fs).
Proof.
  induction fuel as [|f IH]; intros e b endp pos fs Hpos Hf; [lia|].
  cbn [de_fields_loop]. destruct (pos =? endp); [apply quiet_ok|].
  apply quiet_bind; [apply de_field_quiet|intros [[code v] p'] Hd]. apply de_field_ok in Hd; [|exact Hpos].
  destruct (endp <? p'); [now apply quiet_err|]. destruct (code =? 0); [now apply quiet_err|].
  destruct (9 <? code); [apply IH; lia|]. apply quiet_bind; [apply set_field_quiet|intros fs1 _; apply IH; lia].
Qed.

Lemma de_fields_ok e b fs p : de_fields e b = Ok (fs, p) -> fields_inv b fs.
Proof.
  unfold de_fields. intros H. apply bind_ok in H. destruct H as ([n p0] & H0 & H).
  apply bind_ok in H. destruct H as (start & H1 & H).
  apply de_u32_ok in H0. apply parse_padding_ok in H1.
  eapply loop_inv in H; [tauto|lia|apply fields_inv_empty].
Qed.
Lemma de_fields_quiet e b : quiet (de_fields e b).
Proof.
  unfold de_fields. apply quiet_bind; [apply de_u32_quiet|intros [n p0] H0].
  apply quiet_bind; [apply parse_padding_quiet|intros start H1].
  apply de_u32_ok in H0. apply parse_padding_ok in H1. apply loop_quiet; [lia|unfold len; lia].
Qed.
Lemma de_fields_no_panic e b p : de_fields e b <> Panic p.
Proof. apply de_fields_quiet. Qed.
Lemma de_fields_no_fuel e b : de_fields e b <> Err EFuel.
Proof. apply de_fields_quiet. Qed.

(* ---------- primary header ---------- *)
Lemma de_primary_ok e b ph p : de_primary e b = Ok (ph, p) -> p = 12 /\ 12 <= len b /\ 1 <= ph_serial ph.
Proof.
  unfold de_primary. intros H.
  apply bind_ok in H. destruct H as (p0 & H0 & H).
  assert (p0 = 0) by (unfold parse_padding in H0; cbn in H0; congruence). subst p0.
  apply bind_ok in H. destruct H as ([c0 p1] & H1 & H). apply de_u8_ok in H1. destruct H1 as (-> & _).
  destruct (endian_of_byte _); [|discriminate].
  apply bind_ok in H. destruct H as ([ty p2] & H2 & H). apply de_u8_ok in H2. destruct H2 as (-> & _).
  destruct (negb _); [discriminate|].
  apply bind_ok in H. destruct H as ([fl p3] & H3 & H). apply de_u8_ok in H3. destruct H3 as (-> & _).
  apply bind_ok in H. destruct H as ([ver p4] & H4 & H). apply de_u8_ok in H4. destruct H4 as (-> & _).
  apply bind_ok in H. destruct H as ([bl p5] & H5 & H).
  apply bind_ok in H. destruct H as ([sn p6] & H6 & H).
  destruct (sn =? 0) eqn:Es; [discriminate|]. injection H as <- <-. cbn [ph_serial].
  unfold de_u32 in H5, H6.
  rewrite parse_padding_aligned in H5 by (cbn; lia). cbn [bind] in H5.
  apply bind_ok in H5. destruct H5 as ([l4 q] & H5 & E5). injection E5 as _ <-. apply next_slice_ok in H5. destruct H5 as (-> & _).
  rewrite parse_padding_aligned in H6 by (cbn; lia). cbn [bind] in H6.
  apply bind_ok in H6. destruct H6 as ([l4' q] & H6 & E6). injection E6 as _ <-. apply next_slice_ok in H6. lia.
Qed.
Lemma de_primary_quiet e b : quiet (de_primary e b).
Proof.
  unfold de_primary. apply quiet_bind; [apply parse_padding_quiet|intros p0 _].
  apply quiet_bind; [apply de_u8_quiet|intros [c0 p1] _]. destruct (endian_of_byte _); [|now apply quiet_err].
  apply quiet_bind; [apply de_u8_quiet|intros [ty p2] _]. destruct (negb _); [now apply quiet_err|].
  apply quiet_bind; [apply de_u8_quiet|intros [fl p3] _]. apply quiet_bind; [apply de_u8_quiet|intros [ver p4] _].
  apply quiet_bind; [apply de_u32_quiet|intros [bl p5] _]. apply quiet_bind; [apply de_u32_quiet|intros [sn p6] _].
  destruct (sn =? 0); [now apply quiet_err|apply quiet_ok].
Qed.
Lemma de_primary_no_panic e b p : de_primary e b <> Panic p.
Proof. apply de_primary_quiet. Qed.
