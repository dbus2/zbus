(* C11/AtPos.v — the string decoder evaluated where the buffer holds an encoded string. *)
From ZV Require Import Base.Bytes Base.BytesFacts Base.Res Base.Sig C11.Model C11.Lemmas.
Open Scope N_scope.

Lemma all_zero_nul : all_zero [x00] = true. Proof. reflexivity. Qed.

(* a NUL-terminated string with a 4-byte length *)
Lemma de_str_wide_at e b pos s :
  at_pos b pos (u32_bytes e (len s) ++ s ++ [x00]) -> pos mod 4 = 0 -> len s < two32 ->
  has_nul s = false -> utf8_valid s = true ->
  de_str true e b pos = Ok (s, pos + 4, pos + 4 + len s + 1).
Proof.
  intros H Hal Hn Hz Hu. apply at_pos_app in H. destruct H as [H1 H2]. rewrite len_u32 in H2.
  apply at_pos_app in H2. destruct H2 as [H2 H3].
  unfold de_str. rewrite (de_u32_at' e b pos (len s) H1 Hal Hn). cbn [bind].
  rewrite (next_slice_at' b (pos + 4) s H2). cbn [bind]. rewrite Hz.
  pose proof (next_slice_at' b (pos + 4 + len s) [x00] H3) as H4. change (len [x00]) with 1 in H4. rewrite H4. cbn [bind].
  rewrite all_zero_nul. cbn [negb]. rewrite Hu. reflexivity.
Qed.

(* a NUL-terminated string with a 1-byte length *)
Lemma de_str_narrow_at e b pos s :
  at_pos b pos ([nb (len s)] ++ s ++ [x00]) -> len s < 256 ->
  has_nul s = false -> utf8_valid s = true ->
  de_str false e b pos = Ok (s, pos + 1, pos + 1 + len s + 1).
Proof.
  intros H Hn Hz Hu. apply at_pos_app in H. destruct H as [H1 H2]. change (len [nb (len s)]) with 1 in H2.
  apply at_pos_app in H2. destruct H2 as [H2 H3].
  unfold de_str. rewrite (de_u8_at' b pos _ H1). cbn [bind]. rewrite bn_nb by exact Hn.
  rewrite (next_slice_at' b (pos + 1) s H2). cbn [bind]. rewrite Hz.
  pose proof (next_slice_at' b (pos + 1 + len s) [x00] H3) as H4. change (len [x00]) with 1 in H4. rewrite H4. cbn [bind].
  rewrite all_zero_nul. cbn [negb]. rewrite Hu. reflexivity.
Qed.
