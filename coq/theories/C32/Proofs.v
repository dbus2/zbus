(* C32/Proofs.v — every run of the model (every schedule of socket reader, stream creation and consumer)
   yields a prefix of what C32/Spec.v demands, and all of it once everything has been read and polled —
   for bus histories (the code as repaired by 902c9069 and 0bffda5d: no known class is left). *)
From Coq Require Import List NArith Bool Lia.
Import ListNotations.
From ZV Require Import Base.Bytes C32.Model C32.Spec C32.Facts.
Local Open Scope N_scope.

(* ---------------------------------------------------------------- small facts *)
Lemma opt_eqb_eq : forall a b, opt_eqb a b = true <-> a = b.
Proof.
  intros [x|] [y|]; cbn; split; intro H; try discriminate; try reflexivity.
  - apply N.eqb_eq in H. subst. reflexivity.
  - inversion H. apply N.eqb_refl.
Qed.

Lemma opt_eqb_refl : forall a, opt_eqb a a = true.
Proof. intro a. apply opt_eqb_eq. reflexivity. Qed.

Lemma opt_eqb_neq : forall a b, opt_eqb a b = false <-> a <> b.
Proof.
  intros a b. split; intro H.
  - intro E. apply opt_eqb_eq in E. congruence.
  - destruct (opt_eqb a b) eqn:E; [|reflexivity]. apply opt_eqb_eq in E. contradiction.
Qed.

Lemma noc_rule_driver : forall s,
  matches noc_rule s = match driver_noc s with Some _ => true | None => false end.
Proof.
  intros [snd pa ifc mem bd]. unfold matches, noc_rule, driver_noc, arg0_is.
  cbn [r_sender r_path r_iface r_member r_arg0 s_sender s_path s_iface s_member s_body].
  destruct snd as [x|]; cbn [opt_eqb]; [|reflexivity].
  destruct (x =? DRIVER), (ifc =? I_DBUS), (mem =? M_NOC), (pa =? P_DRIVER); cbn [andb]; try reflexivity.
  destruct bd as [|nm old new| |]; try reflexivity. destruct (nm =? NAME_W); reflexivity.
Qed.

Lemma driver_noc_new : forall s new, driver_noc s = Some new -> noc_new s = Some new.
Proof.
  intros [snd pa ifc mem bd] new. unfold driver_noc, noc_new. cbn [s_sender s_path s_iface s_member s_body].
  destruct (opt_eqb snd (Some DRIVER) && (pa =? P_DRIVER) && (ifc =? I_DBUS) && (mem =? M_NOC)); [|discriminate].
  destruct bd as [|nm old nw| |]; try discriminate. destruct (nm =? NAME_W); [|discriminate]. congruence.
Qed.

Lemma driver_noc_shape : forall s new, driver_noc s = Some new ->
  s_sender s = Some DRIVER /\ s_path s = P_DRIVER /\ is_noc s = true /\ exists old, s_body s = BNoc NAME_W old new.
Proof.
  intros [snd pa ifc mem bd] new. unfold driver_noc, is_noc. cbn [s_sender s_path s_iface s_member s_body].
  destruct (opt_eqb snd (Some DRIVER)) eqn:E1; cbn [andb]; [|discriminate].
  destruct (pa =? P_DRIVER) eqn:E2; cbn [andb]; [|discriminate].
  destruct (ifc =? I_DBUS) eqn:E3; cbn [andb]; [|discriminate].
  destruct (mem =? M_NOC) eqn:E4; [|discriminate].
  destruct bd as [|nm old nw| |]; try discriminate. destruct (nm =? NAME_W) eqn:E5; [|discriminate].
  intro H. inversion H; subst. apply opt_eqb_eq in E1. apply N.eqb_eq in E2, E5. subst.
  repeat split; eauto.
Qed.

Lemma sig_rule_path : forall cf s, matches (sig_rule cf) s = true -> s_path s = P_OBJ.
Proof.
  intros cf s H. unfold matches, sig_rule, sig_rule_of in H. cbn [r_path] in H.
  repeat (apply andb_true_iff in H; destruct H as [H ?]). apply N.eqb_eq. assumption.
Qed.

Lemma rules_exclusive : forall cf s, matches (sig_rule cf) s && matches noc_rule s = false.
Proof.
  intros cf s. destruct (matches (sig_rule cf) s) eqn:E1; [|reflexivity].
  destruct (matches noc_rule s) eqn:E2; [|reflexivity].
  apply sig_rule_path in E1. rewrite noc_rule_driver in E2. destruct (driver_noc s) as [new|] eqn:E3; [|discriminate].
  apply driver_noc_shape in E3. destruct E3 as (_ & Hp & _). rewrite E1 in Hp. discriminate.
Qed.

Lemma sig_rule_wanted : forall cf s,
  matches (sig_rule cf) s =
  wanted cf s && match c_dest cf with DUnique u => opt_eqb (s_sender s) (Some u) | DWell => true end.
Proof.
  intros [d pi pm] s. unfold matches, sig_rule, sig_rule_of, wanted.
  cbn [c_dest c_pi c_pm r_sender r_path r_iface r_member r_arg0].
  destruct d as [u|].
  - destruct (s_sender s) as [x|]; cbn [opt_eqb];
      destruct (s_iface s =? pi), (s_path s =? P_OBJ), (match pm with Some m => s_member s =? m | None => true end),
               (match s_sender s with Some x0 => x0 =? u | None => false end);
      try destruct (x =? u); reflexivity.
  - destruct (s_iface s =? pi), (s_path s =? P_OBJ), (match pm with Some m => s_member s =? m | None => true end);
      reflexivity.
Qed.

(* ---------------------------------------------------------------- PendingMethodCall *)
Definition no_reply (c : N) (q : queue (N * payload)) : Prop := Forall (fun e => fst (snd e) <> c) q.

Lemma pmc_no_reply : forall c q, no_reply c q -> pmc_poll c q None = (RPending, []).
Proof.
  induction q as [|[t [k p]] q IH]; intro H; [reflexivity|].
  inversion H as [|? ? Hk Hq]; subst. cbn in Hk. cbn [pmc_poll].
  destruct (k =? c) eqn:E; [apply N.eqb_eq in E; contradiction|]. apply IH. assumption.
Qed.

Lemma pmc_has_reply : forall c stale t p, no_reply c stale ->
  exists q', pmc_poll c (stale ++ [(t, (c, p))]) None = (RItem p t, q').
Proof.
  induction stale as [|[t1 [k p1]] q IH]; intros t p H.
  - cbn. rewrite N.eqb_refl. eauto.
  - inversion H as [|? ? Hk Hq]; subst. cbn in Hk. cbn [app pmc_poll].
    destruct (k =? c) eqn:E; [apply N.eqb_eq in E; contradiction|]. apply IH. assumption.
Qed.

(* reps replies have been read; the call number c is awaited *)
Definition qrep (c reps : N) (qr : queue (N * payload)) : Prop :=
  (reps < c /\ no_reply c qr /\ Forall (fun e => fst (snd e) <= reps) qr) \/
  (reps = c /\ exists stale t p, qr = stale ++ [(t, (c, p))] /\ no_reply c stale).

Lemma qrep_push_other : forall c reps qr t p, reps + 1 < c -> qrep c reps qr -> qrep c (reps + 1) (push qr t (reps + 1, p)).
Proof.
  intros c reps qr t p Hlt [(H1 & H2 & H3)|(H1 & _)]; [|lia].
  left. split; [lia|]. unfold push. split.
  - apply Forall_app. split; [exact H2|]. constructor; [cbn; lia|constructor].
  - apply Forall_app. split; [eapply Forall_impl; [|exact H3]; cbn; intros; lia|]. constructor; [cbn; lia|constructor].
Qed.

Lemma qrep_push_mine : forall c reps qr t p, reps + 1 = c -> qrep c reps qr -> qrep c (reps + 1) (push qr t (reps + 1, p)).
Proof.
  intros c reps qr t p He [(H1 & H2 & H3)|(H1 & _)]; [|lia].
  right. split; [exact He|]. exists qr, t, p. rewrite He. split; [reflexivity|exact H2].
Qed.

(* ---------------------------------------------------------------- NameOwnerChanged queues *)
Definition nstep (s : option N) (e : N * sigm) : option N :=
  match noc_new (snd e) with Some new => new | None => s end.
Definition nend (src : option N) (q : queue sigm) : option N := fold_left nstep q src.

Definition noc_good (e : N * sigm) : Prop :=
  exists new, driver_noc (snd e) = Some new /\ not_driver new = true.
Definition qn_good (q : queue sigm) : Prop := Forall noc_good q.

Lemma nend_app : forall src q1 q2, nend src (q1 ++ q2) = nend (nend src q1) q2.
Proof. intros. unfold nend. apply fold_left_app. Qed.

Lemma nend_cons : forall src t a q new, noc_new a = Some new -> nend src ((t, a) :: q) = nend new q.
Proof. intros. unfold nend. cbn [fold_left]. unfold nstep at 2. cbn [snd]. rewrite H. reflexivity. Qed.

Lemma good_head : forall t a q, qn_good ((t, a) :: q) ->
  exists old new, driver_noc a = Some new /\ s_body a = BNoc NAME_W old new /\ noc_new a = Some new /\
                  not_driver new = true /\ qn_good q.
Proof.
  intros t a q H. inversion H as [|? ? (new & Hd & Hn) Hq]; subst. cbn [snd] in Hd.
  destruct (driver_noc_shape _ _ Hd) as (_ & _ & _ & old & Hb).
  exists old, new. repeat split; auto. apply driver_noc_new. exact Hd.
Qed.

Lemma nend_nonempty : forall q s1 s2, qn_good q -> q <> [] -> nend s1 q = nend s2 q.
Proof.
  intros [|[t a] q] s1 s2 Hg Hne; [contradiction|].
  destruct (good_head _ _ _ Hg) as (old & new & _ & _ & Hn & _). rewrite !(nend_cons _ _ _ _ _ Hn). reflexivity.
Qed.

Lemma nend_not_driver : forall q src, qn_good q -> not_driver src = true -> not_driver (nend src q) = true.
Proof.
  induction q as [|[t a] q IH]; intros src Hg Hs; [exact Hs|].
  destruct (good_head _ _ _ Hg) as (old & new & _ & _ & Hn & Hnd & Hq). rewrite (nend_cons _ _ _ _ _ Hn). auto.
Qed.

(* delivery of a signal to the queue of the NameOwnerChanged receiver *)
Lemma noc_push : forall n s q,
  qn_good q -> sorted q -> all_le n q -> (forall new, driver_noc s = Some new -> not_driver new = true) ->
  let q' := if matches noc_rule s then push q (n + 1) s else q in
  qn_good q' /\ sorted q' /\ all_le (n + 1) q' /\
  (forall src, nend src q' = match driver_noc s with Some new => new | None => nend src q end).
Proof.
  intros n s q Hg Hso Hle Hnd. rewrite noc_rule_driver.
  assert (Hle' : all_le (n + 1) q) by (eapply all_le_mono; [|exact Hle]; lia).
  destruct (driver_noc s) as [new|] eqn:E; [|repeat split; auto]. unfold push.
  split; [|split; [|split]].
  - apply Forall_app. split; [exact Hg|]. constructor; [|constructor]. exists new. auto.
  - apply sorted_app_one; assumption.
  - apply all_le_push. exact Hle.
  - intro src. rewrite nend_app. exact (nend_cons _ _ _ [] _ (driver_noc_new _ _ E)).
Qed.

(* the driver's notifications never pass the sender test and replace src_unique_name *)
Lemma filter_noc : forall src s new, driver_noc s = Some new -> not_driver src = true ->
  ss_filter src s = (false, new).
Proof.
  intros src s new Hd Hs. destruct (driver_noc_shape _ _ Hd) as (Hsnd & _ & Hn & old & Hb).
  unfold ss_filter. rewrite Hsnd, Hn, Hb.
  unfold not_driver in Hs. apply negb_true_iff in Hs.
  destruct (opt_eqb (Some DRIVER) src) eqn:E; [|reflexivity].
  apply opt_eqb_eq in E. subst. rewrite opt_eqb_refl in Hs. discriminate.
Qed.

Lemma frun_nocs : forall q src, qn_good q -> not_driver src = true -> frun src q = ([], nend src q).
Proof.
  induction q as [|[t m] q IH]; intros src Hg Hs; [reflexivity|].
  destruct (good_head _ _ _ Hg) as (old & new & Hd & _ & Hn & Hnd & Hq).
  rewrite frun_cons, (filter_noc _ _ _ Hd Hs), (nend_cons _ _ _ _ _ Hn). cbn [fst snd app]. rewrite (IH new Hq Hnd).
  reflexivity.
Qed.

(* ---------------------------------------------------------------- the specification, prefix by prefix *)
Section Spec.
  Variable cf : cfg.

  Definition sp_run (l : list wmsg) : sst := fold_left (sp_step cf) l (sp_init cf).

  Lemma sp_run_snoc : forall l m, sp_run (l ++ [m]) = sp_step cf (sp_run l) m.
  Proof. intros. unfold sp_run. rewrite fold_left_app. reflexivity. Qed.

  Lemma spec_from_app : forall start l1 l2 st idx,
    spec_from cf start st idx (l1 ++ l2) =
    spec_from cf start st idx l1 ++
    spec_from cf start (fold_left (sp_step cf) l1 st) (idx + N.of_nat (length l1)) l2.
  Proof.
    induction l1 as [|m l1 IH]; intros l2 st idx.
    - cbn [app spec_from fold_left length]. rewrite N.add_0_r. reflexivity.
    - cbn [app spec_from fold_left length]. rewrite IH, <- app_assoc. do 3 f_equal. lia.
  Qed.

  Lemma spec_from_early : forall start l st idx,
    idx + N.of_nat (length l) <= start + 1 -> spec_from cf start st idx l = [].
  Proof.
    induction l as [|m l IH]; intros st idx H; [reflexivity|].
    cbn [spec_from]. cbn [length] in H. rewrite IH by lia.
    destruct m as [s|p]; [|reflexivity].
    destruct (start <? idx) eqn:E; [apply N.ltb_lt in E; lia|].
    rewrite andb_false_r. reflexivity.
  Qed.

  Definition spec_pre (start : N) (pre : list wmsg) : list N := spec_from cf start (sp_init cf) 1 pre.

  Lemma spec_pre_snoc : forall start pre m,
    spec_pre start (pre ++ [m]) =
    spec_pre start pre ++
    match m with
    | WSig s => if wanted cf s && (start <? 1 + N.of_nat (length pre)) && from_owner (sp_run pre) s
                then [1 + N.of_nat (length pre)] else []
    | WRep _ => []
    end.
  Proof.
    intros. unfold spec_pre. rewrite spec_from_app. f_equal. cbn [spec_from]. rewrite app_nil_r. reflexivity.
  Qed.

  Lemma spec_pre_prefix : forall start pre post,
    exists rest, spec_yield cf start (pre ++ post) = spec_pre start pre ++ rest.
  Proof. intros. unfold spec_yield, spec_pre. rewrite spec_from_app. eauto. Qed.

  Lemma sp_rep_snoc_sig : forall st s, sp_rep (sp_step cf st (WSig s)) = sp_rep st.
  Proof.
    intros st s. unfold sp_step. destruct (c_dest cf); [reflexivity|].
    destruct (driver_noc s); [|reflexivity]. destruct (LOOKUP <=? sp_rep st); reflexivity.
  Qed.

  Lemma sp_rep_snoc_rep : forall st p, sp_rep (sp_step cf st (WRep p)) = sp_rep st + 1.
  Proof. intros st p. unfold sp_step. destruct (c_dest cf); reflexivity. Qed.

  Lemma sp_owner_unique : forall u l, c_dest cf = DUnique u -> sp_owner (sp_run l) = Some u.
  Proof.
    intros u l Hd. unfold sp_run, sp_init. rewrite Hd.
    assert (G : forall st, sp_owner st = Some u -> sp_owner (fold_left (sp_step cf) l st) = Some u).
    { induction l as [|m l IH]; intros st Hs; [exact Hs|]. cbn [fold_left]. apply IH.
      unfold sp_step. rewrite Hd. destruct m; assumption. }
    apply G. reflexivity.
  Qed.

  Lemma owner_sig_none : forall sg s, driver_noc s = None -> sp_owner (sp_step cf sg (WSig s)) = sp_owner sg.
  Proof. intros sg s H. unfold sp_step. destruct (c_dest cf); [reflexivity|]. rewrite H. reflexivity. Qed.

  Lemma owner_sig_some : forall sg s new, c_dest cf = DWell -> driver_noc s = Some new -> LOOKUP <= sp_rep sg ->
    sp_owner (sp_step cf sg (WSig s)) = new.
  Proof.
    intros sg s new Hd H Hl. unfold sp_step. rewrite Hd, H.
    destruct (LOOKUP <=? sp_rep sg) eqn:E; [reflexivity|]. apply N.leb_gt in E. lia.
  Qed.

  Lemma owner_rep : forall sg p,
    sp_owner (sp_step cf sg (WRep p)) =
    match c_dest cf with
    | DWell => if sp_rep sg + 1 =? LOOKUP then lookup_result p else sp_owner sg
    | DUnique _ => sp_owner sg
    end.
  Proof. intros. unfold sp_step. destruct (c_dest cf); reflexivity. Qed.
End Spec.

(* ---------------------------------------------------------------- the hypotheses about the history, step by step *)
(* the accumulator of consistent_from after a prefix: the owner named by the last notification since reply 1 *)
Definition cstep (a : N * option (option N)) (m : wmsg) : N * option (option N) :=
  match m with
  | WRep _ => (fst a + 1, None)
  | WSig s => match driver_noc s with
              | Some new => (fst a, if 1 <=? fst a then Some new else None)
              | None => a
              end
  end.
Definition cacc (pre : list wmsg) : N * option (option N) := fold_left cstep pre (0, None).

Lemma cacc_snoc : forall pre m, cacc (pre ++ [m]) = cstep (cacc pre) m.
Proof. intros. unfold cacc. rewrite fold_left_app. reflexivity. Qed.

Lemma cstep_sig_fst : forall a s, fst (cstep a (WSig s)) = fst a.
Proof. intros a s. cbn [cstep]. destruct (driver_noc s); reflexivity. Qed.

Lemma consistent_step : forall a m r,
  fst a < 2 -> consistent_from (fst a) (snd a) (m :: r) = true ->
  match m with
  | WRep p => if fst a + 1 =? LOOKUP
              then match snd a with Some o => lookup_result p = o | None => True end
              else consistent_from (fst (cstep a m)) (snd (cstep a m)) r = true
  | WSig _ => consistent_from (fst (cstep a m)) (snd (cstep a m)) r = true
  end.
Proof.
  intros [nrep last] m r Hlt H. destruct m as [s|p]; cbn [consistent_from cstep fst snd] in *.
  - destruct (driver_noc s); exact H.
  - destruct (nrep + 1 =? LOOKUP); [|exact H].
    destruct last as [o|]; [|exact I]. apply opt_eqb_eq. exact H.
Qed.

(* ---------------------------------------------------------------- the invariant *)
Definition creation (d : dest) : N := match d with DWell => 3 | DUnique _ => 1 end.

Section Run.
  Variable cf : cfg.
  Variable h : list wmsg.
  Hypothesis Hst : stamped h = true.
  Hypothesis Hdc : existsb (driver_claim_off_path cf) h = false.
  Hypothesis Hown : c_dest cf = DWell -> owners_ok_from 0 h = true.
  Hypothesis Hcon : c_dest cf = DWell -> consistent_from 0 None h = true.

  (* what is known after the prefix [pre] has been read: [todo] is the rest, [reps] replies were in [pre] *)
  Record Base (todo : list wmsg) (seq reps nc : N) (pre : list wmsg) : Prop := {
    b_split : h = pre ++ todo;
    b_len : N.of_nat (length pre) = seq;
    b_reps : sp_rep (sp_run cf pre) = reps;
    b_calls : reps <= nc;
    b_own : c_dest cf = DWell -> owners_ok_from reps todo = true;
    b_con : c_dest cf = DWell -> reps < 2 ->
            fst (cacc pre) = reps /\ consistent_from reps (snd (cacc pre)) todo = true;
    b_nd : c_dest cf = DWell -> not_driver (sp_owner (sp_run cf pre)) = true
  }.

  Lemma Base_init : Base h 0 0 0 [].
  Proof.
    constructor; try reflexivity; try lia; auto.
    intro Hd. unfold sp_run, sp_init. cbn [fold_left]. rewrite Hd. reflexivity.
  Qed.

  Lemma Base_calls : forall todo seq reps nc nc' pre, nc <= nc' -> Base todo seq reps nc pre -> Base todo seq reps nc' pre.
  Proof. intros ? ? ? ? ? ? Hle [? ? ? ? ? ? ?]. constructor; auto. lia. Qed.

  Lemma Base_sig : forall s rest seq reps nc pre,
    Base (WSig s :: rest) seq reps nc pre -> Base rest (seq + 1) reps nc (pre ++ [WSig s]).
  Proof.
    intros s rest seq reps nc pre [Hs Hl Hr Hc Ho Hk Hn]. constructor.
    - rewrite <- app_assoc. exact Hs.
    - rewrite app_length. cbn [length]. lia.
    - rewrite sp_run_snoc, sp_rep_snoc_sig. exact Hr.
    - exact Hc.
    - intro Hd. specialize (Ho Hd). cbn [owners_ok_from] in Ho. apply andb_true_iff in Ho. tauto.
    - intros Hd Hlt. destruct (Hk Hd Hlt) as [Hf Hcs]. rewrite <- Hf in Hcs, Hlt |- *.
      rewrite cacc_snoc, cstep_sig_fst. split; [reflexivity|].
      rewrite <- (cstep_sig_fst (cacc pre) s) at 1. exact (consistent_step (cacc pre) (WSig s) rest Hlt Hcs).
    - intro Hd. rewrite sp_run_snoc. unfold sp_step. rewrite Hd.
      destruct (driver_noc s) as [new|] eqn:E; [|exact (Hn Hd)].
      destruct (LOOKUP <=? sp_rep (sp_run cf pre)); [|exact (Hn Hd)]. cbn [sp_owner].
      specialize (Ho Hd). cbn [owners_ok_from] in Ho. rewrite E in Ho. apply andb_true_iff in Ho. tauto.
  Qed.

  Lemma Base_rep : forall p rest seq reps nc pre,
    reps < nc ->
    Base (WRep p :: rest) seq reps nc pre -> Base rest (seq + 1) (reps + 1) nc (pre ++ [WRep p]).
  Proof.
    intros p rest seq reps nc pre Hlt [Hs Hl Hr Hc Ho Hk Hn]. constructor.
    - rewrite <- app_assoc. exact Hs.
    - rewrite app_length. cbn [length]. lia.
    - rewrite sp_run_snoc, sp_rep_snoc_rep. lia.
    - lia.
    - intro Hd. specialize (Ho Hd). cbn [owners_ok_from] in Ho. apply andb_true_iff in Ho. tauto.
    - intros Hd Hlt2. assert (Hlt1 : reps < 2) by lia. destruct (Hk Hd Hlt1) as [Hf Hcs].
      rewrite <- Hf in Hcs, Hlt1, Hlt2 |- *. rewrite cacc_snoc. split; [reflexivity|].
      pose proof (consistent_step (cacc pre) (WRep p) rest Hlt1 Hcs) as Hx. cbn beta iota in Hx.
      destruct (fst (cacc pre) + 1 =? LOOKUP) eqn:E; [apply N.eqb_eq in E; unfold LOOKUP in E; lia|exact Hx].
    - intro Hd. rewrite sp_run_snoc. unfold sp_step. rewrite Hd. cbn [sp_owner].
      destruct (sp_rep (sp_run cf pre) + 1 =? LOOKUP) eqn:E; [|exact (Hn Hd)].
      specialize (Ho Hd). cbn [owners_ok_from] in Ho. rewrite <- Hr in Ho. rewrite E in Ho.
      apply andb_true_iff in Ho. tauto.
  Qed.

  (* every message of the history is stamped, and a wanted signal of NameOwnerChanged shape is not the driver's *)
  Lemma in_hist : forall todo seq reps nc pre s rest,
    Base todo seq reps nc pre -> todo = WSig s :: rest ->
    s_sender s <> None /\ (wanted cf s = true -> is_noc s = true -> opt_eqb (s_sender s) (Some DRIVER) = false).
  Proof.
    intros todo seq reps nc pre s rest B E. destruct B as [Hs _ _ _ _ _ _]. subst todo.
    assert (Hin : In (WSig s) h) by (rewrite Hs; apply in_or_app; right; left; reflexivity).
    split.
    - unfold stamped in Hst. rewrite forallb_forall in Hst. specialize (Hst _ Hin). cbn in Hst.
      destruct (s_sender s); [discriminate|discriminate].
    - intros Hw En. destruct (opt_eqb (s_sender s) (Some DRIVER)) eqn:Ed; [|reflexivity].
      assert (Hx : existsb (driver_claim_off_path cf) h = true).
      { apply existsb_exists. exists (WSig s). split; [exact Hin|]. cbn. rewrite Hw, En, Ed. reflexivity. }
      congruence.
  Qed.

  (* ---- what is known in each phase *)
  Definition PInv (w : world) (pre : list wmsg) : Prop :=
    let sg := sp_run cf pre in
    match w_ph w with
    | PhFailed => w_out w = [] /\ w_reps w = ncalls w /\ ncalls w <= creation (c_dest cf)
    | PhPanic => False
    | PhStart => w_log w = [] /\ w_out w = []
    | PhAddN c qr => c_dest cf = DWell /\ c = 1 /\ ncalls w = 1 /\ w_out w = [] /\ qrep 1 (w_reps w) qr
    | PhOwner c j qn fut =>
        c_dest cf = DWell /\ c = 2 /\ ncalls w = 2 /\ j = JNone /\ w_out w = [] /\
        qn_good qn /\ sorted qn /\ all_le (w_seq w) qn /\
        ((w_reps w = 1 /\ fut = Some [] /\ (qn = [] \/ snd (cacc pre) = Some (nend None qn))) \/
         (w_reps w = 2 /\ exists tr p qb qa,
             fut = Some [(tr, (2, p))] /\ qn = qb ++ qa /\ all_lt tr qb /\ all_gt tr qa /\
             (qb = [] \/ lookup_result p = nend None qb) /\
             sp_owner sg = nend (lookup_result p) qa /\ tr <= w_seq w))
    | PhAddS c src qn qr =>
        w_out w = [] /\
        match c_dest cf with
        | DWell =>
            c = 3 /\ ncalls w = 3 /\ not_driver src = true /\ qrep 3 (w_reps w) qr /\ 1 <= w_reps w /\
            exists q, qn = Some q /\ qn_good q /\ sorted q /\ all_le (w_seq w) q /\
                      ((w_reps w = 1 /\ snd (cacc pre) = Some (nend src q)) \/
                       (2 <= w_reps w /\ sp_owner sg = nend src q))
        | DUnique u => c = 1 /\ ncalls w = 1 /\ qn = None /\ src = Some u /\ qrep 1 (w_reps w) qr
        end
    | PhReady st =>
        w_reps w = ncalls w /\ ncalls w = creation (c_dest cf) /\ ss_ok (w_seq w) st /\ w_start w <= w_seq w /\
        (match c_dest cf with DWell => ss_qn st <> None | DUnique _ => ss_qn st = None end) /\
        rev (w_out w) ++ map fst (ss_pend st) = spec_pre cf (w_start w) pre /\
        ss_end st = sp_owner sg
    end.

  Definition CInv1 (w : world) (pre : list wmsg) : Prop :=
    Base (w_todo w) (w_seq w) (w_reps w) (ncalls w) pre /\ PInv w pre.
  Definition WInv (w : world) : Prop := exists pre, CInv1 w pre.

  Lemma jwf_deliver : forall r t s st, jwf st -> jwf (ss_deliver r t s st).
  Proof. intros r t s [j qs qn src] H. unfold jwf, ss_deliver in *. cbn in *. destruct qn; exact H. Qed.

  Lemma base_new_ok : forall s rest seq reps nc pre,
    Base (WSig s :: rest) seq reps nc pre ->
    c_dest cf = DWell -> forall new, driver_noc s = Some new -> not_driver new = true.
  Proof.
    intros s rest seq reps nc pre B Hd new En. pose proof (b_own _ _ _ _ _ B Hd) as Ho.
    cbn [owners_ok_from] in Ho. rewrite En in Ho. apply andb_true_iff in Ho. tauto.
  Qed.

  (* ---- a signal arrives while the stream exists *)
  Lemma ready_sig : forall st s rest n reps nc pre,
    Base (WSig s :: rest) n reps nc pre -> creation (c_dest cf) <= reps -> ss_ok n st ->
    (match c_dest cf with DWell => ss_qn st <> None | DUnique _ => ss_qn st = None end) ->
    ss_end st = sp_owner (sp_run cf pre) ->
    let st' := ss_deliver (sig_rule cf) (n + 1) s st in
    let sg := sp_run cf pre in
    ss_ok (n + 1) st' /\
    (match c_dest cf with DWell => ss_qn st' <> None | DUnique _ => ss_qn st' = None end) /\
    ss_pend st' = ss_pend st ++ (if wanted cf s && from_owner sg s then [(n + 1, s)] else []) /\
    ss_end st' = sp_owner (sp_step cf sg (WSig s)).
  Proof.
    intros st s rest n reps nc pre B Hreps (Hwf & Hso & Hle) Hq He st' sg. subst sg.
    destruct (in_hist _ _ _ _ _ s rest B eq_refl) as [Hsnd Hnoc].
    assert (Hm : ss_merged st' = ss_merged st ++
              (if matches (sig_rule cf) s || (match ss_qn st with Some _ => matches noc_rule s | None => false end)
               then [(n + 1, s)] else [])).
    { apply ss_deliver_merged; [exact Hle|apply rules_exclusive]. }
    assert (Hle' : all_le (n + 1) (ss_merged st)) by (eapply all_le_mono; [|exact Hle]; lia).
    split; [|split].
    - split; [apply jwf_deliver; exact Hwf|]. rewrite Hm. destruct (_ || _).
      + split; [apply sorted_app_one; assumption|].
        apply Forall_app. split; [exact Hle'|constructor; [cbn; lia|constructor]].
      + rewrite app_nil_r. split; assumption.
    - subst st'. unfold ss_deliver. cbn [ss_qn]. destruct (c_dest cf); [rewrite Hq; reflexivity|].
      destruct (ss_qn st); [discriminate|contradiction].
    - unfold ss_pend, ss_end in *. change (ss_src st') with (ss_src st). rewrite Hm.
      destruct (matches (sig_rule cf) s) eqn:Es; cbn [orb].
      + (* asked for by the stream's rule, so not a notification of the driver: those come from its own path *)
        assert (Hdn : driver_noc s = None).
        { pose proof (rules_exclusive cf s) as Hx. rewrite Es, noc_rule_driver in Hx. destruct (driver_noc s); [discriminate|reflexivity]. }
        rewrite sig_rule_wanted in Es. apply andb_true_iff in Es. destruct Es as [Hw _].
        assert (Hf : ss_filter (sp_owner (sp_run cf pre)) s = (from_owner (sp_run cf pre) s, sp_owner (sp_run cf pre))).
        { replace (from_owner (sp_run cf pre) s) with (opt_eqb (s_sender s) (sp_owner (sp_run cf pre))).
          - unfold ss_filter. destruct (opt_eqb (s_sender s) (sp_owner (sp_run cf pre))); [reflexivity|].
            destruct (is_noc s); [rewrite (Hnoc Hw eq_refl)|]; reflexivity.
          - unfold from_owner. destruct (sp_owner (sp_run cf pre)); [reflexivity|]. destruct (s_sender s); [reflexivity|contradiction]. }
        rewrite frun_app_one, He, Hf, Hw, (owner_sig_none cf _ _ Hdn). split; reflexivity.
      + destruct (c_dest cf) as [u|] eqn:Ed.
        * (* unique name: nothing is queued, the specification ignores it too *)
          rewrite sig_rule_wanted, Ed in Es. unfold from_owner. rewrite Hq, (sp_owner_unique cf u pre Ed), Es, !app_nil_r.
          split; [reflexivity|]. unfold sp_step. rewrite Ed. exact He.
        * rewrite sig_rule_wanted, Ed, andb_true_r in Es. rewrite Es. cbn [andb]. rewrite app_nil_r.
          destruct (ss_qn st) as [q|]; [|contradiction]. rewrite noc_rule_driver.
          destruct (driver_noc s) as [new|] eqn:En.
          -- rewrite frun_app_one, He, (filter_noc _ _ _ En (b_nd _ _ _ _ _ B Ed)). cbn [fst snd]. rewrite app_nil_r.
             split; [reflexivity|]. symmetry. apply owner_sig_some; [exact Ed|exact En|].
             rewrite (b_reps _ _ _ _ _ B). cbn in Hreps. unfold LOOKUP. lia.
          -- rewrite app_nil_r, (owner_sig_none cf _ _ En). split; [reflexivity|exact He].
  Qed.

  Lemma dest_cases : c_dest cf = DWell \/ exists u, c_dest cf = DUnique u.
  Proof. destruct (c_dest cf); eauto. Qed.

  Lemma base_fst1 : forall todo seq reps nc pre,
    Base todo seq reps nc pre -> c_dest cf = DWell -> reps = 1 -> fst (cacc pre) = 1.
  Proof.
    intros todo seq reps nc pre B Hd Hr. destruct (b_con _ _ _ _ _ B Hd) as [Hf _]; [lia|]. congruence.
  Qed.

  Lemma cacc_sig_none : forall pre s, driver_noc s = None -> cacc (pre ++ [WSig s]) = cacc pre.
  Proof. intros. rewrite cacc_snoc. cbn [cstep]. rewrite H. reflexivity. Qed.

  Lemma cacc_sig_some : forall pre s new, driver_noc s = Some new -> fst (cacc pre) = 1 ->
    snd (cacc (pre ++ [WSig s])) = Some new.
  Proof. intros pre s new H H1. rewrite cacc_snoc. cbn [cstep]. rewrite H, H1. reflexivity. Qed.

  Lemma tick_sig_inv : forall w pre s rest,
    Base (WSig s :: rest) (w_seq w) (w_reps w) (ncalls w) pre -> PInv w pre ->
    PInv {| w_todo := rest; w_seq := w_seq w + 1; w_reps := w_reps w; w_log := w_log w;
            w_ph := deliver_sig cf (w_seq w + 1) s (w_ph w); w_out := w_out w; w_start := w_start w |}
         (pre ++ [WSig s]).
  Proof.
    intros w pre s rest B P.
    pose proof (base_new_ok _ _ _ _ _ _ B) as Hnew.
    assert (Hrep : 2 <= w_reps w -> LOOKUP <= sp_rep (sp_run cf pre)) by (rewrite (b_reps _ _ _ _ _ B); trivial).
    unfold PInv, ncalls in *. cbn [w_ph w_out w_log w_seq w_reps w_start]. fold (ncalls w) in *.
    rewrite sp_run_snoc.
    destruct (w_ph w) as [|c qr|c j qn fut|c src qn qr|st| |] eqn:Eph; cbn [deliver_sig]; try exact P.
    - (* PhOwner *)
      destruct P as (Hd & Hc & Hn & Hj & Ho & Hg & Hso & Hle & Hcase).
      destruct (noc_push (w_seq w) s qn Hg Hso Hle (Hnew Hd)) as (Hg' & Hso' & Hle' & Hne).
      repeat (split; [assumption|]). rewrite noc_rule_driver in *.
      destruct Hcase as [(Hr & Hf & Hq)|(Hr & tr & p & qb & qa & Hf & Hqn & Hb & Ha & Hlk & Hown' & Htr)].
      + left. split; [exact Hr|]. split; [exact Hf|].
        destruct (driver_noc s) as [new|] eqn:Em.
        * right. rewrite Hne. apply cacc_sig_some; [exact Em|exact (base_fst1 _ _ _ _ _ B Hd Hr)].
        * rewrite (cacc_sig_none _ _ Em). exact Hq.
      + right. split; [exact Hr|].
        destruct (driver_noc s) as [new|] eqn:Em.
        * exists tr, p, qb, (qa ++ [(w_seq w + 1, s)]).
          split; [exact Hf|]. split; [unfold push; rewrite Hqn, app_assoc; reflexivity|].
          split; [exact Hb|]. split; [apply Forall_app; split; [exact Ha|constructor; [cbn; lia|constructor]]|].
          split; [exact Hlk|]. split; [|lia].
          rewrite (owner_sig_some cf _ _ new Hd Em), nend_app by (apply Hrep; lia).
          symmetry. exact (nend_cons _ _ _ [] _ (driver_noc_new _ _ Em)).
        * exists tr, p, qb, qa. repeat (split; [assumption|]). split; [|lia].
          rewrite (owner_sig_none cf _ _ Em). exact Hown'.
    - (* PhAddS *)
      destruct P as (Ho & P). split; [exact Ho|].
      destruct dest_cases as [Hd|[u Hd]]; rewrite Hd in P |- *.
      2: { destruct P as (Hc & Hn & Hq & Hs & Hr). subst qn. cbn [option_map]. repeat split; assumption. }
      destruct P as (Hc & Hn & Hnd & Hr & H1 & q & Hq & Hg & Hso & Hle & Hcase). subst qn. cbn [option_map].
      destruct (noc_push (w_seq w) s q Hg Hso Hle (Hnew Hd)) as (Hg' & Hso' & Hle' & Hne).
      repeat (split; [assumption|]).
      eexists. split; [reflexivity|]. repeat (split; [assumption|]). rewrite Hne.
      destruct Hcase as [(Hr1 & Hl)|(Hr2 & Hown')]; [left; split; [exact Hr1|]|right; split; [exact Hr2|]];
        destruct (driver_noc s) as [new|] eqn:Em.
      + apply cacc_sig_some; [exact Em|exact (base_fst1 _ _ _ _ _ B Hd Hr1)].
      + rewrite (cacc_sig_none _ _ Em). exact Hl.
      + apply owner_sig_some; [exact Hd|exact Em|exact (Hrep Hr2)].
      + rewrite (owner_sig_none cf _ _ Em). exact Hown'.
    - (* PhReady *)
      destruct P as (Hr & Hn & Hok & Hstart & Hq & Hy & He).
      destruct (ready_sig st s rest _ _ _ pre B) as (Hok' & Hqn' & Hp' & He'); try assumption; [lia|].
      split; [exact Hr|]. split; [exact Hn|]. split; [exact Hok'|]. split; [lia|]. split; [exact Hqn'|].
      split; [|exact He'].
      rewrite Hp', map_app, app_assoc, Hy, spec_pre_snoc, (b_len _ _ _ _ _ B), (N.add_comm 1).
      replace (w_start w <? w_seq w + 1) with true by (symmetry; apply N.ltb_lt; lia). rewrite andb_true_r.
      destruct (wanted cf s && from_owner (sp_run cf pre) s); reflexivity.
  Qed.

  (* the lookup answer agrees with the notifications read since reply 1 *)
  Lemma base_lookup : forall p rest seq nc pre o,
    Base (WRep p :: rest) seq 1 nc pre -> c_dest cf = DWell -> snd (cacc pre) = Some o -> lookup_result p = o.
  Proof.
    intros p rest seq nc pre o B Hd Hl. destruct (b_con _ _ _ _ _ B Hd) as [_ Hc]; [lia|].
    rewrite Hl in Hc. cbn in Hc. apply opt_eqb_eq. exact Hc.
  Qed.

  Lemma tick_rep_inv : forall w pre p rest,
    w_reps w < ncalls w -> Base (WRep p :: rest) (w_seq w) (w_reps w) (ncalls w) pre -> PInv w pre ->
    PInv {| w_todo := rest; w_seq := w_seq w + 1; w_reps := w_reps w + 1; w_log := w_log w;
            w_ph := deliver_rep (w_seq w + 1) (w_reps w + 1) p (w_ph w); w_out := w_out w;
            w_start := w_start w |} (pre ++ [WRep p]).
  Proof.
    intros w pre p rest Hlt B P.
    unfold PInv, ncalls in *. cbn [w_ph w_out w_log w_seq w_reps w_start]. fold (ncalls w) in *.
    destruct (w_ph w) as [|c qr|c j qn fut|c src qn qr|st| |] eqn:Eph; cbn [deliver_rep]; try exact P.
    - destruct P as (Hd & Hc & Hn & Ho & Hq). repeat (split; [assumption|]).
      apply qrep_push_mine; [lia|exact Hq].
    - (* PhOwner *)
      destruct P as (Hd & Hc & Hn & Hj & Ho & Hg & Hso & Hle & Hcase).
      destruct Hcase as [(Hr & Hf & Hq)|(Hr & _)]; [|lia]. subst fut. cbn [deliver_rep].
      repeat (split; [assumption|]). split; [eapply all_le_mono; [|exact Hle]; lia|].
      right. split; [lia|]. exists (w_seq w + 1), p, qn, []. rewrite Hr. cbn [push app].
      split; [reflexivity|]. split; [rewrite app_nil_r; reflexivity|].
      split; [apply all_le_lt_succ; exact Hle|]. split; [constructor|]. split.
      + destruct Hq as [Hq|Hq]; [left; exact Hq|right]. rewrite Hr in B.
        exact (base_lookup _ _ _ _ _ _ B Hd Hq).
      + split; [|lia]. rewrite sp_run_snoc, owner_rep, Hd, (b_reps _ _ _ _ _ B), Hr. reflexivity.
    - (* PhAddS *)
      destruct P as (Ho & P). split; [exact Ho|].
      destruct dest_cases as [Hd|[u Hd]]; rewrite Hd in P |- *.
      + destruct P as (Hc & Hn & Hnd & Hr & H1 & q & Hq & Hg & Hso & Hle & Hcase).
        split; [exact Hc|]. split; [exact Hn|]. split; [exact Hnd|].
        assert (Hq3 : qrep 3 (w_reps w + 1) (push qr (w_seq w + 1) (w_reps w + 1, p))).
        { assert (w_reps w = 1 \/ w_reps w = 2) as [E|E] by lia.
          - apply qrep_push_other; [lia|exact Hr].
          - apply qrep_push_mine; [lia|exact Hr]. }
        split; [exact Hq3|]. split; [lia|]. exists q. split; [exact Hq|]. split; [exact Hg|]. split; [exact Hso|].
        split; [eapply all_le_mono; [|exact Hle]; lia|]. right. split; [lia|].
        rewrite sp_run_snoc, owner_rep, Hd, (b_reps _ _ _ _ _ B).
        destruct Hcase as [(Hr1 & Hl)|(Hr2 & Hown')].
        * rewrite Hr1. cbn. rewrite Hr1 in B. exact (base_lookup _ _ _ _ _ _ B Hd Hl).
        * assert (E : w_reps w = 2) by lia. rewrite E. cbn. exact Hown'.
      + destruct P as (Hc & Hn & Hq & Hs & Hr). repeat (split; [assumption|]).
        apply qrep_push_mine; [lia|exact Hr].
    - (* PhReady: every call has been answered *)
      destruct P as (Hr & _). lia.
    - (* PhFailed: likewise *)
      destruct P as (_ & Hr & _). lia.
  Qed.

  Lemma tick_inv : forall w w', WInv w -> tick cf w = Some w' -> WInv w'.
  Proof.
    intros w w' (pre & B & P) H. unfold tick in H.
    destruct (w_todo w) as [|[s|p] rest] eqn:Et.
    - inversion H; subst. exists pre. unfold CInv1. rewrite Et. split; assumption.
    - inversion H; subst. exists (pre ++ [WSig s]).
      split; [exact (Base_sig _ _ _ _ _ _ B)|exact (tick_sig_inv w pre s rest B P)].
    - destruct (w_reps w <? ncalls w) eqn:E; [|discriminate]. apply N.ltb_lt in E.
      inversion H; subst. exists (pre ++ [WRep p]).
      split; [exact (Base_rep _ _ _ _ _ _ E B)|exact (tick_rep_inv w pre p rest E B P)].
  Qed.

  (* ---- the join of SignalStream::new on the four shapes its inputs can have *)
  Lemma owner_poll_empty : owner_poll 2 JNone [] (Some []) = (RPending, JNone, [], Some []).
  Proof. reflexivity. Qed.
  Lemma owner_poll_left : forall ta a q,
    owner_poll 2 JNone ((ta, a) :: q) (Some []) = (RItem (ILeft a) ta, JNone, q, Some []).
  Proof. reflexivity. Qed.
  Lemma owner_poll_right : forall tr p,
    owner_poll 2 JNone [] (Some [(tr, (2, p))]) = (RItem (IRight p) tr, JNone, [], None).
  Proof. reflexivity. Qed.
  Lemma owner_poll_both : forall ta a q tr p,
    owner_poll 2 JNone ((ta, a) :: q) (Some [(tr, (2, p))]) =
    if ta <=? tr then (RItem (ILeft a) ta, JB (IRight p) tr, q, None)
    else (RItem (IRight p) tr, JA (ILeft a) ta, q, None).
  Proof. intros. unfold owner_poll. cbn. destruct (ta <=? tr); reflexivity. Qed.

  Lemma ncalls_call : forall w what ph, ncalls (call w what ph) = ncalls w + 1.
  Proof. intros. unfold ncalls, call. cbn [w_log length]. lia. Qed.

  Lemma qrep_nil : forall c reps, reps < c -> qrep c reps [].
  Proof. intros. left. split; [assumption|]. split; constructor. Qed.

  (* the reply a PendingMethodCall waits for: not read yet, or the last item of its queue *)
  Lemma qrep_poll : forall c reps qr, qrep c reps qr ->
    (reps < c /\ pmc_poll c qr None = (RPending, [])) \/
    (reps = c /\ exists p t q', pmc_poll c qr None = (RItem p t, q')).
  Proof.
    intros c reps qr [(Hr & Hnr & _)|(Hr & stale & t & p & -> & Hnr)].
    - left. split; [exact Hr|]. apply pmc_no_reply. exact Hnr.
    - right. split; [exact Hr|]. destruct (pmc_has_reply c stale t p Hnr) as [q' Hp]. eauto.
  Qed.

  Lemma cinv1_call : forall w what ph pre,
    Base (w_todo w) (w_seq w) (w_reps w) (ncalls w) pre -> PInv (call w what ph) pre -> CInv1 (call w what ph) pre.
  Proof.
    intros w what ph pre B P. split; [|exact P]. rewrite ncalls_call. eapply Base_calls; [|exact B]. lia.
  Qed.

  (* the world after SignalStream::new has settled on an owner and asked for the signal rule *)
  Definition resolved_world (w : world) (src : option N) (q : queue sigm) : world :=
    call w C_ADDMATCH (fun c' => PhAddS c' src (Some q) []).

  Lemma resolved_inv : forall w pre src q,
    Base (w_todo w) (w_seq w) (w_reps w) (ncalls w) pre -> ncalls w = 2 -> c_dest cf = DWell -> w_out w = [] ->
    not_driver src = true -> qn_good q -> sorted q -> all_le (w_seq w) q ->
    ((w_reps w = 1 /\ snd (cacc pre) = Some (nend src q)) \/
     (w_reps w = 2 /\ sp_owner (sp_run cf pre) = nend src q)) ->
    CInv1 (resolved_world w src q) pre.
  Proof.
    intros w pre src q B Hn Hd Ho Hnd Hg Hso Hle Hcase. apply cinv1_call; [exact B|].
    unfold PInv. cbn [w_ph call w_out w_reps w_seq]. rewrite ncalls_call, Hd, Hn.
    assert (Hr12 : 1 <= w_reps w <= 2) by (destruct Hcase as [[E _]|[E _]]; lia).
    split; [exact Ho|]. split; [reflexivity|]. split; [reflexivity|]. split; [exact Hnd|].
    split; [apply qrep_nil; lia|]. split; [lia|].
    exists q. repeat (split; [first [assumption|reflexivity]|]).
    destruct Hcase as [[E H1]|[E H2]]; [left|right]; split; auto; lia.
  Qed.

  Lemma failed_pinv : forall w pre,
    Base (w_todo w) (w_seq w) (w_reps w) (ncalls w) pre -> w_out w = [] -> w_reps w = ncalls w ->
    ncalls w <= creation (c_dest cf) -> CInv1 (set_ph w PhFailed) pre.
  Proof. intros w pre B Ho Hr Hn. split; [exact B|]. unfold PInv. cbn [w_ph set_ph]. repeat split; assumption. Qed.

  (* the world after the AddMatch reply for the signal rule: the stream is handed to the caller *)
  Definition ready_world (w : world) (src : option N) (qn : option (queue sigm)) : world :=
    {| w_todo := w_todo w; w_seq := w_seq w; w_reps := w_reps w; w_log := w_log w;
       w_ph := PhReady {| ss_j := JNone; ss_qs := []; ss_qn := qn; ss_src := src |};
       w_out := w_out w; w_start := w_seq w |}.

  (* ... with nothing to yield yet: all that is queued are the driver's notifications *)
  Lemma ready_inv : forall w pre src qn,
    Base (w_todo w) (w_seq w) (w_reps w) (ncalls w) pre -> w_out w = [] -> w_reps w = ncalls w ->
    ncalls w = creation (c_dest cf) ->
    (match c_dest cf with DWell => qn <> None | DUnique _ => qn = None end) ->
    sorted (oq qn) -> all_le (w_seq w) (oq qn) -> frun src (oq qn) = ([], sp_owner (sp_run cf pre)) ->
    CInv1 (ready_world w src qn) pre.
  Proof.
    intros w pre src qn B Ho Hr Hn Hq Hso Hle Hf. split; [exact B|].
    unfold PInv, ncalls, ss_ok, ss_pend, ss_end, ss_merged, jwf.
    cbn [ready_world w_ph w_out w_reps w_seq w_start w_log ss_j ss_qs ss_qn ss_src bufA bufB app merge].
    fold (ncalls w). rewrite Hf. cbn [fst snd map].
    split; [exact Hr|]. split; [exact Hn|]. split; [|split; [lia|]].
    - split; [|split; assumption]. destruct qn; [exact I|left; reflexivity].
    - split; [exact Hq|]. split; [|reflexivity].
      rewrite Ho. symmetry. apply spec_from_early. rewrite (b_len _ _ _ _ _ B). lia.
  Qed.

  Lemma client_pinv : forall w pre, CInv1 w pre -> CInv1 (client_step cf w) pre.
  Proof.
    intros w pre (B & P). unfold client_step in *. unfold PInv in P.
    destruct (w_ph w) as [|c qr|c j qn fut|c src qn qr|st| |] eqn:Eph;
      try (split; [exact B|unfold PInv; rewrite Eph; exact P]).
    - (* PhStart *)
      destruct P as [Hl Ho].
      assert (Hn0 : ncalls w = 0) by (unfold ncalls; rewrite Hl; reflexivity).
      assert (Hr0 : w_reps w = 0) by (pose proof (b_calls _ _ _ _ _ B); lia).
      destruct (c_dest cf) eqn:Hd; (apply cinv1_call; [exact B|]); unfold PInv; cbn [w_ph call w_out w_reps];
        rewrite ncalls_call, Hn0, Hr0, ?Hd; repeat split; auto; apply qrep_nil; lia.
    - (* PhAddN *)
      destruct P as (Hd & Hc & Hn & Ho & Hq). subst c.
      destruct (qrep_poll _ _ _ Hq) as [(Hr & ->)|(Hr & p & t & q' & ->)].
      + split; [exact B|].
        unfold PInv, ncalls. cbn [w_ph set_ph w_out w_reps w_log]. fold (ncalls w).
        repeat split; auto. apply qrep_nil. exact Hr.
      + assert (Hgo : CInv1 (call w C_GETOWNER (fun c' => PhOwner c' JNone [] (Some []))) pre).
        { apply cinv1_call; [exact B|]. unfold PInv. cbn [w_ph call w_out w_reps w_seq]. rewrite ncalls_call, Hn.
          repeat (split; [first [assumption|reflexivity|constructor]|]). left. repeat split; auto. }
        destruct p; first [exact Hgo | apply failed_pinv; [exact B|exact Ho|lia|rewrite Hd; cbn; lia]].
    - (* PhOwner *)
      destruct P as (Hd & Hc & Hn & Hj & Ho & Hg & Hso & Hle & Hcase). subst c j.
      destruct Hcase as [(Hr & Hf & Hq)|(Hr & tr & p & qb & qa & Hf & Hqn & Hb & Ha & Hlk & Hown' & Htr)]; subst fut.
      + (* the lookup has not been answered *)
        destruct qn as [|[ta a] qn'].
        * rewrite owner_poll_empty. split; [exact B|].
          unfold PInv, ncalls. cbn [w_ph set_ph w_out w_reps w_seq w_log]. fold (ncalls w).
          repeat (split; [first [assumption|reflexivity]|]). left. repeat split; auto.
        * rewrite owner_poll_left.
          destruct (good_head _ _ _ Hg) as (old & new & _ & Hbody & Hnew & Hnd & Hg').
          rewrite Hnew. cbn [apply_queued].
          apply (resolved_inv w pre new qn' B Hn Hd Ho Hnd Hg' (proj2 Hso)).
          -- inversion Hle; assumption.
          -- left. split; [exact Hr|]. destruct Hq as [Hq|Hq]; [discriminate|]. rewrite Hq. f_equal.
             apply nend_cons. exact Hnew.
      + (* the lookup has been answered *)
        assert (Hfail : CInv1 (set_ph w PhFailed) pre).
        { apply failed_pinv; [exact B|exact Ho|lia|rewrite Hd; cbn; lia]. }
        destruct qn as [|[ta a] qn'].
        * rewrite owner_poll_right.
          assert (qb = [] /\ qa = []) as [-> ->] by (destruct qb; [split; [reflexivity|exact (eq_sym Hqn)]|discriminate]).
          cbn [nend fold_left] in Hown'.
          assert (Hndl : not_driver (lookup_result p) = true) by (rewrite <- Hown'; apply (b_nd _ _ _ _ _ B Hd)).
          assert (G : CInv1 (resolved_world w (lookup_result p) []) pre).
          { apply (resolved_inv w pre _ [] B Hn Hd Ho Hndl); [constructor|exact I|constructor|].
            right. split; [exact Hr|exact Hown']. }
          destruct p; first [exact G | exact Hfail].
        * rewrite owner_poll_both in *.
          destruct (good_head _ _ _ Hg) as (old & new & _ & Hbody & Hnew & Hnd & Hg').
          destruct (ta <=? tr) eqn:Ecmp.
          -- (* a notification that came before the answer *)
             apply N.leb_le in Ecmp.
             destruct (split_head_le _ _ _ _ _ _ _ (eq_sym Hqn) Ha Ecmp) as (qb' & -> & ->).
             rewrite Hnew. cbn [apply_queued].
             apply (resolved_inv w pre new (qb' ++ qa) B Hn Hd Ho Hnd Hg' (proj2 Hso)).
             ++ inversion Hle; assumption.
             ++ right. split; [exact Hr|]. rewrite Hown', nend_app. f_equal.
                destruct Hlk as [Hlk|Hlk]; [discriminate|]. rewrite Hlk. apply nend_cons. exact Hnew.
          -- (* the answer first; the notification is left in the join *)
             apply N.leb_gt in Ecmp.
             destruct (split_head_gt _ _ _ _ _ _ _ (eq_sym Hqn) Hb Ecmp) as [-> ->].
             assert (G : forall src0, CInv1 (resolved_world w (apply_queued (JA (ILeft a) ta) src0) qn') pre).
             { intro src0. cbn [apply_queued]. rewrite Hbody, N.eqb_refl.
               apply (resolved_inv w pre new qn' B Hn Hd Ho Hnd Hg' (proj2 Hso)).
               - inversion Hle; assumption.
               - right. split; [exact Hr|]. rewrite Hown'. apply nend_cons. exact Hnew. }
             destruct p; first [apply G | exact Hfail].
    - (* PhAddS *)
      destruct P as (Ho & P).
      destruct dest_cases as [Hd|[u Hd]]; rewrite Hd in P.
      + destruct P as (Hc & Hn & Hnd & Hr & H1 & q & Hq & Hg & Hso & Hle & Hcase). subst c qn.
        destruct (qrep_poll _ _ _ Hr) as [(Hlt & ->)|(Hr3 & p & t & q' & ->)].
        * split; [exact B|].
          unfold PInv, ncalls. cbn [w_ph set_ph w_out w_reps w_seq w_log]. fold (ncalls w). rewrite Hd.
          split; [exact Ho|]. repeat (split; [first [assumption|reflexivity]|]).
          split; [apply qrep_nil; exact Hlt|]. split; [exact H1|]. exists q. repeat split; auto.
        * assert (Hgo : CInv1 (ready_world w src (Some q)) pre).
          { apply ready_inv; try assumption; [lia|rewrite Hd; exact Hn|rewrite Hd; discriminate|].
            cbn [oq]. rewrite (frun_nocs _ _ Hg Hnd). destruct Hcase as [(E & _)|(_ & <-)]; [lia|reflexivity]. }
          destruct p; first [exact Hgo | apply failed_pinv; [exact B|exact Ho|lia|rewrite Hd; cbn; lia]].
      + destruct P as (Hc & Hn & Hq & Hs & Hr). subst c qn src.
        destruct (qrep_poll _ _ _ Hr) as [(Hlt & ->)|(Hr1 & p & t & q' & ->)].
        * split; [exact B|].
          unfold PInv, ncalls. cbn [w_ph set_ph w_out w_reps w_seq w_log]. fold (ncalls w). rewrite Hd.
          repeat split; auto. apply qrep_nil. exact Hlt.
        * assert (Hgo : CInv1 (ready_world w (Some u) None) pre).
          { apply ready_inv; try assumption; [lia|rewrite Hd; exact Hn|rewrite Hd; reflexivity|exact I|constructor|].
            cbn. rewrite (sp_owner_unique cf u pre Hd). reflexivity. }
          destruct p; first [exact Hgo | apply failed_pinv; [exact B|exact Ho|lia|rewrite Hd; cbn; lia]].
  Qed.

  Lemma client_inv : forall w, WInv w -> WInv (client_step cf w).
  Proof. intros w [pre H]. exists pre. apply client_pinv; assumption. Qed.

  Lemma poll_inv : forall w, WInv w -> WInv (consumer_poll w).
  Proof.
    intros w (pre & B & P). unfold consumer_poll. unfold PInv in P.
    destruct (w_ph w) as [|c qr|c j qn fut|c src qn qr|st| |] eqn:Eph;
      try (exists pre; split; [exact B|unfold PInv; rewrite Eph; exact P]).
    destruct P as (Hr & Hn & Hok & Hstart & Hq & Hy & He).
    destruct (ss_poll_total _ st None Hok) as (r & st' & Ep & Hok' & Hqn & Hps & He').
    rewrite Ep.
    assert (Hq' : match c_dest cf with DWell => ss_qn st' <> None | DUnique _ => ss_qn st' = None end).
    { destruct (c_dest cf); tauto. }
    assert (Hnew : forall out', rev out' ++ map fst (ss_pend st') = spec_pre cf (w_start w) pre ->
              CInv1 {| w_todo := w_todo w; w_seq := w_seq w; w_reps := w_reps w; w_log := w_log w;
                       w_ph := PhReady st'; w_out := out'; w_start := w_start w |} pre).
    { intros out' Hy'. split; [exact B|]. unfold PInv, ncalls. cbn [w_ph w_out w_reps w_seq w_start w_log]. fold (ncalls w).
      repeat (split; [assumption|]). congruence. }
    exists pre. destruct r as [m t| | |]; cbn [pspec] in Hps.
    - apply Hnew. rewrite <- Hy, Hps. cbn [rev map fst]. rewrite <- app_assoc. reflexivity.
    - apply (Hnew (w_out w)). destruct Hps as (_ & H1 & H2). rewrite <- Hy, H1, H2. reflexivity.
    - apply (Hnew (w_out w)). destruct Hps as (H1 & _). rewrite <- Hy, H1. reflexivity.
    - contradiction.
  Qed.

  Lemma init_inv : WInv (init_world h).
  Proof.
    exists []. split; [exact Base_init|]. unfold PInv. cbn. split; reflexivity.
  Qed.

  Lemma step_inv : forall w a, WInv w -> WInv (step cf w a).
  Proof.
    intros w a Hi. destruct a; cbn [step] in *.
    - destruct (tick cf w) as [w'|] eqn:E; [eapply tick_inv; eassumption|exact Hi].
    - apply client_inv; assumption.
    - apply poll_inv; assumption.
  Qed.

  (* ---- what the invariant says about the yielded items *)
  Lemma base_pre : forall todo seq reps nc pre, Base todo seq reps nc pre -> firstn (N.to_nat seq) h = pre.
  Proof.
    intros todo seq reps nc pre B. rewrite (b_split _ _ _ _ _ B), <- (b_len _ _ _ _ _ B), Nnat.Nat2N.id.
    rewrite firstn_app, firstn_all, Nat.sub_diag. cbn [firstn]. apply app_nil_r.
  Qed.

  Lemma inv_prefix : forall w, WInv w -> exists rest, spec_yield cf (w_start w) h = yielded w ++ rest.
  Proof.
    intros w (pre & B & P). unfold yielded. rewrite (b_split _ _ _ _ _ B).
    destruct (spec_pre_prefix cf (w_start w) pre (w_todo w)) as [rest Hr]. rewrite Hr.
    unfold PInv in P. destruct (w_ph w) as [| | | |st| |].
    5: { destruct P as (_ & _ & _ & _ & _ & Hy & _). rewrite <- Hy, <- app_assoc. eauto. }
    all: assert (Ho : w_out w = []) by (decompose [and] P; first [assumption|contradiction]); rewrite Ho; cbn [rev app]; eauto.
  Qed.

  (* a poll that finds nothing: everything the specification lists for the messages read has been yielded *)
  Lemma drained_yielded : forall w pre, PInv w pre -> drained w -> yielded w = spec_pre cf (w_start w) pre.
  Proof.
    intros w pre P Hdr. unfold yielded, drained in *. unfold PInv in P.
    destruct (w_ph w) as [| | | |st| |]; try contradiction.
    destruct P as (_ & _ & Hok & _ & _ & Hy & _). destruct Hdr as [st' Hp].
    destruct (ss_poll_total _ st None Hok) as (r & st2 & Ep & _ & _ & Hps & _).
    rewrite Hp in Ep. inversion Ep; subst r st2. destruct Hps as (_ & H1 & _).
    rewrite H1, app_nil_r in Hy. exact Hy.
  Qed.

  Lemma pinv_ncalls : forall w pre, PInv w pre -> ncalls w <= creation (c_dest cf).
  Proof.
    intros w pre P. unfold PInv in P. destruct (w_ph w).
    - destruct P as [Hl _]. unfold ncalls. rewrite Hl. cbn. destruct (c_dest cf); cbn; lia.
    - destruct P as (Hd & _ & Hn & _). rewrite Hd, Hn. cbn. lia.
    - destruct P as (Hd & _ & Hn & _). rewrite Hd, Hn. cbn. lia.
    - destruct P as (_ & P). destruct (c_dest cf).
      + destruct P as (_ & Hn & _). rewrite Hn. cbn. lia.
      + destruct P as (_ & Hn & _). rewrite Hn. cbn. lia.
    - destruct P as (_ & Hn & _). rewrite Hn. lia.
    - destruct P as (_ & _ & Hn). exact Hn.
    - contradiction.
  Qed.
End Run.

(* ---------------------------------------------------------------- the theorems *)
Lemma bus_history_parts : forall cf h, bus_history cf h = true ->
  stamped h = true /\ existsb (driver_claim_off_path cf) h = false /\
  (c_dest cf = DWell -> owners_ok_from 0 h = true) /\ (c_dest cf = DWell -> consistent_from 0 None h = true).
Proof.
  intros cf h Hb. unfold bus_history in Hb. apply andb_true_iff in Hb. destruct Hb as [Hb Hd].
  apply andb_true_iff in Hb. destruct Hb as [Hst Hdc]. apply negb_true_iff in Hdc.
  split; [exact Hst|]. split; [exact Hdc|].
  split; intro E; rewrite E in Hd; apply andb_true_iff in Hd; tauto.
Qed.

Lemma run_winv : forall cf h sched, bus_history cf h = true -> WInv cf h (run cf h sched).
Proof.
  intros cf h sched Hb. destruct (bus_history_parts cf h Hb) as (Hst & Hdc & Hown & Hcon).
  unfold run. apply fold_left_preserves; [intros w a; apply step_inv; assumption|apply init_inv; assumption].
Qed.

(* whenever the consumer polls a stream that has something for it, it gets the next item the specification
   lists: a poll that comes back empty-handed means everything received so far has been yielded *)
Theorem poll_pending_complete : forall cf h sched,
  bus_history cf h = true ->
  let w := run cf h sched in
  drained w ->
  yielded w = spec_yield cf (w_start w) (firstn (N.to_nat (w_seq w)) h).
Proof.
  intros cf h sched Hb w Hdr. subst w. destruct (run_winv cf h sched Hb) as (pre & B & P).
  rewrite (base_pre cf h _ _ _ _ _ B). exact (drained_yielded cf _ pre P Hdr).
Qed.

Theorem owner_full : forall cf h sched,
  bus_history cf h = true ->
  let w := run cf h sched in
  (exists rest, spec_yield cf (w_start w) h = yielded w ++ rest) /\
  (w_todo w = [] -> drained w -> yielded w = spec_yield cf (w_start w) h).
Proof.
  intros cf h sched Hb w. subst w. split.
  - exact (inv_prefix cf h _ (run_winv cf h sched Hb)).
  - intros Ht Hd. rewrite (poll_pending_complete cf h sched Hb Hd).
    destruct (run_winv cf h sched Hb) as (pre & B & _).
    rewrite (base_pre cf h _ _ _ _ _ B), (b_split _ _ _ _ _ _ _ B), Ht, app_nil_r. reflexivity.
Qed.

(* `.expect("`NameOwnerChanged` signal has no args")` in SignalStream::new is never reached *)
Theorem never_panics : forall cf h sched, bus_history cf h = true -> w_ph (run cf h sched) <> PhPanic.
Proof.
  intros cf h sched Hb. destruct (run_winv cf h sched Hb) as (pre & _ & P).
  unfold PInv in P. intro E. rewrite E in P. exact P.
Qed.
