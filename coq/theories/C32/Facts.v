(* C32/Facts.v — the ordered join and the SignalStream loop, characterised by the merged list of unread items. *)
From Coq Require Import List NArith Bool Lia.
Import ListNotations.
From ZV Require Import Base.Bytes C32.Model.
Local Open Scope N_scope.

Lemma fold_left_preserves : forall A B (P : A -> Prop) (f : A -> B -> A),
  (forall x b, P x -> P (f x b)) -> forall l x, P x -> P (fold_left f l x).
Proof. intros A B P f Hf. induction l as [|b l IH]; intros x Hx; [exact Hx|]. apply IH, Hf, Hx. Qed.

(* ---------------------------------------------------------------- merge of two queues, ties: left first *)
Fixpoint merge {A} (l1 : queue A) : queue A -> queue A :=
  match l1 with
  | [] => fun l2 => l2
  | (t1, a1) :: r1 =>
      fix inner (l2 : queue A) : queue A :=
        match l2 with
        | [] => l1
        | (t2, a2) :: r2 => if t1 <=? t2 then (t1, a1) :: merge r1 l2 else (t2, a2) :: inner r2
        end
  end.

Lemma merge_nil_r : forall A (l : queue A), merge l [] = l.
Proof. destruct l as [|[t a] l]; reflexivity. Qed.

Lemma merge_cons : forall A t1 (a1 : A) r1 t2 a2 r2,
  merge ((t1, a1) :: r1) ((t2, a2) :: r2) =
  if t1 <=? t2 then (t1, a1) :: merge r1 ((t2, a2) :: r2) else (t2, a2) :: merge ((t1, a1) :: r1) r2.
Proof. reflexivity. Qed.

Definition all_lt {A} (t : N) (q : queue A) : Prop := Forall (fun e => fst e < t) q.
Definition all_le {A} (t : N) (q : queue A) : Prop := Forall (fun e => fst e <= t) q.

Lemma all_lt_le : forall A t (q : queue A), all_lt t q -> all_le t q.
Proof. intros A t q H. eapply Forall_impl; [|exact H]. cbn. intros; lia. Qed.

Lemma all_le_lt_succ : forall A t (q : queue A), all_le t q -> all_lt (t + 1) q.
Proof. intros A t q H. eapply Forall_impl; [|exact H]. cbn. intros; lia. Qed.

Lemma all_le_mono : forall A t t' (q : queue A), t <= t' -> all_le t q -> all_le t' q.
Proof. intros A t t' q Ht H. eapply Forall_impl; [|exact H]. cbn. intros; lia. Qed.

Lemma all_le_push : forall A t (q : queue A) a, all_le t q -> all_le (t + 1) (push q (t + 1) a).
Proof.
  intros A t q a H. unfold push, all_le. apply Forall_app. split.
  - eapply Forall_impl; [|exact H]. cbn. intros; lia.
  - constructor; [cbn; lia|constructor].
Qed.

Lemma merge_push_r : forall A (l1 l2 : queue A) t a,
  all_le t l1 -> merge l1 (l2 ++ [(t, a)]) = merge l1 l2 ++ [(t, a)].
Proof.
  induction l1 as [|[t1 a1] r1 IH]; intros l2 t a H1.
  - reflexivity.
  - induction l2 as [|[t2 a2] r2 IH2].
    + cbn [app]. rewrite merge_cons, merge_nil_r.
      inversion H1 as [|? ? Hh Ht]; subst. cbn in Hh.
      destruct (t1 <=? t) eqn:E; [|apply N.leb_gt in E; lia].
      cbn [app]. f_equal.
      specialize (IH [] t a Ht). cbn [app] in IH. rewrite IH, merge_nil_r. reflexivity.
    + cbn [app]. rewrite !merge_cons. destruct (t1 <=? t2).
      * cbn [app]. f_equal. inversion H1; subst. rewrite app_comm_cons. apply IH. assumption.
      * cbn [app]. f_equal. apply IH2.
Qed.

Lemma merge_push_l : forall A (l1 l2 : queue A) t a,
  all_lt t l2 -> merge (l1 ++ [(t, a)]) l2 = merge l1 l2 ++ [(t, a)].
Proof.
  induction l1 as [|[t1 a1] r1 IH]; intros l2 t a H2.
  - cbn [app]. induction l2 as [|[t2 a2] r2 IH2].
    + reflexivity.
    + rewrite merge_cons. inversion H2 as [|? ? Hh Ht]; subst. cbn in Hh.
      destruct (t <=? t2) eqn:E; [apply N.leb_le in E; lia|].
      cbn [merge app]. f_equal. apply IH2. assumption.
  - induction l2 as [|[t2 a2] r2 IH2].
    + rewrite !merge_nil_r. reflexivity.
    + rewrite <- app_comm_cons, !merge_cons. destruct (t1 <=? t2).
      * cbn [app]. f_equal. apply IH. assumption.
      * cbn [app]. f_equal. rewrite app_comm_cons. apply IH2. inversion H2; assumption.
Qed.

Lemma Forall_merge : forall A (P : N * A -> Prop) (l1 l2 : queue A),
  Forall P (merge l1 l2) <-> Forall P l1 /\ Forall P l2.
Proof.
  induction l1 as [|[t1 a1] r1 IH]; intros l2; [intuition|].
  induction l2 as [|[t2 a2] r2 IH2]; [rewrite merge_nil_r; intuition|].
  rewrite merge_cons. destruct (t1 <=? t2); rewrite !Forall_cons_iff, ?IH, ?IH2, !Forall_cons_iff; tauto.
Qed.

Lemma merge_all_le : forall A t (l1 l2 : queue A), all_le t l1 -> all_le t l2 -> all_le t (merge l1 l2).
Proof. intros A t l1 l2 H1 H2. apply Forall_merge. split; assumption. Qed.

Lemma merge_length : forall A (l1 l2 : queue A), length (merge l1 l2) = (length l1 + length l2)%nat.
Proof.
  induction l1 as [|[t1 a1] r1 IH]; intros l2; [reflexivity|].
  induction l2 as [|[t2 a2] r2 IH2]; [rewrite merge_nil_r; cbn; lia|].
  rewrite merge_cons. destruct (t1 <=? t2); cbn [length].
  - rewrite IH. cbn [length]. lia.
  - rewrite IH2. cbn [length]. lia.
Qed.

(* ---------------------------------------------------------------- what a poll does to the list of unread items *)
Definition head_gt {I} (b : N) (q : queue I) : Prop := match q with [] => True | (t, _) :: _ => b < t end.

Definition pspec {I} (pend pend' : queue I) (before : option N) (r : pres I) : Prop :=
  match r with
  | RItem i t => pend = (t, i) :: pend'
  | RPending => before = None /\ pend = [] /\ pend' = []
  | RNoneBefore => pend' = pend /\ match before with Some b => head_gt b pend | None => False end
  | RTerm => False
  end.

(* ---------------------------------------------------------------- the SignalStream's inner join *)
Definition bufA {I} (j : jstate I) : queue I := match j with JA a t => [(t, a)] | _ => [] end.
Definition bufB {I} (j : jstate I) : queue I := match j with JB b t => [(t, b)] | _ => [] end.
Definition oq {A} (q : option (queue A)) : queue A := match q with Some l => l | None => [] end.

Definition ss_merged (st : sstream) : queue sigm :=
  merge (bufA (ss_j st) ++ ss_qs st) (bufB (ss_j st) ++ oq (ss_qn st)).

(* states the join can be in *)
Definition jwf (st : sstream) : Prop :=
  match ss_qn st with
  | None => ss_j st = JNone \/ ss_j st = JOnlyA
  | Some _ => match ss_j st with JNone | JA _ _ | JB _ _ => True | _ => False end
  end.

(* case analysis on every comparison the goal branches on *)
Ltac cmp_cases :=
  repeat match goal with
         | |- context [?x <? ?y] => destruct (N.ltb_spec x y)
         | |- context [?x <=? ?y] => destruct (N.leb_spec x y)
         end.

(* One poll of the join pops the head of the merged list, whatever is buffered in the join and whichever queue
   holds the head; the NameOwnerChanged receiver is neither created nor dropped.  By cases on the join state, on
   whether each queue is empty, and on the comparisons made by the join, then by the merge. *)
Lemma ss_join_spec : forall st before,
  jwf st ->
  let '(r, j', qs', qn') := ss_join st before in
  forall src',
    let st' := {| ss_j := j'; ss_qs := qs'; ss_qn := qn'; ss_src := src' |} in
    jwf st' /\ (qn' = None <-> ss_qn st = None) /\ pspec (ss_merged st) (ss_merged st') before r.
Proof.
  intros [j qs qn src] before Hwf. cbv zeta.
  unfold ss_join, jwf, ss_merged in *. cbn [ss_j ss_qs ss_qn] in *.
  destruct qn as [qn|].
  - destruct j as [|a ta|b tb| | |]; try contradiction;
      destruct qs as [|[t1 m1] qs]; destruct qn as [|[t2 m2] qn]; destruct before as [bf|];
      cbn; cmp_cases; cbn; cmp_cases; rewrite ?merge_nil_r; repeat split; first [discriminate | lia].
  - (* no NameOwnerChanged stream: B is terminated *)
    destruct Hwf as [-> | ->]; destruct qs as [|[t1 m1] qs]; destruct before as [bf|];
      cbn; cmp_cases; cbn; rewrite ?merge_nil_r; repeat split; right; reflexivity.
Qed.

(* ---------------------------------------------------------------- bounds and order of a queue *)
Definition all_gt {A} (b : N) (q : queue A) : Prop := Forall (fun e => b < fst e) q.
Definition all_ge {A} (b : N) (q : queue A) : Prop := Forall (fun e => b <= fst e) q.

(* a list cut at [tr] into an earlier and a later part: where its head lies *)
Lemma split_head_le : forall A (qb qa : queue A) tr t a l,
  qb ++ qa = (t, a) :: l -> all_gt tr qa -> t <= tr -> exists qb', qb = (t, a) :: qb' /\ l = qb' ++ qa.
Proof.
  intros A qb qa tr t a l E Ha Hle. destruct qb as [|e qb'].
  - cbn in E. subst qa. inversion Ha as [|? ? Hx _]; subst. cbn in Hx. lia.
  - cbn in E. inversion E; subst. eauto.
Qed.

Lemma split_head_gt : forall A (qb qa : queue A) tr t a l,
  qb ++ qa = (t, a) :: l -> all_lt tr qb -> tr < t -> qb = [] /\ qa = (t, a) :: l.
Proof.
  intros A qb qa tr t a l E Hb Hlt. destruct qb as [|e qb'].
  - cbn in E. split; [reflexivity|exact E].
  - cbn in E. inversion E; subst. inversion Hb as [|? ? Hx _]; subst. cbn in Hx. lia.
Qed.

Fixpoint sorted {A} (q : queue A) : Prop :=
  match q with
  | [] => True
  | (t, _) :: r => all_ge t r /\ sorted r
  end.

Lemma sorted_app_one : forall A (q : queue A) t a, sorted q -> all_le t q -> sorted (q ++ [(t, a)]).
Proof.
  induction q as [|[t1 a1] r IH]; intros t a Hs Hl; cbn [app sorted].
  - split; [constructor|exact I].
  - destruct Hs as [Hg Hs]. inversion Hl as [|? ? Hh Ht]; subst. cbn in Hh. split.
    + apply Forall_app. split; [exact Hg|]. constructor; [cbn; lia|constructor].
    + apply IH; assumption.
Qed.

Lemma sorted_head_gt : forall A (q : queue A) b, sorted q -> head_gt b q -> all_gt b q.
Proof.
  intros A [|[t a] r] b Hs Hh; [constructor|].
  destruct Hs as [Hg _]. constructor; [exact Hh|].
  eapply Forall_impl; [|exact Hg]. cbn in *. intros; lia.
Qed.

(* ---------------------------------------------------------------- the filter over the merged list *)
(* what repeated polling would yield, and src_unique_name after it *)
Fixpoint frun (src : option N) (l : queue sigm) : queue sigm * option N :=
  match l with
  | [] => ([], src)
  | (t, m) :: r =>
      let '(keep, src') := ss_filter src m in
      let '(ys, e) := frun src' r in
      ((if keep then [(t, m)] else []) ++ ys, e)
  end.

Definition ss_pend (st : sstream) : queue sigm := fst (frun (ss_src st) (ss_merged st)).
Definition ss_end (st : sstream) : option N := snd (frun (ss_src st) (ss_merged st)).

Lemma frun_Forall : forall (P : N * sigm -> Prop) l src, Forall P l -> Forall P (fst (frun src l)).
Proof.
  induction l as [|[t m] r IH]; intros src H; [constructor|].
  cbn [frun]. destruct (ss_filter src m) as [keep src'] eqn:E.
  specialize (IH src'). destruct (frun src' r) as [ys e]. cbn [fst] in *.
  inversion H; subst. destruct keep; cbn [app]; [constructor; [assumption|]|]; apply IH; assumption.
Qed.

Lemma frun_cons : forall src t m r,
  frun src ((t, m) :: r) =
  ((if fst (ss_filter src m) then [(t, m)] else []) ++ fst (frun (snd (ss_filter src m)) r),
   snd (frun (snd (ss_filter src m)) r)).
Proof.
  intros. cbn [frun]. destruct (ss_filter src m) as [keep src']. cbn [fst snd]. destruct (frun src' r). reflexivity.
Qed.

Lemma frun_app_one : forall l src t m,
  frun src (l ++ [(t, m)]) =
  (fst (frun src l) ++ (if fst (ss_filter (snd (frun src l)) m) then [(t, m)] else []),
   snd (ss_filter (snd (frun src l)) m)).
Proof.
  induction l as [|[t1 m1] r IH]; intros src t m; cbn [app]; rewrite !frun_cons.
  - cbn [frun fst snd]. rewrite app_nil_r. reflexivity.
  - rewrite IH. cbn [fst snd]. rewrite app_assoc. reflexivity.
Qed.

Definition ss_ok (n : N) (st : sstream) : Prop :=
  jwf st /\ sorted (ss_merged st) /\ all_le n (ss_merged st).

(* SignalStream::poll_next_before pops merged items until one passes the filter: what it yields is the head of
   [ss_pend], and the owner the stream will settle on ([ss_end]) does not change *)
Lemma ss_poll_spec : forall fuel n st before,
  ss_ok n st -> (length (ss_merged st) < fuel)%nat ->
  exists r st',
    ss_poll fuel st before = Some (r, st') /\ ss_ok n st' /\ (ss_qn st' = None <-> ss_qn st = None) /\
    pspec (ss_pend st) (ss_pend st') before r /\ ss_end st' = ss_end st.
Proof.
  induction fuel as [|f IH]; intros n st before (Hwf & Hs & Hle) Hlen; [lia|].
  cbn [ss_poll]. pose proof (ss_join_spec st before Hwf) as HJ.
  destruct (ss_join st before) as [[[r j'] qs'] qn'].
  unfold ss_pend, ss_end.
  destruct r as [m t| | |].
  - (* an item: filter *)
    destruct (ss_filter (ss_src st) m) as [keep src'] eqn:EF.
    destruct (HJ src') as (Hwf' & Hqn & Hp). cbn [pspec] in Hp.
    rewrite Hp in *. rewrite frun_cons, EF. cbn [fst snd].
    assert (Hok' : ss_ok n {| ss_j := j'; ss_qs := qs'; ss_qn := qn'; ss_src := src' |}).
    { split; [exact Hwf'|]. split; [exact (proj2 Hs)|]. inversion Hle; assumption. }
    destruct keep.
    + eexists _, _. split; [reflexivity|]. split; [exact Hok'|]. split; [exact Hqn|]. split; reflexivity.
    + cbn [length] in Hlen. destruct (IH n _ before Hok') as (r & st' & E & Hok2 & Hqn2 & Hps & He); [lia|].
      exists r, st'. split; [exact E|]. split; [exact Hok2|]. split; [tauto|]. split; [exact Hps|exact He].
  - destruct (HJ (ss_src st)) as (Hwf' & Hqn & Hb & Hm & Hm').
    eexists _, _. split; [reflexivity|]. split; [|split; [exact Hqn|]].
    + split; [exact Hwf'|]. rewrite Hm'. split; [exact I|constructor].
    + rewrite Hm, Hm'. repeat split. exact Hb.
  - destruct (HJ (ss_src st)) as (Hwf' & Hqn & Hm & Hb).
    eexists _, _. split; [reflexivity|]. split; [|split; [exact Hqn|]].
    + rewrite <- Hm in Hs, Hle. repeat split; assumption.
    + rewrite Hm. cbn [pspec ss_src]. split; [|reflexivity]. split; [reflexivity|].
      destruct before as [b|]; [|exact Hb].
      pose proof (frun_Forall _ _ (ss_src st) (sorted_head_gt _ _ b Hs Hb)) as Hf.
      destruct (fst (frun (ss_src st) (ss_merged st))) as [|[t i] l]; [exact I|]. inversion Hf; assumption.
  - destruct (HJ (ss_src st)) as (_ & _ & []).
Qed.

Lemma ss_fuel_ok : forall st, (length (ss_merged st) < ss_fuel st)%nat.
Proof.
  intros [j qs qn src]. unfold ss_merged, ss_fuel. cbn [ss_j ss_qs ss_qn]. rewrite merge_length, !app_length.
  unfold qlen. destruct j; destruct qn; cbn [bufA bufB oq length]; lia.
Qed.

(* the fuel the model gives the loop always suffices *)
Lemma ss_poll_total : forall n st before, ss_ok n st ->
  exists r st',
    ss_poll (ss_fuel st) st before = Some (r, st') /\ ss_ok n st' /\ (ss_qn st' = None <-> ss_qn st = None) /\
    pspec (ss_pend st) (ss_pend st') before r /\ ss_end st' = ss_end st.
Proof. intros. apply ss_poll_spec; auto using ss_fuel_ok. Qed.

Lemma ss_deliver_merged : forall r n s st,
  all_le n (ss_merged st) ->
  (matches r s && matches noc_rule s = false) ->
  ss_merged (ss_deliver r (n + 1) s st) =
  ss_merged st ++ (if matches r s || (match ss_qn st with Some _ => matches noc_rule s | None => false end)
                   then [(n + 1, s)] else []).
Proof.
  intros r n s [j qs qn src] Hle Hx. unfold ss_merged, ss_deliver in *. cbn [ss_j ss_qs ss_qn] in *.
  destruct (proj1 (Forall_merge _ _ _ _) Hle) as [H1 H2].
  destruct (matches r s) eqn:E1; cbn [orb].
  - cbn [andb] in Hx. rewrite Hx.
    assert (Hq : option_map (fun q : queue sigm => q) qn = qn) by (destruct qn; reflexivity).
    rewrite Hq. unfold push. rewrite app_assoc. apply merge_push_l. apply all_le_lt_succ. exact H2.
  - destruct qn as [qn|]; cbn [option_map oq].
    + destruct (matches noc_rule s).
      * unfold push. rewrite app_assoc. apply merge_push_r. eapply all_le_mono; [|exact H1]. lia.
      * rewrite app_nil_r. reflexivity.
    + cbn [oq]. rewrite !app_nil_r. reflexivity.
Qed.
