(* C32/Witness.v — concrete runs: the witnesses of the two repaired findings, and a non-trivial run that meets
   the hypotheses of the theorem. *)
From Coq Require Import List NArith Bool.
Import ListNotations.
From ZV Require Import Base.Bytes C32.Model C32.Spec.
Local Open Scope N_scope.

Definition sig_from (k : N) (iface member : N) : sigm :=
  {| s_sender := Some k; s_path := P_OBJ; s_iface := iface; s_member := member; s_body := BEmpty |}.
Definition driver_says (old new : option N) : sigm :=
  {| s_sender := Some DRIVER; s_path := P_DRIVER; s_iface := I_DBUS; s_member := M_NOC; s_body := BNoc NAME_W old new |}.
Definition peer_claims (k : N) (path : N) : sigm :=
  {| s_sender := Some k; s_path := path; s_iface := I_DBUS; s_member := M_NOC; s_body := BNoc NAME_W None (Some k) |}.

Definition cf_sig : cfg := {| c_dest := DWell; c_pi := 0; c_pm := Some 0 |}.

(* ---- the witnesses of the two findings repaired in /repo: both run as the specification says *)
(* 1. (fix 902c9069) the name is released right after the lookup answer and both messages are read before
      SignalStream::new runs again: the buffered release is applied, the former owner's signal (5) is not yielded *)
Definition h_release : list wmsg :=
  [WRep PPlain; WRep (POwner 1); WSig (driver_says (Some 1) None); WRep PPlain; WSig (sig_from 1 0 0)].
Definition sched_release : list action :=
  [AClient; ATick; AClient; ATick; ATick; AClient; ATick; AClient; ATick; APoll].

(* 2. (fix 0bffda5d) a proxy whose own interface is org.freedesktop.DBus: a peer's NameOwnerChanged on the
      proxy's path is dropped, the owner's signal (5) is yielded, the stranger's (6) is not *)
Definition cf_dbus : cfg := {| c_dest := DWell; c_pi := I_DBUS; c_pm := None |}.
Definition h_forge : list wmsg :=
  [WRep PPlain; WRep (POwner 1); WRep PPlain; WSig (peer_claims 2 P_OBJ); WSig (sig_from 1 I_DBUS 0);
   WSig (sig_from 2 I_DBUS 0)].
Definition sched_one_by_one (n : nat) : list action :=
  AClient :: flat_map (fun _ => [ATick; AClient]) (seq 0 n) ++ repeat APoll n.

Lemma repaired_histories :
  (bus_history cf_sig h_release = true /\
   let w := run cf_sig h_release sched_release in
   w_todo w = [] /\ drained w /\ yielded w = [] /\ spec_yield cf_sig (w_start w) h_release = []) /\
  (bus_history cf_dbus h_forge = true /\
   let w := run cf_dbus h_forge (sched_one_by_one 6) in
   w_todo w = [] /\ drained w /\ yielded w = [5] /\ spec_yield cf_dbus (w_start w) h_forge = [5]).
Proof. vm_compute. repeat split; try reflexivity; eexists; reflexivity. Qed.

(* ---- non-vacuity: owner, former owner, stranger, an ownership change and two forged claims; the run
        yields exactly the two signals the owner of the moment sent *)
Definition h_clean : list wmsg :=
  [WRep PPlain; WSig (driver_says None (Some 1)); WRep (POwner 1); WRep PPlain;
   WSig (sig_from 1 0 0); WSig (sig_from 2 0 0); WSig (peer_claims 3 P_DRIVER); WSig (sig_from 3 0 0);
   WSig (driver_says (Some 1) (Some 2)); WSig (sig_from 1 0 0); WSig (sig_from 2 0 0);
   WSig (peer_claims 3 P_OBJ); WSig (sig_from 3 0 0); WSig (sig_from 2 0 1)].
Definition sched_clean : list action :=
  [AClient; ATick; AClient; ATick; ATick; AClient; ATick; AClient; ATick; ATick; APoll; ATick; ATick; ATick; ATick;
   ATick; APoll; ATick; ATick; ATick; APoll; APoll; APoll].

Lemma clean_example :
  bus_history cf_sig h_clean = true /\
  let w := run cf_sig h_clean sched_clean in
  w_todo w = [] /\ drained w /\ yielded w = [5; 11] /\ spec_yield cf_sig (w_start w) h_clean = [5; 11].
Proof. vm_compute. repeat split; try reflexivity; eexists; reflexivity. Qed.

(* forged claims change nothing: the clean history with the two claims replaced by noise *)
Definition h_clean_noise : list wmsg :=
  map (fun m => if forged_claim m then noise else m) h_clean.
Lemma clean_noise_example :
  yielded (run cf_sig h_clean_noise sched_clean) = [5; 11].
Proof. vm_compute. reflexivity. Qed.
