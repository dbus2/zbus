(* C32/Forged.v — signals that match neither of the stream's rules never reach it: two histories that differ
   only in such signals (in particular: in what peers claim about ownership) give the same run, step by step,
   under every schedule. *)
From Coq Require Import List NArith Bool.
Import ListNotations.
From ZV Require Import Base.Bytes C32.Model C32.Spec.
Local Open Scope N_scope.

Definition irrelevant (cf : cfg) (m : wmsg) : bool :=
  match m with
  | WSig s => negb (matches (sig_rule cf) s) && negb (matches noc_rule s)
  | WRep _ => false
  end.

Definition with_todo (w : world) (t : list wmsg) : world :=
  {| w_todo := t; w_seq := w_seq w; w_reps := w_reps w; w_log := w_log w; w_ph := w_ph w; w_out := w_out w;
     w_start := w_start w |}.

Lemma client_todo : forall cf w t, client_step cf (with_todo w t) = with_todo (client_step cf w) t.
Proof.
  intros cf [todo sq reps lg ph out start] t. unfold client_step, with_todo, call, set_ph, ncalls.
  cbn [w_ph w_todo w_seq w_reps w_log w_out w_start].
  repeat match goal with
         | |- context [match ?x with _ => _ end] => destruct x
         | |- context [let '(_, _) := ?x in _] => destruct x
         end; reflexivity.
Qed.

Lemma poll_todo : forall w t, consumer_poll (with_todo w t) = with_todo (consumer_poll w) t.
Proof.
  intros [todo sq reps lg ph out start] t. unfold consumer_poll, with_todo, set_ph.
  cbn [w_ph w_todo w_seq w_reps w_log w_out w_start].
  repeat match goal with
         | |- context [match ?x with _ => _ end] => destruct x
         end; reflexivity.
Qed.

Lemma deliver_irrelevant : forall cf t s ph,
  irrelevant cf (WSig s) = true -> deliver_sig cf t s ph = ph.
Proof.
  intros cf t s ph H. cbn [irrelevant] in H. apply andb_true_iff in H. destruct H as [H1 H2].
  apply negb_true_iff in H1, H2.
  destruct ph as [|c qr|c j qn fut|c src qn qr|st| |]; cbn [deliver_sig]; try reflexivity.
  - rewrite H2. reflexivity.
  - rewrite H2. destruct qn; reflexivity.
  - unfold ss_deliver. rewrite H1, H2. destruct st as [j qs [q|] src]; reflexivity.
Qed.

(* the two runs agree on everything but the unread part of the history *)
Definition same_but_todo (cf : cfg) (w w' : world) : Prop :=
  w' = with_todo w (w_todo w') /\
  Forall2 (fun m m' => m = m' \/ (irrelevant cf m = true /\ irrelevant cf m' = true)) (w_todo w) (w_todo w').

Lemma with_todo_id : forall w, with_todo w (w_todo w) = w.
Proof. destruct w; reflexivity. Qed.

Lemma client_keeps_todo : forall cf x, w_todo (client_step cf x) = w_todo x.
Proof. intros cf x. rewrite <- (with_todo_id x) at 1. rewrite client_todo. reflexivity. Qed.

Lemma poll_keeps_todo : forall x, w_todo (consumer_poll x) = w_todo x.
Proof. intros x. rewrite <- (with_todo_id x) at 1. rewrite poll_todo. reflexivity. Qed.

Lemma step_same : forall cf w w' a, same_but_todo cf w w' -> same_but_todo cf (step cf w a) (step cf w' a).
Proof.
  intros cf w w' a [He Hf]. destruct a; cbn [step].
  - (* the socket reader *)
    destruct w as [todo sq reps lg ph out start]. destruct w' as [todo' sq' reps' lg' ph' out' start'].
    unfold with_todo in He. cbn [w_todo w_seq w_reps w_log w_ph w_out w_start] in He, Hf.
    inversion He; subst. clear He.
    unfold tick, ncalls. cbn [w_todo w_seq w_reps w_log w_ph w_out w_start].
    inversion Hf as [|m m' r r' Hm Hr]; subst.
    + split; [reflexivity|constructor].
    + destruct Hm as [<-|[I1 I2]].
      * destruct m as [s|p].
        -- split; [reflexivity|exact Hr].
        -- destruct (reps <? N.of_nat (length lg)).
           ++ split; [reflexivity|exact Hr].
           ++ split; [reflexivity|]. cbn [w_todo]. constructor; [left; reflexivity|exact Hr].
      * destruct m as [s|p]; [|discriminate]. destruct m' as [s'|p']; [|discriminate].
        rewrite (deliver_irrelevant _ _ _ _ I1), (deliver_irrelevant _ _ _ _ I2).
        split; [reflexivity|exact Hr].
  - rewrite He, client_todo. split.
    + unfold with_todo. cbn. reflexivity.
    + cbn [w_todo with_todo]. rewrite client_keeps_todo. exact Hf.
  - rewrite He, poll_todo. split.
    + unfold with_todo. cbn. reflexivity.
    + cbn [w_todo with_todo]. rewrite poll_keeps_todo. exact Hf.
Qed.

Lemma run_same : forall cf sched w w',
  same_but_todo cf w w' -> same_but_todo cf (fold_left (step cf) sched w) (fold_left (step cf) sched w').
Proof.
  induction sched as [|a sched IH]; intros w w' H; [exact H|]. cbn [fold_left]. apply IH. apply step_same. exact H.
Qed.

(* forged claims and noise are irrelevant unless the proxy itself sits on org.freedesktop.DBus *)
Lemma forged_irrelevant : forall cf m, c_pi cf <> I_DBUS -> forged_claim m = true -> irrelevant cf m = true.
Proof.
  intros cf [s|p] Hpi H; [|discriminate]. cbn [forged_claim irrelevant] in *.
  apply andb_true_iff in H. destruct H as [Hn Hs]. apply negb_true_iff in Hs.
  unfold is_noc in Hn. apply andb_true_iff in Hn. destruct Hn as [Hi Hm]. apply N.eqb_eq in Hi.
  apply andb_true_iff. split; apply negb_true_iff.
  - unfold matches, sig_rule, sig_rule_of. cbn [r_iface]. rewrite Hi.
    destruct (I_DBUS =? c_pi cf) eqn:E; [apply N.eqb_eq in E; congruence|].
    rewrite andb_false_r. reflexivity.
  - unfold matches, noc_rule. cbn [r_sender]. destruct (s_sender s) as [x|]; [|reflexivity].
    cbn [opt_eqb] in Hs. rewrite Hs. reflexivity.
Qed.

Lemma noise_irrelevant : forall cf, irrelevant cf noise = true.
Proof.
  intro cf. unfold noise, irrelevant, matches, sig_rule, sig_rule_of, noc_rule.
  cbn [r_sender r_path r_iface r_member r_arg0 s_sender s_path s_iface s_member s_body].
  rewrite !andb_false_r. destruct (match c_dest cf with DUnique u => Some u | DWell => None end); cbn;
    rewrite ?andb_false_r; reflexivity.
Qed.

Theorem forged_ignored : forall cf h h' sched,
  c_pi cf <> I_DBUS -> Forall2 claims_differ h h' ->
  yielded (run cf h sched) = yielded (run cf h' sched) /\
  w_ph (run cf h sched) = w_ph (run cf h' sched).
Proof.
  intros cf h h' sched Hpi Hf.
  assert (H0 : same_but_todo cf (init_world h) (init_world h')).
  { split; [reflexivity|]. cbn [w_todo init_world]. induction Hf as [|m m' r r' Hm Hr IH]; constructor; [|exact IH].
    destruct Hm as [E|[F1 [F2|F2]]]; [left; exact E|right|right].
    - split; apply forged_irrelevant; assumption.
    - split; [apply forged_irrelevant; assumption|subst; apply noise_irrelevant]. }
  destruct (run_same cf sched _ _ H0) as [He _]. unfold run. rewrite He. split; reflexivity.
Qed.
