(* C08/Order.v — the reference order [icmp] is a total preorder; on NaN-free values its equivalence is ==, and == holds
   between NaN-free values only, so == is symmetric and transitive everywhere and reflexive without NaN.  The hand-written
   Ord (with Signature::cmp as repaired by fix: commit 668536e1) agrees with [icmp] on all NaN-free pairs.
   From that: consistency and transitivity of cmp, PartialOrd = Ord, for NaN-free values. *)
From ZV Require Import Base.Bytes Base.BytesFacts Base.WinnowFacts
     C08.Model C08.Spec C08.Algebra C08.SigFacts C08.ValueFacts.

Definition nf (v : value) : Prop := has_nan v = false.
Definition nf2 (p : value * value) : Prop := nf (fst p) /\ nf (snd p).

Lemma nf_dict k v l : nf (VDict k v l) <-> Forall nf2 l.
Proof.
  unfold nf. simpl. rewrite existsb_false. split; intros H; (eapply Forall_impl; [|exact H]); intros [a b]; unfold nf2, nf; simpl.
  - apply orb_false_iff.
  - intros [? ?]. apply orb_false_iff. auto.
Qed.
Lemma nf_array s l : nf (VArray s l) <-> Forall nf l.
Proof. unfold nf. simpl. apply existsb_false. Qed.
Lemma nf_struct l : nf (VStruct l) <-> Forall nf l.
Proof. unfold nf. simpl. apply existsb_false. Qed.

Section Cond.
  Context {A : Type} (p : A -> Prop).

  Lemma list_eqb_refl_p (e : A -> A -> bool) xs :
    Forall (fun x => p x -> e x x = true) xs -> Forall p xs -> list_eqb e xs xs = true.
  Proof. intros H Hp. apply list_eqb_refl. exact (Forall_mp _ _ _ H Hp). Qed.

  Lemma lex_p_agree (c : A -> A -> option comparison) (t : A -> A -> comparison) xs :
    Forall (fun x => forall y, p x -> p y -> c x y = Some (t x y)) xs ->
    Forall p xs -> forall ys, Forall p ys -> lex_p c xs ys = Some (lex t xs ys).
  Proof.
    induction 1 as [|x xs Hx _ IH]; intros Hp [|y ys] Hq; simpl; try reflexivity.
    inversion Hp; inversion Hq; subst. rewrite (Hx y); auto.
    destruct (t x y); simpl; try reflexivity. apply IH; auto.
  Qed.
End Cond.

Lemma veq_nf : forall a b, veq a b = true -> nf a /\ nf b.
Proof.
  induction a using value_ind'; intros y Hab; same_ctor Hab y; simpl in Hab; try (split; reflexivity).
  - apply f_eq_true in Hab as (H1 & H2 & _). split; assumption.
  - exact (IHa _ Hab).
  - apply andb_true_iff in Hab as [H1 _]. rewrite !nf_array. exact (list_eqb_Forall veq nf l H _ H1).
  - apply andb_true_iff in Hab as [H1 _]. rewrite !nf_dict. apply (list_eqb_Forall (pair_eqb veq) nf2 l); [|exact H1].
    apply (Forall_pair (fun a => forall y, veq a y = true -> nf a /\ nf y)); [|exact H].
    intros a b Ha Hb [y1 y2]. simpl. rewrite andb_true_iff. intros [E1 E2].
    destruct (Ha _ E1), (Hb _ E2). repeat split; assumption.
  - apply andb_true_iff in Hab as [H1 _]. rewrite !nf_struct. exact (list_eqb_Forall veq nf l H _ H1).
Qed.

Lemma bytes_cmp_Eq a : forall b, bytes_cmp a b = Eq <-> lbeq a b = true.
Proof.
  unfold bytes_cmp. induction a as [|x a IH]; intros [|y b]; simpl; try (intuition congruence).
  rewrite cthen_Eq, andb_true_iff, IH. split; intros [H1 H2]; split; auto.
  - apply N.compare_eq in H1. apply bn_inj in H1. subst. apply beq_refl.
  - apply beq_eq in H1. subst. apply N.compare_refl.
Qed.

Lemma bytes_cmp_T4 a b c : T4 (bytes_cmp a b) (bytes_cmp b c) (bytes_cmp a c).
Proof. apply lex_T4, Forall_all. intros x y z. apply T4_Ncompare. Qed.

Definition ic2 (p q : value * value) : comparison :=
  match p, q with (a1, a2), (b1, b2) => cthen (icmp a1 b1) (icmp a2 b2) end.

(* icmp compares the variants first, the payloads of equal variants second *)
Definition ipay (a b : value) : comparison :=
  match a, b with
  | VU8 x, VU8 y | VI16 x, VI16 y | VU16 x, VU16 y | VI32 x, VI32 y | VU32 x, VU32 y
  | VI64 x, VI64 y | VU64 x, VU64 y => (x ?= y)%Z
  | VBool x, VBool y => ((if x then 1 else 0) ?= (if y then 1 else 0))%Z
  | VF64 n1 m1, VF64 n2 m2 => (f_num n1 m1 ?= f_num n2 m2)%Z
  | VStr x, VStr y | VPath x, VPath y => bytes_cmp x y
  | VSig x, VSig y => sig_tcmp x y
  | VValue x, VValue y => icmp x y
  | VArray s xs, VArray t ys => cthen (lex icmp xs ys) (sig_tcmp s t)
  | VDict k v xs, VDict k' v' ys => cthen (lex ic2 xs ys) (cthen (sig_tcmp k k') (sig_tcmp v v'))
  | VStruct xs, VStruct ys => lex icmp xs ys
  | VFd _ x, VFd _ y => (x ?= y)%Z
  | _, _ => Eq
  end.

Lemma icmp_unfold a b : icmp a b = cthen (discr a ?= discr b)%Z (ipay a b).
Proof. destruct a; reflexivity. Qed.

Lemma icmp_T4 : forall a b c, T4 (icmp a b) (icmp b c) (icmp a c).
Proof.
  induction a using value_ind'; intros y w;
    rewrite (icmp_unfold _ y), (icmp_unfold y w), (icmp_unfold _ w);
    (apply T4_cthen; [apply T4_Zcompare|]); intros Hab%Z.compare_eq Hbc%Z.compare_eq;
    destruct y; try discriminate Hab; destruct w; try discriminate Hbc; simpl;
    try apply T4_Zcompare; try apply bytes_cmp_T4.
  - apply sig_tcmp_T4.
  - apply IHa.
  - apply T4_cthen; [apply lex_T4; exact H | intros; apply sig_tcmp_T4].
  - apply T4_cthen.
    + apply (lex_T4 ic2). apply (Forall_pair (fun a => forall y z, T4 (icmp a y) (icmp y z) (icmp a z))); [|exact H].
      intros a b Ha Hb [y1 y2] [z1 z2]. simpl. apply T4_cthen; [apply Ha | intros; apply Hb].
    + intros. apply T4_cthen; [apply sig_tcmp_T4 | intros; apply sig_tcmp_T4].
  - apply lex_T4. exact H.
Qed.

Lemma icmp_dual : forall a b, icmp b a = CompOpp (icmp a b).
Proof.
  induction a using value_ind'; intros y;
    rewrite (icmp_unfold y), (icmp_unfold _ y), CompOpp_cthen, <- Z.compare_antisym;
    destruct y; try reflexivity; simpl; f_equal;
    try apply Z.compare_antisym; try apply bytes_cmp_dual.
  - apply sig_tcmp_dual.
  - apply IHa.
  - rewrite CompOpp_cthen, (lex_dual icmp l H), (sig_tcmp_dual s). reflexivity.
  - rewrite !CompOpp_cthen, (sig_tcmp_dual k), (sig_tcmp_dual v). f_equal.
    apply (lex_dual ic2). apply (Forall_pair (fun a => forall y, icmp y a = CompOpp (icmp a y))); [|exact H].
    intros a b Ha Hb [y1 y2]. simpl. rewrite CompOpp_cthen, Ha, Hb. reflexivity.
  - apply (lex_dual icmp l H).
Qed.

Lemma f_nf_eq n1 m1 n2 m2 : f_isnan m1 = false ->
  ((f_num n1 m1 ?= f_num n2 m2)%Z = Eq <-> f_eq n1 m1 n2 m2 = true).
Proof.
  intros H1. rewrite f_eq_true, Z.compare_eq_iff. split; [|intuition].
  intros E. destruct (f_num_inj _ _ _ _ E) as [<- _]. auto.
Qed.

Lemma icmp_Eq : forall a, nf a -> forall b, icmp a b = Eq <-> veq a b = true.
Proof.
  induction a using value_ind'; intros Ha y; rewrite icmp_unfold; destruct y; try (split; discriminate); simpl;
    try (rewrite Z.compare_eq_iff, Z.eqb_eq; reflexivity);
    try apply bytes_cmp_Eq.
  - destruct b, b0; simpl; intuition congruence.
  - apply f_nf_eq, Ha.
  - rewrite sig_tcmp_Eq, sig_eqb_eq. reflexivity.
  - apply IHa, Ha.
  - apply nf_array in Ha.
    rewrite cthen_Eq, andb_true_iff, (lex_Eq icmp veq l (Forall_mp _ _ _ H Ha)), sig_tcmp_Eq, sig_eqb_eq. intuition congruence.
  - apply nf_dict in Ha.
    rewrite !cthen_Eq, !andb_true_iff, !sig_tcmp_Eq, !sig_eqb_eq, (lex_Eq ic2 (pair_eqb veq) l); [reflexivity|].
    refine (Forall_mp _ _ _ _ Ha). eapply Forall_impl; [|exact H].
    intros [a1 a2] [H1 H2] [N1 N2] [y1 y2]. simpl in *. rewrite cthen_Eq, andb_true_iff, H1, H2; auto. reflexivity.
  - apply nf_struct in Ha.
    rewrite andb_true_iff, (lex_Eq icmp veq l (Forall_mp _ _ _ H Ha)), sigs_eqb_eq. split; [|intuition].
    intros E. split; [exact E|]. apply veq_sigs, E.
Qed.

Lemma veq_refl a : nf a -> veq a a = true.
Proof.
  intros Ha. apply icmp_Eq; [exact Ha|]. pose proof (icmp_dual a a) as D. destruct (icmp a a); [reflexivity | discriminate D..].
Qed.

Lemma veq_sym a b : veq a b = veq b a.
Proof.
  enough (S : forall a b, veq a b = true -> veq b a = true) by (apply Bool.eq_true_iff_eq; split; apply S).
  clear. intros a b E. destruct (veq_nf _ _ E) as [Na Nb].
  apply icmp_Eq; [exact Nb|]. apply (icmp_Eq a Na) in E. rewrite icmp_dual, E. reflexivity.
Qed.

Lemma veq_trans a b c : veq a b = true -> veq b c = true -> veq a c = true.
Proof.
  intros E1 E2. destruct (veq_nf _ _ E1) as [Na Nb].
  apply (icmp_Eq a Na) in E1. apply (icmp_Eq b Nb) in E2. apply (icmp_Eq a Na).
  destruct (icmp_T4 a b c) as [T _]. rewrite (T E1). exact E2.
Qed.

Lemma vpcmp_agree : forall a b, nf a -> nf b -> vpcmp a b = Some (icmp a b).
Proof.
  induction a using value_ind'; intros y Ha Hb; rewrite icmp_unfold;
    destruct y; try reflexivity; simpl in *;
    try (rewrite Z.compare_refl; reflexivity).
  - destruct b, b0; reflexivity.
  - unfold nf in Ha, Hb. simpl in Ha, Hb. unfold f_pcmp. rewrite Ha, Hb. reflexivity.
  - rewrite sig_cmp_tcmp. reflexivity.
  - rewrite (IHa y Ha Hb). reflexivity.
  - apply nf_array in Ha. apply nf_array in Hb.
    rewrite (lex_p_agree nf vpcmp icmp l); auto. rewrite othen_Some, sig_cmp_tcmp. reflexivity.
  - apply nf_dict in Ha. apply nf_dict in Hb.
    rewrite (lex_p_agree nf2 (pair_pcmp vpcmp) ic2 l); auto.
    + rewrite !sig_cmp_tcmp, othen_Some. destruct (sig_tcmp k ksig); reflexivity.
    + eapply Forall_impl; [|exact H]. intros [a1 a2] [H1 H2] [y1 y2] [? ?] [? ?]. simpl in *.
      rewrite H1, H2; auto. apply othen_Some.
  - apply nf_struct in Ha. apply nf_struct in Hb.
    rewrite (lex_p_agree nf vpcmp icmp l); auto.
    destruct (lex icmp l fields) eqn:E; simpl; try reflexivity.
    (* Equal fields have equal signatures *)
    apply (lex_Eq icmp veq) in E; [|exact (Forall_impl _ (fun x Hx => icmp_Eq x Hx) Ha)].
    rewrite (veq_sigs _ _ E), sigs_cmp_refl. reflexivity.
Qed.

Lemma vcmp_agree a b : nf a -> nf b -> vcmp a b = icmp a b.
Proof. intros. unfold vcmp. rewrite vpcmp_agree; auto. Qed.

Lemma vpcmp_vcmp a b : nf a -> nf b -> vpcmp a b = Some (vcmp a b).
Proof. intros Ha Hb. rewrite vcmp_agree by assumption. apply vpcmp_agree; assumption. Qed.

Lemma veq_vpcmp a b : veq a b = true -> vpcmp a b = Some Eq.
Proof.
  intros E. destruct (veq_nf _ _ E) as [Na Nb]. rewrite vpcmp_agree by assumption. f_equal. apply icmp_Eq; assumption.
Qed.

Lemma veq_vcmp a b : veq a b = true -> vcmp a b = Eq.
Proof. intros H. unfold vcmp. rewrite (veq_vpcmp _ _ H). reflexivity. Qed.
