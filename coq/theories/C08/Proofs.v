(* C08/Proofs.v — the statements exported to Properties/C08.v: witnesses for the refuted laws, the summary theorem
   for cases outside the known classes, and concrete instances ([ex_*]). *)
From ZV Require Import Base.Bytes Base.Res Base.Sig C08.Model C08.Spec C08.ValueFacts C08.Order
     C08.Clone C08.Conv.

Definition qnan : value := VF64 false 9221120237041090560.        (* 0x7ff8000000000000 *)
Definition f_one : value := VF64 false 4607182418800017408.       (* 1.0 *)
Definition f_two : value := VF64 false 4611686018427387904.       (* 2.0 *)
Definition arr_d (x : value) : value := VArray SF64 [x].
Definition nested : value :=
  VDict SStr SVariant [(VStr (B "a"), VValue (VArray SU8 [VU8 1; VU8 2])); (VStr (B "b"), VValue (VStruct [VF64 true 0; VSig (SArray SU8)]))].
Definition nested' : value :=
  VDict SStr SVariant [(VStr (B "a"), VValue (VArray SU8 [VU8 1; VU8 2])); (VStr (B "b"), VValue (VStruct [VF64 false 0; VSig (SArray SU8)]))].

Lemma eq_refl_refuted : exists v, veq v v = false.
Proof. exists qnan. vm_compute. reflexivity. Qed.

(* after fix: commit 668536e1 only NaN is left: cmp says Equal for values that are != *)
Lemma ord_consistent_refuted :
  (exists a, vcmp a a = Eq /\ veq a a = false) /\
  (exists a b, wfb a = true /\ wfb b = true /\ vcmp a b = Eq /\ veq a b = false /\ vhash a <> vhash b).
Proof.
  split.
  - exists qnan. vm_compute. auto.
  - exists (arr_d qnan), (arr_d f_one). vm_compute. repeat split; try reflexivity. discriminate.
Qed.

Lemma ord_trans_refuted :
  exists a b c, wfb a = true /\ wfb b = true /\ wfb c = true /\ vcmp a b = Eq /\ vcmp b c = Eq /\ vcmp a c = Lt.
Proof. exists (arr_d f_one), (arr_d qnan), (arr_d f_two). vm_compute. repeat split; reflexivity. Qed.

Lemma pcmp_refuted : exists a b, vpcmp a b = None /\ vpcmp a b <> Some (vcmp a b).
Proof. exists (arr_d qnan), (arr_d f_one). vm_compute. split; [reflexivity|discriminate]. Qed.

(* whatever number dup(2) returns, as long as it is not the number of the (still open) original *)
Lemma owned_fd_refuted : forall os o n m, os 0%nat = Some m -> m <> n ->
  try_to_owned os (VFd o n) 0 = Ok (VFd true m, 1%nat) /\ veq (VFd true m) (VFd o n) = false.
Proof.
  intros os o n m H Hn. unfold try_to_owned. simpl. unfold dup. rewrite H. simpl. split; [reflexivity|].
  apply Z.eqb_neq. exact Hn.
Qed.

Lemma clone_nan_refuted : exists v, forall os k, try_clone os v k = Ok (v, k) /\ veq v v = false.
Proof. exists (arr_d qnan). intros. split; reflexivity. Qed.

Lemma conv_tuple_variant_refuted :
  (exists t x, wt t x = true /\ exists y, from_value t (into_value x) = Ok y /\ y <> x) /\
  (exists t x, wt t x = true /\ wfb (into_value x) = false) /\
  (exists t x, wt t x = true /\ from_value t (into_value x) = Err EIncorrectType).
Proof.
  split; [|split].
  - exists (SStruct [SVariant]), (XTup [XVal (VU8 1)]). split; [reflexivity|].
    exists (XTup [XVal (VValue (VU8 1))]). split; [reflexivity|discriminate].
  - exists (SArray (SStruct [SVariant])), (XVec (SStruct [SVariant]) [XTup [XVal (VU8 1)]]). split; reflexivity.
  - exists (SStruct [SStruct [SVariant]]), (XTup [XTup [XVal (VU8 1)]]). split; reflexivity.
Qed.

Lemma full_statement_refuted : ~ C08_full_statement.
Proof.
  intros [[R _] _]. destruct eq_refl_refuted as [v Hv]. rewrite (R v) in Hv. discriminate Hv.
Qed.

Lemma Known_inv a b c : Known_C08 [a; b; c] = false ->
  (nf a /\ nf b /\ nf c) /\ (has_fd a = false /\ has_fd b = false /\ has_fd c = false).
Proof. unfold Known_C08, nf. simpl. rewrite !orb_false_iff. intuition. Qed.

Lemma ord_consistent_partial a b : has_nan a = false -> has_nan b = false -> (vcmp a b = Eq <-> veq a b = true).
Proof. intros Ha Hb. rewrite vcmp_agree by assumption. apply icmp_Eq, Ha. Qed.

Lemma ord_trans_partial a b c : has_nan a = false -> has_nan b = false -> has_nan c = false ->
  T4 (vcmp a b) (vcmp b c) (vcmp a c).
Proof. intros. rewrite !vcmp_agree by assumption. apply icmp_T4. Qed.

Theorem laws_partial : forall a b c, Known_C08 [a; b; c] = false ->
  (* == *)
  veq a a = true /\ veq a b = veq b a /\ (veq a b = true -> veq b c = true -> veq a c = true) /\
  (* cmp *)
  vcmp b a = CompOpp (vcmp a b) /\ T4 (vcmp a b) (vcmp b c) (vcmp a c) /\ (vcmp a b = Eq <-> veq a b = true) /\
  vpcmp a b = Some (vcmp a b) /\
  (* hash *)
  (veq a b = true -> vhash a = vhash b) /\
  (* clone, owned *)
  (forall os k, try_clone os a k = Ok (a, k) /\ try_to_owned os a k = Ok (a, k)) /\
  (* signature *)
  (wfb a = true -> has_type (value_signature a) a).
Proof.
  intros a b c K. apply Known_inv in K as ((Na & Nb & Nc) & (Fa & Fb & Fc)).
  split; [apply veq_refl; exact Na|]. split; [apply veq_sym|]. split; [apply veq_trans|].
  split; [apply vcmp_dual|]. split; [apply ord_trans_partial; assumption|].
  split; [apply ord_consistent_partial; assumption|]. split; [apply vpcmp_vcmp; assumption|].
  split; [apply veq_hash|]. split; [|apply wfb_has_type].
  intros os k. split; [apply try_clone_fdfree | apply try_to_owned_fdfree]; exact Fa.
Qed.

Lemma clone_eq_partial os v k r k' : has_nan v = false -> has_fd v = false ->
  (try_clone os v k = Ok (r, k') \/ try_to_owned os v k = Ok (r, k')) -> veq r v = true /\ r = v.
Proof.
  intros Hn Hf E. rewrite try_clone_fdfree, try_to_owned_fdfree in E by assumption.
  destruct E as [[= <- <-]|[= <- <-]]; (split; [apply veq_refl, Hn | reflexivity]).
Qed.

Example ex_hash_zero : veq nested nested' = true /\ nested <> nested' /\ vhash nested = vhash nested'.
Proof.
  assert (E : veq nested nested' = true) by (vm_compute; reflexivity).
  split; [exact E|]. split; [discriminate | exact (veq_hash _ _ E)].
Qed.

Example ex_known_free : Known_C08 [nested; nested'; VArray SU8 []] = false /\ wfb nested = true.
Proof. vm_compute. split; reflexivity. Qed.

(* was a defect before fix: commit 668536e1 (the second append overwrote the first entry): a Dict keyed by signatures
   now keeps both entries, ordered by kind *)
Example ex_dict_sigkeys :
  exists d1, dict_append (VDict SSig SU8 []) (VSig SU8) (VU8 1) = Ok d1 /\
             dict_append d1 (VSig SBool) (VU8 2) = Ok (VDict SSig SU8 [(VSig SU8, VU8 1); (VSig SBool, VU8 2)]).
Proof. exists (VDict SSig SU8 [(VSig SU8, VU8 1)]). split; reflexivity. Qed.

Example ex_sig_order : vcmp (VSig SU8) (VSig SBool) = Lt /\ vcmp (VArray SU8 []) (VArray SBool []) = Lt /\
                       vcmp (VSig (SStruct [SU8])) (VSig SU8) = Gt.
Proof. vm_compute. repeat split; reflexivity. Qed.

Example ex_conv :
  let x := XMap SStr (SArray SVariant) [(XStr (B "a"), XVec SVariant [XVal (VU8 1); XVal (VValue (VStr (B "x")))]);
                                        (XStr (B "b"), XVec SVariant [])] in
  wt (SDict SStr (SArray SVariant)) x = true /\ tuple_variant x = false /\
  into_value x = VDict SStr (SArray SVariant)
                   [(VStr (B "a"), VArray SVariant [VValue (VU8 1); VValue (VValue (VStr (B "x")))]); (VStr (B "b"), VArray SVariant [])].
Proof. vm_compute. repeat split; reflexivity. Qed.

Example ex_owned_fd : try_to_owned (fun k => Some (100 + Z.of_nat k)%Z) (VStruct [VFd false 3; VU8 1]) 0
                      = Ok (VStruct [VFd true 100; VU8 1], 1%nat).
Proof. reflexivity. Qed.
