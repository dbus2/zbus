(* C08/Clone.v — try_clone / try_to_owned: a value without descriptors is returned as it is, and the signature
   never changes.  Typing: a well-formed value is typed by its reported signature, and the constructors of the
   public API build well-formed values. *)
From ZV Require Import Base.Bytes Base.Res Base.WinnowFacts C08.Model C08.Spec C08.Algebra C08.SigFacts C08.ValueFacts.

Lemma mapS_id {A : Type} (w : A -> nat -> res verr (A * nat)) l :
  Forall (fun x => forall k, w x k = Ok (x, k)) l -> forall k, mapS w l k = Ok (l, k).
Proof.
  induction 1 as [|x l Hx _ IH]; intros k; simpl; [reflexivity|]. rewrite Hx. simpl. rewrite IH. reflexivity.
Qed.

Lemma mapS_map {A B : Type} (w : A -> nat -> res verr (A * nat)) (f : A -> B) l :
  Forall (fun x => forall k r k', w x k = Ok (r, k') -> f r = f x) l ->
  forall k l' k', mapS w l k = Ok (l', k') -> map f l' = map f l.
Proof.
  induction 1 as [|x l Hx _ IH]; intros k l' k'; simpl.
  - intros E. injection E as <- <-. reflexivity.
  - destruct (w x k) as [[x' k1]|e|p] eqn:E1; simpl; try discriminate.
    destruct (mapS w l k1) as [[r' k2]|e|p] eqn:E2; simpl; try discriminate.
    intros E. injection E as <- <-. simpl. f_equal; eauto.
Qed.

Section Walk.
  Variable fc : bool -> Z -> nat -> res verr (value * nat).
  Hypothesis fc_fd : forall o n k r k', fc o n k = Ok (r, k') -> exists o' n', r = VFd o' n'.

  Lemma walk_fdfree : forall v, has_fd v = false -> forall k, walk fc v k = Ok (v, k).
  Proof.
    induction v using value_ind'; intros Hf k0; simpl in *; try reflexivity; try discriminate.
    - rewrite IHv; auto.
    - apply existsb_false in Hf. rewrite (mapS_id _ _ (Forall_mp _ _ _ H Hf)). reflexivity.
    - apply existsb_false in Hf. rewrite mapS_id; [reflexivity|].
      refine (Forall_mp _ _ _ _ Hf). eapply Forall_impl; [|exact H].
      intros [a1 a2] [H1 H2] [F1 F2]%orb_false_iff k1. simpl in *. rewrite H1; auto. simpl. rewrite H2; auto.
    - apply existsb_false in Hf. rewrite (mapS_id _ _ (Forall_mp _ _ _ H Hf)). reflexivity.
  Qed.

  Lemma walk_sig : forall v k r k', walk fc v k = Ok (r, k') -> value_signature r = value_signature v.
  Proof.
    induction v using value_ind'; intros k0 r k' E; simpl in E;
      try (injection E as <- <-; reflexivity).
    - destruct (walk fc v k0) as [[x' k1]|e|p]; simpl in E; try discriminate. injection E as <- <-. reflexivity.
    - destruct (mapS (walk fc) l k0) as [[l' k1]|e|p]; simpl in E; try discriminate. injection E as <- <-. reflexivity.
    - destruct (mapS _ l k0) as [[l' k1]|e|p]; simpl in E; try discriminate.
      injection E as <- <-. reflexivity.
    - destruct (mapS (walk fc) l k0) as [[l' k1]|e|p] eqn:E1; simpl in E; try discriminate. injection E as <- <-.
      simpl. f_equal. eapply mapS_map; [|exact E1]. exact H.
    - apply fc_fd in E as (o' & n' & ->). reflexivity.
  Qed.
End Walk.

Lemma try_clone_fdfree os v k : has_fd v = false -> try_clone os v k = Ok (v, k).
Proof. intros Hf. apply walk_fdfree, Hf. Qed.
Lemma try_to_owned_fdfree os v k : has_fd v = false -> try_to_owned os v k = Ok (v, k).
Proof. intros Hf. apply walk_fdfree, Hf. Qed.
Lemma try_clone_sig os v k r k' : try_clone os v k = Ok (r, k') -> value_signature r = value_signature v.
Proof.
  apply walk_sig. intros o n k0 r0 k0'. destruct o; unfold dup; try destruct (os k0); simpl; intros E; try discriminate;
    injection E as <- <-; eauto.
Qed.
Lemma try_to_owned_sig os v k r k' : try_to_owned os v k = Ok (r, k') -> value_signature r = value_signature v.
Proof.
  apply walk_sig. intros o n k0 r0 k0'. unfold dup; destruct (os k0); simpl; intros E; try discriminate;
    injection E as <- <-; eauto.
Qed.

Lemma wfb_has_type : forall v, wfb v = true -> has_type (value_signature v) v.
Proof.
  induction v using value_ind'; intros W; simpl in *; try constructor.
  - econstructor. apply IHv. exact W.
  - rewrite forallb_forall in W. apply Forall_forall. intros x Hx. rewrite Forall_forall in H.
    specialize (W x Hx). apply andb_true_iff in W as [W1 W2]. apply sig_eqb_eq in W2. subst. auto.
  - rewrite forallb_forall in W. apply Forall_forall. intros [a1 a2] Hx. rewrite Forall_forall in H.
    specialize (W _ Hx). specialize (H _ Hx) as [H1 H2]. simpl in *.
    apply andb_true_iff in W as [W W4]. apply andb_true_iff in W as [W W3]. apply andb_true_iff in W as [W1 W2].
    apply sig_eqb_eq in W3. apply sig_eqb_eq in W4. subst. auto.
  - apply andb_true_iff in W as [W _]. induction H as [|x l Hx _ IH]; simpl in *; [constructor|].
    apply andb_true_iff in W as [W1 W2]. constructor; auto.
  - apply andb_true_iff in W as [_ W]. destruct l; [discriminate|congruence].
Qed.

Lemma array_append_wf a e a' : wfb a = true -> wfb e = true -> array_append a e = Ok a' -> wfb a' = true.
Proof.
  destruct a; simpl; try discriminate. intros Wa We.
  destruct (sig_eqb (value_signature e) elem) eqn:E; simpl; try discriminate.
  intros H. injection H as <-. simpl. rewrite forallb_app, Wa. simpl. rewrite We, E. reflexivity.
Qed.

Lemma bt_insert_wf ks vs k v m :
  (wfb k && wfb v && sig_eqb (value_signature k) ks && sig_eqb (value_signature v) vs) = true ->
  wfb (VDict ks vs m) = true -> wfb (VDict ks vs (bt_insert k v m)) = true.
Proof.
  intros Hkv. simpl. induction m as [|[k0 v0] m IH]; simpl.
  - intros _. rewrite Hkv. reflexivity.
  - rewrite andb_true_iff. intros [H0 Hm]. destruct (vcmp k k0); simpl.
    + rewrite Hm, andb_true_r. rewrite !andb_true_iff in *. intuition.
    + rewrite Hkv, H0, Hm. reflexivity.
    + rewrite H0. simpl. apply IH. exact Hm.
Qed.

Lemma dict_append_wf d k v d' : wfb d = true -> wfb k = true -> wfb v = true -> dict_append d k v = Ok d' -> wfb d' = true.
Proof.
  destruct d; simpl; try discriminate. intros Wd Wk Wv.
  destruct (sig_eqb (value_signature k) ksig) eqn:E1; simpl; try discriminate.
  destruct (sig_eqb (value_signature v) vsig) eqn:E2; simpl; try discriminate.
  intros H. injection H as <-. apply bt_insert_wf; [|exact Wd]. rewrite Wk, Wv, E1, E2. reflexivity.
Qed.

Lemma struct_build_wf l s : forallb wfb l = true -> struct_build l = Ok s -> wfb s = true.
Proof. destruct l; simpl; try discriminate. intros W H. injection H as <-. simpl. rewrite W. reflexivity. Qed.
