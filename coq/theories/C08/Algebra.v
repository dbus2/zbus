(* C08/Algebra.v — algebra of three-way comparison results and of the list combinators of Model.v
   (cthen / othen / lex / lex_p / list_eqb), stated point-wise so that they can be used under the nested
   induction principles of [sig] and [value]. *)
From ZV Require Import Base.Bytes C08.Model C08.Spec.

Lemma Forall_all {A : Type} (P : A -> Prop) l : (forall x, P x) -> Forall P l.
Proof. intros H. induction l; constructor; auto. Qed.

Lemma Forall_mp {A : Type} (P Q : A -> Prop) l : Forall (fun x => P x -> Q x) l -> Forall P l -> Forall Q l.
Proof. induction 1; intros Hp; inversion Hp; constructor; auto. Qed.

Lemma CompOpp_cthen a b : CompOpp (cthen a b) = cthen (CompOpp a) (CompOpp b).
Proof. destruct a; reflexivity. Qed.

Lemma cthen_Eq a b : cthen a b = Eq <-> a = Eq /\ b = Eq.
Proof. destruct a; simpl; intuition congruence. Qed.

Lemma ceqb_eq a b : ceqb a b = true <-> a = b.
Proof. destruct a, b; simpl; intuition congruence. Qed.

Lemma t4b_T4 a b c : t4b a b c = true <-> T4 a b c.
Proof.
  split.
  - destruct a, b, c; simpl; intro H; try discriminate H; unfold T4; repeat split; intros; congruence.
  - intros (H1 & H2 & H3 & H4). destruct a, b, c; simpl; try reflexivity; exfalso;
      first [discriminate (H1 eq_refl) | discriminate (H2 eq_refl) | discriminate (H3 eq_refl eq_refl)
            | discriminate (H4 eq_refl eq_refl)].
Qed.

Lemma T4_refl_Eq : T4 Eq Eq Eq.
Proof. apply t4b_T4. reflexivity. Qed.

(* lexicographic composition; T4 being decidable, by cases on the first components *)
Lemma T4_cthen a b c a' b' c' :
  T4 a b c -> (a = Eq -> b = Eq -> T4 a' b' c') -> T4 (cthen a a') (cthen b b') (cthen c c').
Proof.
  rewrite <- !t4b_T4. destruct a, b, c; simpl; try discriminate; intros _ H'.
  1: apply H'; reflexivity.
  all: destruct a', b', c'; reflexivity.
Qed.

Lemma T4_Zcompare x y z : T4 (x ?= y)%Z (y ?= z)%Z (x ?= z)%Z.
Proof.
  repeat split.
  - intros ->%Z.compare_eq. reflexivity.
  - intros ->%Z.compare_eq. reflexivity.
  - apply Z.lt_trans.
  - apply Zcompare_Gt_trans.
Qed.

Lemma T4_Ncompare x y z : T4 (x ?= y)%N (y ?= z)%N (x ?= z)%N.
Proof. rewrite <- !N2Z.inj_compare. apply T4_Zcompare. Qed.

Section ListEqb.
  Context {A : Type} (e : A -> A -> bool).

  Lemma list_eqb_refl xs : Forall (fun x => e x x = true) xs -> list_eqb e xs xs = true.
  Proof. induction 1; simpl; [reflexivity|]. rewrite H, IHForall. reflexivity. Qed.

  Lemma list_eqb_length xs : forall ys, list_eqb e xs ys = true -> length xs = length ys.
  Proof.
    induction xs as [|x xs IH]; intros [|y ys]; simpl; try congruence.
    rewrite andb_true_iff. intros [_ H]. f_equal. auto.
  Qed.

  Lemma list_eqb_map {B : Type} (f : A -> B) xs :
    Forall (fun x => forall y, e x y = true -> f x = f y) xs ->
    forall ys, list_eqb e xs ys = true -> map f xs = map f ys.
  Proof.
    induction 1 as [|x xs Hx _ IH]; intros [|y ys]; simpl; try congruence.
    rewrite andb_true_iff. intros [H1 H2]. f_equal; auto.
  Qed.

  Lemma list_eqb_Forall (p : A -> Prop) xs :
    Forall (fun x => forall y, e x y = true -> p x /\ p y) xs ->
    forall ys, list_eqb e xs ys = true -> Forall p xs /\ Forall p ys.
  Proof.
    induction 1 as [|x xs Hx _ IH]; intros [|y ys]; simpl; try congruence; [split; constructor|].
    rewrite andb_true_iff. intros [H1 H2]. destruct (Hx y H1), (IH ys H2). split; constructor; assumption.
  Qed.

  Lemma list_eqb_eq xs :
    Forall (fun x => forall y, e x y = true <-> x = y) xs -> forall ys, list_eqb e xs ys = true <-> xs = ys.
  Proof.
    induction 1 as [|x xs Hx _ IH]; intros [|y ys]; simpl; try (intuition congruence).
    rewrite andb_true_iff, Hx, IH. intuition congruence.
  Qed.
End ListEqb.

Section Lex.
  Context {A : Type} (c : A -> A -> comparison).

  Lemma lex_T4 xs :
    Forall (fun x => forall y z, T4 (c x y) (c y z) (c x z)) xs ->
    forall ys zs, T4 (lex c xs ys) (lex c ys zs) (lex c xs zs).
  Proof.
    induction 1 as [|x xs Hx _ IH]; intros [|y ys] [|z zs]; simpl;
      try (unfold T4; intuition congruence).
    apply T4_cthen; [apply Hx | intros; apply IH].
  Qed.

  Lemma lex_dual xs :
    Forall (fun x => forall y, c y x = CompOpp (c x y)) xs -> forall ys, lex c ys xs = CompOpp (lex c xs ys).
  Proof.
    induction 1 as [|x xs Hx _ IH]; intros [|y ys]; simpl; try reflexivity.
    rewrite CompOpp_cthen, Hx, IH. reflexivity.
  Qed.

  Lemma lex_Eq (e : A -> A -> bool) xs :
    Forall (fun x => forall y, c x y = Eq <-> e x y = true) xs ->
    forall ys, lex c xs ys = Eq <-> list_eqb e xs ys = true.
  Proof.
    induction 1 as [|x xs Hx _ IH]; intros [|y ys]; simpl; try (intuition congruence).
    rewrite cthen_Eq, andb_true_iff, Hx, IH. reflexivity.
  Qed.

  Lemma lex_refl xs : Forall (fun x => c x x = Eq) xs -> lex c xs xs = Eq.
  Proof. induction 1; simpl; [reflexivity|]. rewrite H, IHForall. reflexivity. Qed.

  Lemma lex_ext (d : A -> A -> comparison) xs :
    Forall (fun x => forall y, c x y = d x y) xs -> forall ys, lex c xs ys = lex d xs ys.
  Proof. induction 1 as [|x xs Hx _ IH]; intros [|y ys]; simpl; try reflexivity. rewrite Hx, IH. reflexivity. Qed.
End Lex.

Definition oopp (o : option comparison) : option comparison := option_map CompOpp o.

Lemma oopp_othen a b : oopp (othen a b) = othen (oopp a) (oopp b).
Proof. destruct a as [[]|]; reflexivity. Qed.

Lemma othen_Some o k : othen (Some o) (Some k) = Some (cthen o k).
Proof. destruct o; reflexivity. Qed.

Section LexP.
  Context {A : Type} (c : A -> A -> option comparison).

  Lemma lex_p_dual xs :
    Forall (fun x => forall y, c y x = oopp (c x y)) xs -> forall ys, lex_p c ys xs = oopp (lex_p c xs ys).
  Proof.
    induction 1 as [|x xs Hx _ IH]; intros [|y ys]; simpl; try reflexivity.
    rewrite oopp_othen, Hx, IH. reflexivity.
  Qed.
End LexP.
