(* C08/SigFacts.v — facts about Signature's PartialEq / Ord (Model.sig_eqb, sig_cmp) and about the reference
   order on signatures (Spec.sig_tcmp). *)
From ZV Require Import Base.Bytes Base.Sig C08.Model C08.Spec C08.Algebra.

Lemma sig_eqb_eq : forall a b, sig_eqb a b = true <-> a = b.
Proof.
  induction a using sig_ind'; intros b; destruct b; try (split; intros E; (discriminate E || reflexivity)); simpl.
  - rewrite IHa. intuition congruence.
  - rewrite andb_true_iff, IHa1, IHa2. intuition congruence.
  - rewrite (list_eqb_eq sig_eqb fs H). intuition congruence.
  - rewrite IHa. intuition congruence.
Qed.

Lemma sigs_eqb_eq xs ys : list_eqb sig_eqb xs ys = true <-> xs = ys.
Proof. apply list_eqb_eq, Forall_all, sig_eqb_eq. Qed.

(* the reference order compares the kinds first, the children of equal kinds second *)
Definition sig_tpay (a b : sig) : comparison :=
  match a, b with
  | SArray x, SArray y => sig_tcmp x y
  | SDict k v, SDict k' v' => cthen (sig_tcmp k k') (sig_tcmp v v')
  | SStruct xs, SStruct ys => lex sig_tcmp xs ys
  | SMaybe x, SMaybe y => sig_tcmp x y
  | _, _ => Eq
  end.

Lemma sig_tcmp_unfold a b : sig_tcmp a b = cthen (sig_rank a ?= sig_rank b)%Z (sig_tpay a b).
Proof. destruct a; reflexivity. Qed.

Lemma sig_tcmp_dual : forall a b, sig_tcmp b a = CompOpp (sig_tcmp a b).
Proof.
  induction a using sig_ind'; intros b; destruct b; simpl; try reflexivity.
  - apply IHa.
  - rewrite IHa1, IHa2, CompOpp_cthen. reflexivity.
  - apply lex_dual. exact H.
  - apply IHa.
Qed.

Lemma sig_tcmp_Eq : forall a b, sig_tcmp a b = Eq <-> a = b.
Proof.
  induction a using sig_ind'; intros b; destruct b; try (split; intros E; (discriminate E || reflexivity)); simpl.
  - rewrite IHa. intuition congruence.
  - rewrite cthen_Eq, IHa1, IHa2. intuition congruence.
  - rewrite (lex_Eq sig_tcmp sig_eqb), sigs_eqb_eq; [intuition congruence|].
    eapply Forall_impl; [|exact H]. simpl. intros a Ha y. rewrite Ha, sig_eqb_eq. reflexivity.
  - rewrite IHa. intuition congruence.
Qed.

Lemma rank_eq_cases a b : (sig_rank a ?= sig_rank b)%Z = Eq -> sig_rank a = sig_rank b.
Proof. apply Z.compare_eq. Qed.

Lemma sig_tcmp_T4 : forall a b c, T4 (sig_tcmp a b) (sig_tcmp b c) (sig_tcmp a c).
Proof.
  induction a using sig_ind'; intros b c; rewrite (sig_tcmp_unfold _ b), (sig_tcmp_unfold b c), (sig_tcmp_unfold _ c);
    (apply T4_cthen; [apply T4_Zcompare|]); intros Hab%rank_eq_cases Hbc%rank_eq_cases;
    destruct b; try discriminate Hab; destruct c; try discriminate Hbc; try apply T4_refl_Eq.
  - apply IHa.
  - apply T4_cthen; [apply IHa1 | intros; apply IHa2].
  - apply lex_T4. exact H.
  - apply IHa.
Qed.

(* impl Ord for Signature (after fix: commit 668536e1) IS the reference order *)
Lemma sig_cmp_tcmp : forall a b, sig_cmp a b = sig_tcmp a b.
Proof.
  induction a using sig_ind'; intros b; destruct b; try reflexivity.
  - apply IHa.
  - simpl. rewrite IHa1, IHa2. destruct (sig_tcmp a1 b1); reflexivity.
  - simpl. apply lex_ext. exact H.
  - apply IHa.
Qed.

Lemma sig_cmp_refl a : sig_cmp a a = Eq.
Proof. rewrite sig_cmp_tcmp. apply sig_tcmp_Eq. reflexivity. Qed.
Lemma sig_cmp_dual a b : sig_cmp b a = CompOpp (sig_cmp a b).
Proof. rewrite !sig_cmp_tcmp. apply sig_tcmp_dual. Qed.
Lemma sig_cmp_Eq a b : sig_cmp a b = Eq <-> sig_eqb a b = true.
Proof. rewrite sig_cmp_tcmp, sig_tcmp_Eq, sig_eqb_eq. reflexivity. Qed.
Lemma sig_cmp_T4 a b c : T4 (sig_cmp a b) (sig_cmp b c) (sig_cmp a c).
Proof. rewrite !sig_cmp_tcmp. apply sig_tcmp_T4. Qed.

Lemma sigs_cmp_refl m : lex sig_cmp m m = Eq.
Proof. apply lex_refl, Forall_all, sig_cmp_refl. Qed.
Lemma sigs_cmp_dual m m' : lex sig_cmp m' m = CompOpp (lex sig_cmp m m').
Proof. apply lex_dual, Forall_all. intros a b. apply sig_cmp_dual. Qed.
