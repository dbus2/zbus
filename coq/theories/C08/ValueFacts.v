(* C08/ValueFacts.v — induction principle for [value]; the laws that hold for ALL values and do not need the reference
   order: equal values have equal signatures and feed the Hasher the same tokens, partial_cmp / cmp are antisymmetric.
   (Symmetry and transitivity of == are in Order.v.) *)
From ZV Require Import Base.Bytes Base.WinnowFacts C08.Model C08.Algebra C08.SigFacts.

Section ValueInd.
  Variable P : value -> Prop.
  Hypothesis Hu8 : forall z, P (VU8 z).   Hypothesis Hbool : forall b, P (VBool b).
  Hypothesis Hi16 : forall z, P (VI16 z). Hypothesis Hu16 : forall z, P (VU16 z).
  Hypothesis Hi32 : forall z, P (VI32 z). Hypothesis Hu32 : forall z, P (VU32 z).
  Hypothesis Hi64 : forall z, P (VI64 z). Hypothesis Hu64 : forall z, P (VU64 z).
  Hypothesis Hf64 : forall n m, P (VF64 n m).
  Hypothesis Hstr : forall s, P (VStr s). Hypothesis Hsig : forall s, P (VSig s). Hypothesis Hpath : forall s, P (VPath s).
  Hypothesis Hvalue : forall v, P v -> P (VValue v).
  Hypothesis Harray : forall s l, Forall P l -> P (VArray s l).
  Hypothesis Hdict : forall k v l, Forall (fun p => P (fst p) /\ P (snd p)) l -> P (VDict k v l).
  Hypothesis Hstruct : forall l, Forall P l -> P (VStruct l).
  Hypothesis Hfd : forall o n, P (VFd o n).

  Fixpoint value_ind' (v : value) : P v :=
    match v with
    | VU8 z => Hu8 z | VBool b => Hbool b | VI16 z => Hi16 z | VU16 z => Hu16 z | VI32 z => Hi32 z | VU32 z => Hu32 z
    | VI64 z => Hi64 z | VU64 z => Hu64 z | VF64 n m => Hf64 n m | VStr s => Hstr s | VSig s => Hsig s | VPath s => Hpath s
    | VValue x => Hvalue x (value_ind' x)
    | VArray s l =>
        Harray s l ((fix go (l : list value) : Forall P l :=
                       match l with [] => Forall_nil P | x :: r => Forall_cons x (value_ind' x) (go r) end) l)
    | VDict k vs l =>
        Hdict k vs l ((fix go (l : list (value * value)) : Forall (fun p => P (fst p) /\ P (snd p)) l :=
                         match l with
                         | [] => Forall_nil _
                         | (a, b) :: r => Forall_cons (a, b) (conj (value_ind' a) (value_ind' b)) (go r)
                         end) l)
    | VStruct l =>
        Hstruct l ((fix go (l : list value) : Forall P l :=
                      match l with [] => Forall_nil P | x :: r => Forall_cons x (value_ind' x) (go r) end) l)
    | VFd o n => Hfd o n
    end.
End ValueInd.

(* On dict entries Model.v uses [pair_eqb veq] and [pair_pcmp vpcmp], written out, and this hash. *)
Definition hash2 (p : value * value) : list tok := match p with (a1, a2) => vhash a1 ++ vhash a2 end.

Lemma Forall_pair (P : value -> Prop) (Q : value * value -> Prop) l :
  (forall a b, P a -> P b -> Q (a, b)) -> Forall (fun p => P (fst p) /\ P (snd p)) l -> Forall Q l.
Proof. intros H F. induction F as [|[a b] l [Ha Hb] _ IH]; constructor; auto. Qed.

Lemma f_eq_true n1 m1 n2 m2 :
  f_eq n1 m1 n2 m2 = true <-> f_isnan m1 = false /\ f_isnan m2 = false /\ f_num n1 m1 = f_num n2 m2.
Proof. unfold f_eq. rewrite !andb_true_iff, !negb_true_iff, Z.eqb_eq. apply and_assoc. Qed.

(* only the two zeros have the same number and different bits *)
Lemma f_num_inj n1 m1 n2 m2 : f_num n1 m1 = f_num n2 m2 -> m1 = m2 /\ (m1 = 0%N \/ n1 = n2).
Proof. unfold f_num. destruct n1, n2; lia. Qed.

Lemma f_num_hash n1 m1 n2 m2 : f_num n1 m1 = f_num n2 m2 -> f_hash n1 m1 = f_hash n2 m2.
Proof. intros [<- [->| ->]]%f_num_inj; reflexivity. Qed.

Lemma veq_discr x y : veq x y = true -> discr x = discr y.
Proof. destruct x, y; try reflexivity; discriminate. Qed.

(* [H : veq _ b = true]: only the case where b has the same constructor is left *)
Ltac same_ctor H b :=
  let Hd := fresh "Hd" in
  pose proof (veq_discr _ _ H) as Hd; destruct b; try discriminate Hd; clear Hd.

Lemma veq_sig : forall a b, veq a b = true -> value_signature a = value_signature b.
Proof.
  induction a using value_ind'; intros y Hab; same_ctor Hab y; simpl in *; try reflexivity.
  - apply andb_true_iff in Hab as [_ H2]. apply sig_eqb_eq in H2. congruence.
  - apply andb_true_iff in Hab as [_ H2]. apply andb_true_iff in H2 as [H2 H3].
    apply sig_eqb_eq in H2. apply sig_eqb_eq in H3. congruence.
  - apply andb_true_iff in Hab as [H1 _]. f_equal. eapply list_eqb_map; [|exact H1]. exact H.
Qed.

Lemma veq_sigs xs ys : list_eqb veq xs ys = true -> map value_signature xs = map value_signature ys.
Proof. apply list_eqb_map, Forall_all, veq_sig. Qed.

Lemma veq_hash : forall a b, veq a b = true -> vhash a = vhash b.
Proof.
  induction a using value_ind'; intros y Hab; same_ctor Hab y; simpl in *;
    try (apply Z.eqb_eq in Hab; congruence);
    try (apply lbeq_eq in Hab; congruence).
  - destruct b, b0; simpl in *; congruence.
  - apply f_eq_true in Hab as (_&_&Hn). rewrite (f_num_hash _ _ _ _ Hn). reflexivity.
  - apply sig_eqb_eq in Hab. congruence.
  - rewrite (IHa _ Hab). reflexivity.
  - apply andb_true_iff in Hab as [H1 H2]. apply sig_eqb_eq in H2.
    rewrite (list_eqb_length _ _ _ H1), (list_eqb_map veq vhash l H _ H1), H2. reflexivity.
  - apply andb_true_iff in Hab as [H1 H2]. apply andb_true_iff in H2 as [H2 H3].
    apply sig_eqb_eq in H2. apply sig_eqb_eq in H3. subst.
    assert (F : Forall (fun p => forall q, pair_eqb veq p q = true -> hash2 p = hash2 q) l).
    { apply (Forall_pair (fun a => forall y, veq a y = true -> vhash a = vhash y)); [|exact H].
      intros a b Ha Hb [y1 y2]. simpl. rewrite andb_true_iff. intros [? ?]. f_equal; auto. }
    fold hash2. rewrite (list_eqb_length _ _ _ H1), (list_eqb_map _ hash2 l F _ H1). reflexivity.
  - apply andb_true_iff in Hab as [H1 H2]. apply sigs_eqb_eq in H2.
    rewrite (list_eqb_length _ _ _ H1), (list_eqb_map veq vhash l H _ H1), H2. reflexivity.
Qed.

Lemma f_pcmp_dual n1 m1 n2 m2 : f_pcmp n2 m2 n1 m1 = oopp (f_pcmp n1 m1 n2 m2).
Proof.
  unfold f_pcmp. rewrite (orb_comm (f_isnan m2)). destruct (f_isnan m1 || f_isnan m2); simpl; [reflexivity|].
  rewrite Z.compare_antisym. reflexivity.
Qed.

Lemma bytes_cmp_dual a b : bytes_cmp b a = CompOpp (bytes_cmp a b).
Proof. apply lex_dual, Forall_all. intros x y. apply N.compare_antisym. Qed.

Lemma vpcmp_dual : forall a b, vpcmp b a = oopp (vpcmp a b).
Proof.
  induction a using value_ind'; intros y; destruct y; try reflexivity; simpl;
    try (rewrite Z.compare_antisym; reflexivity);
    try (rewrite bytes_cmp_dual; reflexivity).
  - destruct b, b0; reflexivity.
  - apply f_pcmp_dual.
  - rewrite sig_cmp_dual. reflexivity.
  - apply IHa.
  - rewrite oopp_othen, (lex_p_dual vpcmp l H). simpl. rewrite (sig_cmp_dual s). reflexivity.
  - rewrite oopp_othen. f_equal.
    + apply (lex_p_dual (pair_pcmp vpcmp)).
      apply (Forall_pair (fun a => forall y, vpcmp y a = oopp (vpcmp a y))); [|exact H].
      intros a b Ha Hb [y1 y2]. simpl. rewrite oopp_othen, Ha, Hb. reflexivity.
    + simpl. rewrite (sig_cmp_dual k), (sig_cmp_dual v). destruct (sig_cmp k _); reflexivity.
  - rewrite oopp_othen, (lex_p_dual vpcmp l H). simpl. f_equal. f_equal.
    apply sigs_cmp_dual.
Qed.

Lemma vcmp_dual a b : vcmp b a = CompOpp (vcmp a b).
Proof.
  unfold vcmp. rewrite vpcmp_dual. destruct (vpcmp a b) eqn:E; simpl; [reflexivity|].
  destruct a, b; try reflexivity. unfold f_total. apply Z.compare_antisym.
Qed.
