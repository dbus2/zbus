(* C08/Conv.v — T::try_from(Value::from(x)) = Ok(x) for every x of a type of the fragment that has no tuple with a
   Value member (the known class [tuple_variant]). *)
From ZV Require Import Base.Bytes Base.Res Base.Sig Base.WinnowFacts C08.Model C08.Spec C08.SigFacts C08.ValueFacts C08.Order.

(* BTreeMap::from_iter of strictly ascending keys is the identity *)
Fixpoint adj (l : list (value * value)) : Prop :=
  match l with
  | x :: ((y :: _) as r) => vcmp (fst x) (fst y) = Lt /\ adj r
  | _ => True
  end.

Lemma adj_mid p : forall y x q, adj (p ++ y :: x :: q) -> vcmp (fst y) (fst x) = Lt.
Proof.
  induction p as [|a p IH]; intros y x q; simpl.
  - intros [H _]. exact H.
  - destruct (p ++ y :: x :: q) eqn:E.
    + destruct p; discriminate E.
    + intros [_ H]. rewrite <- E in H. eapply IH. exact H.
Qed.

Lemma sift_sorted : forall l acc, adj (rev acc ++ l) -> fold_left (fun r x => sift x r) l acc = rev l ++ acc.
Proof.
  induction l as [|x l IH]; intros acc H; simpl; [reflexivity|].
  assert (E : sift x acc = x :: acc).
  { destruct acc as [|y r]; [reflexivity|]. simpl in *.
    rewrite <- app_assoc in H. simpl in H. apply adj_mid in H.
    rewrite vcmp_dual, H. reflexivity. }
  rewrite E, IH.
  - rewrite <- app_assoc. reflexivity.
  - simpl. rewrite <- app_assoc. exact H.
Qed.

Lemma dedup_sorted : forall l, adj l -> dedup_last l = l.
Proof.
  induction l as [|x l IH]; [reflexivity|]. destruct l as [|y r]; [reflexivity|].
  intros [H1 H2]. change (dedup_last (x :: y :: r)) with (if veq (fst x) (fst y) then dedup_last (y :: r) else x :: dedup_last (y :: r)).
  destruct (veq (fst x) (fst y)) eqn:E.
  - apply veq_vcmp in E. congruence.
  - rewrite IH; auto.
Qed.

Lemma bt_from_iter_sorted l : adj l -> bt_from_iter l = l.
Proof.
  intros H. unfold bt_from_iter. rewrite sift_sorted; [|exact H]. rewrite app_nil_r, rev_involutive. apply dedup_sorted. exact H.
Qed.

Definition conv2 (p : sv * sv) : value * value := match p with (a1, a2) => (vnew a1, vnew a2) end.

Lemma keys_sorted_adj l : keys_sorted l = true -> adj (map conv2 l).
Proof.
  induction l as [|[k1 v1] l IH]; simpl; [trivial|]. destruct l as [|[k2 v2] r]; simpl; [trivial|].
  rewrite andb_true_iff. intros [H1 H2]. split.
  - destruct (vcmp (vnew k1) (vnew k2)); congruence.
  - apply IH. exact H2.
Qed.

Lemma mapM_map {A B C : Type} (f : B -> res verr C) (g : A -> B) (h : A -> C) l :
  Forall (fun x => f (g x) = Ok (h x)) l -> mapM f (map g l) = Ok (map h l).
Proof. induction 1 as [|x l Hx _ IH]; simpl; [reflexivity|]. rewrite Hx. simpl. rewrite IH. reflexivity. Qed.

(* members: Value::new on the way in, one level of unboxing on the way out *)
Lemma unwrap_vnew t x :
  tuple_variant x = false -> from_value t (into_value x) = Ok x -> from_value t (unwrap1 (vnew x)) = Ok x.
Proof.
  intros Ht IH. unfold vnew. destruct (boxed_by_new x) eqn:B.
  - destruct x; try discriminate B; [exact IH|].
    destruct l as [|[] [|]]; try discriminate B. discriminate Ht.
  - destruct x; try exact IH. discriminate B.
Qed.

Lemma tuple_member x :
  (match x with XVal _ => true | _ => tuple_variant x end) = false -> vnew x = into_value x /\ tuple_variant x = false.
Proof.
  intros H. unfold vnew. destruct x; try (split; [reflexivity|exact H]); try discriminate H.
  simpl in H. split; [|exact H]. destruct l as [|[] [|]]; try reflexivity. discriminate H.
Qed.

Theorem conv_roundtrip : forall t x, wt t x = true -> tuple_variant x = false -> from_value t (into_value x) = Ok x.
Proof.
  induction t using sig_ind'; intros x W T; destruct x; try discriminate W; try reflexivity.
  - (* Vec<T> *)
    simpl in W, T. apply andb_true_iff in W as [W1 W2]. apply sig_eqb_eq in W1. subst.
    simpl. change (fun e => if boxed_by_new e then VValue (into_value e) else into_value e) with vnew.
    rewrite (mapM_map (fun e => from_value t0 (unwrap1 e)) vnew (fun e => e) l).
    + rewrite map_id. reflexivity.
    + rewrite forallb_forall in W2. apply existsb_false in T. rewrite Forall_forall in T. apply Forall_forall.
      intros e He. apply unwrap_vnew; auto.
  - (* HashMap<K, V> *)
    simpl in W, T. apply andb_true_iff in W as [W W4]. apply andb_true_iff in W as [W W3].
    apply andb_true_iff in W as [W1 W2]. apply sig_eqb_eq in W1. apply sig_eqb_eq in W2. subst.
    simpl.
    change (map _ l) with (map conv2 l).
    rewrite (bt_from_iter_sorted _ (keys_sorted_adj _ W4)).
    rewrite (mapM_map _ conv2 (fun p => p) l).
    + rewrite map_id. reflexivity.
    + rewrite forallb_forall in W3. apply existsb_false in T. rewrite Forall_forall in T. apply Forall_forall.
      intros [a1 a2] He. specialize (W3 _ He). specialize (T _ He). simpl in *.
      apply andb_true_iff in W3 as [? ?]. apply orb_false_iff in T as [? ?].
      rewrite unwrap_vnew; auto. simpl. rewrite unwrap_vnew; auto.
  - (* tuples *)
    simpl in W, T. apply andb_true_iff in W as [W _].
    simpl. change (fun e => if boxed_by_new e then VValue (into_value e) else into_value e) with vnew.
    assert (E : forall fs0, Forall (fun t => forall x, wt t x = true -> tuple_variant x = false ->
                                              from_value t (into_value x) = Ok x) fs0 ->
                forall l0, list_eqb wt fs0 l0 = true ->
                existsb (fun e => match e with XVal _ => true | _ => tuple_variant e end) l0 = false ->
                (fix go (ts : list sig) (fs : list value) {struct ts} : res verr (list sv) :=
                   match ts with
                   | [] => Ok []
                   | t0 :: ts' =>
                       match fs with
                       | [] => Panic PIndex
                       | f :: fs' => let* x := from_value t0 f in let* r := go ts' fs' in Ok (x :: r)
                       end
                   end) fs0 (map vnew l0) = Ok l0).
    { clear. induction 1 as [|t0 ts Ht _ IH]; intros [|x0 l1]; simpl; try discriminate; [reflexivity|].
      rewrite andb_true_iff, orb_false_iff. intros [W1 W2] [T1 T2].
      apply tuple_member in T1 as [E1 E2]. rewrite E1, (Ht x0 W1 E2). simpl. rewrite IH; auto. }
    rewrite (E fs H l W T). reflexivity.
Qed.
