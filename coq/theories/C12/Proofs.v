(* C12/Proofs.v — no input makes message creation or any accessor of an accepted message panic. *)
From ZV Require Import Base.Bytes Base.Res Base.Sig C10.Model C11.Model C11.Invariants C12.Spec.
From Coq Require Import Lia ZifyBool ZifyN ZifyNat.
Open Scope N_scope.

Lemma bind_no_panic {E A B} (r : res E A) (f : A -> res E B) p :
  r <> Panic p -> (forall a, r = Ok a -> f a <> Panic p) -> bind r f <> Panic p.
Proof. intros Hr Hf H. apply bind_panic in H as [H|(a & Ha & H)]; [exact (Hr H) | exact (Hf a Ha H)]. Qed.

Lemma from_raw_parts_no_panic ctx b p : from_raw_parts ctx b <> Panic p.
Proof.
  unfold from_raw_parts. destruct b as [|b0 r]; [discriminate|].
  destruct (endian_of_byte b0); [|discriminate]. destruct (negb _); [discriminate|].
  apply bind_no_panic; [apply de_primary_no_panic | intros [ph size] Hp].
  (* the two assertions hold: the primary header is 12 bytes long and they are there *)
  apply de_primary_ok in Hp as (-> & Hlen & _). cbn [N.eqb negb Pos.eqb].
  unfold data_slice. replace (len (b0 :: r) <? 12) with false by lia. cbn [bind].
  apply bind_no_panic; [apply de_u32_no_panic | intros [fl q] _].
  apply bind_no_panic; [apply de_fields_no_panic | intros [fs q'] _].
  cbv zeta. destruct (_ <? _); discriminate.
Qed.

(* an accepted message: its cached fields denote valid names found in the buffer, and the body offset lies inside it *)
Lemma from_raw_parts_ok ctx b m : from_raw_parts ctx b = Ok m ->
  m_bytes m = b /\ m_body_offset m <= len b /\ exists fs, fields_inv b fs /\ m_qf m = quick_fields b fs.
Proof.
  unfold from_raw_parts. destruct b as [|b0 r]; [discriminate|].
  destruct (endian_of_byte b0); [|discriminate]. destruct (negb _); [discriminate|].
  intros H. apply bind_ok in H. destruct H as ([ph size] & Hp & H).
  destruct (negb (size =? 12)); [discriminate|].
  apply bind_ok in H. destruct H as (? & _ & H).
  apply bind_ok in H. destruct H as ([fl q] & _ & H).
  apply bind_ok in H. destruct H as (? & _ & H).
  apply bind_ok in H. destruct H as ([fs q'] & Hf & H). cbv zeta in H.
  destruct (len (b0 :: r) <? _) eqn:E; [discriminate|]. apply N.ltb_ge in E. injection H as <-.
  split; [reflexivity|]. split; [exact E|]. exists fs. split; [eapply de_fields_ok; eauto|reflexivity].
Qed.

Lemma fp_read_valid v b o : ostr_at b o -> ovalid v o -> exists r, fp_read v b (fp_new b o) = Ok r.
Proof.
  destruct o as [[s st]|]; [|intros _ _; eexists; reflexivity].
  cbn [ostr_at ovalid fp_new]. intros (H2 & Hle & Hs & Hu) Hv. unfold fp_build.
  destruct ((st <=? len b) && (st + len s <=? len b) && (st <? two32) && (st + len s <? two32)); [|eexists; reflexivity].
  unfold fp_read.
  destruct ((st <=? 1) && (st + len s =? 0)) eqn:E; [lia|].
  destruct ((st + len s <? st) || (len b <? st + len s)) eqn:E2; [lia|].
  replace (st + len s - st) with (len s) by lia. rewrite Hs, Hu, Hv. eexists. reflexivity.
Qed.

Lemma header_ok ctx b m : from_raw_parts ctx b = Ok m -> exists h, header m = Ok h.
Proof.
  intros Hp. apply from_raw_parts_ok in Hp. destruct Hp as (Hbytes & _ & fs & Hinv & Hq).
  destruct Hinv as (I1 & I2 & I3 & I4 & I5 & I6 & V1 & V2 & V3 & V4 & V5 & V6).
  unfold header. rewrite Hbytes, Hq. cbn [quick_fields q_path q_iface q_member q_errname q_dest q_sender q_reply q_sig q_fds].
  destruct (fp_read_valid validate_object_path b _ I1 V1) as (r1 & ->). cbn [bind].
  destruct (fp_read_valid validate_interface b _ I2 V2) as (r2 & ->). cbn [bind].
  destruct (fp_read_valid validate_member b _ I3 V3) as (r3 & ->). cbn [bind].
  destruct (fp_read_valid validate_error b _ I4 V4) as (r4 & ->). cbn [bind].
  destruct (fp_read_valid validate_bus b _ I5 V5) as (r5 & ->). cbn [bind].
  destruct (fp_read_valid validate_unique b _ I6 V6) as (r6 & ->). cbn [bind].
  eauto.
Qed.

Lemma body_ok ctx b m : from_raw_parts ctx b = Ok m -> exists bd, body m = Ok bd.
Proof.
  intros Hp. apply from_raw_parts_ok in Hp. destruct Hp as (Hbytes & Hoff & _).
  unfold body, data_slice. rewrite Hbytes. destruct (len b <? m_body_offset m) eqn:E; [lia|eauto].
Qed.

Lemma accessors_ok ctx b m : from_raw_parts ctx b = Ok m -> accessors_no_panic m.
Proof.
  intros Hp. destruct (header_ok ctx b m Hp) as (h & Hh). destruct (body_ok ctx b m Hp) as (bd & Hbd).
  unfold accessors_no_panic, no_panic, display, debug_ok, body_deser. rewrite Hh, Hbd. cbn [bind].
  repeat split; intros p; try discriminate.
  destruct (ph_type (m_ph m) =? 1); cbn [bind]; [discriminate|].
  destruct (ph_type (m_ph m) =? 2); cbn [bind]; [discriminate|].
  destruct (ph_type (m_ph m) =? 3); cbn [bind]; discriminate.
Qed.

Theorem nopanic : C12_full_statement.
Proof.
  intros ctx b. split.
  - intros p. apply from_raw_parts_no_panic.
  - intros m Hm. eapply accessors_ok; eauto.
Qed.

(* the loop and nesting bounds of the model are never what stops it: [Err EFuel] is not an outcome of parsing *)
Lemma bind_no_fuel {A B} (r : R A) (f : A -> R B) :
  r <> Err EFuel -> (forall a, f a <> Err EFuel) -> bind r f <> Err EFuel.
Proof. intros Hr Hf H. apply bind_fuel in H as [H|(a & _ & H)]; [exact (Hr H) | exact (Hf a H)]. Qed.

Lemma data_slice_no_fuel b start : data_slice b start <> Err EFuel.
Proof. unfold data_slice. destruct (_ <? _); discriminate. Qed.

Theorem no_fuel ctx b : from_raw_parts ctx b <> Err EFuel.
Proof.
  unfold from_raw_parts. destruct b as [|b0 r]; [discriminate|].
  destruct (endian_of_byte b0); [|discriminate]. destruct (negb _); [discriminate|].
  apply bind_no_fuel; [apply de_primary_quiet | intros [ph size]].
  destruct (negb _); [discriminate|].
  apply bind_no_fuel; [apply data_slice_no_fuel | intros _].
  apply bind_no_fuel; [apply de_u32_quiet | intros [fl q]].
  apply bind_no_fuel; [apply data_slice_no_fuel | intros _].
  apply bind_no_fuel; [apply de_fields_no_fuel | intros [fs q']].
  cbv zeta. destruct (_ <? _); discriminate.
Qed.

(* the former witnesses (known_findings/C12.jsonl, status fixed) are now rejected *)
Definition unhex (s : string) : bytes := match bytes_of_hex (B s) with Some b => b | None => [] end.
(* a method call whose 29-byte field array ends at offset 45; the input stops at 46 instead of 48 *)
Definition wit_short : bytes :=
  unhex "6c01000100000000010000001d00000001016f00040000002f612f6200000000030173000400000050696e670000".
(* MEMBER = "a.b" *)
Definition wit_name : bytes :=
  unhex "6c01000100000000010000001c00000001016f00040000002f612f62000000000301730003000000612e620000000000".
Example former_witnesses_rejected :
  (exists e, from_raw_parts LE [] = Err e) /\ (exists e, from_raw_parts LE wit_short = Err e) /\ (exists e, from_raw_parts LE wit_name = Err e).
Proof. repeat (match goal with |- _ /\ _ => split end); eexists; vm_compute; reflexivity. Qed.

(* non-vacuity: an accepted 124-byte signal: flags 0x0a (one unknown bit), path, an unknown field 200 carrying an array of
   (string, u32) structures, interface, member, signature "u", body 42 *)
Definition ex_msg : bytes :=
  unhex "6c040a0104000000070000006700000001016f00040000002f612f6200000000c8056128737529001c000000000000000100000078000000050000000000000002000000797a000006000000000000000201730003000000612e6200000000000301730001000000530000000000000008016700017500002a000000".
Example ex_accepted : exists m h bd, from_raw_parts LE ex_msg = Ok m /\ header m = Ok h /\ body m = Ok bd.
Proof.
  assert (H : is_ok (from_raw_parts LE ex_msg) = true) by (vm_compute; reflexivity).
  destruct (from_raw_parts LE ex_msg) as [m| |] eqn:E; try discriminate H.
  destruct (header_ok _ _ _ E) as [h Hh], (body_ok _ _ _ E) as [bd Hbd].
  exists m, h, bd. exact (conj eq_refl (conj Hh Hbd)).
Qed.
