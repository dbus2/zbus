(* C39/Proofs.v — the transport closes exactly when the last strong reference goes; replies before, wake-ups after. *)
From ZV Require Import Base.Bytes Base.Res C39.Model C39.Spec.
From Coq Require Import Lia.

(* ---------------------------------------------------------------- list facts *)
Lemma weight_pos k : 1 <= weight k.
Proof. destruct k; cbn; lia. Qed.
Lemma lookup_remove_sumw n l k : lookup n l = Some k -> sumw (remove_h n l) + weight k = sumw l.
Proof.
  induction l as [|[m k'] l IH]; cbn; [discriminate|]. destruct (Nat.eqb n m); [intros H; inversion H; subst; lia|].
  intros H. cbn. specialize (IH H). lia.
Qed.
Lemma lookup_set_pos n l k k' : lookup n l = Some k -> 0 < sumw (set_h n k' l).
Proof.
  destruct l as [|[m k0] l]; cbn; [discriminate|]. intros _. destruct (Nat.eqb n m); cbn; [pose proof (weight_pos k') | pose proof (weight_pos k0)]; lia.
Qed.
Lemma lookup_some_pos n l k : lookup n l = Some k -> 0 < sumw l.
Proof. destruct l as [|[m k'] l]; cbn; [discriminate|]. intros _. pose proof (weight_pos k'). lia. Qed.
Lemma sumw_zero l : sumw l = 0 -> l = [].
Proof. destruct l as [|[m k] l]; [reflexivity|]. cbn. pose proof (weight_pos k). lia. Qed.
Lemma mem_remove_len n l : mem_n n l = true -> length (remove_n n l) + 1 = length l.
Proof.
  unfold mem_n. induction l as [|m l IH]; cbn; [discriminate|]. destruct (Nat.eqb n m); cbn; [lia|]. intros H. specialize (IH H). lia.
Qed.
Lemma sumn_snoc l x : sumn (l ++ [x]) = sumn l + x.
Proof. induction l as [|y l IH]; cbn; lia. Qed.
Lemma zombies_zero l : forallb (Nat.leb 1) l = true -> sumn l = 0 -> l = [].
Proof.
  destruct l as [|x l]; [reflexivity|]. cbn [forallb sumn]. intros H. apply Bool.andb_true_iff in H. destruct H as [H _]. apply Nat.leb_le in H. lia.
Qed.

(* ---------------------------------------------------------------- the reference count and the transport *)
Definition closed_after (ev : list event) (b : bool) : bool := b || existsb is_closed ev.

Definition late_ok (e : event) (closed : bool) : bool :=
  match e with EClosed | EReply _ | ECloseCall => negb closed | EWake _ | EReadDrop => closed end.

Lemma ordered_b_snoc ev e : forall b, ordered_b (ev ++ [e]) b = ordered_b ev b && late_ok e (closed_after ev b).
Proof.
  unfold closed_after. induction ev as [|x ev IH]; intros b.
  - cbn. destruct e, b; reflexivity.
  - destruct x; cbn [app ordered_b existsb is_closed]; rewrite IH; destruct b; cbn; try reflexivity;
      try (now rewrite Bool.andb_false_r); try (now rewrite Bool.orb_true_r; destruct (ordered_b ev true)); auto.
Qed.

Lemma closed_after_snoc ev e b : closed_after (ev ++ [e]) b = closed_after ev b || is_closed e.
Proof. unfold closed_after. rewrite existsb_app. cbn. now rewrite Bool.orb_false_r, Bool.orb_assoc. Qed.

(* one more event, on its side of the closing *)
Lemma snoc_event ev e b : ordered_b ev false = true -> closed_after ev false = b -> late_ok e b = true ->
  ordered_b (ev ++ [e]) false = true /\ closed_after (ev ++ [e]) false = b || is_closed e.
Proof. intros Ho Hc He. now rewrite ordered_b_snoc, closed_after_snoc, Ho, Hc, He. Qed.

(* a cancelled cache task still holds at least one reference *)
Definition Zpos (s : st) : Prop := forallb (Nat.leb 1) (zombies s) = true.

Definition Inv (s : st) : Prop :=
  Zpos s /\ (alive s = true -> 0 < strong s) /\ (alive s = false -> strong s = 0) /\
  ordered_b (events s) false = true /\ closed_after (events s) false = negb (alive s).

(* a reference was given up while ConnectionInner existed: it goes if that was the last one *)
Lemma Inv_settle s : Zpos s -> alive s = true -> ordered_b (events s) false = true -> closed_after (events s) false = false ->
  Inv (settle s).
Proof.
  intros Hz Ha Ho Hc. unfold settle. rewrite Ha. cbn [andb]. destruct (Nat.eqb (strong s) 0) eqn:E0.
  - apply Nat.eqb_eq in E0. destruct (snoc_event _ EClosed _ Ho Hc eq_refl) as [Ho' Hc'].
    repeat split; try assumption; try discriminate. intros _. exact E0.
  - apply Nat.eqb_neq in E0. unfold Inv. rewrite Ha. repeat split; try assumption; try discriminate. intros _. lia.
Qed.

Lemma Inv_live s : Zpos s -> alive s = true -> 0 < strong s -> ordered_b (events s) false = true ->
  closed_after (events s) false = false -> Inv s.
Proof. intros Hz Ha Hs Ho Hc. unfold Inv. rewrite Ha. repeat split; auto; discriminate. Qed.

Lemma Inv_step l s s' : Inv s -> step l s = Some s' -> Inv s'.
Proof.
  intros (Hz & Ha & Hd & Ho & Hc) Hs.
  (* whoever holds a reference keeps ConnectionInner alive *)
  assert (Hlive : 0 < strong s -> alive s = true) by (destruct (alive s); [reflexivity | specialize (Hd eq_refl); lia]).
  assert (Hhandle : forall n k, lookup n (handles s) = Some k -> alive s = true).
  { intros n k El. apply Hlive. pose proof (lookup_some_pos _ _ _ El). unfold strong. lia. }
  assert (Hc1 : alive s = true -> closed_after (events s) false = false) by (intros E; now rewrite Hc, E).
  destruct l as [n src k|n|n|n|n| | |k| |k|n|n|n|]; cbn [step] in Hs.
  - (* LNew *)
    destruct (source_ok (lookup src (handles s)) k && negb (match lookup n (handles s) with Some _ => true | None => false end)) eqn:E; [|discriminate].
    inversion Hs; subst; clear Hs. apply Bool.andb_true_iff in E. destruct E as [E _].
    destruct (lookup src (handles s)) eqn:El; [|discriminate]. apply Hhandle in El.
    apply Inv_live; auto. unfold strong. cbn. pose proof (weight_pos k). lia.
  - (* LDrop *)
    destruct (lookup n (handles s)) as [k|] eqn:El; [|discriminate]. apply Hhandle in El.
    destruct k as [| |r|c| |]; inversion Hs; subst; clear Hs; apply Inv_settle; auto.
    unfold Zpos in *. cbn [zombies upd_z]. destruct c; cbn [started cw]; try exact Hz; now rewrite forallb_app, Hz.
  - (* LAsyncDrop *)
    destruct (lookup n (handles s)) as [k|] eqn:El; [|discriminate]. apply Hhandle in El.
    destruct (leaves_remover k || match k with HStreamAll => true | _ => false end); [|discriminate].
    inversion Hs; subst; clear Hs. apply Inv_settle; auto.
  - (* LCacheStart *)
    destruct (lookup n (handles s)) as [[| | |[| | |]| |]|] eqn:El; try discriminate. inversion Hs; subst; clear Hs.
    pose proof (lookup_set_pos _ _ _ (HProxy CInit) El). apply Hhandle in El. apply Inv_live; auto. unfold strong. cbn. lia.
  - (* LCacheReady *)
    destruct (lookup n (handles s)) as [[| | |[| | |]| |]|] eqn:El; try discriminate. inversion Hs; subst; clear Hs.
    pose proof (lookup_set_pos _ _ _ (HProxy CRun) El). apply Hhandle in El. apply Inv_live; auto. unfold strong. cbn. lia.
  - (* LReap *)
    destruct (zombies s) as [|w z] eqn:Ez; [discriminate|]. inversion Hs; subst; clear Hs.
    unfold Zpos in Hz. rewrite Ez in Hz. cbn [forallb] in Hz. apply Bool.andb_true_iff in Hz. destruct Hz as [Hw Hz]. apply Nat.leb_le in Hw.
    assert (El : alive s = true) by (apply Hlive; unfold strong; rewrite Ez; cbn; lia). apply Inv_settle; auto.
  - (* LRemover *)
    destruct (removers s) as [|r] eqn:Er; [discriminate|]. inversion Hs; subst; clear Hs.
    assert (El : alive s = true) by (apply Hlive; unfold strong; lia). apply Inv_settle; auto.
  - (* LCallIn *)
    destruct (reader s && alive s) eqn:E; [|discriminate]. inversion Hs; subst; clear Hs.
    apply Bool.andb_true_iff in E. destruct E as [_ El]. apply Inv_live; auto.
  - (* LDispatch *)
    destruct (queued s) as [|k q]; [discriminate|]. destruct (alive s) eqn:El; inversion Hs; subst; clear Hs.
    + apply Inv_live; auto. specialize (Ha eq_refl). unfold strong in *. cbn. rewrite app_length. lia.
    + unfold Inv. cbn [alive events upd]. rewrite El. repeat split; try assumption; discriminate.
  - (* LReply *)
    destruct (mem_n k (inflight s)) eqn:Em; [|discriminate]. inversion Hs; subst; clear Hs. pose proof (mem_remove_len _ _ Em).
    assert (El : alive s = true) by (apply Hlive; unfold strong; lia).
    destruct (snoc_event _ (EReply k) _ Ho (Hc1 El) eq_refl). apply Inv_settle; auto.
  - (* LGraceful *)
    destruct (lookup n (handles s)) as [[| | | | |]|] eqn:El; try discriminate. inversion Hs; subst; clear Hs.
    apply Hhandle in El. apply Inv_settle; auto.
  - (* LCloseCall *)
    destruct (lookup n (handles s)) as [[| | | | |]|] eqn:El; try discriminate. inversion Hs; subst; clear Hs.
    apply Hhandle in El. destruct (snoc_event _ ECloseCall _ Ho (Hc1 El) eq_refl). apply Inv_settle; auto.
  - (* LWake *)
    destruct (mem_n n (waiters s) && negb (alive s)) eqn:E; [|discriminate]. inversion Hs; subst; clear Hs.
    apply Bool.andb_true_iff in E. destruct E as [_ E]. apply Bool.negb_true_iff in E. rewrite E in Hc.
    destruct (snoc_event _ (EWake n) _ Ho Hc eq_refl). unfold Inv. cbn [alive events upd]. rewrite E. repeat split; auto; discriminate.
  - (* LReaderDrop *)
    destruct (reader s && negb (alive s)) eqn:E; [|discriminate]. inversion Hs; subst; clear Hs.
    apply Bool.andb_true_iff in E. destruct E as [_ E]. apply Bool.negb_true_iff in E. rewrite E in Hc.
    destruct (snoc_event _ EReadDrop _ Ho Hc eq_refl). unfold Inv. cbn [alive events]. repeat split; auto; discriminate.
Qed.

Theorem Inv_reach tr s : reach tr s -> Inv s.
Proof.
  intros Hr. induction Hr as [|tr s l s' Hr IH Hs]; [|eapply Inv_step; eassumption].
  unfold Inv, strong. cbn. repeat split; try discriminate; lia.
Qed.

(* the transport is closed exactly when no strong reference is left *)
Theorem close_iff tr s : reach tr s -> (alive s = false <-> strong s = 0).
Proof.
  intros Hr. destruct (Inv_reach tr s Hr) as (_ & Ha & Hd & _). split; [exact Hd|]. intros H0.
  destruct (alive s); [specialize (Ha eq_refl); lia | reflexivity].
Qed.

Theorem closed_event_iff tr s : reach tr s -> (existsb is_closed (events s) = true <-> strong s = 0).
Proof.
  intros Hr. destruct (Inv_reach tr s Hr) as (_ & _ & _ & _ & Hc). unfold closed_after in Hc. cbn in Hc. rewrite Hc.
  rewrite <- (close_iff tr s Hr). destruct (alive s); cbn; split; congruence.
Qed.

(* ---------------------------------------------------------------- the order of events *)
Lemma ordered_b_split pre post : forall b, ordered_b (pre ++ EClosed :: post) b = true ->
  b = false /\ existsb is_wake pre = false /\ existsb is_readdrop pre = false /\ existsb is_closed pre = false /\
  existsb is_reply post = false /\ existsb is_closed post = false.
Proof.
  induction pre as [|x pre IH]; intros b H.
  - cbn in H. apply Bool.andb_true_iff in H. destruct H as [Hb H]. apply Bool.negb_true_iff in Hb. subst b.
    assert (Hpost : existsb is_reply post = false /\ existsb is_closed post = false).
    { revert H. induction post as [|y post IHp]; intros H; [now split|].
      destruct y; cbn in H; try discriminate; destruct (IHp H) as [A B0]; now split. }
    destruct Hpost. repeat split; assumption.
  - destruct x; cbn [app ordered_b] in H; apply Bool.andb_true_iff in H; destruct H as [Hb H]; specialize (IH _ H);
      destruct IH as (E & A & B0 & C & D & F); subst; try discriminate; cbn; repeat split; try assumption;
      try (apply Bool.negb_true_iff in Hb; assumption).
Qed.

Theorem events_ordered tr s : reach tr s -> ordered (events s).
Proof.
  intros Hr. destruct (Inv_reach tr s Hr) as (_ & _ & _ & Ho & _). intros pre post E. rewrite E in Ho.
  destruct (ordered_b_split pre post false Ho) as (_ & A & B0 & C & D & F). repeat split; assumption.
Qed.

(* ---------------------------------------------------------------- graceful_shutdown *)
Lemma wake_in_closed ev : forall b, ordered_b ev b = true -> existsb is_wake ev = true -> closed_after ev b = true.
Proof.
  unfold closed_after. induction ev as [|x ev IH]; intros b Ho Hw; [discriminate|].
  destruct x; cbn in *; apply Bool.andb_true_iff in Ho; destruct Ho as [Hb Ho].
  - exact (IH _ Ho Hw).
  - exact (IH _ Ho Hw).
  - now rewrite Bool.orb_true_r.
  - now rewrite Hb.
  - now rewrite Hb.
Qed.

(* it returns only after the last reference — hence after every handler that was in flight has replied and ended, every proxy
   (with the cache it started) is gone and the executor has dropped every cancelled cache task *)
Theorem graceful_only_after tr s n : reach tr s -> In (EWake n) (events s) ->
  alive s = false /\ handles s = [] /\ inflight s = [] /\ removers s = 0 /\ zombies s = [].
Proof.
  intros Hr Hin. destruct (Inv_reach tr s Hr) as (Hz & _ & Hd & Ho & Hc).
  assert (Hw : existsb is_wake (events s) = true) by (apply existsb_exists; exists (EWake n); now split).
  pose proof (wake_in_closed _ _ Ho Hw) as H. rewrite Hc in H. apply Bool.negb_true_iff in H. specialize (Hd H).
  unfold strong in Hd. split; [assumption|].
  assert (H1 : sumw (handles s) = 0) by lia. assert (H2 : sumn (zombies s) = 0) by lia.
  split; [now apply sumw_zero|]. split; [destruct (inflight s); [reflexivity | cbn in Hd; lia]|]. split; [lia|].
  now apply zombies_zero.
Qed.

(* and it returns as soon as the last reference is gone: the wake-up is enabled *)
Theorem graceful_once tr s n : reach tr s -> mem_n n (waiters s) = true -> strong s = 0 -> exists s', step (LWake n) s = Some s'.
Proof.
  intros Hr Hm H0. apply (close_iff tr s Hr) in H0. cbn [step]. rewrite Hm, H0. eexists; reflexivity.
Qed.

(* ---------------------------------------------------------------- nothing is left behind *)
Definition internal (l : label) : bool :=
  match l with LRemover | LReap | LDispatch | LReply _ | LWake _ | LReaderDrop => true | _ => false end.

Definition nu (s : st) : nat :=
  removers s + 2 * length (zombies s) + 2 * length (queued s) + length (inflight s) + length (waiters s) + (if reader s then 1 else 0).

Lemma nu_settle s : nu (settle s) = nu s.
Proof. unfold settle. destruct (alive s && Nat.eqb (strong s) 0); reflexivity. Qed.

Theorem internal_decreases l s s' : internal l = true -> step l s = Some s' -> nu s' < nu s.
Proof.
  intros Hi Hs. destruct l as [n src k|n|n|n|n| | |k| |k|n|n|n|]; try discriminate; cbn [step] in Hs.
  - destruct (zombies s) as [|w z] eqn:Ez; [discriminate|]. inversion Hs; subst. rewrite nu_settle. unfold nu. cbn. rewrite Ez. cbn. lia.
  - destruct (removers s) as [|r] eqn:Er; [discriminate|]. inversion Hs; subst. rewrite nu_settle. unfold nu. cbn. rewrite Er. lia.
  - destruct (queued s) as [|k q] eqn:Eq; [discriminate|]. destruct (alive s); inversion Hs; subst; unfold nu; cbn; rewrite Eq; cbn;
      rewrite ?app_length; cbn; lia.
  - destruct (mem_n k (inflight s)) eqn:Em; [|discriminate]. inversion Hs; subst. rewrite nu_settle. unfold nu. cbn.
    pose proof (mem_remove_len _ _ Em). lia.
  - destruct (mem_n n (waiters s) && negb (alive s)) eqn:E; [|discriminate]. inversion Hs; subst. apply Bool.andb_true_iff in E.
    destruct E as [Em _]. unfold nu. cbn. pose proof (mem_remove_len _ _ Em). lia.
  - destruct (reader s && negb (alive s)) eqn:E; [|discriminate]. inversion Hs; subst. apply Bool.andb_true_iff in E.
    destruct E as [Er _]. unfold nu. cbn. rewrite Er. lia.
Qed.

(* all handles dropped (every proxy with the cache it started), all handlers returned, no internal step left: the connection
   is completely gone *)
Theorem all_released tr s : reach tr s -> handles s = [] -> inflight s = [] ->
  step LRemover s = None -> step LReap s = None -> step LDispatch s = None -> (forall n, step (LWake n) s = None) ->
  step LReaderDrop s = None ->
  alive s = false /\ reader s = false /\ waiters s = [] /\ queued s = [] /\ removers s = 0 /\ zombies s = [].
Proof.
  intros Hr Hh Hf H1 H5 H2 H3 H4. cbn [step] in *.
  assert (Hrm : removers s = 0) by (destruct (removers s); [reflexivity | discriminate]).
  assert (Hzb : zombies s = []) by (destruct (zombies s); [reflexivity | discriminate]).
  assert (Hal : alive s = false) by (apply (close_iff tr s Hr); unfold strong; rewrite Hh, Hf, Hrm, Hzb; reflexivity).
  rewrite Hal in *. cbn in *.
  assert (Hq : queued s = []) by (destruct (queued s); [reflexivity | discriminate]).
  assert (Hrd : reader s = false) by (destruct (reader s); [discriminate | reflexivity]).
  assert (Hw : waiters s = []).
  { destruct (waiters s) as [|n w] eqn:Ew; [reflexivity|]. specialize (H3 n). unfold mem_n in H3. cbn in H3. rewrite Nat.eqb_refl in H3. discriminate. }
  repeat split; assumption.
Qed.

(* ---------------------------------------------------------------- runs and reachability *)
Lemma run_reach_gen : forall tr tr0 s0 s, reach tr0 s0 -> run tr s0 = Some s -> reach (tr0 ++ tr) s.
Proof.
  induction tr as [|l tr IH]; intros tr0 s0 s Hr Hrun; cbn [run] in Hrun.
  - inversion Hrun; subst. now rewrite app_nil_r.
  - destruct (step l s0) as [s1|] eqn:E; [|discriminate].
    replace (tr0 ++ l :: tr) with ((tr0 ++ [l]) ++ tr) by (now rewrite <- app_assoc).
    apply (IH _ s1); [econstructor; eassumption | assumption].
Qed.
Theorem run_sound tr s : run tr init = Some s -> reach tr s.
Proof. intros H. apply (run_reach_gen tr [] init s); [constructor | assumption]. Qed.

(* ---------------------------------------------------------------- non-vacuity *)
(* a clone, a rule stream, an eagerly caching proxy with a signal stream, a lazy proxy whose cache starts later; two slow
   handlers; graceful shutdown has to wait for both, and for the executor to drop the cancelled cache tasks *)
Definition demo_trace : list label :=
  [LNew 1 0 HConn; LNew 2 1 (HStreamRule 0);
   LNew 3 2 (HProxy CIdle); LCacheStart 3; LCacheReady 3;          (* CacheProperties::Yes *)
   LNew 4 3 HSignals; LNew 5 0 (HProxy CIdle); LCacheStart 5;      (* a lazy proxy, first get_property: GetAll unanswered *)
   LCallIn 7; LCallIn 8; LDispatch; LDispatch;
   LDrop 1; LAsyncDrop 2; LDrop 4; LDrop 3; LDrop 5; LRemover;
   LGraceful 0;                      (* the last user handle: two handlers and two cancelled cache tasks still hold the connection *)
   LReply 8; LReply 7; LReap; LReap; LRemover; LRemover;
   LWake 0; LReaderDrop].

Example demo : exists s, run demo_trace init = Some s /\
  events s = [EReply 8; EReply 7; EClosed; EWake 0; EReadDrop] /\ alive s = false /\ reader s = false /\ strong s = 0 /\ waiters s = [].
Proof. eexists. split; [vm_compute; reflexivity|]. repeat split. Qed.

(* after both replies the two cancelled cache tasks alone (1 + 3 references) keep the connection: not closed, no wake-up *)
Example demo_not_before : exists s, run (firstn 21 demo_trace) init = Some s /\
  alive s = true /\ strong s = 4 /\ inflight s = [] /\ handles s = [] /\ zombies s = [1; 3] /\ waiters s = [0] /\ step (LWake 0) s = None.
Proof. eexists. split; [vm_compute; reflexivity|]. repeat split. Qed.

(* ---------------------------------------------------------------- a proxy owns what its cache started *)
(* settle touches `alive` and the events only *)
Lemma settle_same s : exists a ev, settle s =
  {| handles := handles s; removers := removers s; zombies := zombies s; queued := queued s; inflight := inflight s;
     waiters := waiters s; alive := a; reader := reader s; events := ev |}.
Proof. unfold settle. destruct (alive s && Nat.eqb (strong s) 0); [eexists _, _; reflexivity | exists (alive s), (events s); now destruct s]. Qed.

(* dropping a proxy — whatever state its property cache is in — and letting the executor run gives back every reference the
   proxy and its cache task held: 1 for a proxy without a started cache, 1 + 3 while the cache waits for GetAll, 1 + 1 afterwards *)
Theorem drop_proxy_releases s n c : lookup n (handles s) = Some (HProxy c) -> zombies s = [] ->
  exists s', run (LDrop n :: (if started c then [LReap; LRemover] else [])) s = Some s' /\
             strong s' + weight (HProxy c) = strong s /\ zombies s' = [] /\ lookup n (handles s') = lookup n (remove_h n (handles s)).
Proof.
  intros El Ez. pose proof (lookup_remove_sumw _ _ _ El) as Hl. cbn [weight] in Hl. cbn [run step]. rewrite El, Ez.
  edestruct settle_same as (a1 & e1 & E1). rewrite E1. clear E1.
  destruct (started c) eqn:Es; cbn [run step app zombies upd_z handles removers].
  - edestruct settle_same as (a2 & e2 & E2). rewrite E2. clear E2. cbn [run step removers upd handles queued inflight waiters events zombies upd_z].
    edestruct settle_same as (a3 & e3 & E3). rewrite E3. clear E3.
    eexists. split; [reflexivity|]. unfold strong. cbn. rewrite Ez. cbn. repeat split. lia.
  - eexists. split; [reflexivity|]. unfold strong. cbn. rewrite Ez. destruct c; try discriminate; cbn in *; repeat split; lia.
Qed.
