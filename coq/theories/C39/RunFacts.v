(* C39/RunFacts.v — the op-by-op replay of Run.v only takes steps of the model: its final state is reachable. *)
From ZV Require Import Base.Bytes Base.Res C39.Model C39.Spec C39.Run.

Definition reachable_from (s s' : st) : Prop := exists tr, Model.run tr s = Some s'.

Lemma rf_refl s : reachable_from s s.
Proof. now exists []. Qed.
Lemma rf_trans a b c : reachable_from a b -> reachable_from b c -> reachable_from a c.
Proof.
  intros [t1 H1] [t2 H2]. exists (t1 ++ t2). revert a H1. induction t1 as [|l t1 IH]; intros a H1; cbn [Model.run app] in *.
  - inversion H1; subst. exact H2.
  - destruct (step l a) as [a1|]; [|discriminate]. now apply IH.
Qed.
Lemma rf_try l s : reachable_from s (try_step l s).
Proof. unfold try_step. destruct (step l s) as [s1|] eqn:E; [|apply rf_refl]. exists [l]. cbn. now rewrite E. Qed.

Lemma quiesce_reach rel : forall fuel s, reachable_from s (quiesce fuel rel s).
Proof.
  induction fuel as [|f IH]; intros s; cbn [quiesce]; [apply rf_refl|].
  destruct (removers s); [destruct (queued s)|].
  - destruct (zombies s); [|eapply rf_trans; [apply rf_try | apply IH]].
    destruct (find (fun k => mem_n k rel) (inflight s)) as [k|]; [eapply rf_trans; [apply rf_try | apply IH]|].
    destruct (alive s); [apply rf_refl|]. destruct (waiters s); [|eapply rf_trans; [apply rf_try | apply IH]].
    destruct (reader s); [eapply rf_trans; [apply rf_try | apply IH] | apply rf_refl].
  - eapply rf_trans; [apply rf_try | apply IH].
  - eapply rf_trans; [apply rf_try | apply IH].
Qed.

Lemma apply_op_reach o rel s : reachable_from s (snd (apply_op o rel s)).
Proof.
  destruct o as [n src k| | | | | | | |]; cbn; try apply rf_try; try apply rf_refl.
  destruct k as [| | |[| | |]| |]; cbn; try apply rf_try.
  eapply rf_trans; [apply rf_try | eapply rf_trans; apply rf_try].
Qed.

Theorem model_snaps_reach : forall ops rel gs s, reachable_from s (snd (model_snaps ops rel gs s)).
Proof.
  induction ops as [|o ops IH]; intros rel gs s; cbn [model_snaps]; [apply rf_refl|].
  destruct (apply_op o rel s) as [rel' s1] eqn:E.
  destruct (model_snaps ops rel' _ (quiesce fuel0 rel' s1)) as [rest sf] eqn:E2. cbn [snd].
  eapply rf_trans; [|eapply rf_trans; [apply quiesce_reach|]].
  - pose proof (apply_op_reach o rel s) as H. rewrite E in H. exact H.
  - pose proof (IH rel' (match o with OGraceful n => if Nat.eqb (length (waiters s1)) (length (waiters s)) then gs else gs ++ [n] | _ => gs end)
                 (quiesce fuel0 rel' s1)) as H. rewrite E2 in H. exact H.
Qed.
