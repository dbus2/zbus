(* Properties/C29.v — interfaces that disable task spawning handle calls in arrival order; with spawning enabled every
   call still gets its reply.  Only statements, each closed by [exact] of a lemma of C29/*.v, and their assumptions.

   Vocabulary (C29/Model.v, C29/Spec.v).  [calls] is the burst in arrival order; a call has an id, a kind (method taking
   &self / &mut self, Properties.Get / GetAll / Set, Introspect, unknown object), the interface instance it addresses,
   that interface's spawn flag and the handler's script: an arbitrary finite list of awaits and object-server
   operations.  [reach calls tr s]: state s is reached by the label sequence tr — LTask t (task t performs its next
   atomic action: a lock step under the write-preferring RwLock semantics of async-lock, an await that completes, a
   logged event, spawning the task of a call, taking the next message) or LArrive (the next call reaches the dispatch
   task's stream).  Nothing restricts which enabled label comes next: tr IS the scheduler, the executor and the timing
   of arrivals.  [log s] = handler starts (EvS c), completed operations (EvO c j), handler ends (EvE c), replies (EvR c).
   [inline c] = c is a method call to an interface with spawning disabled; [inline_log calls l] = the events of l that
   belong to inline calls; [sequential_order calls] = for the inline calls in arrival order: S c, O c 0 .. O c (n-1),
   E c, and R c unless the call carries NO_REPLY_EXPECTED ([c_noreply]; such a call is dispatched exactly like the
   others — the flag only suppresses the reply).  [safe calls] (C29/Safe.v) = the code paths of the burst respect one lock order (decidable); it contains
   every burst of method calls whose handlers await, register, remove, emit ([methods_only], proved below). *)
From ZV Require Import Base.Bytes C29.Model C29.Spec C29.Steps C29.Exec C29.Judge C29.Safe C29.Replies C29.Measure C29.Proofs.

(* spawn disabled => executions are sequential and in arrival order — at every moment, for all scripts and schedules *)
Theorem C29_order : forall (calls : list call) (tr : list label) (s : sys),
  NoDup (map c_id calls) -> reach calls tr s ->
  prefix_of (inline_log calls (log s)) (sequential_order calls).
Proof. exact (fun calls tr s Hnd => Order.order_invariant calls Hnd tr s). Qed.
Print Assumptions C29_order.

(* ... and when nothing is left to run, every inline call has been executed, completely, in that order *)
Theorem C29_order_complete : forall (calls : list call) (tr : list label) (s : sys),
  NoDup (map c_id calls) -> reach calls tr s -> all_done s ->
  inline_log calls (log s) = sequential_order calls.
Proof. exact (fun calls tr s Hnd => Order.order_final calls Hnd tr s). Qed.
Print Assumptions C29_order_complete.

(* every call gets its reply: never two, and as long as a reply is missing some step is enabled (no deadlock); when
   nothing can step any more, every call of the burst has exactly one reply — none if it carries NO_REPLY_EXPECTED
   ([replies_ok]).  Holds for spawn enabled and disabled. *)
Theorem C29_all_reply : forall (calls : list call) (tr : list label) (s : sys),
  NoDup (map c_id calls) -> safe calls = true -> reach calls tr s ->
  (forall n, count_ev (EvR n) (log s) <= if memn n (map c_id calls) then 1 else 0) /\
  ((exists lb s', step lb s = Some s') \/ (all_done s /\ replies_ok calls (log s) = true)).
Proof. exact all_reply_thm. Qed.
Print Assumptions C29_all_reply.

(* ... and no run goes on for ever: whatever the scheduler does, a run has at most [run_bound calls] steps
   (= twice the number of calls + the number of instructions of the burst's code, write acquisitions counted twice,
   + the dispatch task's own receive).
   With C29_all_reply: after at most that many steps every call of a safe burst has its reply. *)
Theorem C29_terminates : forall (calls : list call) (tr : list label) (s : sys),
  reach calls tr s -> length tr <= total wt2 (init calls) + 2 * length calls.
Proof. exact run_length_bound. Qed.
Print Assumptions C29_terminates.

(* "whatever their handlers await": bursts of method calls whose handlers await, register / remove objects and emit
   signals are in the safe class *)
Theorem C29_methods_safe : forall (calls : list call), methods_only calls = true -> safe calls = true.
Proof. exact methods_only_safe. Qed.
Print Assumptions C29_methods_safe.

(* the oracle evaluated on the implementation's log is sound for the order clause (replies are received late, so the
   oracle looks at S/O/E events only) *)
Theorem C29_oracle_sound : forall (calls : list call) (l : list ev),
  order_ok calls l = true ->
  prefix_of (filter not_reply (inline_log calls l)) (filter not_reply (sequential_order calls)).
Proof. exact oracle_sound. Qed.
Print Assumptions C29_oracle_sound.

(* the correspondence verdicts are backed by runs of the model: "OK" means the observed handler events are the
   projection of a complete run; for a hang, of a run into a state where nothing can step while calls are unfinished *)
Theorem C29_explains_ok_sound : forall (calls : list call) (obs : list ev),
  explains_ok calls obs = tokOK ->
  exists tr s, reach calls tr s /\ filter is_soe (log s) = obs /\ all_done s.
Proof. exact explains_ok_sound. Qed.
Print Assumptions C29_explains_ok_sound.

Theorem C29_explains_hang_sound : forall (calls : list call) (rep : list nat) (obs : list ev),
  explains_hang calls rep obs = tokOK ->
  exists tr s, reach calls tr s /\ filter is_soe (log s) = obs /\ stuck s /\ ~ all_done s.
Proof. exact explains_hang_sound. Qed.
Print Assumptions C29_explains_hang_sound.
