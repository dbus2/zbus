(* Properties/C27.v — introspection data is well-formed and matches wire behaviour.
   Only statements, each closed by [exact] of a lemma of C27/*.v, and their assumptions.

   Vocabulary (C26/Desc.v, Tree.v, Model.v, Proofs.v; C27/Model.v, Spec.v, Reader.v, Proofs.v, ReadBack.v):
     xi                          the items the generated `introspect_to_writer` and `Node::introspect_to_writer` write:
                                 XE tag attrs kids selfclose | XC comment-lines;  print_item / introspect_text give the exact text
     node_item name n            MODEL of the XML of node n (the three standard interfaces + the registered ones, then the children)
     method_elem / signal_elem / prop_elem    the <method> / <signal> / <property> element of a member
     arg_types dir m             the `type` attributes of the <arg> children of m whose `direction` is dir
     args_ok md wire             the generated argument decoding accepts a body with top-level values `wire` (C26/Model.v)
     wire_out o outs             the top-level values of the reply body for handler results outs of declared shape o
     flattened md wire           the two re-groupings of a (us) structure that the parsed signature cannot tell apart (C26)
     erase x / read_doc t        the infoset quick-xml's tokenizer delivers for x (comments dropped) / zbus_xml's reader
                                 (C34/Model.v `of_node`, signatures through the C06 model, names through the C10 validators)
     d_node name n               SPECIFICATION: the document declared by the descriptions registered in n (C27/Spec.v)
     names_ok n                  interface, member and property names of everything registered in n are valid D-Bus names
     xi_wf x                     no comment of x contains "--"  (XML 1.0 well-formedness of comments)
     rep1 / dedash_fuel / dedash the doc-line rewriting of fix e95e1976: one `replace("--", "- -")` pass / the `while
                                 line.contains("--")` loop with fuel / the loop as the model runs it (fuel 2 + length) *)
From ZV Require Import Base.Bytes Base.Res C26.Desc C26.Tree C26.Msg C27.Model C28.Model C26.Model.
From ZV Require Import C28.Spec C26.Spec C27.Spec C26.Facts C26.Proofs C28.Proofs C27.Dedash C27.Proofs C27.Reader C27.ReadBack C27.Examples.

(* --- the XML is read back by the library's own XML model, and what it reads is the declared document --- *)
Theorem C27_reads_back :
  forall (n : node) (name : option bytes),
    names_ok n -> exists t, erase (node_item name n) = [t] /\ read_doc t = Ok (d_node name n).
Proof. exact reads_back. Qed.
Print Assumptions C27_reads_back.

(* --- the XML of a node lists exactly the object's interfaces (standard + registered) and exactly its children --- *)
Theorem C27_lists_exactly :
  forall (name : option bytes) (n : node),
    let item := node_item name n in
    map (attr_of (B "name")) (filter (tag_is (B "interface")) (kids_of item)) =
      map (fun d => Some (id_name d)) (std_ifaces ++ map in_desc (node_ifs n)) /\
    map (attr_of (B "name")) (filter (tag_is (B "node")) (kids_of item)) = map (fun e => Some (fst e)) (node_kids n) /\
    attr_of (B "name") item = name.
Proof. exact lists_exactly. Qed.
Print Assumptions C27_lists_exactly.

(* --- methods: the declared input types are the ones the server accepts (exactly, up to the two flattenings) --- *)
Theorem C27_in_types_accepted :
  forall (m : mdesc) (wire : list val),
    (map vsig wire = arg_types (Some (B "in")) (method_elem m) -> args_ok m wire = true) /\
    (in_tys m <> [] -> args_ok m wire = true ->
     map vsig wire = arg_types (Some (B "in")) (method_elem m) \/ flattened m wire).
Proof. exact in_types_accepted. Qed.
Print Assumptions C27_in_types_accepted.

(* --- methods: replies have the declared output types, for tuples and non-structure types (as the property says) --- *)
Theorem C27_out_types_sent :
  forall (m : mdesc) (outs : list val),
    typed outs (out_types (md_out m)) ->
    (forall t, md_out m = OSingle t -> struct_fields t = None) ->
    map vsig (wire_out (md_out m) outs) = arg_types (Some (B "out")) (method_elem m).
Proof. exact out_types_sent. Qed.
Print Assumptions C27_out_types_sent.

(* --- signals: the emitted body has the declared argument types --- *)
Theorem C27_signal_types_sent :
  forall (path : bytes) (d : idesc) (s : sdesc) (args : list val) (m : sigmsg),
    find_signal d (sd_name s) = Some s -> typed args (map snd (sd_args s)) ->
    emit_signal path d (sd_name s) args = Some m ->
    map vsig (sg_body m) = arg_types None (signal_elem s).
Proof. exact signal_types_sent. Qed.
Print Assumptions C27_signal_types_sent.

(* --- properties: the declared type is the type of the value in a Get reply / PropertiesChanged entry and the
       only type Set accepts — for every type but `v` --- *)
Theorem C27_property_types_partial :
  forall p : pdesc,
    ty_eqb (pd_ty p) TV = false ->
    (forall v, has_ty v (pd_ty p) = true -> Some (vsig (content v)) = attr_of (B "type") (prop_elem p)) /\
    (forall sent, (exists v, convert (pd_ty p) sent = Some v) <-> Some (vsig sent) = attr_of (B "type") (prop_elem p)).
Proof. exact property_types_partial. Qed.
Print Assumptions C27_property_types_partial.

Theorem C27_variant_typed_property_refuted :
  exists p v, pd_ty p = TV /\ has_ty v (pd_ty p) = true /\
              Some (vsig (content v)) <> attr_of (B "type") (prop_elem p) /\
              (exists w, convert (pd_ty p) (VU 5) = Some w) /\ Some (vsig (VU 5)) <> attr_of (B "type") (prop_elem p).
Proof. exact variant_property_refuted. Qed.
Print Assumptions C27_variant_typed_property_refuted.

(* --- well-formedness, FULL STRENGTH since fix e95e1976: whatever the doc texts, no comment written contains "--" --- *)
Theorem C27_wellformed :
  forall (n : node) (name : option bytes), xi_wf (node_item name n) = true.
Proof. exact wellformed. Qed.
Print Assumptions C27_wellformed.

(* --- the rewriting loop: for EVERY byte string two `replace("--", "- -")` passes leave no "--"; hence the loop ends
       after at most two passes, any fuel >= 2 gives the same result, and that result contains no "--" --- *)
Theorem C27_two_passes_suffice : forall s : bytes, has_dd (rep1 (rep1 s)) = false.
Proof. exact rep1_twice_clean. Qed.
Print Assumptions C27_two_passes_suffice.

Theorem C27_dedash_clean :
  forall (n m : nat) (s : bytes),
    has_dd (dedash_fuel (S (S n)) s) = false /\ dedash_fuel (S (S n)) s = dedash_fuel (S (S m)) s /\
    (has_dd s = false -> dedash_fuel n s = s).
Proof. exact (fun n m s => conj (dedash_fuel_enough n s) (conj (dedash_fuel_stable n m s) (dedash_fuel_clean n s))). Qed.
Print Assumptions C27_dedash_clean.
