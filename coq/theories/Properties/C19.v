(* Properties/C19.v — every method call receives its own reply and only its own reply.
   Only statements, each closed by [exact] of a lemma of C19/Proofs.v (C19_once_stable: C19/Invariants.v), and their assumptions.

   Vocabulary (C19/Model.v, C19/Broadcast.v).  [cs] = the calls (kind, serial), [cap] = capacity of the method-return channel,
   [t] = a method timeout is configured.  [reach cs cap t tr s]: state s is reached by the history tr of atomic actions
     LSub i (activate_cloned), LLock i / LSend i ok (send; LWire i then LRet i when the bytes are out before send_message returns), LRecv i (the caller takes one item from its stream), LTimeout i
     (its timer fires), LRead / LPush / LNext (socket reader: read one item, one broadcast_direct, end of the fan-out),
     LArrive it (the peer/transport delivers a message or a failure; a message carrying the serial of one of our calls as
     reply_serial only after that call was written).
   The history IS the scheduler, the peer, the transport and the timers: nothing else restricts what comes next, how many
   callers there are, or how long anything takes.  [done_log s] = the completions so far, in order (ghost).
   [exec tr s] = the executable replay used by the correspondence check. *)
From ZV Require Import Base.Bytes Base.Res C19.Broadcast C19.Model C19.Proofs.

(* a completed call holds a METHOD_RETURN (Ok) / ERROR (Err) whose reply_serial is its own serial; with distinct serials that
   message answers no other call *)
Theorem C19_match : forall cs cap t tr s i r c,
  reach cs cap t tr s -> In (i, r) (done_log s) -> nth_error (callers s) i = Some c ->
  match r with
  | ROk m => m_rs m = Some (c_serial c) /\ m_type m = TReturn /\
             (NoDup (map snd cs) -> forall j c', j <> i -> nth_error (callers s) j = Some c' -> answers m (c_serial c') = false)
  | RMethodErr m => m_rs m = Some (c_serial c) /\ m_type m = TError /\
             (NoDup (map snd cs) -> forall j c', j <> i -> nth_error (callers s) j = Some c' -> answers m (c_serial c') = false)
  | _ => True
  end.
Proof. exact match_own. Qed.
Print Assumptions C19_match.

(* at most one completion per call, and the log of completions is exactly the set of finished calls *)
Theorem C19_once : forall cs cap t tr s, reach cs cap t tr s ->
  NoDup (map fst (done_log s)) /\ (forall i r, In (i, r) (done_log s) <-> st_at s i = Some (CDone r)).
Proof. exact once. Qed.
Print Assumptions C19_once.

(* a finished call stays finished with the same result, whatever happens afterwards *)
Theorem C19_once_stable : forall tr s s' i r, exec tr s = Some s' -> st_at s i = Some (CDone r) -> st_at s' i = Some (CDone r).
Proof. exact Invariants.done_exec. Qed.
Print Assumptions C19_once_stable.

(* subscription precedes the send and an answer can only follow the send: no answer to a caller whose call is on the wire — waiting,
   or still inside send() (CWritten: bytes out, send_message has not returned) — lies behind its cursor *)
Theorem C19_sees_nothing_missed : forall cs cap t tr s i c p q m,
  reach cs cap t tr s -> nth_error (callers s) i = Some c -> (c_st c = CWaiting \/ c_st c = CWritten) -> cursor (ch s) i = Some p ->
  nth_error (log (ch s)) q = Some (IMsg m) -> answers m (c_serial c) = true -> p <= q.
Proof. exact nothing_missed. Qed.
Print Assumptions C19_sees_nothing_missed.

(* ... and a caller that keeps polling gets it: if the first answer stands at position q >= cursor p (only foreign messages in
   between), then after any continuation in which the caller took more than q - p items and its timer did not fire, the call has
   completed with exactly that answer — whatever all other tasks, the reader and the peer did meanwhile *)
Theorem C19_sees : forall tr' s s' i c p q m,
  nth_error (callers s) i = Some c -> c_st c = CWaiting -> cursor (ch s) i = Some p -> p <= q ->
  nth_error (log (ch s)) q = Some (IMsg m) -> answers m (c_serial c) = true ->
  (forall j, p <= j < q -> exists m', nth_error (log (ch s)) j = Some (IMsg m') /\ answers m' (c_serial c) = false) ->
  exec tr' s = Some s' ->
  existsb (fun l => match l with LTimeout j => Nat.eqb i j | _ => false end) tr' = false ->
  q - p < length (filter (fun l => match l with LRecv j => Nat.eqb i j | _ => false end) tr') ->
  st_at s' i = Some (CDone (match m_type m with TError => RMethodErr m | _ => ROk m end)).
Proof. exact sees_progress. Qed.
Print Assumptions C19_sees.

(* taking an item is always possible while something is unread or the channel is closed: a waiting caller is never stuck *)
Theorem C19_poll_enabled : forall cs cap t tr s i c,
  reach cs cap t tr s -> nth_error (callers s) i = Some c -> c_st c = CWaiting ->
  (exists p, cursor (ch s) i = Some p /\ (p < tail (ch s) \/ closed (ch s) = true)) -> exists s', step (LRecv i) s = Some s'.
Proof. exact recv_enabled. Qed.
Print Assumptions C19_poll_enabled.

(* NoReplyExpected: the call is complete the moment its message is written, without looking at the channel *)
Theorem C19_noreply : forall s i c, nth_error (callers s) i = Some c -> c_st c = CSending -> c_kind c = KNoReply ->
  exists s', step (LSend i true) s = Some s' /\ st_at s' i = Some (CDone RNoReply).
Proof. exact noreply_completes. Qed.
Print Assumptions C19_noreply.

Theorem C19_noreply_late : forall s i c, nth_error (callers s) i = Some c -> c_st c = CWritten -> c_kind c = KNoReply ->
  exists s', step (LRet i) s = Some s' /\ st_at s' i = Some (CDone RNoReply).
Proof. exact noreply_completes_late. Qed.
Print Assumptions C19_noreply_late.

(* connection failure: once the socket reader has stopped, a waiting caller that takes more items than the channel ever held
   has completed (with its answer if that was broadcast before the failure, else with the error / BrokenPipe) *)
Theorem C19_fail : forall cs cap t tr s tr' s' i c,
  reach cs cap t tr s -> reader s = RStopped -> nth_error (callers s) i = Some c -> c_st c = CWaiting ->
  exec tr' s = Some s' ->
  length (log (ch s)) < length (filter (fun l => match l with LRecv j => Nat.eqb i j | _ => false end) tr') ->
  exists r, st_at s' i = Some (CDone r).
Proof. exact fail_completes. Qed.
Print Assumptions C19_fail.

(* the method timeout, at full strength: whenever a timeout is configured, the timer of ANY waiting call — Connection::call_method,
   Proxy::call and (since fix 3eb91a8f) Proxy::call_with_flags — can fire and completes it with TimedOut *)
Theorem C19_timeout :
  forall cs cap t tr s i c, reach cs cap t tr s -> tmo s = true -> nth_error (callers s) i = Some c -> c_st c = CWaiting ->
    exists s', step (LTimeout i) s = Some s' /\ st_at s' i = Some (CDone RTimedOut).
Proof. exact timeout_full. Qed.
Print Assumptions C19_timeout.

(* ... and without a configured timeout no call ever times out *)
Theorem C19_no_timeout_unless_configured : forall cs cap t tr s i, reach cs cap t tr s -> t = false -> step (LTimeout i) s = None.
Proof. exact no_timeout_without_config. Qed.
Print Assumptions C19_no_timeout_unless_configured.

(* ------------------------------------------------------------------ the reply gets into the channel.
   Full statement: whenever the reader is idle, the next item on the socket is a message answering a waiting call and the
   method-return channel has room, the reader's next three actions put exactly that message at the end of the channel
   (from where C19_sees takes it to the caller).
   It is FALSE once the application has made a MessageStream for exactly the rule type='method_return' or type='error'
   (label LHijack): Connection::add_match inserts the stream's sender into msg_senders under the key of the connection's own entry. *)
Definition C19_full_statement : Prop :=
  forall cs cap0 t tr s i c m rest, reach cs cap0 t tr s ->
    reader s = RIdle -> socket s = IMsg m :: rest ->
    nth_error (callers s) i = Some c -> (c_st c = CWaiting \/ c_st c = CWritten) -> answers m (c_serial c) = true -> qlen (ch s) < cap (ch s) ->
    exists s', exec [LRead; LPush; LNext] s = Some s' /\ log (ch s') = log (ch s) ++ [IMsg m] /\ reader s' = RIdle /\ socket s' = rest.

(* the decidable class: the history contains such a subscription *)
Definition Known_C19 (tr : list label) : bool := existsb (fun l => match l with LHijack _ => true | _ => false end) tr.

Theorem C19_delivery_partial :
  forall cs cap0 t tr s i c m rest, reach cs cap0 t tr s -> Known_C19 tr = false ->
    reader s = RIdle -> socket s = IMsg m :: rest ->
    nth_error (callers s) i = Some c -> (c_st c = CWaiting \/ c_st c = CWritten) -> answers m (c_serial c) = true -> qlen (ch s) < cap (ch s) ->
    exists s', exec [LRead; LPush; LNext] s = Some s' /\ log (ch s') = log (ch s) ++ [IMsg m] /\ reader s' = RIdle /\ socket s' = rest.
Proof. exact delivery_partial. Qed.
Print Assumptions C19_delivery_partial.

Theorem C19_return_rule_hijack_refuted : ~ C19_full_statement.
Proof. exact hijack_refuted. Qed.
Print Assumptions C19_return_rule_hijack_refuted.

(* what it means: from the moment the entry for type='method_return' is replaced, no METHOD_RETURN ever enters the channel again,
   whatever anybody does afterwards — every pending and every later call that is answered with a return waits for ever
   (or until its timeout / the end of the connection) *)
Theorem C19_hijacked_returns_lost_for_ever : forall s0 s tr' s',
  step (LHijack false) s0 = Some s -> exec tr' s = Some s' ->
  forall m, In (IMsg m) (log (ch s')) -> m_type m = TReturn -> In (IMsg m) (log (ch s)).
Proof. exact hijacked_returns_lost. Qed.
Print Assumptions C19_hijacked_returns_lost_for_ever.

(* the executable replay used by the correspondence check stays inside the step relation *)
Theorem C19_run_sound : forall cs cap t tr s, exec tr (init cs cap t) = Some s -> reach cs cap t tr s.
Proof. exact exec_reach. Qed.
Print Assumptions C19_run_sound.

(* the reply is handled completely by the socket reader between "bytes out" and "send() returns", no other call pending:
   the caller still gets it (a call_method_raw that activated its receiver only after the send would lose it) *)
Example C19_reply_before_send_returns :
  exists s, exec early_trace (init early_cs 8 false) = Some s /\ st_at s 0 = Some (CDone (ROk early_reply)) /\ done_log s = [(0, ROk early_reply)].
Proof. exact early_reply_received. Qed.
