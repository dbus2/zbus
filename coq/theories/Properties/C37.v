(* Properties/C37.v — bus match registrations mirror the live signal subscriptions.
   Only statements, each closed by [exact] of a lemma of C37/{Proofs,Sched,Seq,Witness,CheckFacts}.v, and their assumptions.

   conn                  the state of the model (C37/Model.v): subs (the refcount map `subscriptions`), pend (queued
                         "Remove match" tasks), held (which live object holds which subscription), thr (API futures in
                         flight, each a list of atomic actions still to do), evs (AddMatch/RemoveMatch seen by the bus)
   step allowed c c'     one atomic action: an API call allowed by [allowed] starts / some future performs its next action
                         (add_match and remove_match are atomic: they hold the subscriptions mutex across the bus call) /
                         the executor runs some queued removal;  reachable = init step*: EVERY interleaving of ANY number
                         of concurrent calls and queued removals
   plain_op              every API operation except request_name (the known class); MessageStream::clone is included
                         since fix 3c4a83a4 (clones share one subscription, given back by the last of them)
   held c                the live subscriptions, each with the objects sharing it (a stream and its clones; never empty:
                         C37_held_nonempty)
   live c r              number of live subscriptions to r (streams with their clones, signal streams, proxies)
   bus_has es r          after the events es, is r registered with the bus (last event about r is an AddMatch)
   trace_ok es           every event is about a signal rule, every AddMatch(r) arrives when r is not registered and
                         every RemoveMatch(r) when it is
   quiescent c           no queued removal, every future finished *)
From Coq Require Import List NArith Bool Arith.
From ZV Require Import Base.Bytes C37.Model C37.Spec C37.Proofs C37.Sched C37.Witness C37.Check C37.CheckFacts C37.Seq.
Import ListNotations.
Open Scope nat_scope.

(* ---- no rule is added twice (nor removed when absent; non-signal rules never reach the bus):
        full strength, every operation, every interleaving *)
Theorem C37_no_double_add : forall allowed c, reachable allowed c -> trace_ok (evs c).
Proof. exact no_double_add. Qed.
Print Assumptions C37_no_double_add.

(* what the bus has is exactly what has a refcount entry: full strength *)
Theorem C37_registered_iff_counted : forall allowed c,
  reachable allowed c -> forall r, bus_has (evs c) r = (0 <? subs c r) && is_sig r.
Proof. exact registered_iff_counted. Qed.
Print Assumptions C37_registered_iff_counted.

(* ---- the full statement: whenever nothing is in flight, the registered rules are the signal rules in use.
        It does NOT hold of the pinned code: *)
Definition C37_full_statement : Prop :=
  forall c, reachable any_op c -> quiescent c ->
  forall r, bus_has (evs c) r = true <-> (0 < live c r /\ is_sig r = true).

Theorem C37_full_statement_refuted : ~ C37_full_statement.
Proof. exact full_refuted. Qed.
Print Assumptions C37_full_statement_refuted.

(* clones (repaired by 3c4a83a4; this run was the witness of the former class clone_uncounted): a stream is cloned and
   the clone dropped - nothing is removed, the original keeps its registration; only when the original goes too is the
   rule removed *)
Theorem C37_clone_repaired_example :
  (exists c, run_choices plain_op w_clone init = Some c /\ quiescent c /\ evs c = [EAdd r_sig] /\ live c r_sig = 1 /\
             held c = [([1%N], r_sig)] /\ bus_has (evs c) r_sig = true) /\
  (exists c, run_choices plain_op (w_clone ++ w_clone_end) init = Some c /\ quiescent c /\
             evs c = [EAdd r_sig; ERem r_sig] /\ held c = []).
Proof. exact clone_repaired. Qed.
Print Assumptions C37_clone_repaired_example.

(* every live subscription is shared by at least one live object: full strength *)
Theorem C37_held_nonempty : forall allowed c, reachable allowed c -> Forall (fun x => fst x <> []) (held c).
Proof. exact held_nonempty. Qed.
Print Assumptions C37_held_nonempty.

(* the NameAcquired/NameLost rules added by request_name are never removed *)
Theorem C37_name_rules_leak_refuted :
  exists c, reachable any_op c /\ quiescent c /\ live c r_acq = 0 /\ bus_has (evs c) r_acq = true.
Proof. exact leak_refuted. Qed.
Print Assumptions C37_name_rules_leak_refuted.

(* ---- outside the class (no request_name): the refcount of a rule = live holders + queued removals + futures between the
        add_match and the OnceLock::set of subscribe_dest_owner_change, under every interleaving *)
Theorem C37_refcount_partial : forall c,
  reachable plain_op c -> forall r, subs c r = live c r + count_rule r (pend c) + owed r (thr c).
Proof. exact refcount. Qed.
Print Assumptions C37_refcount_partial.

(* C37_mirror *)
Theorem C37_mirror_partial : forall c,
  reachable plain_op c -> quiescent c ->
  forall r, bus_has (evs c) r = true <-> (0 < live c r /\ is_sig r = true).
Proof. exact mirror_partial. Qed.
Print Assumptions C37_mirror_partial.

(* at any moment, not only when quiescent: a signal rule in use is registered ... *)
Theorem C37_in_use_registered_partial : forall c,
  reachable plain_op c -> forall r, 0 < live c r -> is_sig r = true -> bus_has (evs c) r = true.
Proof. exact in_use_registered. Qed.
Print Assumptions C37_in_use_registered_partial.

(* ... and a registered rule is in use, or its removal is queued, or a future is about to hand it to a proxy *)
Theorem C37_registered_accounted_partial : forall c,
  reachable plain_op c -> forall r, bus_has (evs c) r = true ->
  0 < live c r + count_rule r (pend c) + owed r (thr c) /\ is_sig r = true.
Proof. exact registered_accounted. Qed.
Print Assumptions C37_registered_accounted_partial.

(* C37_no_premature_remove: the action that sends RemoveMatch(r) leaves no live holder of r (nor a queued removal) *)
Theorem C37_no_premature_remove_partial : forall c c' r,
  reachable plain_op c -> step plain_op c c' -> evs c' = evs c ++ [ERem r] ->
  live c' r = 0 /\ count_rule r (pend c') = 0 /\ owed r (thr c') = 0.
Proof. exact no_premature_remove. Qed.
Print Assumptions C37_no_premature_remove_partial.

(* the executable scheduler through which the witnesses are run only makes steps of the model *)
Theorem C37_scheduler_sound : forall allowed l c c',
  run_choices allowed l c = Some c' -> steps allowed c c'.
Proof. exact run_choices_steps. Qed.
Print Assumptions C37_scheduler_sound.

(* ---- the executable oracle that judges the implementation's output ([spec_ok]: per API call, the events seen during it
        respect the trace discipline, no RemoveMatch(r) in a call before and after which r is in use, at the end of
        the call every signal rule in use is registered and every registered rule is in use or was held by an object
        dropped since the last idle point) accepts EVERY sequential run of the model ([run_items]: one API call at a
        time - single calls, ticks, run-until-idle - with the queued removals interleaving in any way) over a history
        outside the class.  So the oracle demands nothing the theorems above do not give. *)
Theorem C37_oracle_sound_partial : forall run c',
  forallb (fun x => plain_item (fst x)) run = true -> run_items init run c' -> spec_ok ost0 run = true.
Proof. exact oracle_sound_init. Qed.
Print Assumptions C37_oracle_sound_partial.

(* non-vacuity of the hypothesis: two streams on one rule, one dropped, one async-dropped, the queued removal runs at the
   idle point *)
Theorem C37_oracle_example :
  (exists c', run_items init ex_seq_run c') /\ forallb (fun x => plain_item (fst x)) ex_seq_run = true.
Proof. exact ex_seq_ok. Qed.
Print Assumptions C37_oracle_example.

(* the counter arithmetic of the per-rule trace checker (C37/Check.v) is that of add_match / remove_match on the entry
   concerned; other entries are untouched (so the search can be done rule by rule) *)
Theorem C37_checker_add : forall r s es,
  fst (add_match r s es) r = fst (add1 (s r)) /\
  snd (add_match r s es) = es ++ (if snd (add1 (s r)) then sig_ev r (EAdd r) else []) /\
  forall x, x <> r -> fst (add_match r s es) x = s x.
Proof. exact add1_is_add_match. Qed.
Print Assumptions C37_checker_add.

Theorem C37_checker_remove : forall r s es,
  fst (remove_match r s es) r = fst (rem1 (s r)) /\
  snd (remove_match r s es) = es ++ (if snd (rem1 (s r)) then sig_ev r (ERem r) else []) /\
  forall x, x <> r -> fst (remove_match r s es) x = s x.
Proof. exact rem1_is_remove_match. Qed.
Print Assumptions C37_checker_remove.

(* non-vacuity: 3 streams (one on a non-signal rule), a proxy whose two signal streams are created concurrently so that
   both futures pass the OnceLock check (the raced branch), a queued and a foreground removal; then everything dropped *)
Theorem C37_example_mid :
  exists c, ex_mid = Some c /\ reachable plain_op c /\ quiescent c /\
    evs c = [EAdd r_sig; EAdd r_noc; EAdd r_s1; EAdd r_s2; ERem r_sig] /\
    subs c r_noc = 3 /\ live c r_noc = 3 /\ live c r_call = 1 /\ live c r_sig = 0.
Proof. exact ex_mid_ok. Qed.
Print Assumptions C37_example_mid.

Theorem C37_example_end :
  exists c, run_choices plain_op (ex_run ++ ex_rest) init = Some c /\ quiescent c /\
    List.length (evs c) = 8 /\ held c = [] /\
    bus_has (evs c) r_noc = false /\ bus_has (evs c) r_s1 = false /\ bus_has (evs c) r_s2 = false.
Proof. exact ex_end_ok. Qed.
Print Assumptions C37_example_end.
