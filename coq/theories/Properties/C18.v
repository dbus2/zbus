(* Properties/C18.v — concurrent sends never interleave on the wire.
   Only statements, each closed by [exact] of a lemma of C18/Proofs.v, and their assumptions.

   Vocabulary (C18/Model.v, C18/Spec.v): [progs i] is the list of messages task i sends, one after the other.
   [reach progs tr s]: state s is reached by the history tr of atomic actions  LLock i (task i gets the writer mutex),
   LSend n (the holder's sendmsg accepts n of the offered bytes, 1 <= n <= rest), LUnlock (its loop is over) — the
   history IS the scheduler and the transport: nothing restricts which enabled action comes next or how writes split.
   [wire s] = bytes accepted by the transport, [fdat s] = (wire offset, descriptors) of every sendmsg that was given
   descriptors, [order s] = completed sends in wire order (ghost), [proj i o] = the messages of task i in o. *)
From ZV Require Import Base.Bytes Base.Res C18.Model C18.Spec C18.Proofs.

(* at every moment: whole messages, in an order that extends to every task's program order, then a prefix of the
   message in flight; descriptors exactly at first bytes *)
Theorem C18_wire : forall (progs : nat -> list msg) (tr : list label) (s : sys),
  (forall i m, In m (progs i) -> mbytes m <> []) -> reach progs tr s ->
  match holder s with
  | None =>
      wire s = wire_of (order s) /\ fdat s = fds_of 0 (order s) /\
      forall i, proj i (order s) ++ tasks s i = progs i
  | Some h =>
      wire s = wire_of (order s) ++ firstn (h_pos h) (mbytes (h_msg h)) /\
      h_pos h <= length (mbytes (h_msg h)) /\
      fdat s = (if h_pos h =? 0 then fds_of 0 (order s) else fds_of 0 (order s ++ [(h_task h, h_msg h)])) /\
      forall i, proj i (order s) ++ (if Nat.eqb i (h_task h) then [h_msg h] else []) ++ tasks s i = progs i
  end.
Proof. exact wire_invariant. Qed.
Print Assumptions C18_wire.

(* when every task is done the peer has received exactly an interleaving of the programs, message by message *)
Theorem C18_wire_final : forall (progs : nat -> list msg) (tr : list label) (s : sys),
  (forall i m, In m (progs i) -> mbytes m <> []) -> reach progs tr s ->
  holder s = None -> (forall i, tasks s i = []) ->
  wire s = wire_of (order s) /\ fdat s = fds_of 0 (order s) /\ forall i, proj i (order s) = progs i.
Proof. exact wire_final. Qed.
Print Assumptions C18_wire_final.

(* the executable replay used by the correspondence check stays inside the step relation *)
Theorem C18_run_sound : forall (progs : nat -> list msg) (tr : list label) (s : sys),
  run tr (init progs) = Some s -> reach progs tr s.
Proof. exact run_sound. Qed.
Print Assumptions C18_run_sound.

(* the oracle evaluated on the implementation's wire is sound for the property *)
Theorem C18_oracle_sound : forall (ps : list (list msg)) (w : bytes) (fobs : list (nat * list fd)),
  spec_check ps w fobs = true ->
  exists o, w = wire_of o /\ (forall i, proj i o = nth i ps []) /\ fd_clean (fds_of 0 o) = fobs.
Proof. exact spec_check_sound. Qed.
Print Assumptions C18_oracle_sound.
