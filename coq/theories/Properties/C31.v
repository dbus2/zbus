(* Properties/C31.v — a proxy's property cache reflects the received history.
   Only statements, each closed by [exact] of a lemma of C31/{Proofs,Streams,Witness}.v, and their assumptions.

   crun pc h sched   the model (C31/Model.v on top of C32/Model.v): the wire history h is read by the socket reader
                     (CTick); the caching task (CTask) runs PropertiesCache::init — receive_properties_changed()
                     (a SignalStream), GetAll, the ordered join of the update stream with the GetAll reply: earlier
                     updates are discarded, the reply populates the cache, a buffered update is applied — then
                     keep_updated / update_cache; the consumer creates property streams (CStreams) and polls them
                     (CPollS p); sched is ANY interleaving of these steps.
   cached x p        Proxy::cached_property_raw.       received x h   the messages read so far.
   spec_cache pc h p C31/Spec.v: one pass over the history: the GetAll snapshot, then every later PropertiesChanged
                     of the proxied object, from the destination (its owner at that point, C32/Spec.v), for the
                     proxy's interface: changed sets, invalidated clears; uncached names hold nothing.
   caught_up x       the caching task has failed or finds its update stream empty.
   bus_history       C32/Spec.v (stamped senders, sequential lookup, driver never an owner; its fourth clause holds for
                     every history here: PropertiesChanged never looks like NameOwnerChanged).
   The model follows /repo as repaired by 902c9069; no known class, full strength. *)
From Coq Require Import List NArith Bool.
Import ListNotations.
From ZV Require Import Base.Bytes C32.Model C32.Spec C31.Model C31.Spec C31.Proofs C31.Streams C31.Witness.
Local Open Scope N_scope.

(* For every bus history, every arrival order of the GetAll reply among the change signals, and EVERY schedule:
   nothing is exposed before the cache is ready; whenever the caching task has caught up, each cached value is
   exactly what the messages received so far imply in receive order; the cache is reported ready only after the
   snapshot was received. *)
Theorem C31_cache : forall (pc : pcfg) (h : list wmsg) (sched : list caction),
  bus_history (scfg pc) h = true ->
  let x := crun pc h sched in
  (c_ready x <> Some true -> forall p, cached x p = None) /\
  (caught_up x -> forall p, cached x p = spec_cache pc (received x h) p) /\
  (c_ready x = Some true -> spec_ready pc (received x h) = Some true).
Proof. exact cache_full. Qed.
Print Assumptions C31_cache.

(* A property marked uncached never has a cached value: every history, every schedule, no hypothesis. *)
Theorem C31_uncached_ignored : forall (pc : pcfg) (h : list wmsg) (sched : list caction) (p : N),
  mem p (p_unc pc) = true -> cached (crun pc h sched) p = None.
Proof. exact uncached_ignored. Qed.
Print Assumptions C31_uncached_ignored.

(* An update for another interface leaves the whole cache — values and stream notifications — untouched... *)
Theorem C31_other_iface_ignored : forall (pc : pcfg) (c : cache) (m : sigm) (ifc : N) (ch : list (N * N)) (inv : list N),
  s_body m = BProps ifc ch inv -> ifc <> p_pi pc -> apply_msg pc c m = c.
Proof. exact other_iface_step. Qed.
Print Assumptions C31_other_iface_ignored.

(* ... and the values the specification implies do not depend on what such updates say. *)
Theorem C31_other_iface_spec : forall (pc : pcfg) (h h' : list wmsg),
  Forall2 (other_iface_differ pc) h h' -> forall p, spec_cache pc h' p = spec_cache pc h p.
Proof. exact other_iface_spec. Qed.
Print Assumptions C31_other_iface_spec.

(* Property change streams report the latest value: whenever the stream of p has nothing to report, the value it
   reported last is the cached value (no update is ever lost on the way to the stream); every history, every
   schedule. *)
Theorem C31_stream_latest : forall (pc : pcfg) (h : list wmsg) (sched : list caction) (p : N),
  let x := crun pc h sched in
  k_has (c_cache x) p = true -> k_note (c_cache x) p = false -> last_seen (c_seen x) p = cached x p.
Proof. exact stream_latest. Qed.
Print Assumptions C31_stream_latest.

(* ... and an item it yields shows the value cached at that moment. *)
Theorem C31_stream_reports_cached : forall (x : cworld) (p : N),
  k_has (c_cache x) p = true -> k_note (c_cache x) p = true ->
  c_seen (poll_stream x p) = (p, cached x p) :: c_seen x /\ k_note (c_cache (poll_stream x p)) p = false.
Proof. exact stream_reports_cached. Qed.
Print Assumptions C31_stream_reports_cached.

(* non-vacuity: an update before the snapshot (discarded), the snapshot with an uncached name, set + invalidate,
   another interface, a stranger, an ownership change, the new and the former owner *)
Theorem C31_nonvacuous :
  bus_history (scfg pc_w) h_clean = true /\
  let x := crun pc_w h_clean sched_clean in
  caught_up x /\ received x h_clean = h_clean /\ c_ready x = Some true /\
  map (cached x) [0; 1; 2; 3] = [Some 7; None; Some 4; None] /\
  map (spec_cache pc_w h_clean) [0; 1; 2; 3] = [Some 7; None; Some 4; None] /\
  c_seen x = [(0, Some 7)].
Proof. exact clean_example. Qed.
Print Assumptions C31_nonvacuous.

(* the witness of the repaired finding (C32's release class seen through the cache) is a bus history and runs
   as specified: P0 = 5, the former owner's update (7) is not applied *)
Theorem C31_repaired_history :
  bus_history (scfg pc_w) h_release = true /\
  let x := crun pc_w h_release sched_release in
  caught_up x /\ received x h_release = h_release /\
  cached x 0 = Some 5 /\ spec_cache pc_w h_release 0 = Some 5.
Proof. exact repaired_history. Qed.
Print Assumptions C31_repaired_history.
