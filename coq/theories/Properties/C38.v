(* Properties/C38.v — transport failures end pending work with errors, never hangs.
   Only statements, each closed by [exact] of a lemma of C38/*.v, and their assumptions.

   Vocabulary (C38/Model.v, C38/Spec.v).  A configuration [c] fixes what the peer sends ([msgs c]: lengths and classes),
   the byte position [fpos c] at which the inbound stream fails (end-of-file or an error, [fkind c]), the sendmsg call from
   which writes fail ([wbudget c]), whether the connection is a bus connection, and the queue capacities.  [reach c ts tr s]:
   state s is reached from the initial state with user tasks ts (method calls, message streams, signal emissions) by the
   history tr of atomic actions: LRecv n (recvmsg hands the reader n more bytes), LFault, LBcast j (the reader serves one
   entry of msg_senders, in any order, waiting while a queue is full), LBcastEnd (next message, or senders.clear() and exit),
   LTask i (task i makes its next move).  The history IS the scheduler, the transport's chunking and the fault: nothing restricts
   which enabled action comes next.  [stuck c s]: no action is enabled.  [final s]: the reader is gone, every call has a
   result, every stream has ended or was refused. *)
From ZV Require Import Base.Bytes Base.Res C38.Model C38.Spec C38.Progress C38.Measure C38.PrefixA C38.PrefixC C38.Proofs C38.Later
  C38.Run C38.RunFacts.

(* the property at full strength: for EVERY fault position, fault kind, chunking and schedule, whenever nothing can move any
   more every pending call has completed and every stream has ended or was refused *)
Definition C38_full_statement : Prop :=
  forall (c : cfg) (ts : list task) (tr : list label) (s : st),
    wf c -> forallb fresh_task ts = true -> reach c ts tr s -> stuck c s -> final s.

Theorem C38_no_hang : C38_full_statement.
Proof. exact (fun c ts tr s Hwf _ => stuck_final c ts tr s Hwf). Qed.
Print Assumptions C38_no_hang.

(* the same without the restriction on the initial tasks *)
Theorem C38_no_hang_any_tasks : forall (c : cfg) (ts : list task) (tr : list label) (s : st),
  wf c -> reach c ts tr s -> stuck c s -> final s.
Proof. exact stuck_final. Qed.
Print Assumptions C38_no_hang_any_tasks.

(* msg_senders stays empty once the reader has cleared it: add_match re-tests under the lock that inserts (fix 3703ee13).
   Before that repair this was refuted (a stream that never ends; known finding addmatch_race, now fixed) *)
Theorem C38_senders_stay_cleared : forall (c : cfg) (ts : list task) (tr : list label) (s : st),
  reach c ts tr s -> s_rd s = RdDone -> s_senders s = [].
Proof. exact I3_reach. Qed.
Print Assumptions C38_senders_stay_cleared.

(* ... and such a state is always reached: every action strictly decreases the natural number [mu c s], so no schedule runs
   for more than [mu c (init ts)] steps (no livelock, no unbounded waiting on a full queue) *)
Theorem C38_no_hang_terminates : forall (c : cfg) (ts : list task) (tr : list label) (s : st),
  reach c ts tr s -> length tr + mu c s <= mu c (init ts).
Proof. exact reach_length_bounded. Qed.
Print Assumptions C38_no_hang_terminates.

(* what a waiting call ends with: a reply it was handed (hence one received completely), or an error — never anything else *)
Theorem C38_call_results : forall (c : cfg) (serial cost : nat) (s : st) (x : rx) (o : outcome) (s' : st),
  cstep c s serial cost false (CWait x) = Some (CDone o, s') ->
  (exists k m, o = OOk k /\ In (IMsg k) (x_inbox x) /\ nth_error (msgs c) k = Some m /\ i_class m = MReply serial) \/
  (exists k m, o = OMErr k /\ In (IMsg k) (x_inbox x) /\ nth_error (msgs c) k = Some m /\ i_class m = MError serial) \/
  is_err_outcome o = true.
Proof. exact call_results. Qed.
Print Assumptions C38_call_results.

(* streams: at every moment a stream holds (yielded ++ queued) exactly the messages that match its channel among those the
   reader has handed to the channel since the stream was opened — none skipped, none twice, in order — then at most one error
   item; everything it holds was received completely before the failure position *)
Theorem C38_prefix : forall (c : cfg) (ts : list task) (tr : list label) (s : st) (i : nat) (src : option nat) (a b : nat) (x : rx),
  forallb fresh_task ts = true -> reach c ts tr s ->
  (nth_error (s_tasks s) i = Some (TStream src a b (SOpen x)) \/ nth_error (s_tasks s) i = Some (TStream src a b (SEnd x))) ->
  x_chan x = chan_of_src src /\
  x_from x <= front c (x_chan x) s /\ front c (x_chan x) s <= s_next s /\ off (msgs c) (s_next s) <= fpos c /\
  exists errs, x_got x ++ x_inbox x = expected c (x_chan x) (x_from x) (front c (x_chan x) s) ++ errs /\
               (errs = [] \/ errs = [IErr (fkind c)]).
Proof. exact stream_prefix. Qed.
Print Assumptions C38_prefix.

(* a stream that has ended did so after the reader's exit, with an empty queue, having yielded exactly the matching messages
   among the complete ones [x_from .. s_next) (then at most one error item) *)
Theorem C38_prefix_ended : forall (c : cfg) (ts : list task) (tr : list label) (s : st) (i : nat) (src : option nat) (a b : nat) (x : rx),
  forallb fresh_task ts = true -> reach c ts tr s ->
  nth_error (s_tasks s) i = Some (TStream src a b (SEnd x)) ->
  s_rd s = RdDone /\ x_inbox x = [] /\ x_from x <= s_next s /\ off (msgs c) (s_next s) <= fpos c /\
  exists errs, x_got x = expected c (chan_of_src src) (x_from x) (s_next s) ++ errs /\ (errs = [] \/ errs = [IErr (fkind c)]).
Proof. exact stream_ended. Qed.
Print Assumptions C38_prefix_ended.

(* and the reader does not stop early: unless a write failed, the complete messages are all those before the failure *)
Theorem C38_prefix_complete : forall (c : cfg) (ts : list task) (tr : list label) (s : st),
  wf c -> reach c ts tr s -> s_rd s = RdDone -> s_broken s = false ->
  s_next s = complete (msgs c) (fpos c) \/ length (msgs c) <= s_next s.
Proof. exact reader_stops_at_fault. Qed.
Print Assumptions C38_prefix_complete.

(* later operations: a call made after the reader's exit can only end with BrokenPipe or the write error, and its reply
   queue stays empty, whatever else happens meanwhile (any continuation tr) *)
Theorem C38_later_fail_call : forall (c : cfg) (s : st) (i serial cost : nat),
  s_rd s = RdDone -> closed CRet s = true -> nth_error (s_tasks s) i = Some (TCall serial cost false CNew) ->
  forall (tr : list label) (s' : st), Model.run c tr s = Some s' ->
  exists p, nth_error (s_tasks s') i = Some (TCall serial cost false p) /\
            match p with CNew => True | CSend x | CWait x => x_inbox x = [] | CDone o => o = OPipe \/ o = OAborted end.
Proof. exact later_call_fails. Qed.
Print Assumptions C38_later_fail_call.

(* add_match after the reader's exit is refused with BrokenPipe (msg_senders is empty then: C38_senders_stay_cleared) *)
Theorem C38_later_fail_subscription : forall (c : cfg) (s : st) (i r a b : nat),
  s_rd s = RdDone -> s_senders s = [] -> nth_error (s_tasks s) i = Some (TStream (Some r) a b SNew) ->
  tstep c s i = Some (set_task s i (TStream (Some r) a b (SFail OPipe))).
Proof. exact later_sub_fails. Qed.
Print Assumptions C38_later_fail_subscription.

(* MessageStream::from after the reader's exit: opens, yields nothing, ends at once *)
Theorem C38_later_fail_unfiltered : forall (c : cfg) (s : st) (i a b : nat),
  s_rd s = RdDone -> closed CAll s = true -> nth_error (s_tasks s) i = Some (TStream None a b SNew) ->
  exists x, x_got x = [] /\ x_inbox x = [] /\
    Model.run c [LTask i; LTask i] s = Some (set_task (set_task s i (TStream None a b (SOpen x))) i (TStream None a b (SEnd x))).
Proof. exact later_all_stream_ends. Qed.
Print Assumptions C38_later_fail_unfiltered.

(* no task panics: call_method's `.expect("no reply")` is never reached with Ok(None) (calls are made without NO_REPLY_EXPECTED) *)
Theorem C38_nopanic : forall (c : cfg) (ts : list task) (tr : list label) (s : st),
  forallb np_task ts = true -> reach c ts tr s -> forallb np_task (s_tasks s) = true.
Proof. exact no_panic. Qed.
Print Assumptions C38_nopanic.

(* the replay the correspondence check performs on every observed session only takes steps of the model *)
Theorem C38_replay_sound : forall (c : cfg) (all : list op) (toks : list bytes) (s : st) (p : list bool) (ph : list (list op))
    (s' : st) (p' : list bool) (ph' : list (list op)),
  replay c all toks (RS s p ph) = Some (RS s' p' ph') -> exists tr, Model.run c tr s = Some s'.
Proof. exact replay_sound. Qed.
Print Assumptions C38_replay_sound.

Theorem C38_run_sound : forall (c : cfg) (ts : list task) (tr : list label) (s : st),
  Model.run c tr (init ts) = Some s -> reach c ts tr s.
Proof. exact run_sound. Qed.
Print Assumptions C38_run_sound.
