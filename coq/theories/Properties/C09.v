(* Properties/C09.v — derived and built-in Type signatures match what is serialized.
   [tshape]/[rval]: Rust type definitions and their values (C09/Model.v); [sig_of]: the signature computed by
   zvariant_derive / zvariant's Type impls; [sval_of_shape]: what serde feeds the serializer; [dsig]/[dval_of_shape]
   (C09/Spec.v): the D-Bus type / value the Rust type / value stands for; [ser_top]/[size_top] (DBus/Ser.v): the model of
   to_bytes / serialized_size; [marshal_top] (DBus/Spec.v): the specification's wire format.  Statements only. *)
From ZV Require Import Base.Bytes Base.Res Base.Sig Base.SigParse DBus.Val DBus.Spec DBus.Ser DBus.De DBus.SerProofs
  C09.Model C09.Spec C09.Top C09.Refute.
Local Open Scope N_scope.

(* the declared signature is the D-Bus type of the Rust type, and is one complete D-Bus type *)
Theorem C09_signature : forall sh : tshape,
  shape_ok sh = true -> sig_of sh = dsig sh /\ single_ok (sig_of sh) = true.
Proof. exact signature_ok. Qed.
Print Assumptions C09_signature.

(* the D-Bus value denoted by a value of the type is a well-formed value of the declared signature (no descriptors) *)
Theorem C09_value : forall (sh : tshape) (x : rval),
  shape_ok sh = true -> typed sh x = true ->
  wf (dval_of_shape sh x) = true /\ vsig (dval_of_shape sh x) = sig_of sh /\ enc_form (dval_of_shape sh x) = true
  /\ fds_of (dval_of_shape sh x) = [].
Proof. exact value_ok. Qed.
Print Assumptions C09_value.

(* to_bytes: for every configuration, byte order and offset, the bytes are exactly the specification's marshalling of that value *)
Theorem C09_conforms : forall (c : cfg) (e : endian) (pos : N) (sh : tshape) (x : rval),
  shape_ok sh = true -> typed sh x = true -> (has_option sh = true -> c_oaa c = true) ->
  within_limits (dval_of_shape sh x) = true -> len (marshal_top e pos (dval_of_shape sh x)) < 2 ^ 32 ->
  ser_top c e pos (sig_of sh) (sval_of_shape sh x) = Ok (marshal_top e pos (dval_of_shape sh x), []).
Proof. exact conforms. Qed.
Print Assumptions C09_conforms.

(* serialized_size agrees *)
Theorem C09_size : forall (c : cfg) (e : endian) (pos : N) (sh : tshape) (x : rval),
  shape_ok sh = true -> typed sh x = true -> (has_option sh = true -> c_oaa c = true) ->
  within_limits (dval_of_shape sh x) = true -> len (marshal_top e pos (dval_of_shape sh x)) < 2 ^ 32 ->
  size_top c e pos (sig_of sh) (sval_of_shape sh x) = Ok (len (marshal_top e pos (dval_of_shape sh x)), 0).
Proof. exact size_conforms. Qed.
Print Assumptions C09_size.

(* in the middle of a message: the value's marshalling is appended at the current absolute position; what else of the
   serializer state survives is said exactly: descriptors and variant cursor always, the depth counters unless the type
   is / wraps an enum with newtype variants ([dep_clean]), the signature cursor unless it is / wraps an enum with
   tuple or struct variants ([sig_clean]) *)
Theorem C09_step : forall (sh : tshape) (x : rval) (st : sstate),
  shape_ok sh = true -> typed sh x = true ->
  s_sig st = sig_of sh -> s_vsign st = None -> fits (s_dep st) (dval_of_shape sh x) -> nfd st < 2 ^ 32 ->
  len (marshal (s_e st) ByOccurrence (dval_of_shape sh x) (abs_pos st) (nfd st)) < 2 ^ 32 ->
  (has_option sh = true -> c_oaa (s_cfg st) = true) ->
  exists st', ser (sval_of_shape sh x) st = Ok st'
    /\ s_out st' = s_out st ++ marshal (s_e st) ByOccurrence (dval_of_shape sh x) (abs_pos st) (nfd st)
    /\ s_fds st' = s_fds st /\ s_vsign st' = None /\ s_cfg st' = s_cfg st /\ s_e st' = s_e st /\ s_pos0 st' = s_pos0 st
    /\ (dep_clean sh = true -> s_dep st' = s_dep st) /\ (sig_clean sh = true -> s_sig st' = s_sig st).
Proof. exact step. Qed.
Print Assumptions C09_step.

(* the property per type definition ([C09_statement], C09/Spec.v) holds on the whole fragment ... *)
Theorem C09_partial : forall sh : tshape, shape_ok sh = true ->
  sig_of sh = dsig sh /\ single_ok (sig_of sh) = true /\
  forall (c : cfg) (e : endian) (pos : N) (x : rval),
    typed sh x = true -> (has_option sh = true -> c_oaa c = true) ->
    within_limits (dval_of_shape sh x) = true -> len (marshal_top e pos (dval_of_shape sh x)) < 2 ^ 32 ->
    wf (dval_of_shape sh x) = true /\ vsig (dval_of_shape sh x) = sig_of sh /\
    ser_top c e pos (sig_of sh) (sval_of_shape sh x) = Ok (marshal_top e pos (dval_of_shape sh x), []).
Proof.
  intros sh Hok. destruct (signature_ok sh Hok) as [H1 H2]. split; [exact H1|]. split; [exact H2|].
  intros c e pos x Ht Ho Hl Hn. destruct (value_ok sh x Hok Ht) as (F1 & F2 & _).
  split; [exact F1|]. split; [exact F2|]. now apply conforms.
Qed.
Print Assumptions C09_partial.

(* ... and every type definition of a known class is outside it *)
Theorem C09_known_excluded : forall sh : tshape, known_class sh <> None -> shape_ok sh = false.
Proof. exact known_not_ok. Qed.
Print Assumptions C09_known_excluded.

(* the full statement — every type definition that compiles — is refuted by the faithful model: *)
Theorem C09_full_statement_refuted :
  ~ (forall sh : tshape, shape_wf sh = true ->
       sig_of sh = dsig sh /\ single_ok (sig_of sh) = true /\
       forall (c : cfg) (e : endian) (pos : N) (x : rval),
         typed sh x = true -> (has_option sh = true -> c_oaa c = true) ->
         within_limits (dval_of_shape sh x) = true -> len (marshal_top e pos (dval_of_shape sh x)) < 2 ^ 32 ->
         wf (dval_of_shape sh x) = true /\ vsig (dval_of_shape sh x) = sig_of sh /\
         ser_top c e pos (sig_of sh) (sval_of_shape sh x) = Ok (marshal_top e pos (dval_of_shape sh x), [])).
Proof. exact full_statement_refuted. Qed.
Print Assumptions C09_full_statement_refuted.

(* `enum E { V0(S) }` with `struct S { a: u8, b: u8 }`: serialization panics (unreachable!) *)
Theorem C09_newtype_variant_struct_payload_refuted :
  exists (sh : tshape) (x : rval),
    known_class sh = Some KNewtypeStructPayload /\ shape_wf sh = true /\ typed sh x = true /\
    show (sig_of sh) = B "(u(yy))" /\
    ser_top {| c_gv := false; c_oaa := true |} LE 0 (sig_of sh) (sval_of_shape sh x) = Panic PUnreachable.
Proof. exists sh_nt_struct, x_nt_struct. repeat apply conj; [vm_compute; reflexivity ..|exact nt_struct_panics]. Qed.
Print Assumptions C09_newtype_variant_struct_payload_refuted.

(* `Vec<E>` with `enum E { V0(u32, u32) }`: two elements cannot be serialized *)
Theorem C09_enum_in_seq_signature_refuted :
  exists (sh : tshape) (x : rval),
    known_class sh = Some KEnumInSeq /\ shape_wf sh = true /\ typed sh x = true /\
    within_limits (dval_of_shape sh x) = true /\
    ser_top {| c_gv := false; c_oaa := true |} LE 0 (sig_of sh) (sval_of_shape sh x) = Err ESigMismatch.
Proof. exists sh_enum_seq, x_enum_seq. repeat apply conj; [vm_compute; reflexivity ..|exact enum_seq_errs]. Qed.
Print Assumptions C09_enum_in_seq_signature_refuted.

(* `Vec<E>` with `enum E { V0(u32) }`, and `Vec<IpAddr>`: 33 elements exceed the struct depth limit although the value nests 2 deep *)
Theorem C09_newtype_variant_depth_leak_refuted :
  exists (sh : tshape) (x : rval),
    known_class sh = Some KDepthLeak /\ shape_wf sh = true /\ typed sh x = true /\
    within_limits (dval_of_shape sh x) = true /\
    ser_top {| c_gv := false; c_oaa := true |} LE 0 (sig_of sh) (sval_of_shape sh x) = Err (EDepth DStruct).
Proof. exists sh_leak, x_leak. repeat apply conj; [vm_compute; reflexivity ..|exact leak_errs]. Qed.
Print Assumptions C09_newtype_variant_depth_leak_refuted.
Theorem C09_ipaddr_depth_leak_refuted :
  exists x : rval,
    known_class (TSeq TIpAddr) = Some KDepthLeak /\ typed (TSeq TIpAddr) x = true /\
    within_limits (dval_of_shape (TSeq TIpAddr) x) = true /\
    ser_top {| c_gv := false; c_oaa := false |} LE 0 (sig_of (TSeq TIpAddr)) (sval_of_shape (TSeq TIpAddr) x) = Err (EDepth DStruct).
Proof. exists x_leak_ip. repeat apply conj; [vm_compute; reflexivity ..|apply leak_ip_errs]. Qed.
Print Assumptions C09_ipaddr_depth_leak_refuted.

(* `Vec<()>`: the declared signature "a" is not a signature *)
Theorem C09_unit_in_container_refuted :
  known_class (TSeq TUnit) = Some KUnitInContainer /\ shape_wf (TSeq TUnit) = true /\
  show (sig_of (TSeq TUnit)) = B "a" /\ parse_sig false (show (sig_of (TSeq TUnit))) = None /\
  single_ok (sig_of (TSeq TUnit)) = false.
Proof. vm_compute. repeat split. Qed.
Print Assumptions C09_unit_in_container_refuted.

(* `struct S { a: u32, p: PhantomData<u64> }`: declared "(ut)", four bytes written, which do not decode under "(ut)" *)
Theorem C09_phantom_data_refuted :
  exists (sh : tshape) (x : rval) (b : bytes),
    known_class sh = Some KPhantom /\ shape_wf sh = true /\ typed sh x = true /\ show (sig_of sh) = B "(ut)" /\
    ser_top {| c_gv := false; c_oaa := false |} LE 0 (sig_of sh) (sval_of_shape sh x) = Ok (b, []) /\ len b = 4 /\
    de_struct_top {| c_gv := false; c_oaa := false |} LE 0 (sig_of sh) b [] = Err EBounds.
Proof. exists sh_phantom, x_phantom, (enc LE 4 3). vm_compute. repeat split. Qed.
Print Assumptions C09_phantom_data_refuted.

(* zvariant's Type impls for std / net / time types, as compositions, are in the fragment *)
Theorem C09_library : forallb shape_ok
  [TPrim PUsize; TPrim PIsize; TPrim PChar; TPrim PI8; TPrim PF32; TDuration; TSystemTime; TIpv4; TIpv6; TIpAddr; TSockV4; TSockV6;
   TRange (TPrim PU32); TRangeInclusive (TPrim PU8); TRangeFrom (TPrim PI64); TRangeTo (TPrim PU16); TArrayN 0 (TPrim PU8);
   TArrayN 5 (TPrim PStr); TNewtype (TPrim PU16); TSeq (TPrim PU8); TMap (TPrim PStr) (TPrim PU32); TOption (TPrim PStr);
   TTuple [TPrim PU8; TPrim PStr; TPrim PU64]] = true.
Proof. vm_compute. reflexivity. Qed.
Print Assumptions C09_library.

(* non-vacuity: a nested definition with every kind of node, at an odd offset, big endian *)
Theorem C09_example :
  shape_ok ex_shape = true /\ typed ex_shape ex_value = true /\
  ser_top {| c_gv := false; c_oaa := true |} BE 3 (sig_of ex_shape) (sval_of_shape ex_shape ex_value)
  = Ok (marshal_top BE 3 (dval_of_shape ex_shape ex_value), []).
Proof. destruct ex_in_fragment as (H1 & H2 & _). split; [exact H1|]. split; [exact H2|]. exact ex_bytes. Qed.
Print Assumptions C09_example.
