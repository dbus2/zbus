(* Properties/C05.v — GVariant encoding follows the GVariant serialisation format (and the GVariant halves of C02, C04,
   C07).  [gv_marshal]/[gvb] (C05/Spec.v) is the format, written from the GVariant specification independently of the model
   [gser]/[gser_top] (C05/Model.v) of zvariant::gvariant::Serializer; [gde] (C05/DeModel.v) models the Deserializer.
   Statements only; proofs are in C05/SerProofs.v and DepthProofs.v (C05, C07), Widths.v, DeProofs.v (C04), RtProofs.v (C02)
   and Refuted.v (witnesses). *)
From ZV Require Import Base.Bytes Base.Res Base.Sig DBus.Val DBus.Spec DBus.Ser C05.Val C05.Spec C05.Model C05.DeModel
  C05.Classes C05.Widths C05.SerProofs C05.DepthProofs C05.DeProofs C05.RtFacts C05.RtProofs C05.Refuted.
Local Open Scope N_scope.

(* The property at full strength: for every byte order, start offset and well-formed value within the nesting limits
   (without descriptors, below 2^60 bytes), zvariant's bytes are the format's bytes.  It does NOT hold: see the
   _refuted theorems. *)
Definition C05_full_statement : Prop := forall (e : endian) (pos : N) (v : gval),
  gwf v = true -> gwithin_limits v = true -> gplain v = true -> gsmall e v = true ->
  gser_top e pos (gsig v) (sval_of v) = Ok (gv_marshal e pos v, []).

(* It holds for every value none of whose nodes is in a known class (Known_C05 = known_c05, C05/Classes.v:
   a type mentioning `b`; a fixed-size tuple / dict entry whose members do not fill a multiple of its alignment;
   a container with framing offsets but no data bytes).  The former fourth class (dict entries with a variable-size key
   whose data fill 255, 65534/65535, ... bytes) is gone since commit c613b0b9: see C05_dict_key_width_repaired. *)
Theorem C05_partial : forall (e : endian) (pos : N) (v : gval),
  gwf v = true -> gwithin_limits v = true -> gplain v = true -> gsmall e v = true ->
  known_c05 e v = false ->
  gser_top e pos (gsig v) (sval_of v) = Ok (gv_marshal e pos v, []).
Proof. intros e pos v H1 H2 H3 H4 H5. apply gser_top_exact. repeat split; assumption. Qed.
Print Assumptions C05_partial.

(* the size pass (serialized_size) returns the length of those bytes *)
Theorem C05_size_partial : forall (e : endian) (pos : N) (v : gval),
  gwf v = true -> gwithin_limits v = true -> gplain v = true -> gsmall e v = true ->
  known_c05 e v = false ->
  gsize_top e pos (gsig v) (sval_of v) = Ok (len (gv_marshal e pos v), 0).
Proof. intros e pos v H1 H2 H3 H4 H5. apply gsize_top_exact. repeat split; assumption. Qed.
Print Assumptions C05_size_partial.

(* the general step: in the middle of an encoding, a value appends padding to its alignment and its own bytes, and
   changes nothing else of the serializer state (signature cursor, depth counters, descriptors) *)
Theorem C05_step : forall (e : endian) (v : gval) (st : gstate),
  g_e st = e -> gwf v = true -> pre e v = true -> g_sig st = gsig v -> g_vsign st = None ->
  dep_ok (g_dep st) -> gfits (g_dep st) v ->
  gser (sval_of v) st = Ok (gwr st (pad (gabs st) (galign (gsig v)) ++ gvb e v)).
Proof.
  intros e v st He Hw Hp Hs Hv Hd Hf.
  pose proof (gser_good e v st _ _ _ He Hw Hp Hs Hv Hd eq_refl eq_refl eq_refl) as H. now rewrite Hf in H.
Qed.
Print Assumptions C05_step.

(* a non-trivial instance of the hypotheses: a tuple holding a dict of variants (one of them a maybe), an array of
   tuples with two strings, and a maybe of an array, at an odd offset *)
Definition c05_example : gval :=
  GStruct [GU8 7;
           GDict SStr SVariant [(GStr (B "a"), GVariant (GU32 5)); (GStr (B "bc"), GVariant (GMaybe SStr (Some (GStr (B "x")))))];
           GArray (SStruct [SStr; SU16; SStr]) [GStruct [GStr (B "k"); GU16 9; GStr []]; GStruct [GStr []; GU16 1; GStr (B "zz")]];
           GMaybe (SArray SI64) (Some (GArray SI64 [GI64 (-1)]))].
Example C05_partial_instance :
  gwf c05_example = true /\ gwithin_limits c05_example = true /\ gplain c05_example = true /\ gsmall BE c05_example = true
  /\ known_c05 BE c05_example = false
  /\ gser_top BE 3 (gsig c05_example) (sval_of c05_example) = Ok (gv_marshal BE 3 c05_example, [])
  /\ len (gv_marshal BE 3 c05_example) = 80.
Proof. repeat split; vm_compute; reflexivity. Qed.

(* ---- the known classes: each refutes the full statement ---- *)
Theorem C05_bool_refuted : exists v : gval,
  gwf v = true /\ gwithin_limits v = true /\ gplain v = true /\ gsmall LE v = true /\ in_class node_bool v = true /\
  gser_top LE 0 (gsig v) (sval_of v) <> Ok (gv_marshal LE 0 v, []).
Proof. exists w_bool. exact bool_witness. Qed.
Print Assumptions C05_bool_refuted.

Theorem C05_tail_padding_refuted : exists v : gval,
  gwf v = true /\ gwithin_limits v = true /\ gplain v = true /\ gsmall LE v = true /\ in_class (node_tail LE) v = true /\
  gser_top LE 0 (gsig v) (sval_of v) <> Ok (gv_marshal LE 0 v, []).
Proof. exists w_tail_array. exact tail_array_witness. Qed.
Print Assumptions C05_tail_padding_refuted.

Theorem C05_empty_offsets_refuted : exists v : gval,
  gwf v = true /\ gwithin_limits v = true /\ gplain v = true /\ gsmall LE v = true /\ in_class (node_empty_offsets LE) v = true /\
  gser_top LE 0 (gsig v) (sval_of v) <> Ok (gv_marshal LE 0 v, []).
Proof. exists w_empty. exact empty_witness. Qed.
Print Assumptions C05_empty_offsets_refuted.

(* {"k": 252 letters} : a{ss} has 255 bytes of entry data, so the key's framing offset needs 2 bytes; before c613b0b9
   zvariant wrote 1.  The code as it is writes the format's bytes, and the value is in no class. *)
Example C05_dict_key_width_repaired :
  gwf w_dictkey = true /\ gwithin_limits w_dictkey = true /\ gplain w_dictkey = true /\ gsmall LE w_dictkey = true /\
  known_c05 LE w_dictkey = false /\
  gser_top LE 0 (gsig w_dictkey) (sval_of w_dictkey) = Ok (gv_marshal LE 0 w_dictkey, []).
Proof. exact dictkey_repaired. Qed.

Theorem C05_full_refuted : ~ C05_full_statement.
Proof.
  intros H. destruct bool_witness as (H1 & H2 & H3 & H4 & _ & Hn). apply Hn. unfold c05_holds. now apply H.
Qed.
Print Assumptions C05_full_refuted.

(* ---- the offset width: for every container size n and number of offsets k, for_bare_container returns the least
   width w in {1,2,4,8} such that n data bytes plus k offsets of w bytes can be addressed by w-byte offsets ---- *)
Theorem offset_width_spec : forall n k w : N, for_bare_container n k = Ok w ->
  (w = 1 \/ w = 2 \/ w = 4 \/ w = 8) /\ n + k * w <= 2 ^ (8 * w) - 1 /\
  (forall w', (w' = 1 \/ w' = 2 \/ w' = 4 \/ w' = 8) -> n + k * w' <= 2 ^ (8 * w') - 1 -> w <= w').
Proof. exact for_bare_least. Qed.
Print Assumptions offset_width_spec.

Theorem offset_width_total : forall n k : N,
  (n + k * 8 <= 2 ^ (8 * 8) - 1 -> for_bare_container n k = Ok (offset_width n k)) /\
  (~ n + k * 8 <= 2 ^ (8 * 8) - 1 -> for_bare_container n k = Panic PUnwrap).
Proof.
  intros n k. split.
  - intros H. apply C05.Facts.for_bare_width. change (2 ^ (8 * 8) - 1) with 18446744073709551615 in H. lia.
  - apply for_bare_panics.
Qed.
Print Assumptions offset_width_total.

(* ---- C02, GVariant half: encode-then-decode is not the identity in one of the classes ---- *)
Theorem C02_gv_empty_offsets_refuted : exists v : gval,
  gwf v = true /\ gwithin_limits v = true /\ ~ exists n, rt_value LE 0 v = Ok (v, n, n).
Proof. exists w_empty. exact c02_empty_refuted. Qed.
Print Assumptions C02_gv_empty_offsets_refuted.
(* the dict of C05_dict_key_width_repaired comes back (259 bytes written, 259 consumed) *)
Example C02_gv_dict_key_width_repaired : rt_value LE 0 w_dictkey = Ok (w_dictkey, 259, 259).
Proof. vm_compute. reflexivity. Qed.

(* ---- C04, GVariant half.  The two inputs that used to reach `attempt to subtract with overflow` in
   read_last_offset_from_buffer (130 strings over 257 zero bytes, directly and through a variant) are refused
   with OutOfBounds since commit b5246470; the model of the code before that commit still panics on them. ---- *)
Example C04_gv_struct_offset_underflow_repaired :
  gde_struct_top LE 0 w_panic_sig w_panic_bytes [] = Err EBounds
  /\ gde_before_fix gde_fuel (ginit_dst LE 0 w_panic_sig w_panic_bytes []) = Panic PArith.
Proof. exact c04_struct_offset_repaired. Qed.
Example C04_gv_variant_offset_underflow_repaired :
  gde_value_top LE 0 w_panic_variant [] = Err EBounds
  /\ gde_before_fix gde_fuel (ginit_dst LE 0 SVariant w_panic_variant []) = Panic PArith.
Proof. exact c04_variant_offset_repaired. Qed.

(* ---- C04, GVariant half.  Every slice, index, subtraction and unwrap of the decode path is an explicit Panic branch of
   the model.  For every byte order, offset, signature, descriptor table and input (below 2^64 bytes): the three entry
   points (Value, Structure for a dynamic signature, typed) panic only in the signature parser's recursion (PStack: native
   stack exhaustion in signature parsing, class sig_parse_stack), and then the input is longer than stack_limit = 50000
   bytes.  (Before commit b5246470 there was a second class, the subtraction of read_last_offset_from_buffer in
   StructureDeserializer: C05/DeProofs.v, gde_before_fix_panics.) ---- *)
Theorem C04_gv_panic_classes : forall (e : endian) (pos : N) (g : sig) (b : bytes) (fds : list N) (p : panic),
  len b < 18446744073709551616 ->
  gde_value_top e pos b fds = Panic p \/ gde_struct_top e pos g b fds = Panic p \/ gde_typed_top e pos g b fds = Panic p ->
  p = PStack /\ stack_limit < len b.
Proof. exact gde_tops_panics. Qed.
Print Assumptions C04_gv_panic_classes.

(* hence no panic at all on inputs of at most 50000 bytes (Known_C04gv b := stack_limit < len b) *)
Theorem C04_gv_nopanic_partial : forall (e : endian) (pos : N) (g : sig) (b : bytes) (fds : list N) (p : panic),
  len b <= stack_limit ->
  gde_value_top e pos b fds <> Panic p /\ gde_struct_top e pos g b fds <> Panic p /\ gde_typed_top e pos g b fds <> Panic p.
Proof. exact gde_tops_small_nopanic. Qed.
Print Assumptions C04_gv_nopanic_partial.

(* the general form, for every decoder state with pos <= len < 2^64 and every recursion fuel *)
Theorem C04_gv_step : forall (fuel : nat) (st : dst) (p : panic),
  r_pos st <= r_len st /\ r_len st < 18446744073709551616 ->
  gde fuel st = Panic p -> p = PStack /\ stack_limit < r_len st.
Proof. exact gde_panics. Qed.
Print Assumptions C04_gv_step.

(* the code before commit b5246470, for the record: the second class was real, and confined to windows of >= 256 bytes *)
Theorem C04_gv_before_fix_classes : forall (fuel : nat) (st : dst) (p : panic),
  r_pos st <= r_len st /\ r_len st < 18446744073709551616 ->
  gde_before_fix fuel st = Panic p -> (p = PStack /\ stack_limit < r_len st) \/ (p = PArith /\ 256 <= r_len st).
Proof. exact gde_before_fix_panics. Qed.
Print Assumptions C04_gv_before_fix_classes.

(* ---- C07, GVariant half, encoder: for every well-formed value outside the known classes the serializer stops with a
   depth error exactly when the value exceeds 32 arrays (dicts count), 32 tuples or 64 containers in total (variants
   and maybes — `Just` only — count as containers); otherwise it succeeds (C05_partial).  The counters are restored on
   every exit path: that is the state equation of C05_step. ---- *)
Theorem C07_gv_ser : forall (e : endian) (pos : N) (v : gval),
  gwf v = true -> gplain v = true -> gsmall e v = true -> known_c05 e v = false ->
  ((exists k, gser_top e pos (gsig v) (sval_of v) = Err (EDepth k)) <-> gwithin_limits v = false).
Proof.
  intros e pos v Hw Hp Hs Hk. split.
  - intros [k Hx]. destruct (gwithin_limits v) eqn:Hl; [|reflexivity].
    rewrite (C05_partial e pos v Hw Hl Hp Hs Hk) in Hx. discriminate.
  - intros Hl. now apply gser_top_depth.
Qed.
Print Assumptions C07_gv_ser.

(* a tower of 33 arrays is refused, 32 are accepted; 64 maybes around a byte are accepted, 65 refused *)
Fixpoint tower_a (n : nat) (v : gval) : gval := match n with O => v | S k => GArray (gsig (tower_a k v)) [tower_a k v] end.
Fixpoint tower_m (n : nat) (v : gval) : gval := match n with O => v | S k => GMaybe (gsig (tower_m k v)) (Some (tower_m k v)) end.
Example C07_gv_instances :
  gwithin_limits (tower_a 32 (GU8 7)) = true /\ gwithin_limits (tower_a 33 (GU8 7)) = false /\
  gwithin_limits (tower_m 64 (GU8 7)) = true /\ gwithin_limits (tower_m 65 (GU8 7)) = false /\
  gser_top LE 0 (gsig (tower_a 33 (GU8 7))) (sval_of (tower_a 33 (GU8 7))) = Err (EDepth DArray) /\
  gser_top LE 0 (gsig (tower_m 65 (GU8 7))) (sval_of (tower_m 65 (GU8 7))) = Err (EDepth DTotal).
Proof. repeat split; vm_compute; reflexivity. Qed.

(* ---- C02, GVariant half: encode-then-decode.  For every byte order, start offset and well-formed value within the
   nesting limits, outside the known classes and without descriptors (rtok: the type string of every variant's payload
   is at most stack_limit = 50000 bytes): the deserializer model, run on the serializer model's output with the
   value's own signature, returns the value and consumes exactly the encoded length — for any recursion fuel >= 65. ---- *)
Theorem C02_gv_roundtrip : forall (e : endian) (pos : N) (v : gval) (fuel : nat),
  gwf v = true -> gwithin_limits v = true -> gplain v = true -> gsmall e v = true -> known_c05 e v = false ->
  rtok v = true -> (65 <= fuel)%nat ->
  exists (b : bytes) (st' : dst),
    gser_top e pos (gsig v) (sval_of v) = Ok (b, []) /\
    gde fuel (ginit_dst e pos (gsig v) b []) = Ok (v, st') /\ r_pos st' = len b.
Proof. intros e pos v fuel H1 H2 H3 H4 H5 H6 H7. now apply gv_roundtrip_plain. Qed.
Print Assumptions C02_gv_roundtrip.

(* the decoder half on its own: any window that holds exactly the format's encoding of a value (padded to its alignment) is
   decoded to that value and consumed entirely — independent of the serializer model *)
Theorem C02_gv_decode_spec : forall (e : endian) (v : gval) (fuel : nat) (st : dst),
  (gheight v <= fuel)%nat -> r_e st = e -> gwf v = true -> pre e v = true -> rtok v = true ->
  r_sig st = gsig v -> dep_ok (r_dep st) -> gfits (r_dep st) v -> r_len st < 18446744073709551616 ->
  holds st (pad (r_pos0 st + r_pos st) (galign (gsig v)) ++ gvb e v) ->
  exists st', gde fuel st = Ok (v, st') /\ r_pos st' = r_len st.
Proof. intros e v fuel st. exact (rt_all e v fuel st). Qed.
Print Assumptions C02_gv_decode_spec.

Example C02_gv_roundtrip_instance :
  rtok (GStruct [GU8 7; GDict SStr SVariant [(GStr (B "a"), GVariant (GU32 5))]; GArray (SStruct [SStr; SU16; SStr]) [GStruct [GStr (B "k"); GU16 9; GStr []]; GStruct [GStr []; GU16 1; GStr (B "zz")]];
                 GVariant (GMaybe SStr (Some (GStr (B "x")))); GMaybe (SArray SI64) (Some (GArray SI64 [GI64 (-1)]))]) = true
  /\ rt_value BE 3 (GStruct [GU8 7; GDict SStr SVariant [(GStr (B "a"), GVariant (GU32 5))]; GArray (SStruct [SStr; SU16; SStr]) [GStruct [GStr (B "k"); GU16 9; GStr []]; GStruct [GStr []; GU16 1; GStr (B "zz")]];
                 GVariant (GMaybe SStr (Some (GStr (B "x")))); GMaybe (SArray SI64) (Some (GArray SI64 [GI64 (-1)]))])
      = Ok (GStruct [GU8 7; GDict SStr SVariant [(GStr (B "a"), GVariant (GU32 5))]; GArray (SStruct [SStr; SU16; SStr]) [GStruct [GStr (B "k"); GU16 9; GStr []]; GStruct [GStr []; GU16 1; GStr (B "zz")]];
                 GVariant (GMaybe SStr (Some (GStr (B "x")))); GMaybe (SArray SI64) (Some (GArray SI64 [GI64 (-1)]))], 65, 65).
Proof. split; vm_compute; reflexivity. Qed.
