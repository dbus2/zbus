(* Properties/C26.v — method dispatch answers each call exactly once and correctly.
   Only statements, each closed by [exact] of a lemma of C26/*.v, and their assumptions.

   Vocabulary (C26/Desc.v, Tree.v, Msg.v, Model.v, Spec.v):
     idesc / mdesc                an interface description / a method of it (name, inputs, output shape, &mut self, fallible, async)
     behaviour                    what user code does: bh_method iface member args = HOk outs | HErr name msg  (quantified over)
     node                         the object server's tree of nodes with their registered interface instances
     call                         an incoming METHOD_CALL: PATH / INTERFACE / MEMBER (None = absent), NO_REPLY_EXPECTED, body values
     dispatch bh root c           MODEL of ObjectServer::dispatch_method_call_try + the generated `call`/`call_mut` + the three
                                  standard interfaces: (replies, handler log, signals) and the new tree
     spec26 bh root c             SPECIFICATION from the property text (None: not a D-Bus call, nothing demanded)
     meets x r                    r has exactly the replies, handler log, signals and final state that x demands
     class26 root c               the known-deviation class of the call, if any (decidable)
     tree_respects bh root        user code respects its Rust signatures (non-fallible methods return; results are typed) *)
From ZV Require Import Base.Bytes C26.Desc C26.Tree C26.Msg C26.Std C27.Model C28.Model C26.Model.
From ZV Require Import C28.Spec C26.Spec C26.Facts C26.Proofs C26.StdFacts C26.Examples.

(* The property as stated, kept visible; REFUTED on this tree (four classes, below). *)
Definition C26_full_statement : Prop :=
  forall (bh : behaviour) (root : node) (c : call) (x : expect),
    tree_respects bh root -> is_props_call root c = false ->
    spec26 bh root c = Some x -> meets x (dispatch bh root c).

(* --- exactly one reply, full strength: every behaviour, tree and call, known classes included --- *)
Theorem C26_once :
  forall (bh : behaviour) (root : node) (c : call),
    (c_noreply c = false -> length (ef_replies (fst (dispatch bh root c))) = 1) /\
    length (ef_replies (fst (dispatch bh root c))) <= 1.
Proof. exact once_dispatch. Qed.
Print Assumptions C26_once.

(* --- routing, handler invocation, reply: as the property demands outside the known classes --- *)
Theorem C26_dispatch_partial :
  forall (bh : behaviour) (root : node) (c : call) (x : expect),
    tree_respects bh root ->
    class26 root c = None -> is_props_call root c = false ->
    spec26 bh root c = Some x -> meets x (dispatch bh root c).
Proof. exact dispatch_partial. Qed.
Print Assumptions C26_dispatch_partial.

(* --- the handler runs exactly when path, interface, member and argument types match (and then once, with
       the arguments as sent) --- *)
Theorem C26_handler_runs_iff_partial :
  forall (bh : behaviour) (root : node) (c : call),
    match class26 root c with Some MissingInterface | Some NoargExtra | Some StructFlattened => False | _ => True end ->
    ((exists t n a, In (LMethod t n a) (ef_log (fst (dispatch bh root c)))) <->
     exists path iface member n i md,
       c_path c = Some path /\ c_iface c = Some iface /\ c_member c = Some member /\
       get_child root (segs_of path) = Some n /\ find_inst n iface = Some i /\
       find_method (in_desc i) member = Some md /\ types_match md (c_args c) = true /\
       ef_log (fst (dispatch bh root c)) = [LMethod (in_tag i) member (c_args c)]).
Proof. exact handler_runs_iff. Qed.
Print Assumptions C26_handler_runs_iff_partial.

(* --- wrong argument types: one InvalidArgs error reply (whatever the flags), the handler does not run, nothing
       changes (fix 86474bc3; before it the error name was org.freedesktop.zbus.Error) --- *)
Theorem C26_wrong_arguments_rejected :
  forall (bh : behaviour) (root : node) (c : call) path iface member n i md,
    c_path c = Some path -> c_iface c = Some iface -> c_member c = Some member ->
    get_child root (segs_of path) = Some n -> find_inst n iface = Some i ->
    find_method (in_desc i) member = Some md ->
    in_tys md <> [] -> types_match md (c_args c) = false -> ~ flattened md (c_args c) ->
    dispatch bh root c = (reply_only (RErr EInvalidArgs None), root).
Proof. exact badargs_rejected. Qed.
Print Assumptions C26_wrong_arguments_rejected.

(* --- which bodies the generated argument decoding accepts: the declared types, or one of two flattenings --- *)
Theorem C26_accepted_bodies :
  forall (md : mdesc) (args : list val),
    (types_match md args = true -> args_ok md args = true /\ unpack (in_tys md) args = args) /\
    (in_tys md <> [] -> args_ok md args = true -> types_match md args = true \/ flattened md args).
Proof.
  exact (fun md args => conj (fun H => conj (types_match_args_ok md args H) (types_match_unpack md args H))
                             (args_ok_inv md args)).
Qed.
Print Assumptions C26_accepted_bodies.

(* --- the known classes: in each, a concrete call on which the faithful model breaks the property --- *)
(* the former class invalid_args_name (fixed by 86474bc3): its witness now meets the specification *)
Theorem C26_invalid_args_answered :
  let c := ex_call (B "MTwo") false [VS (B "x")] in
  class26 ex_root c = None /\
  exists x, spec26 ex_bh ex_root c = Some x /\ x_reply x = XErr EInvalidArgs None /\ x_log x = [] /\
            meets x (dispatch ex_bh ex_root c) /\
            dispatch ex_bh ex_root c = (reply_only (RErr EInvalidArgs None), ex_root).
Proof. exact invalid_args_answered. Qed.
Print Assumptions C26_invalid_args_answered.

(* a method without declared inputs runs whatever the body holds *)
Theorem C26_noarg_extra_args_refuted :
  exists (bh : behaviour) (root : node) (c : call) (x : expect),
    tree_respects bh root /\ class26 root c = Some NoargExtra /\
    spec26 bh root c = Some x /\ ~ meets x (dispatch bh root c) /\
    exists t n, ef_log (fst (dispatch bh root c)) = [LMethod t n []].
Proof.
  exact (refuted_class_log (fun bh root c => exists t n, ef_log (fst (dispatch bh root c)) = [LMethod t n []]) _ _
           noarg_extra_refuted eq_refl (ex_intro _ _ (ex_intro _ _ noarg_extra_runs))).
Qed.
Print Assumptions C26_noarg_extra_args_refuted.

(* the parsed body signature cannot tell `us` from `(us)`: the handler runs with re-grouped arguments *)
Theorem C26_sole_struct_flattened_refuted :
  exists (bh : behaviour) (root : node) (c : call) (x : expect),
    tree_respects bh root /\ class26 root c = Some StructFlattened /\
    spec26 bh root c = Some x /\ ~ meets x (dispatch bh root c) /\
    exists t n a, ef_log (fst (dispatch bh root c)) = [LMethod t n a] /\ a <> c_args c.
Proof.
  exact (refuted_class_log (fun bh root c => exists t n a, ef_log (fst (dispatch bh root c)) = [LMethod t n a] /\ a <> c_args c) _ _
           struct_flattened_refuted eq_refl
           (ex_intro _ _ (ex_intro _ _ (ex_intro _ _ (conj struct_flattened_runs struct_flattened_regrouped))))).
Qed.
Print Assumptions C26_sole_struct_flattened_refuted.

(* a call without the (optional) INTERFACE field is answered with Failed *)
Theorem C26_missing_interface_refuted :
  exists (bh : behaviour) (root : node) (c : call) (x : expect),
    tree_respects bh root /\ class26 root c = Some MissingInterface /\
    spec26 bh root c = Some x /\ ~ meets x (dispatch bh root c).
Proof. exact (refuted_class _ _ missing_interface_refuted eq_refl). Qed.
Print Assumptions C26_missing_interface_refuted.

(* a single named structure is declared as one (us) out argument and travels as two values *)
Theorem C26_single_struct_return_refuted :
  exists (bh : behaviour) (root : node) (c : call) (x : expect),
    tree_respects bh root /\ class26 root c = Some SingleStructReturn /\
    spec26 bh root c = Some x /\ ~ meets x (dispatch bh root c).
Proof. exact (refuted_class _ _ single_struct_return_refuted eq_refl). Qed.
Print Assumptions C26_single_struct_return_refuted.

Theorem C26_full_statement_refuted : ~ C26_full_statement.
Proof. exact full_statement_refuted. Qed.
Print Assumptions C26_full_statement_refuted.
