(* Properties/C35.v — every supported feature combination builds (other / partial).
   What is proved is about the cargo feature graph of the workspace as read by tools/gen_features.py on this run
   (C35/Generated.v) and the model of resolver-2 feature unification (C35/Unify.v): a NECESSARY condition for building —
   coherence of the per-unit feature assignment with the cfg-gated enum variants / match arms / macro output found in the
   sources. It does not say that rustc accepts the crates; that part is the `cargo check` correspondence of ./check C35.
   A selection is what a downstream crate writes in [dependencies]: any list of requests (workspace library crate,
   default-features flag, any subset of its features). The theorems quantify over ALL such selections (no bound on
   their length); the finite part is the generated graph (8 crates, 4 rules on the pinned tree). *)
From Coq Require Import List Bool.
Import ListNotations.
From ZV Require Import Base.Bytes C35.Types C35.Unify C35.Generated C35.Spec C35.Proofs.

(* the property as stated, on the model: every supported selection is coherent *)
Definition C35_full_statement : Prop :=
  forall sel, wf_sel crates sel = true -> forall St, resolve_sel crates sel = Some St ->
  supported St = true -> forallb (unit_coherent St) (units crates St) = true.

(* the model of unification computes exactly the facts reachable through the feature graph, for any roots *)
Theorem C35_resolve_least_fixpoint : forall roots St, resolve crates roots = Some St ->
  forall x, In x St <-> Reach crates roots x.
Proof. exact (resolve_spec crates no_weak). Qed.
Print Assumptions C35_resolve_least_fixpoint.

(* ... and always terminates within its fuel on a well-formed selection (so the theorems below are not vacuous) *)
Theorem C35_resolve_total : forall sel, wf_sel crates sel = true -> exists St, resolve_sel crates sel = Some St.
Proof. exact resolve_sel_total. Qed.
Print Assumptions C35_resolve_total.

(* fixed (was C35_coherent_refuted, class gvariant_split; /repo commit b1eb512d): zbus + zvariant[gvariant] is now coherent —
   zvariant's matches over Signature / Format have `#[cfg(not(feature = "gvariant"))]` catch-all arms, so the rule
   zvariant_utils/gvariant => zvariant/gvariant is no longer read off the sources. The check builds this selection on
   every run; if it fails to build again that is an ordinary violation. *)
Theorem C35_gvariant_fixed :
  let sel := [ {| q_crate := B "zbus"; q_default := true; q_feats := [] |};
               {| q_crate := B "zvariant"; q_default := true; q_feats := [B "gvariant"] |} ] in
  wf_sel crates sel = true /\
  match resolve_sel crates sel with
  | Some St => coherent St && supported St && negb (known_class St)
  | None => false
  end = true.
Proof. exact gvariant_now_coherent. Qed.
Print Assumptions C35_gvariant_fixed.

(* refuted: zbus[no default, tokio] + zbus_macros[blocking-api] — zbus's own #[proxy] items name zbus::blocking *)
Theorem C35_blocking_refuted : exists sel,
  sel = [ {| q_crate := B "zbus"; q_default := false; q_feats := [B "tokio"] |};
          {| q_crate := B "zbus_macros"; q_default := true; q_feats := [B "blocking-api"] |} ] /\
  wf_sel crates sel = true /\
  exists St, resolve_sel crates sel = Some St /\ supported St = true /\
             forallb (unit_coherent St) (units crates St) = false /\ violated St is_blocking_split = true.
Proof. exact blocking_refuted. Qed.
Print Assumptions C35_blocking_refuted.

(* partial: for EVERY selection, every unit satisfies every rule other than the known one
   (Known_C35 r = is_blocking_split r) *)
Theorem C35_coherent_partial_units : forall sel, wf_sel crates sel = true ->
  forall St, resolve_sel crates sel = Some St ->
  forallb (fun u => forallb (fun r => Known_C35 r || negb (rule_applies u r) || rule_holds St (snd u) r) rules)
          (units crates St) = true.
Proof. exact coherent_partial_units. Qed.
Print Assumptions C35_coherent_partial_units.

(* partial, by selection: outside the known classes every unit is coherent *)
Theorem C35_coherent_partial : forall sel, wf_sel crates sel = true ->
  forall St, resolve_sel crates sel = Some St ->
  known_class St = false -> forallb (unit_coherent St) (units crates St) = true.
Proof. exact coherent_partial. Qed.
Print Assumptions C35_coherent_partial.

(* the workaround users had before b1eb512d (also enabling zbus_macros/gvariant) stays coherent *)
Theorem C35_gvariant_workaround :
  match resolve_sel crates
          [ {| q_crate := B "zbus"; q_default := true; q_feats := [] |};
            {| q_crate := B "zvariant"; q_default := true; q_feats := [B "gvariant"] |};
            {| q_crate := B "zbus_macros"; q_default := true; q_feats := [B "gvariant"] |} ] with
  | Some St => coherent St && supported St
  | None => false
  end = true.
Proof. exact gvariant_repaired_coherent. Qed.
Print Assumptions C35_gvariant_workaround.

(* documentation of the feature graph behind the former finding: each pair is an edge (the second fact is among the direct
   consequences of the first); the chain leads from the target build of zvariant, through the host-only proc-macro crate
   zvariant_derive, to `gvariant` on the HOST build of zvariant_utils, while zbus -> zbus_macros (host) -> zvariant (host)
   brings a host build of zvariant for which nothing requests `gvariant`. This is still what cargo resolves; since b1eb512d
   it is harmless because the host zvariant covers the extra variants with its catch-all arms (C35_gvariant_fixed). *)
Theorem C35_gvariant_mechanism :
  forallb (fun e => mem (snd e) (psuccs crates (fst e)))
    [ (FV (B "zvariant") KT (FvFeat (B "gvariant")), FV (B "zvariant") KT (FvDepFeat (B "zvariant_derive") (B "gvariant") false));
      (FV (B "zvariant") KT (FvDepFeat (B "zvariant_derive") (B "gvariant") false), FV (B "zvariant_derive") KH (FvFeat (B "gvariant")));
      (FV (B "zvariant_derive") KH (FvFeat (B "gvariant")), FV (B "zvariant_derive") KH (FvDepFeat (B "zvariant_utils") (B "gvariant") false));
      (FV (B "zvariant_derive") KH (FvDepFeat (B "zvariant_utils") (B "gvariant") false), FV (B "zvariant_utils") KH (FvFeat (B "gvariant")));
      (FP (B "zbus") KT, FP (B "zbus_macros") KH);
      (FP (B "zbus_macros") KH, FP (B "zvariant") KH) ] &&
  match resolve_sel crates [ {| q_crate := B "zbus"; q_default := true; q_feats := [] |};
                             {| q_crate := B "zvariant"; q_default := true; q_feats := [B "gvariant"] |} ] with
  | Some St => mem (FV (B "zvariant") KT (FvFeat (B "gvariant"))) St && mem (FP (B "zbus") KT) St
               && mem (FV (B "zvariant_utils") KH (FvFeat (B "gvariant"))) St && mem (FP (B "zvariant") KH) St
               && negb (mem (FV (B "zvariant") KH (FvFeat (B "gvariant"))) St)
  | None => false
  end = true.
Proof. apply andb_true_iff. exact gvariant_mechanism. Qed.
Print Assumptions C35_gvariant_mechanism.
