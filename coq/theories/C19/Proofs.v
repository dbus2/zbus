(* C19/Proofs.v — the theorems of C19 (statements repeated in Properties/C19.v). *)
From ZV Require Import Base.Bytes Base.Res C19.Broadcast C19.BroadcastFacts C19.Model C19.Steps C19.Invariants.
From Coq Require Import Lia.

(* ------------------------------------------------------------------ C19_match *)
Definition serials_distinct (cs : list (ckind * N)) : Prop := NoDup (map snd cs).

Lemma nodup_nth {A} (l : list A) i j x : NoDup l -> nth_error l i = Some x -> nth_error l j = Some x -> i = j.
Proof.
  intros Hnd Hi Hj. eapply NoDup_nth_error; [exact Hnd | | congruence]. apply nth_error_Some. congruence.
Qed.

Theorem match_own cs cap t tr s i r c :
  reach cs cap t tr s -> In (i, r) (done_log s) -> nth_error (callers s) i = Some c ->
  match r with
  | ROk m => m_rs m = Some (c_serial c) /\ m_type m = TReturn /\
             (serials_distinct cs -> forall j c', j <> i -> nth_error (callers s) j = Some c' -> answers m (c_serial c') = false)
  | RMethodErr m => m_rs m = Some (c_serial c) /\ m_type m = TError /\
             (serials_distinct cs -> forall j c', j <> i -> nth_error (callers s) j = Some c' -> answers m (c_serial c') = false)
  | _ => True
  end.
Proof.
  intros Hr Hin Hc. apply (done_inv _ _ _ _ _ Hr) in Hin. unfold st_at in Hin. rewrite Hc in Hin. injection Hin as Hst.
  pose proof (own_inv _ _ _ _ _ i c r Hr Hc Hst) as Ho.
  (* a message that answers c carries its serial, which no other call has *)
  assert (Hother : forall m, answers m (c_serial c) = true -> m_rs m = Some (c_serial c) /\
            (serials_distinct cs -> forall j c', j <> i -> nth_error (callers s) j = Some c' -> answers m (c_serial c') = false)).
  { intros m Ha. apply andb_true_iff, proj1 in Ha.
    destruct (m_rs m) as [x|] eqn:Em; [|discriminate]. apply N.eqb_eq in Ha. subst x. split; [reflexivity|].
    intros Hnd j c' Hne Hc'. unfold answers. rewrite Em. destruct (N.eqb_spec (c_serial c) (c_serial c')) as [E|]; [|reflexivity].
    destruct Hne. unfold serials_distinct in Hnd. rewrite <- (kinds_inv _ _ _ _ _ Hr), map_map in Hnd.
    apply (nodup_nth _ j i (c_serial c) Hnd); rewrite nth_error_map; [rewrite Hc', E | rewrite Hc]; reflexivity. }
  destruct r; try exact I; destruct Ho as [Ha Ht]; destruct (Hother _ Ha) as [H1 H2]; auto.
Qed.

(* ------------------------------------------------------------------ C19_once *)
Theorem once cs cap t tr s : reach cs cap t tr s ->
  NoDup (map fst (done_log s)) /\ (forall i r, In (i, r) (done_log s) <-> st_at s i = Some (CDone r)).
Proof. apply done_inv. Qed.

(* ------------------------------------------------------------------ C19_sees *)
Theorem nothing_missed cs cap t tr s i c p q m :
  reach cs cap t tr s -> nth_error (callers s) i = Some c -> (c_st c = CWaiting \/ c_st c = CWritten) -> cursor (ch s) i = Some p ->
  nth_error (log (ch s)) q = Some (IMsg m) -> answers m (c_serial c) = true -> p <= q.
Proof.
  intros Hr Hc Hst Hcur Hn Ha. pose proof (cursors_inv _ _ _ _ _ Hr i c Hc) as H. unfold cur_ok in H. rewrite Hcur in H.
  destruct (le_lt_dec p q) as [|Hlt]; [assumption|]. rewrite (proj2 (proj2 H) Hst q m Hlt Hn) in Ha. discriminate.
Qed.

(* a caller that subscribed is never without cursor before it completes: its stream can always be polled *)
Theorem active_has_cursor cs cap t tr s i c :
  reach cs cap t tr s -> nth_error (callers s) i = Some c -> active (c_st c) = true -> exists p, cursor (ch s) i = Some p /\ p <= tail (ch s).
Proof.
  intros Hr Hc Hst. pose proof (cursors_inv _ _ _ _ _ Hr i c Hc) as H. unfold cur_ok in H.
  destruct (cursor (ch s) i) as [p|]; [|congruence]. exists p. split; [reflexivity | apply H].
Qed.

Definition is_recv (i : nat) (l : label) : bool := match l with LRecv j => Nat.eqb i j | _ => false end.
Definition is_timeout (i : nat) (l : label) : bool := match l with LTimeout j => Nat.eqb i j | _ => false end.
Definition count_recv (i : nat) (tr : list label) : nat := length (filter (is_recv i) tr).

(* the items between the cursor and position q are messages that do not answer this serial *)
Definition clean_until (l : list item) (p q : nat) (serial : N) : Prop :=
  forall j, p <= j < q -> exists m, nth_error l j = Some (IMsg m) /\ answers m serial = false.

(* what other tasks do does not touch a waiting caller: its state and cursor stay, the log only grows *)
Lemma frame s l s' i c : tstep s l s' -> is_recv i l = false -> is_timeout i l = false ->
  nth_error (callers s) i = Some c -> c_st c = CWaiting ->
  nth_error (callers s') i = Some c /\ cursor (ch s') i = cursor (ch s) i /\ exists ext, log (ch s') = log (ch s) ++ ext.
Proof.
  intros H Hnr Hnt Hc Hst.
  (* of the labels of caller i only LRecv i and LTimeout i are enabled while it waits *)
  assert (Ea : actor l <> Some i).
  { intros Ea. destruct H; try discriminate Ea; injection Ea as ->; cbn in Hnr, Hnt; rewrite ?Nat.eqb_refl in *; congruence. }
  destruct (tstep_frame s l s' i H Ea) as [-> ->]. repeat split; [exact Hc|].
  destruct (tstep_log _ _ _ H) as [->|(it & n & _ & ->)]; [exists []; now rewrite app_nil_r | now exists [it]].
Qed.

Lemma nth_error_ext {A} (l ext : list A) j x : nth_error l j = Some x -> nth_error (l ++ ext) j = Some x.
Proof. intros H. rewrite nth_error_app1; [assumption|]. apply nth_error_Some. congruence. Qed.

Lemma clean_ext l ext p q serial : clean_until l p q serial -> clean_until (l ++ ext) p q serial.
Proof. intros H j Hj. destruct (H j Hj) as (m & Hn & Ha). exists m. split; [now apply nth_error_ext | assumption]. Qed.

(* a waiting caller takes the item at its cursor: it completes, or skips a message that is not its answer *)
Lemma recv_waiting s i c p s1 : nth_error (callers s) i = Some c -> c_st c = CWaiting -> cursor (ch s) i = Some p ->
  step (LRecv i) s = Some s1 ->
  match nth_error (log (ch s)) p with
  | Some (IMsg m) => if answers m (c_serial c) then st_at s1 i = Some (CDone (res_of m))
                     else s1 = with_ch s (with_rcv (ch s) (set_cursor (rcv (ch s)) i (S p)))
  | Some (IFail e) => st_at s1 i = Some (CDone (RFail e))
  | None => st_at s1 i = Some (CDone RBrokenPipe)
  end.
Proof.
  intros Hc Hst Hcur. unfold step. rewrite Hc, Hst. unfold try_recv. rewrite Hcur.
  destruct (nth_error (log (ch s)) p) as [[m|e]|]; [destruct (answers m (c_serial c))| |destruct (closed (ch s)); [|discriminate]];
    intros [= <-]; try reflexivity; now apply st_at_upd_same.
Qed.

Lemma skip_cursor (s : sys) i p : cursor (ch s) i = Some p ->
  cursor (ch (with_ch s (with_rcv (ch s) (set_cursor (rcv (ch s)) i (S p))))) i = Some (S p).
Proof. apply cursor_in_set_same. Qed.

(* the first answer in front of the cursor is reached after q - p + 1 items, whatever else happens in between *)
Theorem sees_progress : forall tr' s s' i c p q m,
  nth_error (callers s) i = Some c -> c_st c = CWaiting -> cursor (ch s) i = Some p -> p <= q ->
  nth_error (log (ch s)) q = Some (IMsg m) -> answers m (c_serial c) = true ->
  clean_until (log (ch s)) p q (c_serial c) ->
  exec tr' s = Some s' -> existsb (is_timeout i) tr' = false -> q - p < count_recv i tr' ->
  st_at s' i = Some (CDone (res_of m)).
Proof.
  induction tr' as [|l tr' IH]; intros s s' i c p q m Hc Hst Hcur Hpq Hq Ha Hcl He Hnt Hcnt; [cbn in Hcnt; lia|].
  cbn [exec] in He. destruct (step l s) as [s1|] eqn:Es; [|discriminate]. cbn [existsb] in Hnt.
  apply orb_false_iff in Hnt. destruct Hnt as [Hnt1 Hnt]. unfold count_recv in Hcnt. cbn [filter] in Hcnt.
  destruct (is_recv i l) eqn:Er.
  - (* the caller takes one item *)
    destruct l; try discriminate Er. apply Nat.eqb_eq in Er. subst i0. cbn [length] in Hcnt.
    pose proof (recv_waiting s i c p s1 Hc Hst Hcur Es) as Hs1. destruct (Nat.eq_dec p q) as [->|Hne].
    + (* the answer itself *) rewrite Hq, Ha in Hs1. eapply done_exec; eassumption.
    + (* not an answer: one step closer *)
      destruct (Hcl p ltac:(lia)) as (m' & Hm' & Ha'). rewrite Hm', Ha' in Hs1.
      apply (IH s1 s' i c (S p) q m); try assumption; subst s1; try assumption;
        [now apply skip_cursor | lia | | unfold count_recv; lia].
      intros j Hj. apply Hcl. lia.
  - apply step_tstep in Es. destruct (frame _ _ _ i c Es Er Hnt1 Hc Hst) as (Hc1 & Hcur1 & ext & Hl1).
    apply (IH s1 s' i c p q m); try assumption; rewrite ?Hl1; [congruence | now apply nth_error_ext | now apply clean_ext].
Qed.

Lemma st_at_finish s i c r : nth_error (callers s) i = Some c -> st_at (finish s i c r) i = Some (CDone r).
Proof. apply st_at_upd_same. Qed.

(* ------------------------------------------------------------------ C19_noreply *)
Theorem noreply_completes s i c : nth_error (callers s) i = Some c -> c_st c = CSending -> c_kind c = KNoReply ->
  exists s', step (LSend i true) s = Some s' /\ st_at s' i = Some (CDone RNoReply).
Proof. intros Hc Hst Hk. unfold step. rewrite Hc, Hst, Hk. eexists. split; [reflexivity | now apply st_at_finish]. Qed.

(* NoReplyExpected when the write completes before send() returns: complete at the return *)
Theorem noreply_completes_late s i c : nth_error (callers s) i = Some c -> c_st c = CWritten -> c_kind c = KNoReply ->
  exists s', step (LRet i) s = Some s' /\ st_at s' i = Some (CDone RNoReply).
Proof. intros Hc Hst Hk. unfold step. rewrite Hc, Hst, Hk. eexists. split; [reflexivity | now apply st_at_finish]. Qed.

(* ------------------------------------------------------------------ C19_fail *)
Lemma stopped_frame s l s' : tstep s l s' -> reader s = RStopped -> closed (ch s) = true ->
  reader s' = RStopped /\ closed (ch s') = true /\ log (ch s') = log (ch s).
Proof.
  intros H Hr Hcl.
  destruct H; cbn [reader ch with_ch with_callers with_wlock with_wire with_reader with_socket finish];
    rewrite ?log_subscribe, ?log_drop, ?closed_subscribe, ?closed_drop;
    try (apply try_recv_keeps in H1 as Hk; destruct Hk as [-> ->]); try congruence; repeat split; assumption.
Qed.

Theorem fail_progress : forall tr' s s' i c p,
  reader s = RStopped -> closed (ch s) = true ->
  nth_error (callers s) i = Some c -> c_st c = CWaiting -> cursor (ch s) i = Some p -> p <= tail (ch s) ->
  exec tr' s = Some s' -> tail (ch s) - p < count_recv i tr' -> exists r, st_at s' i = Some (CDone r).
Proof.
  induction tr' as [|l tr' IH]; intros s s' i c p Hrd Hcl Hc Hst Hcur Hle He Hcnt; [cbn in Hcnt; lia|].
  cbn [exec] in He. destruct (step l s) as [s1|] eqn:Es; [|discriminate].
  unfold count_recv in Hcnt. cbn [filter] in Hcnt.
  assert (Hdone : forall r, st_at s1 i = Some (CDone r) -> exists r', st_at s' i = Some (CDone r')).
  { intros r Hd. exists r. eapply done_exec; eassumption. }
  destruct (is_recv i l) eqn:Er; [|destruct (is_timeout i l) eqn:Et].
  - (* the caller takes one item: it completes unless the item is a message for somebody else *)
    destruct l; try discriminate Er. apply Nat.eqb_eq in Er. subst i0. cbn [length] in Hcnt.
    pose proof (recv_waiting s i c p s1 Hc Hst Hcur Es) as Hs1.
    destruct (nth_error (log (ch s)) p) as [[m|e]|] eqn:En; [destruct (answers m (c_serial c))| |]; try exact (Hdone _ Hs1).
    assert (p < tail (ch s)) by (apply nth_error_Some; congruence).
    apply (IH s1 s' i c (S p)); try assumption; subst s1; try assumption;
      [now apply skip_cursor | unfold count_recv, tail in *; cbn; lia].
  - destruct l; try discriminate Et. apply Nat.eqb_eq in Et. subst i0. apply (Hdone RTimedOut).
    unfold step in Es. rewrite Hc, Hst in Es. destruct (c_kind c); try discriminate; (destruct (tmo s); [|discriminate]);
      injection Es as <-; now apply st_at_finish.
  - apply step_tstep in Es. destruct (stopped_frame _ _ _ Es Hrd Hcl) as (Hrd1 & Hcl1 & Hl1).
    destruct (frame _ _ _ i c Es Er Et Hc Hst) as (Hc1 & Hcur1 & _).
    apply (IH s1 s' i c p); unfold tail in *; rewrite ?Hl1; try assumption. congruence.
Qed.

Theorem fail_completes cs cap t tr s tr' s' i c :
  reach cs cap t tr s -> reader s = RStopped -> nth_error (callers s) i = Some c -> c_st c = CWaiting ->
  exec tr' s = Some s' -> length (log (ch s)) < count_recv i tr' -> exists r, st_at s' i = Some (CDone r).
Proof.
  intros Hr Hrd Hc Hst He Hcnt. destruct (active_has_cursor _ _ _ _ _ i c Hr Hc) as (p & Hcur & Hle); [now rewrite Hst|].
  eapply fail_progress; try eassumption.
  - apply (closed_iff _ _ _ _ _ Hr). now left.
  - unfold tail. lia.
Qed.

(* every item can be taken: a waiting caller with something unread, or a closed channel, is never stuck *)
Theorem recv_enabled cs cap t tr s i c :
  reach cs cap t tr s -> nth_error (callers s) i = Some c -> c_st c = CWaiting ->
  (exists p, cursor (ch s) i = Some p /\ (p < tail (ch s) \/ closed (ch s) = true)) -> exists s', step (LRecv i) s = Some s'.
Proof.
  intros Hr Hc Hst (p & Hcur & Hp). unfold step. rewrite Hc, Hst. unfold try_recv. rewrite Hcur.
  destruct (nth_error (log (ch s)) p) as [x|] eqn:En.
  - destruct x as [m|e]; [destruct (answers m (c_serial c))|]; eexists; reflexivity.
  - destruct Hp as [Hp|Hp].
    + apply nth_error_None in En. unfold tail in Hp. lia.
    + rewrite Hp. eexists; reflexivity.
Qed.

(* ------------------------------------------------------------------ C19_timeout: with a timeout configured, the timer of every
   waiting call — Connection::call_method, Proxy::call and (since commit 3eb91a8f) Proxy::call_with_flags alike — can fire and
   completes the call with TimedOut *)
Theorem timeout_full cs cap t tr s i c :
  reach cs cap t tr s -> tmo s = true -> nth_error (callers s) i = Some c -> c_st c = CWaiting ->
  exists s', step (LTimeout i) s = Some s' /\ st_at s' i = Some (CDone RTimedOut).
Proof.
  intros Hr Ht Hc Hst. pose proof (noreply_inv _ _ _ _ _ Hr i c Hc) as Hn.
  unfold step. rewrite Hc, Hst, Ht. destruct (c_kind c); [| |now destruct Hn]; eexists; (split; [reflexivity | now apply st_at_finish]).
Qed.

(* without a configured timeout no timer exists: LTimeout is never enabled *)
Theorem no_timeout_without_config cs cap t tr s i : reach cs cap t tr s -> t = false -> step (LTimeout i) s = None.
Proof.
  intros Hr ->. assert (Ht : tmo s = false).
  { clear i. induction Hr as [|tr s l s' Hr IH Hs]; [reflexivity|]. apply step_tstep in Hs. destruct Hs; exact IH. }
  unfold step. destruct (nth_error (callers s) i) as [c|]; [|reflexivity]. destruct (c_st c); try reflexivity.
  destruct (c_kind c); try reflexivity; now rewrite Ht.
Qed.

(* ------------------------------------------------------------------ the reply reaches the channel — unless the application has
   subscribed to exactly the rule under which Connection::new registered the method-return channel (LHijack) *)
Definition is_hijack (l : label) : bool := match l with LHijack _ => true | _ => false end.
Definition has_hijack (tr : list label) : bool := existsb is_hijack tr.

(* both entries are in place as long as nobody has taken one *)
Lemma keys_inv cs cap t tr s : reach cs cap t tr s -> has_hijack tr = false -> kret s = true /\ kerr s = true.
Proof.
  induction 1 as [|tr s l s' Hr IH Hs]; [split; reflexivity|]. unfold has_hijack. rewrite existsb_app. cbn. rewrite orb_false_r.
  intros Hh. apply orb_false_iff in Hh. destruct Hh as [Hh Hl].
  specialize (IH Hh). apply step_tstep in Hs. destruct Hs; try exact IH. discriminate.
Qed.

Theorem delivery_partial :
  forall cs cap0 t tr s i c m rest, reach cs cap0 t tr s -> has_hijack tr = false ->
    reader s = RIdle -> socket s = IMsg m :: rest ->
    nth_error (callers s) i = Some c -> (c_st c = CWaiting \/ c_st c = CWritten) -> answers m (c_serial c) = true -> qlen (ch s) < cap (ch s) ->
    exists s', exec [LRead; LPush; LNext] s = Some s' /\ log (ch s') = log (ch s) ++ [IMsg m] /\ reader s' = RIdle /\ socket s' = rest.
Proof.
  intros cs cap0 t tr s i c m rest Hr Hh Hrd Hso Hc Hst Ha Hroom. destruct (keys_inv _ _ _ _ _ Hr Hh) as [Hkr Hke].
  destruct (active_has_cursor _ _ _ _ _ i c Hr Hc) as (p & Hcur & _); [now destruct Hst as [-> | ->]|].
  assert (Hncl : closed (ch s) = false).
  { destruct (closed (ch s)) eqn:E; [|reflexivity]. apply (closed_iff _ _ _ _ _ Hr) in E. destruct E as [E|[E _]]; congruence. }
  assert (Hfan : fanout s (IMsg m) = 1).
  { apply andb_true_iff, proj2 in Ha. unfold fanout. destruct (m_type m); try discriminate; [now rewrite Hkr | now rewrite Hke]. }
  cbn [exec]. unfold step at 1. rewrite Hrd, Hso, Hfan.
  unfold step at 1. cbn [reader with_reader with_socket ch]. unfold try_push. rewrite Hncl.
  pose proof (cursor_some_rcv _ (ch s) i p Hcur) as Hrcv. destruct (rcv (ch s)) as [|r0 rs] eqn:Er; [congruence|].
  apply Nat.leb_gt in Hroom. rewrite Hroom.
  unfold step at 1. cbn [reader with_reader with_ch]. eexists. split; [reflexivity|]. cbn. repeat split; reflexivity.
Qed.

(* ------------------------------------------------------------------ the replay of the correspondence check stays inside the relation *)
Lemma exec_reach_gen cs cap t : forall tr tr0 s0 s, reach cs cap t tr0 s0 -> exec tr s0 = Some s -> reach cs cap t (tr0 ++ tr) s.
Proof.
  induction tr as [|l tr IH]; intros tr0 s0 s Hr He; cbn [exec] in He.
  - inversion He; subst. now rewrite app_nil_r.
  - destruct (step l s0) as [s1|] eqn:E; [|discriminate].
    replace (tr0 ++ l :: tr) with ((tr0 ++ [l]) ++ tr) by (now rewrite <- app_assoc).
    apply (IH _ s1); [econstructor; eassumption | assumption].
Qed.
Theorem exec_reach cs cap t tr s : exec tr (init cs cap t) = Some s -> reach cs cap t tr s.
Proof. intros H. apply (exec_reach_gen cs cap t tr [] (init cs cap t) s); [constructor | assumption]. Qed.

(* ---- the refutation of the full statement, and what it means: after the hijack no METHOD_RETURN ever enters the channel ---- *)
(* the witness: one call written, the application subscribes to type='method_return', the reply arrives *)
Definition hijack_cs : list (ckind * N) := [(KCall, 1%N)].
Definition hijack_reply : msg := {| m_id := 0; m_type := TReturn; m_rs := Some 1%N |}.
Definition hijack_trace : list label := [LSub 0; LLock 0; LSend 0 true; LHijack false; LArrive (IMsg hijack_reply)].
Definition hijack_witness : sys := match exec hijack_trace (init hijack_cs 8 false) with Some s => s | None => init hijack_cs 8 false end.

Lemma hijack_witness_reach : reach hijack_cs 8 false hijack_trace hijack_witness.
Proof. apply exec_reach. vm_compute. reflexivity. Qed.

Theorem hijack_refuted :
  ~ (forall cs cap0 t tr s i c m rest, reach cs cap0 t tr s ->
       reader s = RIdle -> socket s = IMsg m :: rest ->
       nth_error (callers s) i = Some c -> (c_st c = CWaiting \/ c_st c = CWritten) -> answers m (c_serial c) = true -> qlen (ch s) < cap (ch s) ->
       exists s', exec [LRead; LPush; LNext] s = Some s' /\ log (ch s') = log (ch s) ++ [IMsg m] /\ reader s' = RIdle /\ socket s' = rest).
Proof.
  intros H.
  destruct (H hijack_cs 8 false hijack_trace hijack_witness 0 {| c_kind := KCall; c_serial := 1%N; c_st := CWaiting |} hijack_reply []
              hijack_witness_reach) as (s' & He & _); try reflexivity; try discriminate; try (left; reflexivity).
  vm_compute. lia.
Qed.

(* type='method_return' no longer leads to the channel, and the reader holds no METHOD_RETURN that still has to go there *)
Definition ret_dead (s : sys) : Prop := kret s = false /\ forall m n, reader s = RPush (IMsg m) (S n) -> m_type m <> TReturn.

Lemma hijack_ret_dead s s' : step (LHijack false) s = Some s' -> ret_dead s'.
Proof.
  intros H. apply step_tstep in H. inversion H; subst. split; [reflexivity|]. intros m n Hrd. rewrite hijack_reader in Hrd. congruence.
Qed.

Lemma ret_dead_step s l s' : tstep s l s' -> ret_dead s -> ret_dead s'.
Proof.
  intros H [Hk Hrd].
  destruct H; unfold ret_dead; cbn [reader kret with_ch with_callers with_wlock with_wire with_reader with_socket finish];
    try (split; [exact Hk | exact Hrd]); (split; [try exact Hk|]).
  - (* read: type='method_return' leads nowhere *)
    intros m n [= -> E] Ht. unfold fanout in E. rewrite Ht, Hk in E. discriminate.
  - intros m n0 [= -> ->]. exact (Hrd _ _ H).
  - intros m n0 [= -> ->]. exact (Hrd _ _ H).
  - discriminate.
  - discriminate.
  - cbn. destruct e; [exact Hk | reflexivity].
  - rewrite hijack_reader, H. discriminate.
Qed.

Lemma ret_dead_log s l s' m : tstep s l s' -> ret_dead s -> In (IMsg m) (log (ch s')) -> m_type m = TReturn -> In (IMsg m) (log (ch s)).
Proof.
  intros H [_ Hrd] Hin Ht. destruct (tstep_log _ _ _ H) as [E|(it & n & Hr & E)]; rewrite E in Hin; [exact Hin|].
  apply in_app_iff in Hin. destruct Hin as [Hin|[->|[]]]; [exact Hin | destruct (Hrd _ _ Hr Ht)].
Qed.

Theorem returns_lost_for_ever : forall tr' s s', ret_dead s -> exec tr' s = Some s' ->
  ret_dead s' /\ forall m, In (IMsg m) (log (ch s')) -> m_type m = TReturn -> In (IMsg m) (log (ch s)).
Proof.
  induction tr' as [|l tr' IH]; intros s s' Hd He; cbn [exec] in He.
  - inversion He; subst. split; [exact Hd | auto].
  - destruct (step l s) as [s1|] eqn:Es; [|discriminate]. apply step_tstep in Es.
    destruct (IH _ _ (ret_dead_step _ _ _ Es Hd) He) as [Hd' Hl']. split; [exact Hd'|].
    intros m Hin Ht. apply (ret_dead_log _ _ _ _ Es Hd); [|exact Ht]. apply Hl'; assumption.
Qed.

Theorem hijacked_returns_lost : forall s0 s tr' s',
  step (LHijack false) s0 = Some s -> exec tr' s = Some s' ->
  forall m, In (IMsg m) (log (ch s')) -> m_type m = TReturn -> In (IMsg m) (log (ch s)).
Proof. intros s0 s tr' s' Hh He. exact (proj2 (returns_lost_for_ever tr' s s' (hijack_ret_dead s0 s Hh) He)). Qed.

(* the interleaving a "send first, subscribe afterwards" variant of call_method_raw loses: the call's bytes are out, the peer's
   reply arrives and is handled completely by the socket reader BEFORE send() returns to the caller, no other call is pending.
   The receiver was activated before the send, so the reply is in the channel and the caller gets it. *)
Definition early_cs : list (ckind * N) := [(KCall, 1%N)].
Definition early_reply : msg := {| m_id := 0; m_type := TReturn; m_rs := Some 1%N |}.
Definition early_trace : list label := [LSub 0; LLock 0; LWire 0; LArrive (IMsg early_reply); LRead; LPush; LNext; LRet 0; LRecv 0].
Lemma early_reply_received :
  exists s, exec early_trace (init early_cs 8 false) = Some s /\ st_at s 0 = Some (CDone (ROk early_reply)) /\ done_log s = [(0, ROk early_reply)].
Proof. eexists. split; [vm_compute; reflexivity|]. vm_compute. split; reflexivity. Qed.

(* ------------------------------------------------------------------ non-vacuity: three callers, replies out of order, one of them
   queued before its caller ever polls, a stray, a failure at the end *)
Definition demo_cs : list (ckind * N) := [(KCall, 11%N); (KCall, 12%N); (KNoReply, 13%N)].
Definition ret (k : nat) (r : N) : item := IMsg {| m_id := k; m_type := TReturn; m_rs := Some r |}.
Definition err (k : nat) (r : N) : item := IMsg {| m_id := k; m_type := TError; m_rs := Some r |}.
Definition demo_tr : list label :=
  [LSub 0; LLock 0; LSend 0 true; LSub 1; LLock 1; LSend 1 true; LSub 2; LLock 2; LSend 2 true;
   LArrive (err 0 12); LArrive (ret 1 99); LArrive (ret 2 11); LRead; LPush; LNext; LRead; LPush; LNext; LRead; LPush; LNext;
   LRecv 0; LRecv 0; LRecv 0; LRecv 1; LArrive (IFail EEof); LRead; LPush; LPush; LNext].

Example demo_run : exists s, exec demo_tr (init demo_cs 8 false) = Some s /\ serials_distinct demo_cs /\
  done_log s = [(2, RNoReply); (0, ROk {| m_id := 2; m_type := TReturn; m_rs := Some 11%N |});
                (1, RMethodErr {| m_id := 0; m_type := TError; m_rs := Some 12%N |})] /\
  reader s = RStopped /\ closed (ch s) = true.
Proof.
  eexists. split; [vm_compute; reflexivity|]. split; [|repeat split].
  unfold serials_distinct, demo_cs. cbn. repeat constructor; cbn; intuition discriminate.
Qed.

(* a waiting caller whose answer is two items ahead: the hypotheses of sees_progress hold and three polls suffice *)
Example demo_sees : exists s c, exec (firstn 21 demo_tr) (init demo_cs 8 false) = Some s /\
  nth_error (callers s) 0 = Some c /\ c_st c = CWaiting /\ cursor (ch s) 0 = Some 0 /\
  nth_error (log (ch s)) 2 = Some (ret 2 11) /\ answers {| m_id := 2; m_type := TReturn; m_rs := Some 11%N |} (c_serial c) = true /\
  clean_until (log (ch s)) 0 2 (c_serial c).
Proof.
  eexists. eexists. split; [vm_compute; reflexivity|]. repeat split.
  intros j Hj. destruct j as [|[|j]]; [| |lia]; eexists; split; reflexivity.
Qed.

(* a reply that arrives after the reader has failed is never read: the caller still completes (BrokenPipe / the error) *)
Example demo_fail : exists s s', exec [LSub 0; LLock 0; LSend 0 true; LArrive (IFail EOther); LRead; LPush; LPush; LNext] (init [(KCall, 5%N)] 8 false) = Some s /\
  reader s = RStopped /\ exec [LRecv 0] s = Some s' /\ st_at s' 0 = Some (CDone (RFail EOther)).
Proof. eexists. eexists. split; [vm_compute; reflexivity|]. repeat split. Qed.
