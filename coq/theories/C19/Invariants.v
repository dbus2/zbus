(* C19/Invariants.v — invariants of every reachable state of the call system (any scheduler, any causal peer). *)
From ZV Require Import Base.Bytes Base.Res C19.Broadcast C19.BroadcastFacts C19.Model C19.Steps.
From Coq Require Import Lia.

(* ------------------------------------------------------------------ the caller state machine *)
(* who has a receiver: exactly the calls between activate_cloned and completion *)
Definition active (st : cstate) : bool := match st with CSubscribed | CSending | CWritten | CWaiting => true | _ => false end.

(* what a finished call holds *)
Definition own (c : caller) (r : result) : Prop :=
  match r with
  | ROk m => answers m (c_serial c) = true /\ m_type m = TReturn
  | RMethodErr m => answers m (c_serial c) = true /\ m_type m = TError
  | _ => True
  end.

Lemma res_of_own c m : answers m (c_serial c) = true -> own c (res_of m).
Proof.
  intros Ha. unfold res_of, own. pose proof Ha as Hr. apply andb_true_iff, proj2 in Hr.
  destruct (m_type m) eqn:Et; cbn in Hr; try discriminate; now split.
Qed.

Inductive moves (c : caller) : cstate -> Prop :=
  | mv_sub : c_st c = CInit -> moves c CSubscribed
  | mv_lock : c_st c = CSubscribed -> moves c CSending
  | mv_wire : c_st c = CSending -> moves c CWritten
  | mv_wait : c_st c = CSending \/ c_st c = CWritten -> c_kind c <> KNoReply -> moves c CWaiting
  | mv_done r : c_st c = CSending \/ c_st c = CWritten \/ c_st c = CWaiting -> own c r -> moves c (CDone r).

Lemma moves_src c st : moves c st -> forall r, c_st c <> CDone r.
Proof. intros [E|E|E|[E|E] _|r0 [E|[E|E]] _] r; congruence. Qed.

(* a step leaves the callers alone or moves the one that acts; a completion is logged *)
Lemma tstep_callers s l s' : tstep s l s' ->
  callers s' = callers s /\ done_log s' = done_log s \/
  exists i c st', actor l = Some i /\ nth_error (callers s) i = Some c /\ moves c st' /\
    callers s' = upd (callers s) i (set_st c st') /\
    done_log s' = match st' with CDone r => done_log s ++ [(i, r)] | _ => done_log s end.
Proof.
  intros H; destruct H; cbn [callers done_log with_ch with_callers with_wlock with_wire with_reader with_socket finish];
    try (left; split; reflexivity);
    right; exists i, c; eexists; (split; [reflexivity|]); (split; [eassumption|]); (split; [|split; reflexivity]);
    constructor; auto using res_of_own; exact I.
Qed.

Lemma st_at_upd_same s i c st : nth_error (callers s) i = Some c ->
  option_map c_st (nth_error (upd (callers s) i (set_st c st)) i) = Some st.
Proof. intros H. erewrite nth_error_upd_same by eassumption. reflexivity. Qed.

Lemma active_upd_same s i c st : nth_error (callers s) i = Some c ->
  match nth_error (upd (callers s) i (set_st c st)) i with Some c' => active (c_st c') | None => false end = active st.
Proof. intros H. erewrite nth_error_upd_same by eassumption. reflexivity. Qed.

(* a property of single callers that holds of a call not yet begun and that no move breaks *)
Lemma callers_inv (P : caller -> Prop) cs cap t tr s : reach cs cap t tr s ->
  (forall k n, P {| c_kind := k; c_serial := n; c_st := CInit |}) ->
  (forall c st, P c -> moves c st -> P (set_st c st)) ->
  forall i c, nth_error (callers s) i = Some c -> P c.
Proof.
  intros Hr H0 Hm. assert (HF : Forall P (callers s)).
  { induction Hr as [|tr s l s' Hr IH Hs].
    - apply Forall_forall. intros c Hin. apply in_map_iff in Hin. destruct Hin as (p & <- & _). apply H0.
    - apply step_tstep, tstep_callers in Hs. destruct Hs as [[-> _]|(i & c & st' & _ & Hn & Hmv & -> & _)]; [exact IH|].
      apply Forall_upd; [exact IH|]. apply Hm; [|exact Hmv]. rewrite Forall_forall in IH. eapply IH, nth_error_In, Hn. }
  intros i c Hn. rewrite Forall_forall in HF. eapply HF, nth_error_In, Hn.
Qed.

Lemma own_inv cs cap t tr s i c r : reach cs cap t tr s -> nth_error (callers s) i = Some c -> c_st c = CDone r -> own c r.
Proof.
  intros Hr Hn. revert r. apply (callers_inv (fun c => forall r, c_st c = CDone r -> own c r) _ _ _ _ _ Hr) with (i := i);
    [discriminate | | exact Hn].
  intros c0 st _ Hm r E. cbn in E. subst st. inversion Hm. assumption.
Qed.

(* NoReplyExpected calls never wait *)
Lemma noreply_inv cs cap t tr s : reach cs cap t tr s ->
  forall i c, nth_error (callers s) i = Some c -> c_kind c = KNoReply -> c_st c <> CWaiting.
Proof.
  intros Hr. apply (callers_inv (fun c => c_kind c = KNoReply -> c_st c <> CWaiting) _ _ _ _ _ Hr); [discriminate|].
  intros c st _ Hm Hk E. cbn in Hk, E. subst st. inversion Hm. contradiction.
Qed.

(* kinds and serials never change *)
Definition ident (c : caller) : ckind * N := (c_kind c, c_serial c).

Lemma kinds_inv cs cap t tr s : reach cs cap t tr s -> map ident (callers s) = cs.
Proof.
  induction 1 as [|tr s l s' Hr IH Hs].
  - cbn. rewrite map_map. cbn. induction cs as [|[k n] cs IH]; cbn; [reflexivity | now rewrite IH].
  - apply step_tstep, tstep_callers in Hs. destruct Hs as [[-> _]|(i & c & st' & _ & Hn & _ & -> & _)]; [exact IH|].
    now rewrite (map_upd ident _ _ _ _ Hn).
Qed.

(* ------------------------------------------------------------------ a finished call stays finished *)
Lemma done_step s l s' i r : tstep s l s' -> st_at s i = Some (CDone r) -> st_at s' i = Some (CDone r).
Proof.
  intros H Hd. unfold st_at in *. destruct (tstep_callers _ _ _ H) as [[-> _]|(j & c & st' & _ & Hn & Hm & -> & _)]; [exact Hd|].
  destruct (Nat.eq_dec i j) as [->|Hne]; [|now rewrite nth_error_upd_other].
  rewrite Hn in Hd. injection Hd as Hd. destruct (moves_src _ _ Hm _ Hd).
Qed.

Lemma done_exec tr : forall s s' i r, exec tr s = Some s' -> st_at s i = Some (CDone r) -> st_at s' i = Some (CDone r).
Proof.
  induction tr as [|l tr IH]; intros s s' i r He Hd; cbn in He.
  - now inversion He; subst.
  - destruct (step l s) as [s1|] eqn:Es; [|discriminate]. eapply IH; [eassumption|]. eapply done_step; [|eassumption].
    apply step_tstep. exact Es.
Qed.

(* ------------------------------------------------------------------ completions: the log and the states agree *)
Lemma NoDup_app_one {A} (l : list A) x : NoDup l -> ~ In x l -> NoDup (l ++ [x]).
Proof.
  intros Hl Hx. apply NoDup_Add with (a := x) (l := l); [|now split]. rewrite <- (app_nil_r l) at 1. apply Add_app.
Qed.

Lemma done_inv cs cap t tr s : reach cs cap t tr s ->
  NoDup (map fst (done_log s)) /\ forall i r, In (i, r) (done_log s) <-> st_at s i = Some (CDone r).
Proof.
  induction 1 as [|tr s l s' Hr [IHn IHd] Hs].
  - split; [constructor|]. intros i r. split; [intros []|]. unfold st_at, init. cbn. rewrite nth_error_map.
    destruct (nth_error cs i); discriminate.
  - apply step_tstep, tstep_callers in Hs. unfold st_at in *.
    destruct Hs as [[-> ->]|(i & c & st' & _ & Hn & Hm & -> & ->)]; [now split|].
    (* the caller that moves was not finished, so it is not in the log *)
    assert (Hnot : forall r, ~ In (i, r) (done_log s)).
    { intros r Hin. apply IHd in Hin. rewrite Hn in Hin. injection Hin as Hin. exact (moves_src _ _ Hm _ Hin). }
    split.
    + destruct st'; try exact IHn. rewrite map_app. apply NoDup_app_one; [exact IHn|]. intros Hin.
      apply in_map_iff in Hin. destruct Hin as ([j r0] & E & Hin). cbn in E. subst j. exact (Hnot _ Hin).
    + intros j r.
      assert (Hlog : In (j, r) (match st' with CDone r0 => done_log s ++ [(i, r0)] | _ => done_log s end) <->
                     In (j, r) (done_log s) \/ (j = i /\ st' = CDone r)).
      { destruct st'; rewrite ?in_app_iff; cbn; intuition congruence. }
      rewrite Hlog. destruct (Nat.eq_dec j i) as [->|Hne].
      * rewrite (st_at_upd_same _ _ _ _ Hn). split; [intros [Hin|[_ ->]]; [destruct (Hnot _ Hin) | reflexivity] | intros [= ->]; auto].
      * rewrite nth_error_upd_other, <- IHd by assumption. tauto.
Qed.

(* ------------------------------------------------------------------ the log changes only when the reader pushes the item it
   holds *)
Lemma tstep_log s l s' : tstep s l s' ->
  log (ch s') = log (ch s) \/ exists it n, reader s = RPush it (S n) /\ log (ch s') = log (ch s) ++ [it].
Proof.
  intros H. destruct H; cbn [ch with_ch with_callers with_wlock with_wire with_reader with_socket finish];
    rewrite ?log_drop, ?hijack_log; try (apply try_recv_keeps in H1 as Hk; destruct Hk as [-> _]); try (left; reflexivity).
  apply try_push_pushed in H0. right. exists it, n. split; [exact H | apply H0].
Qed.

(* what a step does to those who do not act: their state and cursor stay *)
Lemma tstep_frame s l s' j : tstep s l s' -> actor l <> Some j ->
  nth_error (callers s') j = nth_error (callers s) j /\ cursor (ch s') j = cursor (ch s) j.
Proof.
  intros H Hj.
  destruct H; cbn [actor] in Hj; cbn [callers ch with_ch with_callers with_wlock with_wire with_reader with_socket finish];
    rewrite ?nth_error_upd_other, ?cursor_drop_other by congruence; (split; [reflexivity|]); try reflexivity;
    try (eapply try_recv_other; [eassumption | congruence]).
  - apply cursor_subscribe_other. congruence.
  - eapply try_push_cursor. eassumption.
  - apply hijack_cursor.
Qed.

(* ------------------------------------------------------------------ causality: nothing that carries the serial of an unsent
   call is anywhere in the system *)
Definition in_hand (s : sys) : list item := match reader s with RPush it _ => [it] | _ => [] end.
Definition items (s : sys) : list item := log (ch s) ++ in_hand s ++ socket s.

Lemma unsent_intro s i c : nth_error (callers s) i = Some c -> not_sent (c_st c) = true -> unsent s (c_serial c) = true.
Proof.
  intros Hn Hs. unfold unsent. apply existsb_exists. exists c. split; [eapply nth_error_In; eassumption|].
  now rewrite N.eqb_refl, Hs.
Qed.

Lemma unsent_mono s l s' r : tstep s l s' -> unsent s' r = true -> unsent s r = true.
Proof.
  intros H. unfold unsent. destruct (tstep_callers _ _ _ H) as [[-> _]|(i & c & st' & _ & Hn & Hm & -> & _)]; [auto|].
  rewrite !existsb_exists. intros (x & Hin & Hx). apply in_upd in Hin. destruct Hin as [<-|Hin]; [|now exists x].
  exists c. split; [eapply nth_error_In; eassumption|]. cbn [c_serial c_st set_st] in Hx.
  (* only a call that was not sent can move to a state in which it is not sent *)
  destruct Hm as [E|E|E|_ _|r0 _ _]; rewrite ?E; try exact Hx; now rewrite andb_false_r in Hx.
Qed.

Lemma items_step s l s' x : tstep s l s' -> In x (items s') -> In x (items s) \/ (l = LArrive x /\ causal_ok s x = true).
Proof.
  intros H. unfold items, in_hand.
  destruct H; cbn [ch reader socket with_ch with_callers with_wlock with_wire with_reader with_socket finish];
    rewrite ?log_subscribe, ?log_drop, ?log_close; try (apply try_recv_keeps in H1 as Hk; destruct Hk as [-> _]);
    try (intros Hin; left; exact Hin).
  - rewrite H, H0. cbn. rewrite !in_app_iff. cbn. tauto.
  - apply try_push_pushed in H0. destruct H0 as (Hl & _). rewrite H, Hl. rewrite !in_app_iff. cbn. tauto.
  - rewrite H. rewrite !in_app_iff. cbn. tauto.
  - rewrite H. rewrite !in_app_iff. cbn. tauto.
  - rewrite H. rewrite !in_app_iff. cbn. tauto.
  - rewrite !in_app_iff. cbn. intros [Hi|[Hi|[Hi|[E|[]]]]]; [tauto | tauto | tauto |]. subst it. right. split; [reflexivity | assumption].
  - rewrite hijack_log, hijack_reader, hijack_socket. intros Hin; left; exact Hin.
Qed.

Definition causal (s : sys) : Prop := forall m r, In (IMsg m) (items s) -> m_rs m = Some r -> unsent s r = false.

Lemma causal_inv cs cap t tr s : reach cs cap t tr s -> causal s.
Proof.
  induction 1 as [|tr s l s' Hr IH Hs].
  - intros m r Hin. unfold items, init in Hin. cbn in Hin. destruct Hin.
  - apply step_tstep in Hs. intros m r Hin Hrs.
    destruct (unsent s' r) eqn:Eu; [|reflexivity]. pose proof (unsent_mono _ _ _ r Hs Eu) as Eu0.
    destruct (items_step _ _ _ _ Hs Hin) as [Hin0|[_ Hc]].
    + rewrite (IH _ _ Hin0 Hrs) in Eu0. discriminate.
    + unfold causal_ok in Hc. rewrite Hrs, Eu0 in Hc. discriminate.
Qed.

(* before a call is on the wire nothing in the channel answers it *)
Lemma causal_unsent s i c q m : causal s -> nth_error (callers s) i = Some c -> not_sent (c_st c) = true ->
  nth_error (log (ch s)) q = Some (IMsg m) -> answers m (c_serial c) = false.
Proof.
  intros Hca Hn Hns Hq. unfold answers. destruct (m_rs m) as [r|] eqn:Er; [|reflexivity].
  destruct (N.eqb_spec r (c_serial c)) as [->|]; [exfalso | reflexivity].
  pose proof (unsent_intro s i c Hn Hns) as Hu. rewrite (Hca m (c_serial c)) in Hu; [discriminate | | assumption].
  apply in_app_iff. left. eapply nth_error_In; eassumption.
Qed.

(* ------------------------------------------------------------------ the cursor of a caller: it exists exactly while the call
   is active, never passes the tail, and once the call is on the wire (waiting, or still inside send()) no answer to it lies
   behind it *)
Definition cur_ok (s : sys) (i : nat) (c : caller) : Prop :=
  match cursor (ch s) i with
  | Some p => active (c_st c) = true /\ p <= tail (ch s) /\
              (c_st c = CWaiting \/ c_st c = CWritten -> forall q m, q < p ->
               nth_error (log (ch s)) q = Some (IMsg m) -> answers m (c_serial c) = false)
  | None => active (c_st c) = false
  end.

Definition cursors_ok (s : sys) : Prop := forall i c, nth_error (callers s) i = Some c -> cur_ok s i c.

(* a move that keeps the channel and the cursor.  What lies behind the cursor matters only to a call on the wire; a call
   comes onto the wire from a state in which it was not sent, and until then nothing in the channel answers it *)
Lemma cur_ok_st (s s' : sys) i c st : causal s -> nth_error (callers s) i = Some c -> cur_ok s i c -> ch s' = ch s ->
  active st = active (c_st c) ->
  (st = CWaiting \/ st = CWritten -> not_sent (c_st c) = true \/ c_st c = CWritten) ->
  cur_ok s' i (set_st c st).
Proof.
  unfold cur_ok. intros Hca Hn H -> Ha Hnew. destruct (cursor (ch s) i) as [p|]; cbn [c_st c_serial set_st]; [|congruence].
  destruct H as (H1 & H2 & H3). repeat split; [congruence | exact H2|]. intros Hw q m Hq Hm.
  destruct (Hnew Hw) as [Hns|Hw']; [exact (causal_unsent s i c q m Hca Hn Hns Hm) | exact (H3 (or_intror Hw') q m Hq Hm)].
Qed.

Lemma cursors_step s l s' : tstep s l s' -> causal s -> cursors_ok s -> cursors_ok s'.
Proof.
  intros H Hca IH j c' Hc'. destruct (actor_dec l j) as [Ea|Ea].
  2:{ (* somebody else acts: the log may have grown *)
    destruct (tstep_frame _ _ _ j H Ea) as (Ec & Ecur). rewrite Ec in Hc'. specialize (IH j c' Hc').
    unfold cur_ok in *. rewrite Ecur. destruct (cursor (ch s) j) as [p|]; [|exact IH]. destruct IH as (H1 & H2 & H3).
    destruct (tstep_log _ _ _ H) as [El|(it & n & _ & El)]; unfold tail in *; rewrite El; [now repeat split|].
    rewrite app_length. repeat split; [exact H1 | lia |]. intros Hw q m Hq Hn.
    rewrite nth_error_app1 in Hn by lia. exact (H3 Hw q m Hq Hn). }
  destruct H; try discriminate Ea; injection Ea as ->;
    cbn [callers with_ch with_callers with_wlock with_wire with_reader with_socket finish] in Hc';
    try (erewrite nth_error_upd_same in Hc' by eassumption; injection Hc' as <-);
    (* a call that completes drops its receiver *)
    try (unfold cur_ok; cbn [ch finish]; rewrite cursor_drop_same; reflexivity);
    pose proof (IH j c H) as Hj;
    try (apply (cur_ok_st s _ j c _ Hca H Hj); rewrite ?H0; try reflexivity; intuition discriminate).
  - (* sub: the cursor is new, at the tail *)
    unfold cur_ok in *. cbn [ch with_ch with_callers]. rewrite cursor_subscribe, H0 in *.
    destruct (cursor (ch s) j); [destruct Hj; discriminate|]. rewrite Nat.eqb_refl. cbn.
    repeat split; [apply Nat.le_refl | intros [|]; discriminate].
  - (* an item that does not answer is skipped *)
    rewrite H in Hc'. injection Hc' as <-. unfold cur_ok in *. cbn [ch with_ch].
    apply try_recv_got in H1. destruct H1 as (p & Hp & Hn & Hl & _ & -> & _). rewrite Hp in Hj. destruct Hj as (Ha & _ & Hs).
    unfold tail. rewrite Hl. split; [exact Ha|]. split; [apply nth_error_Some; congruence|].
    intros Hw q m' Hq Hm'. destruct (Nat.eq_dec q p) as [->|Hne]; [congruence | apply (Hs Hw q m'); [lia | exact Hm']].
Qed.

Lemma cursors_inv cs cap t tr s : reach cs cap t tr s -> cursors_ok s.
Proof.
  induction 1 as [|tr s l s' Hr IH Hs].
  - intros i c Hc. unfold cur_ok, init, cursor. cbn in *. rewrite nth_error_map in Hc. destruct (nth_error cs i); [|discriminate].
    now injection Hc as <-.
  - eapply cursors_step; [apply step_tstep; eassumption | eapply causal_inv; eassumption | exact IH].
Qed.

(* ------------------------------------------------------------------ the channel is closed exactly when the reader has
   failed or both entries of msg_senders are gone *)
Lemma closed_iff cs cap t tr s : reach cs cap t tr s ->
  closed (ch s) = true <-> reader s = RStopped \/ (kret s = false /\ kerr s = false).
Proof.
  induction 1 as [|tr s l s' Hr IH Hs]; [cbn; intuition discriminate|].
  apply step_tstep in Hs.
  destruct Hs; cbn [ch reader kret kerr with_ch with_callers with_wlock with_wire with_reader with_socket finish];
    rewrite ?closed_subscribe, ?closed_drop; try (apply try_recv_keeps in H1 as Hk; destruct Hk as [_ ->]); try exact IH;
    try (apply try_push_pushed in H0; destruct H0 as (_ & _ & _ & -> & _)); rewrite H in IH.
  1-4: rewrite IH; split; intros [E|E]; (discriminate E || now right).
  - cbn. tauto.
  - (* hijack *) unfold hijack. cbn [ch reader kret kerr]. destruct e, (kret s), (kerr s); cbn in *; rewrite H; intuition congruence.
Qed.
