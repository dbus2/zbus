(* C19/Steps.v — the step function of C19/Model.v as a relation with one constructor per way a label can fire,
   so that every invariant proof is one [inversion]. *)
From ZV Require Import Base.Bytes Base.Res C19.Broadcast C19.BroadcastFacts C19.Model.
From Coq Require Import Lia.

Definition res_of (m : msg) : result := match m_type m with TError => RMethodErr m | _ => ROk m end.

Inductive tstep (s : sys) : label -> sys -> Prop :=
  | TSub i c : nth_error (callers s) i = Some c -> c_st c = CInit ->
      tstep s (LSub i) (with_ch (with_callers s (upd (callers s) i (set_st c CSubscribed))) (subscribe i (ch s)))
  | TLock i c : nth_error (callers s) i = Some c -> c_st c = CSubscribed -> wlock s = None ->
      tstep s (LLock i) (with_wlock (with_callers s (upd (callers s) i (set_st c CSending))) (Some i))
  | TSendNoReply i c : nth_error (callers s) i = Some c -> c_st c = CSending -> c_kind c = KNoReply ->
      tstep s (LSend i true) (finish (with_wire (with_wlock s None) (wire s ++ [c_serial c])) i c RNoReply)
  | TSendOk i c : nth_error (callers s) i = Some c -> c_st c = CSending -> c_kind c <> KNoReply ->
      tstep s (LSend i true)
        (with_callers (with_wire (with_wlock s None) (wire s ++ [c_serial c])) (upd (callers s) i (set_st c CWaiting)))
  | TSendFail i c : nth_error (callers s) i = Some c -> c_st c = CSending ->
      tstep s (LSend i false) (finish (with_wlock s None) i c RSendFail)
  | TRecvAns i c m ch' : nth_error (callers s) i = Some c -> c_st c = CWaiting ->
      try_recv i (ch s) = Got (IMsg m) ch' -> answers m (c_serial c) = true ->
      tstep s (LRecv i) (finish (with_ch s ch') i c (res_of m))
  | TRecvSkip i c m ch' : nth_error (callers s) i = Some c -> c_st c = CWaiting ->
      try_recv i (ch s) = Got (IMsg m) ch' -> answers m (c_serial c) = false ->
      tstep s (LRecv i) (with_ch s ch')
  | TRecvFail i c e ch' : nth_error (callers s) i = Some c -> c_st c = CWaiting ->
      try_recv i (ch s) = Got (IFail e) ch' ->
      tstep s (LRecv i) (finish (with_ch s ch') i c (RFail e))
  | TRecvClosed i c : nth_error (callers s) i = Some c -> c_st c = CWaiting -> try_recv i (ch s) = RClosed ->
      tstep s (LRecv i) (finish s i c RBrokenPipe)
  | TTimeout i c : nth_error (callers s) i = Some c -> c_st c = CWaiting -> c_kind c <> KNoReply -> tmo s = true ->
      tstep s (LTimeout i) (finish s i c RTimedOut)
  | TRead it rest : reader s = RIdle -> socket s = it :: rest ->
      tstep s LRead (with_reader (with_socket s rest) (RPush it (fanout s it)))
  | TPushOk it n ch' : reader s = RPush it (S n) -> try_push it (ch s) = Pushed ch' ->
      tstep s LPush (with_reader (with_ch s ch') (RPush it n))
  | TPushSkip it n : reader s = RPush it (S n) -> (try_push it (ch s) = PNoRecv \/ try_push it (ch s) = PClosed) ->
      tstep s LPush (with_reader s (RPush it n))
  | TNextMsg m : reader s = RPush (IMsg m) O -> tstep s LNext (with_reader s RIdle)
  | TNextFail e : reader s = RPush (IFail e) O -> tstep s LNext (with_reader (with_ch s (close (ch s))) RStopped)
  | TArrive it : causal_ok s it = true -> tstep s (LArrive it) (with_socket s (socket s ++ [it]))
  | THijack (e : bool) : reader s = RIdle -> (if e then kerr s else kret s) = true -> tstep s (LHijack e) (hijack s e)
  | TWire i c : nth_error (callers s) i = Some c -> c_st c = CSending ->
      tstep s (LWire i) (with_callers (with_wire s (wire s ++ [c_serial c])) (upd (callers s) i (set_st c CWritten)))
  | TRetNoReply i c : nth_error (callers s) i = Some c -> c_st c = CWritten -> c_kind c = KNoReply ->
      tstep s (LRet i) (finish (with_wlock s None) i c RNoReply)
  | TRetOk i c : nth_error (callers s) i = Some c -> c_st c = CWritten -> c_kind c <> KNoReply ->
      tstep s (LRet i) (with_callers (with_wlock s None) (upd (callers s) i (set_st c CWaiting))).

Lemma step_tstep l s s' : step l s = Some s' -> tstep s l s'.
Proof.
  (* every branch of [step] that returns a state is one constructor *)
  unfold step. destruct l as [i|i|i ok|i|i| | | |it|e|i|i];
    try (destruct (nth_error (callers s) i) as [c|] eqn:Ec; [|discriminate]; destruct (c_st c) eqn:Est; try discriminate;
         try (destruct (wlock s); discriminate)).
  - intros [= <-]. now apply TSub.
  - destruct (wlock s) eqn:Ew; [discriminate|]. intros [= <-]. now apply TLock.
  - destruct ok; [destruct (c_kind c) eqn:Ek|]; intros [= <-]; econstructor; eauto; congruence.
  - destruct (try_recv i (ch s)) as [[m|e] ch'| | |] eqn:Er; try discriminate;
      [destruct (answers m (c_serial c)) eqn:Ea| |]; intros [= <-]; econstructor; eauto.
  - destruct (c_kind c) eqn:Ek; try discriminate; (destruct (tmo s) eqn:Et; [|discriminate]);
      intros [= <-]; apply TTimeout; congruence.
  - destruct (reader s) eqn:Er; try discriminate. destruct (socket s) as [|it rest] eqn:Es; [discriminate|].
    intros [= <-]. now apply TRead.
  - destruct (reader s) as [|it [|n]|] eqn:Er; try discriminate.
    destruct (try_push it (ch s)) eqn:Ep; try discriminate; intros [= <-];
      [eapply TPushOk | eapply TPushSkip | eapply TPushSkip]; eauto.
  - destruct (reader s) as [|[m|e] [|n]|] eqn:Er; try discriminate; intros [= <-]; econstructor; eauto.
  - destruct (causal_ok s it) eqn:Ec; [|discriminate]. intros [= <-]. now apply TArrive.
  - destruct (reader s) eqn:Er; try discriminate. destruct (if e then kerr s else kret s) eqn:Ek; [|discriminate].
    intros [= <-]. now apply THijack.
  - intros [= <-]. now apply TWire.
  - destruct (c_kind c) eqn:Ek; intros [= <-]; econstructor; eauto; congruence.
Qed.

(* the caller whose future the label runs *)
Definition actor (l : label) : option nat :=
  match l with LSub i | LLock i | LSend i _ | LRecv i | LTimeout i | LWire i | LRet i => Some i | _ => None end.

Lemma actor_dec l j : {actor l = Some j} + {actor l <> Some j}.
Proof. destruct (actor l) as [i|]; [destruct (Nat.eq_dec i j); [left | right]; congruence | right; discriminate]. Qed.

(* ---- list update ---- *)
Lemma nth_error_upd_same {A} (l : list A) i x y : nth_error l i = Some y -> nth_error (upd l i x) i = Some x.
Proof.
  revert i; induction l as [|a l IH]; intros [|i] H; cbn in *; try discriminate; [reflexivity | now apply IH].
Qed.
Lemma nth_error_upd_other {A} (l : list A) i j x : j <> i -> nth_error (upd l i x) j = nth_error l j.
Proof.
  revert i j; induction l as [|a l IH]; intros [|i] [|j] H; cbn; try reflexivity; try lia. apply IH. lia.
Qed.
Lemma map_upd {A B} (f : A -> B) (l : list A) i x y : nth_error l i = Some y -> f x = f y -> map f (upd l i x) = map f l.
Proof.
  revert i; induction l as [|a l IH]; intros [|i] H E; cbn in *; try discriminate; try reflexivity.
  - inversion H; subst. now rewrite E.
  - f_equal. now apply IH.
Qed.
Lemma length_upd {A} (l : list A) i x : length (upd l i x) = length l.
Proof. revert i; induction l as [|a l IH]; intros [|i]; cbn; try reflexivity. now rewrite IH. Qed.
Lemma in_upd {A} (l : list A) i x y : In y (upd l i x) -> x = y \/ In y l.
Proof. revert i; induction l as [|a l IH]; intros [|i]; cbn; try tauto. intros [H|H]; [tauto | apply IH in H; tauto]. Qed.
Lemma Forall_upd {A} (P : A -> Prop) l i x : Forall P l -> P x -> Forall P (upd l i x).
Proof. intros H Hx. revert i. induction H; intros [|i]; cbn; auto. Qed.

(* ---- what LHijack leaves alone ---- *)
Lemma hijack_callers s e : callers (hijack s e) = callers s.  Proof. reflexivity. Qed.
Lemma hijack_reader s e : reader (hijack s e) = reader s.  Proof. reflexivity. Qed.
Lemma hijack_socket s e : socket (hijack s e) = socket s.  Proof. reflexivity. Qed.
Lemma hijack_wire s e : wire (hijack s e) = wire s.  Proof. reflexivity. Qed.
Lemma hijack_wlock s e : wlock (hijack s e) = wlock s.  Proof. reflexivity. Qed.
Lemma hijack_tmo s e : tmo (hijack s e) = tmo s.  Proof. reflexivity. Qed.
Lemma hijack_done s e : done_log (hijack s e) = done_log s.  Proof. reflexivity. Qed.
Lemma hijack_ch s e : ch (hijack s e) = ch s \/ ch (hijack s e) = close (ch s).
Proof. unfold hijack. cbn [ch]. destruct (_ || _); [now left | now right]. Qed.
Lemma hijack_log s e : log (ch (hijack s e)) = log (ch s).
Proof. destruct (hijack_ch s e) as [-> | ->]; reflexivity. Qed.
Lemma hijack_cursor s e i : cursor (ch (hijack s e)) i = cursor (ch s) i.
Proof. destruct (hijack_ch s e) as [-> | ->]; reflexivity. Qed.
Lemma hijack_tail s e : tail (ch (hijack s e)) = tail (ch s).
Proof. destruct (hijack_ch s e) as [-> | ->]; reflexivity. Qed.
Lemma hijack_rcv s e : rcv (ch (hijack s e)) = rcv (ch s).
Proof. destruct (hijack_ch s e) as [-> | ->]; reflexivity. Qed.
Lemma hijack_closed s e : closed (ch s) = true -> closed (ch (hijack s e)) = true.
Proof. destruct (hijack_ch s e) as [-> | ->]; [auto | reflexivity]. Qed.
