(* C19/BroadcastFacts.v — elementary facts about the channel model. *)
From Coq Require Import List Arith Bool Lia.
Import ListNotations.
From ZV Require Import C19.Broadcast.

Lemma cursor_in_app l id id' p :
  cursor_in (l ++ [(id', p)]) id =
  match cursor_in l id with Some q => Some q | None => if Nat.eqb id' id then Some p else None end.
Proof.
  induction l as [|[i q] l IH]; cbn [app cursor_in].
  - reflexivity.
  - destruct (Nat.eqb i id); [reflexivity | exact IH].
Qed.

Lemma cursor_in_set_same l id p q : cursor_in l id = Some q -> cursor_in (set_cursor l id p) id = Some p.
Proof.
  induction l as [|[i r] l IH]; cbn [cursor_in set_cursor]; [discriminate|].
  destruct (Nat.eqb i id) eqn:E; cbn [cursor_in]; rewrite E; [reflexivity | exact IH].
Qed.

Lemma cursor_in_set_other l id id' p : id' <> id -> cursor_in (set_cursor l id p) id' = cursor_in l id'.
Proof.
  intros Hne. induction l as [|[i r] l IH]; cbn [cursor_in set_cursor]; [reflexivity|].
  destruct (Nat.eqb i id) eqn:E; cbn [cursor_in].
  - apply Nat.eqb_eq in E. subst i. now replace (Nat.eqb id id') with false by (symmetry; apply Nat.eqb_neq; congruence).
  - destruct (Nat.eqb i id'); [reflexivity | exact IH].
Qed.

Lemma cursor_in_del_same l id : cursor_in (del_cursor l id) id = None.
Proof.
  induction l as [|[i r] l IH]; cbn [cursor_in del_cursor]; [reflexivity|].
  destruct (Nat.eqb i id) eqn:E; [exact IH|]. cbn [cursor_in]. rewrite E. exact IH.
Qed.

Lemma cursor_in_del_other l id id' : id' <> id -> cursor_in (del_cursor l id) id' = cursor_in l id'.
Proof.
  intros Hne. induction l as [|[i r] l IH]; cbn [cursor_in del_cursor]; [reflexivity|].
  destruct (Nat.eqb i id) eqn:E.
  - apply Nat.eqb_eq in E. subst i. replace (Nat.eqb id id') with false by (symmetry; apply Nat.eqb_neq; congruence). exact IH.
  - cbn [cursor_in]. destruct (Nat.eqb i id'); [reflexivity | exact IH].
Qed.

Section ChanFacts.
Variable A : Type.
Implicit Types c : chan A.

Lemma cursor_subscribe c id id' :
  cursor (subscribe id c) id' = match cursor c id' with Some q => Some q | None => if Nat.eqb id id' then Some (tail c) else None end.
Proof. unfold cursor, subscribe, with_rcv. cbn [rcv]. apply cursor_in_app. Qed.

Lemma cursor_subscribe_other c id id' : id <> id' -> cursor (subscribe id c) id' = cursor c id'.
Proof. intros H. rewrite cursor_subscribe. apply Nat.eqb_neq in H. rewrite H. now destruct (cursor c id'). Qed.

Lemma cursor_drop_same c id : cursor (drop_rcv id c) id = None.
Proof. unfold cursor, drop_rcv, with_rcv. cbn [rcv]. apply cursor_in_del_same. Qed.

Lemma cursor_drop_other c id id' : id' <> id -> cursor (drop_rcv id c) id' = cursor c id'.
Proof. intros H. unfold cursor, drop_rcv, with_rcv. cbn [rcv]. now apply cursor_in_del_other. Qed.

Lemma log_subscribe c id : log (subscribe id c) = log c.  Proof. reflexivity. Qed.
Lemma log_drop c id : log (drop_rcv id c) = log c.  Proof. reflexivity. Qed.
Lemma log_close c : log (close c) = log c.  Proof. reflexivity. Qed.
Lemma closed_subscribe c id : closed (subscribe id c) = closed c.  Proof. reflexivity. Qed.
Lemma closed_drop c id : closed (drop_rcv id c) = closed c.  Proof. reflexivity. Qed.
Lemma cursor_close c id : cursor (close c) id = cursor c id.  Proof. reflexivity. Qed.
Lemma cursor_grow c n id : cursor (grow n c) id = cursor c id.  Proof. reflexivity. Qed.
Lemma log_grow c n : log (grow n c) = log c.  Proof. reflexivity. Qed.
Lemma closed_grow c n : closed (grow n c) = closed c.  Proof. reflexivity. Qed.
Lemma rcv_grow c n : rcv (grow n c) = rcv c.  Proof. reflexivity. Qed.
Lemma rcv_close c : rcv (close c) = rcv c.  Proof. reflexivity. Qed.
Lemma closed_close c : closed (close c) = true.  Proof. reflexivity. Qed.
Lemma tail_subscribe c id : tail (subscribe id c) = tail c.  Proof. reflexivity. Qed.
Lemma tail_drop c id : tail (drop_rcv id c) = tail c.  Proof. reflexivity. Qed.
Lemma tail_grow c n : tail (grow n c) = tail c.  Proof. reflexivity. Qed.
Lemma tail_close c : tail (close c) = tail c.  Proof. reflexivity. Qed.

Lemma try_push_pushed x c c' : try_push x c = Pushed c' ->
  log c' = log c ++ [x] /\ rcv c' = rcv c /\ cap c' = cap c /\ closed c' = closed c /\ closed c = false.
Proof.
  unfold try_push. destruct (closed c) eqn:Ec; [discriminate|]. destruct (rcv c) eqn:Er; [discriminate|].
  destruct (cap c <=? qlen c); [discriminate|]. intros H. inversion H; subst c'. cbn. repeat split; reflexivity.
Qed.

Lemma try_recv_inv id c x c' : try_recv id c = Got x c' ->
  exists p, cursor c id = Some p /\ nth_error (log c) p = Some x /\ c' = with_rcv c (set_cursor (rcv c) id (S p)).
Proof.
  unfold try_recv. destruct (cursor c id) as [p|]; [|discriminate].
  destruct (nth_error (log c) p) as [y|] eqn:En; [|destruct (closed c); discriminate]. intros [= <- <-]. now exists p.
Qed.

Lemma try_recv_got id c x c' : try_recv id c = Got x c' ->
  exists p, cursor c id = Some p /\ nth_error (log c) p = Some x /\ log c' = log c /\ closed c' = closed c /\
            cursor c' id = Some (S p) /\ (forall id', id' <> id -> cursor c' id' = cursor c id').
Proof.
  intros H. destruct (try_recv_inv _ _ _ _ H) as (p & Hc & Hn & ->). exists p. repeat split; try assumption.
  - exact (cursor_in_set_same _ _ _ _ Hc).
  - intros id' Hne. now apply cursor_in_set_other.
Qed.

Lemma try_recv_other id c x c' id' : try_recv id c = Got x c' -> id' <> id -> cursor c' id' = cursor c id'.
Proof. intros H. apply try_recv_got in H. destruct H as (p & _ & _ & _ & _ & _ & H). apply H. Qed.

Lemma try_recv_keeps id c x c' : try_recv id c = Got x c' -> log c' = log c /\ closed c' = closed c.
Proof. intros H. apply try_recv_got in H. destruct H as (p & _ & _ & Hl & Hc & _). now split. Qed.

Lemma try_push_cursor x c c' id : try_push x c = Pushed c' -> cursor c' id = cursor c id.
Proof. intros H. apply try_push_pushed in H. destruct H as (_ & Hr & _). unfold cursor. now rewrite Hr. Qed.

Lemma try_recv_closed id c : try_recv id c = RClosed ->
  exists p, cursor c id = Some p /\ nth_error (log c) p = None /\ closed c = true.
Proof.
  unfold try_recv. destruct (cursor c id) as [p|] eqn:Ec; [|discriminate].
  destruct (nth_error (log c) p) eqn:En; [discriminate|]. destruct (closed c) eqn:Ecl; [|discriminate]. intros _.
  exists p. repeat split; assumption.
Qed.

Lemma try_recv_some id c p x : cursor c id = Some p -> nth_error (log c) p = Some x ->
  exists c', try_recv id c = Got x c'.
Proof. intros Hc Hn. unfold try_recv. rewrite Hc, Hn. eexists. reflexivity. Qed.

Lemma try_recv_end_closed id c p : cursor c id = Some p -> nth_error (log c) p = None -> closed c = true ->
  try_recv id c = RClosed.
Proof. intros Hc Hn Hcl. unfold try_recv. now rewrite Hc, Hn, Hcl. Qed.

Lemma log_clone c a b : log (clone_rcv a b c) = log c.
Proof. unfold clone_rcv. now destruct (cursor c a). Qed.
Lemma closed_clone c a b : closed (clone_rcv a b c) = closed c.
Proof. unfold clone_rcv. now destruct (cursor c a). Qed.
Lemma cursor_clone c a b id : cursor (clone_rcv a b c) id =
  match cursor c id with Some q => Some q | None => if Nat.eqb b id then cursor c a else None end.
Proof.
  unfold clone_rcv. destruct (cursor c a) as [p|] eqn:E.
  - unfold cursor, with_rcv. cbn [rcv]. rewrite cursor_in_app. reflexivity.
  - destruct (cursor c id); [reflexivity|]. now destruct (Nat.eqb b id).
Qed.

Lemma cursor_in_none_nil l id : l = [] -> cursor_in l id = None.
Proof. intros ->. reflexivity. Qed.
Lemma cursor_some_rcv c id p : cursor c id = Some p -> rcv c <> [].
Proof. unfold cursor. intros H E. rewrite E in H. discriminate. Qed.

Lemma try_push_noreceiver x c : try_push x c = PNoRecv -> rcv c = [].
Proof. unfold try_push. destruct (closed c); [discriminate|]. destruct (rcv c); [reflexivity|]. destruct (cap c <=? qlen c); discriminate. Qed.
Lemma try_push_closed x c : try_push x c = PClosed -> closed c = true.
Proof. unfold try_push. destruct (closed c); [reflexivity|]. destruct (rcv c); [discriminate|]. destruct (cap c <=? qlen c); discriminate. Qed.

Lemma unread_push c c' x id p : cursor c id = Some p -> p <= tail c -> log c' = log c ++ [x] -> rcv c' = rcv c ->
  unread c' id = unread c id ++ [x].
Proof.
  intros Hc Hp Hl Hr. unfold unread, cursor in *. rewrite Hr, Hc, Hl. unfold tail in Hp. now rewrite skipn_app, (proj2 (Nat.sub_0_le _ _) Hp).
Qed.

End ChanFacts.

Lemma min_cursor_attained (l : list (nat * nat)) d : min_cursor l d = d \/ exists id p, In (id, p) l /\ p = min_cursor l d.
Proof.
  induction l as [|[i q] l IH]; cbn; [now left|]. destruct IH as [E|(id & p & Hin & E)].
  - rewrite E. destruct (Nat.min_spec q d) as [[_ Em]|[_ Em]]; rewrite Em; [right; exists i, q; split; [now left | reflexivity] | now left].
  - destruct (Nat.min_spec q (min_cursor l d)) as [[_ Em]|[_ Em]]; rewrite Em.
    + right. exists i, q. split; [now left | reflexivity].
    + right. exists id, p. split; [now right | assumption].
Qed.

Lemma cursor_in_first (l : list (nat * nat)) id p : In (id, p) l -> exists q, cursor_in l id = Some q.
Proof.
  induction l as [|[i q] l IH]; cbn; [tauto|]. intros [H|H].
  - inversion H; subst. rewrite Nat.eqb_refl. eauto.
  - destruct (Nat.eqb i id); eauto.
Qed.

Lemma qlen_pos_receiver {A} (c : chan A) : 0 < qlen c -> exists id p, In (id, p) (rcv c) /\ p < tail c.
Proof.
  unfold qlen, head. intros H. destruct (min_cursor_attained (rcv c) (tail c)) as [E|(id & p & Hin & E)]; [rewrite E in H; lia|].
  exists id, p. split; [assumption | lia].
Qed.

Lemma cursor_in_none_iff (l : list (nat * nat)) id : cursor_in l id = None <-> ~ In id (map fst l).
Proof.
  induction l as [|[i q] l IH]; cbn; [tauto|]. destruct (Nat.eqb i id) eqn:E.
  - apply Nat.eqb_eq in E. subst. split; [discriminate | tauto].
  - apply Nat.eqb_neq in E. rewrite IH. tauto.
Qed.
Lemma map_fst_set_cursor (l : list (nat * nat)) id p : map fst (set_cursor l id p) = map fst l.
Proof. induction l as [|[i q] l IH]; cbn; [reflexivity|]. destruct (Nat.eqb i id); cbn; [reflexivity | now rewrite IH]. Qed.
Lemma in_del_cursor (l : list (nat * nat)) id x : In x (map fst (del_cursor l id)) -> In x (map fst l).
Proof.
  induction l as [|[i q] l IH]; cbn; [tauto|]. destruct (Nat.eqb i id); cbn; [tauto|]. intros [H|H]; [tauto | right; now apply IH].
Qed.
Lemma nodup_del_cursor (l : list (nat * nat)) id : NoDup (map fst l) -> NoDup (map fst (del_cursor l id)).
Proof.
  induction l as [|[i q] l IH]; cbn; intros H; [constructor|]. inversion H; subst. destruct (Nat.eqb i id); [now apply IH|].
  cbn. constructor; [|now apply IH]. intros Hin. apply H2. eapply in_del_cursor; eassumption.
Qed.
Lemma cursor_in_nodup (l : list (nat * nat)) id p : NoDup (map fst l) -> In (id, p) l -> cursor_in l id = Some p.
Proof.
  induction l as [|[i q] l IH]; cbn; intros Hnd Hin; [tauto|]. inversion Hnd; subst. destruct Hin as [H|H].
  - inversion H; subst. now rewrite Nat.eqb_refl.
  - destruct (Nat.eqb i id) eqn:E; [|now apply IH]. apply Nat.eqb_eq in E. subst. exfalso. apply H1. apply in_map_iff. exists (id, p). tauto.
Qed.

Lemma try_recv_got_shape {A} id (c : chan A) x c' : try_recv id c = Got x c' -> cap c' = cap c /\ map fst (rcv c') = map fst (rcv c).
Proof.
  intros H. destruct (try_recv_inv _ _ _ _ _ H) as (p & _ & _ & ->). split; [reflexivity | apply map_fst_set_cursor].
Qed.
Lemma try_push_pushed_cap {A} (x : A) c c' : try_push x c = Pushed c' -> cap c' = cap c /\ rcv c' = rcv c.
Proof. intros H. apply try_push_pushed in H. tauto. Qed.
