(* C30/RunSound.v — the verdict of the start-up replay (C30/Run.v explains_lazy) is backed by a run of the model. *)
From ZV Require Import Base.Bytes C29.Model C29.Parse C29.Judge C29.Proofs C30.Model C30.Run.

Lemma nl_eqb_eq a : forall b, nl_eqb a b = true -> a = b.
Proof.
  unfold nl_eqb. induction a as [|x a IH]; intros [|y b]; cbn; try discriminate; [reflexivity|].
  intros H. apply andb_prop in H. destruct H as [Hl H]. apply andb_prop in H. destruct H as [Hx Hr].
  apply Nat.eqb_eq in Hx. subst y. f_equal. apply IH. now rewrite Hl, Hr.
Qed.

Lemma lz_none_enabled_sound c s : lz_none_enabled c s = true -> lz_stuck c s.
Proof.
  unfold lz_none_enabled. rewrite forallb_forall. intros H lb. specialize (H lb).
  assert (Hin : In lb all_labels) by (destruct lb; cbn; tauto). specialize (H Hin).
  destruct (lz_step c lb s); [discriminate|reflexivity].
Qed.

Definition answered_of (l : list oev) : list nat := flat_map (fun o => match o with OEv (EvS m) _ => [m] | _ => [] end) l.

Theorem explains_lazy_sound c n l : explains_lazy c n l = tokOK ->
  exists tr s, lz_reach c (seq 0 n) tr s /\
    taken s = filter (fun m => memn m (answered_of l)) (seq 0 n) /\
    dropped s = filter (fun m => negb (memn m (answered_of l))) (seq 0 n) /\ lz_stuck c s.
Proof.
  unfold explains_lazy. fold (answered_of l).
  destruct (lreplay c (answered_of l) l (lz_init c (seq 0 n), [])) as [x|]; [|now apply not_ok].
  destruct (ensure_subscribed c (answered_of l) x) as [x1|]; [|now apply not_ok].
  unfold lz_certify. set (tr := rev (snd (flush c 400 x1))).
  destruct (lz_runs c tr (lz_init c (seq 0 n))) as [s|] eqn:Hr; [|now apply not_ok].
  destruct (nl_eqb (taken s) _) eqn:H1; cbn [negb]; [|now apply not_ok].
  destruct (nl_eqb (dropped s) _) eqn:H2; cbn [negb]; [|now apply not_ok].
  destruct (lz_none_enabled c s) eqn:H3; [|now apply not_ok].
  intros _. exists tr, s. split; [exact Hr|]. split; [now apply nl_eqb_eq|]. split; [now apply nl_eqb_eq|].
  now apply lz_none_enabled_sound.
Qed.
