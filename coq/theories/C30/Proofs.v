(* C30/Proofs.v — freedom from deadlock of handlers that use the object server (on the dispatch model of C29), the
   refutations found by the faithful model, and the start-up clause. *)
From ZV Require Import Base.Bytes C29.Model C29.Spec C29.Exec C29.Judge C29.Safe C29.Proofs
  C30.Model C30.Spec.

(* =============================== first clause =============================== *)

Theorem nodeadlock_partial calls : Known_C30 calls = false -> no_deadlock calls.
Proof.
  unfold Known_C30. intros H. apply negb_false_iff in H. intros tr s Hr. now apply (safe_progress calls tr s).
Qed.

(* method AND property handlers that await / register / remove / emit: the property's first clause, for every burst
   without Introspect traffic *)
Theorem nodeadlock_handlers calls : handlers_only calls = true -> no_deadlock calls.
Proof. intros H. apply nodeadlock_partial. unfold Known_C30. now rewrite (handlers_only_safe calls H). Qed.

Theorem nodeadlock_methods calls : methods_only calls = true -> no_deadlock calls.
Proof. intros H. apply nodeadlock_handlers. now apply methods_are_handlers. Qed.

Theorem known_needs_introspect_or_lookup calls :
  Known_C30 calls = true -> has_introspect calls = true \/ has_lookup calls = true.
Proof.
  intros Hk. destruct (has_introspect calls) eqn:Hi; [now left|]. destruct (has_lookup calls) eqn:Hl; [now right|]. exfalso.
  assert (Hh : handlers_only calls = true).
  { unfold handlers_only. apply forallb_forall. intros c Hc. unfold plain_handler.
    assert (Hk' : match c_kind c with KIntro => true | _ => false end = false).
    { destruct (match c_kind c with KIntro => true | _ => false end) eqn:E; [|reflexivity].
      assert (has_introspect calls = true); [|congruence]. unfold has_introspect. apply existsb_exists. now exists c. }
    destruct (c_kind c); try discriminate; apply forallb_forall; intros o Ho; destruct o; try reflexivity;
      (assert (has_lookup calls = true); [|congruence]); unfold has_lookup; apply existsb_exists; exists c; (split; [assumption|]);
      apply existsb_exists; eexists; (split; [exact Ho|reflexivity]). }
  unfold Known_C30 in Hk. rewrite (handlers_only_safe calls Hh) in Hk. discriminate.
Qed.

(* a deadlock found by the model: the handler events up to it, and a run that ends stuck with calls unfinished *)
Definition deadlocks (calls : list call) (obs : list ev) : Prop :=
  exists tr s, reach calls tr s /\ filter is_soe (log s) = obs /\ stuck s /\ ~ all_done s /\
               forall c, In c calls -> count_ev (EvR (c_id c)) (log s) = 0.

Lemma deadlock_witness calls obs : explains_hang calls [] obs = tokOK -> deadlocks calls obs.
Proof.
  intros H. destruct (explains_hang_run calls [] obs H) as [tr [s [Hr [Ho [Hm [Hs Hd]]]]]]. exists tr, s.
  repeat split; auto. intros c Hc. unfold replies_match in Hm. rewrite forallb_forall in Hm. now apply Nat.eqb_eq, Hm.
Qed.

Definition mk (id : nat) (k : ckind) (i : nat) (sc : list op) : call :=
  {| c_id := id; c_kind := k; c_if := i; c_spawn := true; c_noreply := false; c_script := sc |}.

(* What the repair of Properties::get / set / get_all (/repo d9501501) left: Introspectable::introspect (and
   ObjectManager::get_managed_objects, same shape, not modelled) still keeps the root read guard while it read-locks the
   interfaces of the node.
   (1) a METHOD handler (&mut self) that registers an object while Introspect walks the same node: Introspect holds the
       root read guard and waits for the interface lock, the method holds the interface write lock and waits for the
       root write lock.  Harness case  D i -,-,-,- m0:z30.a0 x0 *)
Definition w_introspect : list call := [mk 0 KMut 0 [OAwait 1; OAt]; mk 1 KIntro 0 []].
(* (2) the same with a property SETTER (&mut self) as the handler.  D i -,-,-,- s0:z30.a0 x0 *)
Definition w_setter_introspect : list call := [mk 0 KSetMut 0 [OAwait 1; ORemove]; mk 1 KIntro 0 []].
(* (3) with &self methods a third call waiting for the interface write lock is enough (write-preferring lock) *)
Definition w_ref_introspect : list call := [mk 0 KRef 0 [OAwait 1; OAt]; mk 1 KMut 0 []; mk 2 KIntro 0 []].

Lemma w_introspect_dead : deadlocks w_introspect [EvS 0; EvO 0 0].
Proof. apply deadlock_witness. vm_compute. reflexivity. Qed.
Lemma w_setter_introspect_dead : deadlocks w_setter_introspect [EvS 0; EvO 0 0].
Proof. apply deadlock_witness. vm_compute. reflexivity. Qed.
Lemma w_ref_introspect_dead : deadlocks w_ref_introspect [EvS 0; EvO 0 0].
Proof. apply deadlock_witness. vm_compute. reflexivity. Qed.

Lemma deadlock_refutes calls obs : deadlocks calls obs -> ~ no_deadlock calls.
Proof.
  intros [tr [s [Hr [_ [Hst [Hnd _]]]]]] H. destruct (H tr s Hr) as [[lb [s' Hs]]|Hd]; [|contradiction].
  rewrite (Hst lb) in Hs. discriminate.
Qed.

Theorem full_refuted : ~ C30_full_statement.
Proof.
  intros H. apply (deadlock_refutes w_introspect _ w_introspect_dead). apply H.
  - cbn. repeat constructor; cbn; intuition discriminate.
  - reflexivity.
Qed.

(* the witnesses are in the known class, as they must be *)
Example witnesses_known :
  Known_C30 w_introspect = true /\ Known_C30 w_setter_introspect = true /\ Known_C30 w_ref_introspect = true.
Proof. vm_compute. repeat split; reflexivity. Qed.

(* the bursts that deadlocked before the repair are now outside the known class and run to completion (two schedules):
   a setter that registers, a getter that removes, a method that registers while Properties.Get is in flight, the same
   with &self methods and a pending writer *)
Definition was_setter : list call := [mk 0 KSetMut 0 [OAt]].
Definition was_getter : list call := [mk 0 KGet 0 [ORemove]].
Definition was_method : list call := [mk 0 KMut 0 [OAwait 1; OAt]; mk 1 KGet 0 []].
Definition was_method_ref : list call := [mk 0 KRef 0 [OAwait 1; OAt]; mk 1 KMut 0 []; mk 2 KGet 0 []].
Example repaired_safe :
  Known_C30 was_setter = false /\ Known_C30 was_getter = false /\ Known_C30 was_method = false /\ Known_C30 was_method_ref = false.
Proof. vm_compute. repeat split; reflexivity. Qed.
Example repaired_run :
  forallb (fun cs => ex_check cs (auto_run 2000 (init cs) []) && ex_check cs (auto_run_rev 2000 (init cs) []))
          [was_setter; was_getter; was_method; was_method_ref] = true.
Proof. vm_compute. reflexivity. Qed.

(* non-vacuity of the partial theorem beyond handlers_only: Introspect traffic next to handlers that register objects on
   OTHER interfaces, property handlers that register on their own *)
Definition ex_mixed : list call :=
  [mk 0 KGet 0 [OAwait 2; OAt]; mk 1 KSetMut 0 [OAwait 1; ORemove]; mk 2 KMut 1 [OAt; ORemove]; mk 3 KGetAll 0 [OAt];
   {| c_id := 4; c_kind := KRef; c_if := 2; c_spawn := false; c_noreply := false; c_script := [OAt] |}; mk 5 KIntro 3 []; mk 6 KMut 1 [OIface 3]].
Example ex_mixed_safe : Known_C30 ex_mixed = false /\ handlers_only ex_mixed = false.
Proof. vm_compute. split; reflexivity. Qed.
Example ex_mixed_runs : ex_check ex_mixed (auto_run 2000 (init ex_mixed) []) = true /\
                        ex_check ex_mixed (auto_run_rev 2000 (init ex_mixed) []) = true.
Proof. vm_compute. split; reflexivity. Qed.

(* =============================== second clause =============================== *)

Section Lazy.
  Variable c : cfg.
  Variable msgs : list nat.

  Record LInv (s : lz) : Prop := {
    l_flow : msgs = dropped s ++ taken s ++ chan s ++ sock s ++ to_send s;
    l_unsub : subscribed s = false -> taken s = [] /\ chan s = [];
    l_builder : builder c = true -> reader_on s = true -> subscribed s = true;
    l_late : late c = true -> subscribed s = false -> sock s = [];
    l_nodrop : builder c || late c = true -> dropped s = [];
    l_created : subscribed s = true -> created s = true
  }.

  Lemma linv_init : LInv (lz_init c msgs).
  Proof.
    split; cbn; auto.
    - intros Hb Hr. rewrite Hb in Hr. discriminate.
    - discriminate.
  Qed.

  Lemma linv_step s lb s' : LInv s -> lz_step c lb s = Some s' -> LInv s'.
  Proof.
    intros [F U Bd L N C] H. destruct lb; cbn in H.
    - destruct (created s) eqn:Ec; [discriminate|]. inversion H; subst; clear H. split; cbn; auto.
    - destruct (created s && negb (at_done s)); [|discriminate]. inversion H; subst; clear H. split; cbn; auto.
    - destruct (created s) eqn:Ec; cbn in H; [|discriminate]. destruct (subscribed s) eqn:Es; cbn in H; [discriminate|].
      inversion H; subst; clear H. destruct (U eq_refl) as [U1 U2]. split; cbn; auto; try discriminate.
    - destruct (reader_on s) eqn:Er; cbn in H; [discriminate|].
      destruct (negb (builder c) || subscribed s) eqn:Eb; [|discriminate]. inversion H; subst; clear H.
      split; cbn; auto. intros Hb _. rewrite Hb in Eb. cbn in Eb. exact Eb.
    - destruct (to_send s) as [|m r] eqn:Et; [discriminate|].
      destruct (negb (late c) || subscribed s) eqn:El; [|discriminate]. inversion H; subst; clear H.
      split; cbn; auto.
      + rewrite F. rewrite <- !app_assoc. reflexivity.
      + intros Hl Hs. rewrite Hl, Hs in El. discriminate.
    - destruct (sock s) as [|m r] eqn:Ek; [discriminate|]. destruct (reader_on s) eqn:Er; [|discriminate].
      inversion H; subst; clear H. destruct (subscribed s) eqn:Es.
      + split; cbn; auto; try discriminate.
        * rewrite F. rewrite <- !app_assoc. reflexivity.
      + destruct (U eq_refl) as [U1 U2]. split; cbn; auto.
        * rewrite F, U1, U2. cbn. rewrite <- !app_assoc. reflexivity.
        * intros Hl _. specialize (L Hl eq_refl). discriminate.
        * intros Hbl. exfalso. apply orb_prop in Hbl. destruct Hbl as [Hb|Hl].
          -- specialize (Bd Hb eq_refl). discriminate.
          -- specialize (L Hl eq_refl). discriminate.
    - destruct (chan s) as [|m r] eqn:Ech; [discriminate|]. destruct (subscribed s) eqn:Es; [|discriminate].
      inversion H; subst; clear H. split; cbn; auto; try discriminate.
      rewrite F. rewrite <- !app_assoc. reflexivity.
  Qed.

  Lemma linv_reach tr s : lz_reach c msgs tr s -> LInv s.
  Proof.
    unfold lz_reach. generalize linv_init. generalize (lz_init c msgs). induction tr as [|lb tr IH]; intros s0 H0 Hr; cbn in Hr.
    - inversion Hr; subst; exact H0.
    - destruct (lz_step c lb s0) as [s1|] eqn:E; [|discriminate]. exact (IH s1 (linv_step s0 lb s1 H0 E) Hr).
  Qed.

  (* something can happen as long as a sent or unsent call has not been handled *)
  Lemma lazy_progress s : LInv s -> (exists lb s', lz_step c lb s = Some s') \/ msgs = dropped s ++ taken s.
  Proof.
    intros I.
    destruct (created s) eqn:Ec; [|left; exists LCreate; cbn; rewrite Ec; eexists; reflexivity].
    destruct (subscribed s) eqn:Es; [|left; exists LSubscribe; cbn; rewrite Ec, Es; eexists; reflexivity].
    destruct (reader_on s) eqn:Er; [|left; exists LReaderStart; cbn; rewrite Er, Es, orb_true_r; eexists; reflexivity].
    destruct (sock s) as [|m r] eqn:Ek; [|left; exists LRead; cbn; rewrite Ek, Er; eexists; reflexivity].
    destruct (chan s) as [|m r] eqn:Ech; [|left; exists LTake; cbn; rewrite Ech, Es; eexists; reflexivity].
    destruct (to_send s) as [|m r] eqn:Et; [|left; exists LSend; cbn; rewrite Et, Es, orb_true_r; eexists; reflexivity].
    right. destruct I as [F _ _ _ _ _]. rewrite F, Ek, Ech, Et. cbn. now rewrite app_nil_r.
  Qed.

  (* in a state where nothing can happen, everything that was not dropped has been taken, in send order *)
  Lemma stuck_taken s : LInv s -> lz_stuck c s -> msgs = dropped s ++ taken s.
  Proof. intros I Hst. destruct (lazy_progress s I) as [[lb [s' H]]|H]; [|exact H]. rewrite Hst in H. discriminate. Qed.
End Lazy.

(* the start-up clause where it holds: object server set up by the builder, or the peer sends once the dispatch task
   has subscribed — nothing is ever dropped, progress until every call has been taken, in order *)
Theorem lazy_start_partial c msgs tr s : Known_lazy c = false -> lz_reach c msgs tr s ->
  dropped s = [] /\ ((exists lb s', lz_step c lb s = Some s') \/ taken s = msgs).
Proof.
  intros Hk Hr. pose proof (linv_reach c msgs tr s Hr) as I.
  assert (Hbl : builder c || late c = true).
  { unfold Known_lazy in Hk. destruct (builder c), (late c); cbn in *; auto; discriminate. }
  pose proof (l_nodrop c msgs s I Hbl) as Hd. split; [exact Hd|].
  destruct (lazy_progress c msgs s I) as [H|H]; [now left|right]. rewrite Hd in H. cbn in H. congruence.
Qed.

(* once the dispatch task has subscribed nothing more is dropped (on-demand creation included) *)
Theorem subscribed_no_more_drops c lb s s' : subscribed s = true -> lz_step c lb s = Some s' ->
  subscribed s' = true /\ dropped s' = dropped s.
Proof.
  intros Hs H. destruct lb; cbn in H.
  - destruct (created s); [discriminate|]. inversion H; subst; cbn; auto.
  - destruct (created s && negb (at_done s)); [|discriminate]. inversion H; subst; cbn; auto.
  - rewrite Hs in H. rewrite andb_false_r in H. discriminate.
  - destruct (negb (reader_on s) && (negb (builder c) || subscribed s)); [|discriminate]. inversion H; subst; cbn; auto.
  - destruct (to_send s); [discriminate|]. destruct (negb (late c) || subscribed s); [|discriminate]. inversion H; subst; cbn; auto.
  - destruct (sock s); [discriminate|]. destruct (reader_on s); [|discriminate]. inversion H; subst; cbn. rewrite Hs. auto.
  - destruct (chan s); [discriminate|]. rewrite Hs in H. inversion H; subst; cbn; auto.
Qed.

(* the refutation: on-demand creation, the peer sends right after at() returned, the socket reader gets to the call
   before the dispatch task has subscribed.  Harness case:  L c 2 *)
Definition on_demand : cfg := {| builder := false; late := false |}.
Definition race : list lzlabel := [LCreate; LAt; LSend; LRead; LSubscribe].

Theorem lazy_start_refuted :
  exists tr s, lz_reach on_demand [0] tr s /\ In 0 (after_at s) /\ In 0 (dropped s) /\ taken s = [] /\
               lz_stuck on_demand s.
Proof.
  exists race, {| created := true; at_done := true; subscribed := true; reader_on := true; to_send := []; sock := [];
                  chan := []; taken := []; dropped := [0]; after_at := [0] |}.
  split; [reflexivity|]. cbn. repeat split; auto. intros lb. destruct lb; reflexivity.
Qed.

Theorem lazy_full_refuted : ~ C30_lazy_full_statement.
Proof.
  intros H. destruct lazy_start_refuted as [tr [s [Hr [Ha [Hd _]]]]].
  apply (H on_demand [0] ltac:(repeat constructor; cbn; tauto) tr s Hr 0 Ha Hd).
Qed.

(* non-vacuity of the partial theorem: the builder path takes three calls, in order *)
Example builder_run :
  lz_runs {| builder := true; late := false |}
    [LSend; LSubscribe; LSend; LReaderStart; LRead; LTake; LSend; LRead; LRead; LTake; LTake]
    (lz_init {| builder := true; late := false |} [7; 8; 9])
  = Some {| created := true; at_done := true; subscribed := true; reader_on := true; to_send := []; sock := [];
            chan := []; taken := [7; 8; 9]; dropped := []; after_at := [7; 8; 9] |}.
Proof. reflexivity. Qed.
