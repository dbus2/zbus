(* C27/Dedash.v — the doc-line rewriting of fix e95e1976 leaves no "--": for EVERY byte string, two passes
   of `replace("--", "- -")` suffice, so the `while line.contains("--")` loop ends after at most two
   passes and its result contains no "--".  The idea: one pass leaves no three dashes in a row (rep1_no3),
   and on such a string one pass removes every "--" (rep1_clean_len). *)
From ZV Require Import Base.Bytes C27.Model.
From Coq Require Import Lia.

Definition hdd (s : bytes) : bool := match s with a :: _ => isd a | [] => false end.          (* starts with '-' *)
Definition starts_dd (s : bytes) : bool := match s with a :: b :: _ => isd a && isd b | _ => false end.

(* no three consecutive dashes *)
Fixpoint no3 (s : bytes) : bool :=
  match s with
  | a :: r => negb (isd a && starts_dd r) && no3 r
  | [] => true
  end.

Lemma has_dd_cons a s : has_dd (a :: s) = (isd a && hdd s) || has_dd s.
Proof. destruct s; cbn; [now rewrite andb_false_r|reflexivity]. Qed.

Lemma isd_dash : isd "-"%byte = true. Proof. reflexivity. Qed.
Lemma isd_sp : isd " "%byte = false. Proof. reflexivity. Qed.

Lemma rep1_pair a b r : isd a && isd b = true -> rep1 (a :: b :: r) = B "- -" ++ rep1 r.
Proof. intro H. cbn [rep1]. now rewrite H. Qed.
Lemma rep1_keep a b r : isd a && isd b = false -> rep1 (a :: b :: r) = a :: rep1 (b :: r).
Proof. intro H. cbn [rep1]. now rewrite H. Qed.

Lemma rep1_hdd s : hdd (rep1 s) = hdd s.
Proof.
  destruct s as [|a [|b r]]; try reflexivity. destruct (isd a && isd b) eqn:E.
  - rewrite (rep1_pair _ _ _ E). apply andb_true_iff in E as [Ea _]. cbn. now rewrite Ea.
  - rewrite (rep1_keep _ _ _ E). reflexivity.
Qed.

Lemma rep1_starts s : starts_dd (rep1 s) = false.
Proof.
  destruct s as [|a [|b r]]; try reflexivity. destruct (isd a && isd b) eqn:E.
  - rewrite (rep1_pair _ _ _ E). reflexivity.
  - rewrite (rep1_keep _ _ _ E). cbn [starts_dd].
    assert (H := rep1_hdd (b :: r)). destruct (rep1 (b :: r)) as [|c t]; [reflexivity|].
    cbn in H. rewrite H. exact E.
Qed.

Lemma rep1_no3_len n : forall s, length s <= n -> no3 (rep1 s) = true.
Proof.
  induction n as [|n IH]; intros s Hl.
  - destruct s; [reflexivity|cbn in Hl; lia].
  - destruct s as [|a [|b r]]; try reflexivity.
    + cbn. now rewrite andb_false_r.
    + cbn in Hl. destruct (isd a && isd b) eqn:E.
      * rewrite (rep1_pair _ _ _ E).
        change (B "- -" ++ rep1 r) with ("-"%byte :: " "%byte :: "-"%byte :: rep1 r).
        cbn [no3 starts_dd]. rewrite !isd_dash, !isd_sp. cbn [andb negb].
        rewrite (rep1_starts r), (IH r) by lia. reflexivity.
      * rewrite (rep1_keep _ _ _ E). cbn [no3]. rewrite (rep1_starts (b :: r)), andb_false_r. cbn [negb andb].
        apply IH. cbn. lia.
Qed.
Lemma rep1_no3 s : no3 (rep1 s) = true.
Proof. apply (rep1_no3_len (length s)). lia. Qed.

Lemma no3_tail a s : no3 (a :: s) = true -> no3 s = true.
Proof. cbn. intro H. apply andb_true_iff in H. tauto. Qed.

Lemma rep1_clean_len n : forall t, length t <= n -> no3 t = true -> has_dd (rep1 t) = false.
Proof.
  induction n as [|n IH]; intros t Hl H3.
  - destruct t; [reflexivity|cbn in Hl; lia].
  - destruct t as [|a [|b r]]; try reflexivity. cbn in Hl. destruct (isd a && isd b) eqn:E.
    + rewrite (rep1_pair _ _ _ E).
      change (B "- -" ++ rep1 r) with ("-"%byte :: " "%byte :: "-"%byte :: rep1 r).
      rewrite !has_dd_cons. cbn [hdd]. rewrite isd_sp, isd_dash. cbn [andb orb].
      rewrite rep1_hdd.
      (* r does not start with a dash: that would be three in a row *)
      assert (Hr : hdd r = false).
      { cbn [no3 starts_dd] in H3. apply andb_true_iff in H3 as [H3 _]. apply andb_true_iff in E as [Ea Eb].
        rewrite Ea, Eb in H3. cbn in H3. destruct r as [|c r']; [reflexivity|]. cbn. cbn in H3.
        now destruct (isd c). }
      rewrite Hr. cbn [orb]. apply IH; [lia|]. apply no3_tail in H3. now apply no3_tail in H3.
    + rewrite (rep1_keep _ _ _ E). rewrite has_dd_cons, rep1_hdd. cbn [hdd]. rewrite E. cbn [orb].
      apply IH; [cbn; lia|]. now apply no3_tail in H3.
Qed.

Theorem rep1_twice_clean s : has_dd (rep1 (rep1 s)) = false.
Proof. apply (rep1_clean_len (length (rep1 s))); [lia|apply rep1_no3]. Qed.

Lemma dedash_fuel_clean n s : has_dd s = false -> dedash_fuel n s = s.
Proof. destruct n; cbn; [reflexivity|]. now intros ->. Qed.

(* two passes are enough: with fuel >= 2 the loop has ended by itself, and its result has no "--" *)
Theorem dedash_fuel_enough n s : has_dd (dedash_fuel (S (S n)) s) = false.
Proof.
  cbn [dedash_fuel]. destruct (has_dd s) eqn:E1; [|exact E1].
  destruct (has_dd (rep1 s)) eqn:E2; [|exact E2].
  rewrite (dedash_fuel_clean n _ (rep1_twice_clean s)). apply rep1_twice_clean.
Qed.

Theorem dedash_clean s : has_dd (dedash s) = false.
Proof. apply dedash_fuel_enough. Qed.

(* the loop is exactly "at most two passes" — more fuel changes nothing *)
Theorem dedash_fuel_stable n m s : dedash_fuel (S (S n)) s = dedash_fuel (S (S m)) s.
Proof.
  cbn [dedash_fuel]. destruct (has_dd s); [|reflexivity]. destruct (has_dd (rep1 s)); [|reflexivity].
  now rewrite !(dedash_fuel_clean _ _ (rep1_twice_clean s)).
Qed.

Example dedash_samples :
  dedash (B " a -- b") = B " a - - b" /\ dedash (B "---") = B "- - -" /\ dedash (B "----") = B "- - - -" /\
  dedash (B " ends --> here") = B " ends - -> here" /\ dedash (B " dash-") = B " dash-" /\ dedash (B "-") = B "-" /\
  dedash (B "-----x--") = B "- - - - -x- -" /\ dedash [] = [].
Proof. repeat split; reflexivity. Qed.
