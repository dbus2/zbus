(* C27/Examples.v — concrete instances (non-vacuity) and the refutation witnesses. *)
From ZV Require Import Base.Bytes Base.Res C26.Desc C26.Tree C26.Std C27.Model C26.Model.
From ZV Require Import C27.Spec C27.Proofs C27.Reader C27.ReadBack C26.Examples C28.Examples.

(* a description with doc comments: plain, multi-line with blank lines around, and one containing "--" and "-->" *)
Definition doc_d (bad : bool) : idesc :=
  {| id_name := B "org.zv.Doc";
     id_methods := [{| md_name := B "MAdd"; md_ins := [(B "a0", TU); (B "a1", TS)]; md_out := OTuple [TS; TU]; md_mut := false;
                       md_fall := false; md_async := false; md_doc := [[]; B " adds"; B " two" ++ [nl] ++ B " lines"; B "  "] |}];
     id_signals := [{| sd_name := B "SDone"; sd_args := [(B "a0", TR)]; sd_doc := [B " x <b> & ""q"""] |}];
     id_props := [mkp (B "PZ") TU ARW ETrue false false;
                  {| pd_name := B "PA"; pd_ty := TS; pd_acc := AR; pd_emits := EConst; pd_gfall := false; pd_sfall := false;
                     pd_smut := false; pd_gasync := false; pd_sasync := false;
                     pd_doc := if bad then [B " a -- b --> c ---"] else [B " a - b"] |}] |}.

Definition doc_root (bad : bool) : node :=
  fst (add_at (fst (add_at empty_node [B "zv"; B "a"] (new_inst (doc_d bad) (B "/zv/a")))) [B "zv"; B "a"; B "b"]
              (new_inst ex_d (B "/zv/a/b"))).

(* the exact text of the interface at indentation 2: comments, blank-line trimming, properties sorted by name *)
Example doc_text :
  iface_text 2 (doc_d false) =
  B "  <interface name=""org.zv.Doc"">" ++ [nl] ++
  B "    <!--" ++ [nl] ++ B "     adds" ++ [nl] ++ B "     two" ++ [nl] ++ B "     lines" ++ [nl] ++ B "     -->" ++ [nl] ++
  B "    <method name=""MAdd"">" ++ [nl] ++
  B "      <arg name=""a0"" type=""u"" direction=""in""/>" ++ [nl] ++
  B "      <arg name=""a1"" type=""s"" direction=""in""/>" ++ [nl] ++
  B "      <arg type=""s"" direction=""out""/>" ++ [nl] ++
  B "      <arg type=""u"" direction=""out""/>" ++ [nl] ++
  B "    </method>" ++ [nl] ++
  B "    <!--" ++ [nl] ++ B "     x <b> & ""q""" ++ [nl] ++ B "     -->" ++ [nl] ++
  B "    <signal name=""SDone"">" ++ [nl] ++
  B "      <arg name=""a0"" type=""(us)""/>" ++ [nl] ++
  B "    </signal>" ++ [nl] ++
  B "    <!--" ++ [nl] ++ B "     a - b" ++ [nl] ++ B "     -->" ++ [nl] ++
  B "    <property name=""PA"" type=""s"" access=""read"">" ++ [nl] ++
  B "      <annotation name=""org.freedesktop.DBus.Property.EmitsChangedSignal"" value=""const""/>" ++ [nl] ++
  B "    </property>" ++ [nl] ++
  B "    <property name=""PZ"" type=""u"" access=""readwrite""/>" ++ [nl] ++
  B "  </interface>" ++ [nl].
Proof. vm_compute. reflexivity. Qed.

(* with "--", "-->" and "---" in a doc text: the comment that is written (fix e95e1976) *)
Example doc_text_dashes :
  print_item 4 (hd (XC []) (prop_items (nth 1 (id_props (doc_d true)) (mkp [] TU AR ETrue false false)))) =
  B "    <!--" ++ [nl] ++ B "     a - - b - -> c - - -" ++ [nl] ++ B "     -->" ++ [nl].
Proof. vm_compute. reflexivity. Qed.

Example doc_wellformed : xi_wf (node_item None (doc_root true)) = true.
Proof. apply wellformed. Qed.

Example doc_lists :
  match get_child (doc_root false) [B "zv"; B "a"] with
  | Some n =>
      map (attr_of (B "name")) (filter (tag_is (B "interface")) (kids_of (node_item None n))) =
        [Some peer_name; Some intro_name; Some props_name; Some (B "org.zv.Doc")] /\
      map (attr_of (B "name")) (filter (tag_is (B "node")) (kids_of (node_item None n))) = [Some (B "b")]
  | None => False
  end.
Proof. vm_compute. split; reflexivity. Qed.

(* the nested tree with doc comments reads back as the declared document (comments dropped) *)
Example doc_reads_back :
  names_ok (doc_root true) /\
  exists t, erase (node_item None (doc_root true)) = [t] /\ read_doc t = Ok (d_node None (doc_root true)).
Proof.
  (* no evaluation first: it would unfold the name validators under the binders of names_ok *)
  assert (H : names_ok (doc_root true)) by repeat (split || constructor).
  exact (conj H (reads_back _ _ H)).
Qed.

(* declared types vs. accepted / sent types on a concrete method and signal *)
Example ex_types :
  let m := mk (B "MTwo") [(B "a0", TU); (B "a1", TS)] (OTuple [TS; TU]) false false in
  arg_types (Some (B "in")) (method_elem m) = [B "u"; B "s"] /\
  arg_types (Some (B "out")) (method_elem m) = [B "s"; B "u"] /\
  args_ok m [VU 1; VS (B "x")] = true /\ args_ok m [VS (B "x"); VU 1] = false /\ args_ok m [VU 1] = false /\
  map vsig (wire_out (md_out m) [VS (B "r"); VU 2]) = [B "s"; B "u"].
Proof. cbn zeta. repeat split; reflexivity. Qed.
