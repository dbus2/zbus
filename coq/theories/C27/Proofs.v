(* C27/Proofs.v — introspection data is well-formed and matches wire behaviour: theorems over ALL interface
   descriptions and node trees. *)
From ZV Require Import Base.Bytes Base.WinnowFacts C26.Desc C26.Tree C26.Msg C27.Model C28.Model C26.Model.
From ZV Require Import C26.Spec C26.Facts C26.Proofs C28.Proofs C27.Dedash.

(* ---------------------------------------------------------------- reading the item tree *)
Fixpoint xattr (k : bytes) (attrs : list (bytes * bytes)) : option bytes :=
  match attrs with
  | [] => None
  | (k0, v) :: r => if lbeq k0 k then Some v else xattr k r
  end.
Definition tag_is (t : bytes) (x : xi) : bool := match x with XE tg _ _ _ => lbeq tg t | XC _ => false end.
Definition kids_of (x : xi) : list xi := match x with XE _ _ k _ => k | XC _ => [] end.
Definition attr_of (k : bytes) (x : xi) : option bytes := match x with XE _ a _ _ => xattr k a | XC _ => None end.

Definition opt_beq (a b : option bytes) : bool :=
  match a, b with Some x, Some y => lbeq x y | None, None => true | _, _ => false end.

(* the `type` attributes of the <arg> children whose `direction` attribute is dir (None = absent) *)
Definition arg_types (dir : option bytes) (m : xi) : list bytes :=
  flat_map (fun a => if tag_is (B "arg") a && opt_beq (attr_of (B "direction") a) dir
                     then match attr_of (B "type") a with Some t => [t] | None => [] end else [])
           (kids_of m).

Definition method_elem (m : mdesc) : xi :=
  XE (B "method") [(B "name", md_name m)] (map arg_in (md_ins m) ++ out_args (md_out m)) false.
Definition signal_elem (s : sdesc) : xi :=
  XE (B "signal") [(B "name", sd_name s)] (map arg_sig (sd_args s)) false.

Lemma method_items_elem m : method_items m = to_xml_docs (md_doc m) ++ [method_elem m].
Proof. reflexivity. Qed.
Lemma signal_items_elem s : signal_items s = to_xml_docs (sd_doc s) ++ [signal_elem s].
Proof. reflexivity. Qed.

(* ================================================================ declared types in the XML *)
Lemma flat_map_map_one {A C D} (g : C -> list D) (f : A -> C) (h : A -> D) l :
  (forall a, g (f a) = [h a]) -> flat_map g (map f l) = map h l.
Proof. intro H. induction l as [|a l IH]; cbn [map flat_map]; [reflexivity|]. now rewrite H, IH. Qed.
Lemma flat_map_map_none {A C D} (g : C -> list D) (f : A -> C) l :
  (forall a, g (f a) = []) -> flat_map g (map f l) = [].
Proof. intro H. induction l as [|a l IH]; cbn [map flat_map]; [reflexivity|]. now rewrite H, IH. Qed.

Lemma arg_types_in m : arg_types (Some (B "in")) (method_elem m) = map (fun a => sigstr (snd a)) (md_ins m).
Proof.
  unfold arg_types, method_elem, kids_of, out_args. rewrite flat_map_app.
  rewrite (flat_map_map_one _ arg_in (fun a => sigstr (snd a))) by reflexivity.
  rewrite (flat_map_map_none _ arg_out) by reflexivity. apply app_nil_r.
Qed.

Lemma arg_types_out m : arg_types (Some (B "out")) (method_elem m) = map sigstr (out_types (md_out m)).
Proof.
  unfold arg_types, method_elem, kids_of, out_args. rewrite flat_map_app.
  rewrite (flat_map_map_none _ arg_in) by reflexivity.
  now rewrite (flat_map_map_one _ arg_out sigstr) by reflexivity.
Qed.

Lemma arg_types_signal s : arg_types None (signal_elem s) = map (fun a => sigstr (snd a)) (sd_args s).
Proof.
  unfold arg_types, signal_elem, kids_of. now rewrite (flat_map_map_one _ arg_sig (fun a => sigstr (snd a))) by reflexivity.
Qed.

(* ---- methods: the declared input types are the accepted ones (up to the two flattenings, C26) *)
Theorem in_types_accepted m wire :
  (map vsig wire = arg_types (Some (B "in")) (method_elem m) -> args_ok m wire = true) /\
  (in_tys m <> [] -> args_ok m wire = true ->
   map vsig wire = arg_types (Some (B "in")) (method_elem m) \/ flattened m wire).
Proof.
  rewrite arg_types_in. split.
  - intro H. apply types_match_args_ok. unfold types_match. apply lbeq_list_eq. exact H.
  - intros Hne Ha. destruct (args_ok_inv m wire Hne Ha) as [Tm|Fl]; [left|now right].
    unfold types_match in Tm. now apply lbeq_list_eq in Tm.
Qed.

(* ---- methods: what is sent back has the declared output types, for tuples and non-structure types *)
Theorem out_types_sent m outs :
  typed outs (out_types (md_out m)) ->
  (forall t, md_out m = OSingle t -> struct_fields t = None) ->
  map vsig (wire_out (md_out m) outs) = arg_types (Some (B "out")) (method_elem m).
Proof. intros Ht Hs. rewrite arg_types_out, (wire_out_id _ _ Ht Hs). apply typed_sigs. exact Ht. Qed.

(* the exempted case, for the record: a single structure is declared as one (us) argument and sent as two values *)
Lemma single_struct_differs m n s t :
  md_out m = OSingle t -> struct_fields t <> None ->
  map vsig (wire_out (md_out m) [VR n s]) = [B "u"; B "s"] /\ arg_types (Some (B "out")) (method_elem m) = [B "(us)"].
Proof.
  intros Ho Hs. rewrite arg_types_out, Ho. split; [reflexivity|]. destruct t; cbn in Hs; try congruence; reflexivity.
Qed.

(* ---- signals: the emitted body has the declared argument types *)
Theorem signal_types_sent path d s args m :
  find_signal d (sd_name s) = Some s -> typed args (map snd (sd_args s)) ->
  emit_signal path d (sd_name s) args = Some m ->
  map vsig (sg_body m) = arg_types None (signal_elem s).
Proof.
  intros Fs Ht. unfold emit_signal. rewrite Fs. intro H. inversion H; subst. cbn [sg_body].
  rewrite arg_types_signal, (typed_sigs _ _ Ht). now rewrite map_map.
Qed.

(* ---- properties: the declared type is the type of the value in a Get reply, and the only type Set accepts *)
Definition prop_elem (p : pdesc) : xi := last (prop_items p) (XC []).

Lemma prop_elem_type p : attr_of (B "type") (prop_elem p) = Some (sigstr (pd_ty p)).
Proof.
  unfold prop_elem, prop_items. rewrite last_last. destruct (eff_emits p); reflexivity.
Qed.

Theorem property_types_partial p :
  ty_eqb (pd_ty p) TV = false ->
  (forall v, has_ty v (pd_ty p) = true -> Some (vsig (content v)) = attr_of (B "type") (prop_elem p)) /\
  (forall sent, (exists v, convert (pd_ty p) sent = Some v) <-> Some (vsig sent) = attr_of (B "type") (prop_elem p)).
Proof.
  intro Ht. rewrite prop_elem_type. split.
  - intros v Hv. rewrite (content_id _ _ Hv Ht). f_equal. now apply has_ty_sig.
  - intro sent. rewrite (convert_typed _ _ Ht). split.
    + intros [v H]. destruct (has_ty sent (pd_ty p)) eqn:E; [|discriminate]. f_equal. now apply has_ty_sig.
    + intro H. inversion H as [H1]. assert (has_ty sent (pd_ty p) = true) as -> by (unfold has_ty; rewrite H1; apply lbeq_refl).
      eauto.
Qed.

(* the class: a property of Rust type OwnedValue is declared `v`; the Get reply carries the inner value's type and
   Set accepts every type *)
Lemma variant_property_refuted :
  exists p v, pd_ty p = TV /\ has_ty v (pd_ty p) = true /\
              Some (vsig (content v)) <> attr_of (B "type") (prop_elem p) /\
              (exists w, convert (pd_ty p) (VU 5) = Some w) /\ Some (vsig (VU 5)) <> attr_of (B "type") (prop_elem p).
Proof.
  exists {| pd_name := B "P"; pd_ty := TV; pd_acc := ARW; pd_emits := ETrue; pd_gfall := false; pd_sfall := false;
            pd_smut := true; pd_gasync := false; pd_sasync := false; pd_doc := [] |}, (VV (VU 1)).
  repeat split; try reflexivity; try discriminate. eexists. reflexivity.
Qed.

(* ================================================================ exactly the interfaces and the children *)
Lemma filter_map_tag {A} (f : A -> xi) t (l : list A) :
  (forall a, tag_is t (f a) = true) -> filter (tag_is t) (map f l) = map f l.
Proof. intro H. induction l as [|a l IH]; cbn; [reflexivity|]. now rewrite H, IH. Qed.
Lemma filter_map_notag {A} (f : A -> xi) t (l : list A) :
  (forall a, tag_is t (f a) = false) -> filter (tag_is t) (map f l) = [].
Proof. intro H. induction l as [|a l IH]; cbn; [reflexivity|]. now rewrite H, IH. Qed.

Definition kid_items (kids : list (bytes * node)) : list xi :=
  (fix go (l : list (bytes * node)) : list xi :=
     match l with [] => [] | (k, c) :: r => node_item (Some k) c :: go r end) kids.

Lemma node_item_unfold name ifs kids :
  node_item name (Node ifs kids) =
  XE (B "node") (match name with Some s => [(B "name", s)] | None => [] end)
     (map iface_item (std_ifaces ++ map in_desc ifs) ++ kid_items kids) false.
Proof. reflexivity. Qed.

Lemma kid_items_tags kids :
  filter (tag_is (B "node")) (kid_items kids) = kid_items kids /\ filter (tag_is (B "interface")) (kid_items kids) = [] /\
  map (attr_of (B "name")) (kid_items kids) = map (fun e => Some (fst e)) kids.
Proof.
  induction kids as [|[k c] r (IH1 & IH2 & IH3)]; [repeat split; reflexivity|].
  cbn [kid_items]. fold (kid_items r). destruct c as [ifs kids']. rewrite node_item_unfold.
  cbn [filter tag_is map attr_of xattr fst]. rewrite IH1, IH2, IH3. repeat split; reflexivity.
Qed.

(* the XML of a node lists exactly the three standard interfaces and the registered ones, and exactly the children *)
Theorem lists_exactly name n :
  let item := node_item name n in
  map (attr_of (B "name")) (filter (tag_is (B "interface")) (kids_of item)) =
    map (fun d => Some (id_name d)) (std_ifaces ++ map in_desc (node_ifs n)) /\
  map (attr_of (B "name")) (filter (tag_is (B "node")) (kids_of item)) = map (fun e => Some (fst e)) (node_kids n) /\
  attr_of (B "name") item = name.
Proof.
  destruct n as [ifs kids]. cbn zeta. rewrite node_item_unfold. cbn [kids_of node_ifs node_kids].
  destruct (kid_items_tags kids) as (K1 & K2 & K3). rewrite !filter_app, K1, K2, app_nil_r.
  rewrite (filter_map_tag iface_item (B "interface")) by reflexivity.
  rewrite (filter_map_notag iface_item (B "node")) by reflexivity. cbn [app].
  repeat split.
  - rewrite map_map. reflexivity.
  - exact K3.
  - destruct name; reflexivity.
Qed.

(* ================================================================ well-formedness *)
Lemma xi_wf_elem t a kids sc : xi_wf (XE t a kids sc) = forallb xi_wf kids.
Proof. cbn [xi_wf]. induction kids as [|k r IH]; cbn; [reflexivity|]. now rewrite IH. Qed.

Lemma forallb_app' {A} (f : A -> bool) l1 l2 : forallb f (l1 ++ l2) = forallb f l1 && forallb f l2.
Proof. apply forallb_app. Qed.

Lemma forallb_flat_map {A} (f : A -> list xi) l :
  forallb xi_wf (flat_map f l) = forallb (fun a => forallb xi_wf (f a)) l.
Proof. induction l as [|a l IH]; cbn; [reflexivity|]. now rewrite forallb_app, IH. Qed.

(* every comment line went through the "--" rewriting (fix e95e1976), which leaves no "--" *)
Lemma docs_wf doc : forallb xi_wf (to_xml_docs doc) = true.
Proof.
  unfold to_xml_docs. destruct (xml_doc_lines doc) as [|l ls]; [reflexivity|]. cbn [forallb xi_wf]. rewrite andb_true_r.
  apply negb_true_iff. destruct (existsb has_dd (map dedash (l :: ls))) eqn:E; [|reflexivity].
  apply existsb_exists in E as (x & Hx & Hd). apply in_map_iff in Hx as (y & <- & _). now rewrite dedash_clean in Hd.
Qed.

(* a member element whose children are all childless <arg/> elements, with its doc comment in front *)
Lemma member_items_wf doc tag attrs (args : list xi) :
  (forall x, In x args -> exists t a, x = XE t a [] true) ->
  forallb xi_wf (to_xml_docs doc ++ [XE tag attrs args false]) = true.
Proof.
  intro H. rewrite forallb_app, docs_wf. cbn [forallb andb]. rewrite xi_wf_elem, andb_true_r.
  apply forallb_forall. intros x Hx. destruct (H x Hx) as (t & a & ->). reflexivity.
Qed.

Lemma method_items_wf m : forallb xi_wf (method_items m) = true.
Proof.
  apply member_items_wf. intros x Hx.
  apply in_app_or in Hx as [Hx|Hx]; apply in_map_iff in Hx as (y & <- & _); do 2 eexists; reflexivity.
Qed.

Lemma signal_items_wf s : forallb xi_wf (signal_items s) = true.
Proof. apply member_items_wf. intros x Hx. apply in_map_iff in Hx as (y & <- & _). do 2 eexists; reflexivity. Qed.

Lemma prop_items_wf p : forallb xi_wf (prop_items p) = true.
Proof. unfold prop_items. rewrite forallb_app, docs_wf. destruct (eff_emits p); reflexivity. Qed.

Lemma forallb_const_true {A} (f : A -> bool) l : (forall a, f a = true) -> forallb f l = true.
Proof. intro H. apply forallb_forall. auto. Qed.

Lemma iface_item_wf d : xi_wf (iface_item d) = true.
Proof.
  unfold iface_item. rewrite xi_wf_elem, !forallb_app, !forallb_flat_map.
  rewrite (forallb_const_true _ _ method_items_wf), (forallb_const_true _ _ signal_items_wf),
          (forallb_const_true _ _ prop_items_wf). reflexivity.
Qed.

(* full strength since fix e95e1976: whatever the doc texts, every comment written is a well-formed XML comment *)
Theorem wellformed : forall n name, xi_wf (node_item name n) = true.
Proof.
  fix IH 1. intros [ifs kids] name. rewrite node_item_unfold, xi_wf_elem, forallb_app.
  apply andb_true_iff. split.
  - apply forallb_forall. intros x Hx. apply in_map_iff in Hx as (d & <- & _). apply iface_item_wf.
  - induction kids as [|[k c] r IHk]; [reflexivity|]. cbn [kid_items forallb].
    fold (kid_items r). rewrite (IH c (Some k)). exact IHk.
Qed.
