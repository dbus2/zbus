(* C27/ReadBack.v — the introspection XML is read back by the library's own XML model: for every node tree
   whose registered interfaces have valid names (what the macro and the Rust compiler guarantee), zbus_xml's
   reader (C34/Model.v), applied to the infoset of what the generated code and Node::introspect_to_writer
   write, returns exactly the declared document (C27/Spec.v d_node).  Uses C34's per-element reader lemmas. *)
From ZV Require Import Base.Bytes Base.Res C26.Desc C26.Tree C27.Model C27.Reader.
From ZV Require Import C27.Spec C27.Proofs.
From ZV Require C10.Model C06.Model C34.Model C34.Spec C34.Proofs.

Module X := C34.Model.
Module XS := C34.Spec.
Module XP := C34.Proofs.

Notation vm := C10.Model.validate_member.
Notation vi := C10.Model.validate_interface.
Notation vp := C10.Model.validate_property.
Definition idf (b : bytes) : bytes := b.
Definition okf (b : bytes) : res X.xerr bytes := Ok b.
Lemma dec_enc : forall s, okf (idf s) = Ok s.
Proof. reflexivity. Qed.

(* every signature of the menu re-reads from its own text *)
Lemma sig_ok_menu t : sig_parse (sigstr t) = Some (sigstr t).
Proof. destruct t; vm_compute; reflexivity. Qed.

Definition names_ok_desc (d : idesc) : Prop :=
  vi (id_name d) = true /\
  Forall (fun m => vm (md_name m) = true) (id_methods d) /\
  Forall (fun s => vm (sd_name s) = true) (id_signals d) /\
  Forall (fun p => vp (pd_name p) = true) (id_props d).

Fixpoint names_ok (n : node) : Prop :=
  match n with
  | Node ifs kids =>
      Forall (fun i => names_ok_desc (in_desc i)) ifs /\
      (fix all (l : list (bytes * node)) : Prop := match l with [] => True | (_, c) :: r => names_ok c /\ all r end) kids
  end.

(* ---------------------------------------------------------------- erasure *)
Lemma erase_elem t a kids sc : erase (XE t a kids sc) = [X.Elem t a (flat_map erase kids)].
Proof.
  cbn [erase].
  assert (H : (fix go (l : list xi) : list X.xml := match l with [] => [] | k :: r => erase k ++ go r end) kids = flat_map erase kids)
    by (induction kids as [|k r IH]; cbn; [reflexivity|]; now rewrite IH).
  now rewrite H.
Qed.

Definition e_arg_in (a : bytes * ty) : X.xml :=
  X.Elem (B "arg") [(B "name", fst a); (B "type", sigstr (snd a)); (B "direction", B "in")] [].
Definition e_arg_out (t : ty) : X.xml := X.Elem (B "arg") [(B "type", sigstr t); (B "direction", B "out")] [].
Definition e_arg_sig (a : bytes * ty) : X.xml := X.Elem (B "arg") [(B "name", fst a); (B "type", sigstr (snd a))] [].
Definition e_method (m : mdesc) : X.xml :=
  X.Elem (B "method") [(B "name", md_name m)] (map e_arg_in (md_ins m) ++ map e_arg_out (out_types (md_out m))).
Definition e_signal (s : sdesc) : X.xml := X.Elem (B "signal") [(B "name", sd_name s)] (map e_arg_sig (sd_args s)).
Definition e_prop (p : pdesc) : X.xml :=
  X.Elem (B "property") [(B "name", pd_name p); (B "type", sigstr (pd_ty p)); (B "access", access_word (pd_acc p))]
         (match eff_emits p with
          | ETrue => []
          | e => [X.Elem (B "annotation") [(B "name", annot_name); (B "value", emits_word e)] []]
          end).
Definition e_iface (d : idesc) : X.xml :=
  X.Elem (B "interface") [(B "name", id_name d)]
         (map e_method (id_methods d) ++ map e_signal (id_signals d) ++ map e_prop (sorted_props d)).

Lemma erase_docs doc : flat_map erase (to_xml_docs doc) = [].
Proof. unfold to_xml_docs. destruct (xml_doc_lines doc); reflexivity. Qed.

Lemma erase_member doc tag attrs kids sc :
  flat_map erase (to_xml_docs doc ++ [XE tag attrs kids sc]) = [X.Elem tag attrs (flat_map erase kids)].
Proof. rewrite flat_map_app, erase_docs. cbn [flat_map app]. now rewrite erase_elem, app_nil_r. Qed.

Lemma erase_method_items m : flat_map erase (method_items m) = [e_method m].
Proof.
  unfold method_items, e_method, out_args. rewrite erase_member, flat_map_app.
  rewrite (flat_map_map_one erase arg_in e_arg_in) by reflexivity.
  now rewrite (flat_map_map_one erase arg_out e_arg_out) by reflexivity.
Qed.
Lemma erase_signal_items s : flat_map erase (signal_items s) = [e_signal s].
Proof.
  unfold signal_items, e_signal. now rewrite erase_member, (flat_map_map_one erase arg_sig e_arg_sig) by reflexivity.
Qed.
Lemma erase_prop_items p : flat_map erase (prop_items p) = [e_prop p].
Proof.
  unfold prop_items. rewrite flat_map_app, erase_docs. cbn [flat_map app]. unfold e_prop.
  destruct (eff_emits p); reflexivity.
Qed.

Lemma flat_map_flat_map_one {A} (f : A -> list xi) (g : A -> X.xml) l :
  (forall a, flat_map erase (f a) = [g a]) -> flat_map erase (flat_map f l) = map g l.
Proof. intro H. induction l as [|a l IH]; cbn; [reflexivity|]. now rewrite flat_map_app, H, IH. Qed.

Lemma erase_iface d : erase (iface_item d) = [e_iface d].
Proof.
  unfold iface_item. rewrite erase_elem. unfold e_iface. f_equal. f_equal. rewrite !flat_map_app.
  rewrite (flat_map_flat_map_one method_items e_method _ erase_method_items).
  rewrite (flat_map_flat_map_one signal_items e_signal _ erase_signal_items).
  now rewrite (flat_map_flat_map_one prop_items e_prop _ erase_prop_items).
Qed.

(* ---------------------------------------------------------------- each member reads back *)
Notation of_method' := (X.of_method bytes sig_parse vm okf).
Notation of_signal' := (X.of_signal bytes sig_parse vm okf).
Notation of_prop' := (X.of_prop bytes sig_parse vp okf).
Notation of_iface' := (X.of_iface bytes sig_parse vm vi vp okf).
Notation of_node' := (X.of_node bytes sig_parse vm vi vp okf).

Lemma RArg_in a : XS.RArg bytes idf (e_arg_in a) (d_arg_in a).
Proof. exact (XS.RArg_i bytes idf (d_arg_in a) [] (Forall2_nil _)). Qed.
Lemma RArg_out t : XS.RArg bytes idf (e_arg_out t) (d_arg_out t).
Proof. exact (XS.RArg_i bytes idf (d_arg_out t) [] (Forall2_nil _)). Qed.
Lemma RArg_sig a : XS.RArg bytes idf (e_arg_sig a) (d_arg_sig a).
Proof. exact (XS.RArg_i bytes idf (d_arg_sig a) [] (Forall2_nil _)). Qed.

Lemma Forall2_map2 {A} (R : X.xml -> X.arg bytes -> Prop) (f : A -> X.xml) (g : A -> X.arg bytes) l :
  (forall a, R (f a) (g a)) -> Forall2 R (map f l) (map g l).
Proof. intro H. induction l; cbn; constructor; auto. Qed.

Lemma rd_method m : vm (md_name m) = true -> of_method' (e_method m) = Ok (d_method m).
Proof.
  intro Hn. rewrite <- (XP.enc_tree_id (e_method m)).
  apply (XP.rd_method bytes sig_parse idf vm idf okf dec_enc).
  - split; [exact Hn|]. unfold d_method. cbn [X.m_args]. apply Forall_app. split; apply Forall_map, Forall_forall; intros a _; apply sig_ok_menu.
  - unfold e_method, d_method.
    rewrite <- (app_nil_r (map e_arg_in (md_ins m) ++ map e_arg_out (out_types (md_out m)))).
    apply (XS.RMethod_i bytes idf (X.mkMethod bytes (md_name m) _ [])); [|constructor].
    cbn [X.m_args]. apply Forall2_app; apply Forall2_map2; auto using RArg_in, RArg_out.
Qed.

Lemma rd_signal s : vm (sd_name s) = true -> of_signal' (e_signal s) = Ok (d_signal s).
Proof.
  intro Hn. rewrite <- (XP.enc_tree_id (e_signal s)).
  apply (XP.rd_signal bytes sig_parse idf vm idf okf dec_enc).
  - split; [exact Hn|]. unfold d_signal. cbn [X.s_args]. apply Forall_map, Forall_forall. intros a _. apply sig_ok_menu.
  - unfold e_signal, d_signal. rewrite <- (app_nil_r (map e_arg_sig (sd_args s))).
    apply (XS.RSignal_i bytes idf (X.mkSignal bytes (sd_name s) _ [])); [|constructor].
    cbn [X.s_args]. apply Forall2_map2. apply RArg_sig.
Qed.

Lemma rd_prop p : vp (pd_name p) = true -> of_prop' (e_prop p) = Ok (d_prop p).
Proof.
  intro Hn. rewrite <- (XP.enc_tree_id (e_prop p)).
  apply (XP.rd_prop bytes sig_parse idf vp idf okf dec_enc).
  - split; [exact Hn|]. apply sig_ok_menu.
  - unfold e_prop, d_prop.
    assert (Ha : forall a, XS.access_word (d_access a) = access_word a) by (intros []; reflexivity).
    rewrite <- Ha. destruct (eff_emits p); apply (XS.RProp_i bytes idf (X.mkProp bytes _ _ _ _)); repeat constructor;
      exact (XS.RAnn_i (X.mkAnn annot_name _)).
Qed.

(* ---------------------------------------------------------------- an interface reads back *)
Lemma is_el_map {A} k (f : A -> X.xml) l : (forall a, XP.is_el k (f a)) -> Forall (XP.is_el k) (map f l).
Proof. intro H. apply Forall_forall. intros x Hx. apply in_map_iff in Hx as (a & <- & _). apply H. Qed.

Lemma no_children {A} k k' (f : A -> X.xml) l :
  (forall a, XP.is_el k' (f a)) -> lbeq (X.local_name k') k = false -> filter (X.elem_named k) (map f l) = [].
Proof. intro H. apply XP.filter_none, is_el_map, H. Qed.

(* the children of kind k among pre ++ map f l ++ post, where every f a is an element called k that rd reads as g a *)
Lemma children_map {A C} k (f : A -> X.xml) (g : A -> C) (rd : X.xml -> res X.xerr C) pre l post :
  (forall a, XP.is_el k (f a)) -> lbeq (X.local_name k) k = true ->
  filter (X.elem_named k) pre = [] -> filter (X.elem_named k) post = [] ->
  Forall (fun a => rd (f a) = Ok (g a)) l ->
  X.children k rd (pre ++ map f l ++ post) = Ok (map g l).
Proof.
  intros Hel Hk Hpre Hpost Hl. apply (XP.children_group k rd pre _ post _ Hk Hpre Hpost (is_el_map k f l Hel)).
  induction Hl; cbn; constructor; auto.
Qed.

(* sorting only permutes *)
Lemma insert_sorted_in {A} (e : bytes * A) l x : In x (insert_sorted e l) <-> x = e \/ In x l.
Proof.
  induction l as [|y l IH]; cbn; [intuition|]. destruct (bytes_leb (fst e) (fst y)); cbn; [intuition|].
  rewrite IH. intuition.
Qed.
Lemma sort_by_key_in {A} (l : list (bytes * A)) x : In x (sort_by_key l) <-> In x l.
Proof.
  unfold sort_by_key. induction l as [|y l IH]; cbn; [tauto|]. rewrite insert_sorted_in, IH. intuition.
Qed.
Lemma sorted_props_in d p : In p (sorted_props d) <-> In p (id_props d).
Proof.
  unfold sorted_props. rewrite in_map_iff. split.
  - intros ((k & q) & <- & H). apply (proj1 (sort_by_key_in _ _)) in H. apply in_map_iff in H as (q' & E & Hq). inversion E; subst. exact Hq.
  - intro H. exists (pd_name p, p). split; [reflexivity|]. apply sort_by_key_in. apply in_map_iff. eauto.
Qed.

Lemma Forall_sorted_props (P : pdesc -> Prop) d : Forall P (id_props d) -> Forall P (sorted_props d).
Proof. rewrite !Forall_forall. intros H p Hp. apply H. now apply sorted_props_in. Qed.

Lemma rd_iface d : names_ok_desc d -> of_iface' (e_iface d) = Ok (d_iface d).
Proof.
  intros (Hi & Hm & Hs & Hp). apply (Forall_sorted_props _ d) in Hp.
  (* no group holds children of another kind *)
  pose proof (fun k => no_children k _ e_method (id_methods d) (fun _ => eq_refl)) as Fm.
  pose proof (fun k => no_children k _ e_signal (id_signals d) (fun _ => eq_refl)) as Fs.
  pose proof (fun k => no_children k _ e_prop (sorted_props d) (fun _ => eq_refl)) as Fp.
  unfold e_iface. set (K := _ ++ _ ++ _).
  assert (H1 : X.children (B "method") of_method' K = Ok (map d_method (id_methods d))).
  { apply (children_map (B "method") e_method d_method of_method' [] _ _ (fun _ => eq_refl) eq_refl eq_refl);
      [|exact (Forall_impl _ rd_method Hm)].
    rewrite filter_app, Fs, Fp by reflexivity. reflexivity. }
  assert (H2 : X.children (B "property") of_prop' K = Ok (map d_prop (sorted_props d))).
  { unfold K. rewrite app_assoc, <- (app_nil_r (map e_prop _)).
    apply (children_map (B "property") e_prop d_prop of_prop' _ _ [] (fun _ => eq_refl) eq_refl);
      [|reflexivity|exact (Forall_impl _ rd_prop Hp)].
    rewrite filter_app, Fm, Fs by reflexivity. reflexivity. }
  assert (H3 : X.children (B "signal") of_signal' K = Ok (map d_signal (id_signals d))).
  { exact (children_map (B "signal") e_signal d_signal of_signal' _ _ _ (fun _ => eq_refl) eq_refl
             (Fm (B "signal") eq_refl) (Fp (B "signal") eq_refl) (Forall_impl _ rd_signal Hs)). }
  assert (H4 : X.children (B "annotation") (X.of_ann okf) K = Ok []).
  { unfold X.children, K. rewrite !filter_app, Fm, Fs, Fp by reflexivity. reflexivity. }
  cbn [X.of_iface].
  assert (Hc : X.check_attrs [(B "name", id_name d)] = Ok tt) by reflexivity.
  assert (Hr : X.req_attr okf (B "name") [(B "name", id_name d)] = Ok (id_name d)) by reflexivity.
  rewrite Hc. cbn [bind]. rewrite Hr. cbn [bind]. unfold X.parse_name. rewrite Hi. cbn [bind].
  rewrite H1. cbn [bind]. rewrite H2. cbn [bind]. rewrite H3. cbn [bind]. rewrite H4. reflexivity.
Qed.

Lemma std_names_ok : Forall names_ok_desc std_ifaces.
Proof. repeat constructor. Qed.

(* ---------------------------------------------------------------- a node reads back *)
Fixpoint e_node (name : option bytes) (n : node) : X.xml :=
  match n with
  | Node ifs kids =>
      X.Elem (B "node") (match name with Some s => [(B "name", s)] | None => [] end)
             (map e_iface (std_ifaces ++ map in_desc ifs) ++
              (fix go (l : list (bytes * node)) : list X.xml :=
                 match l with [] => [] | (k, c) :: r => e_node (Some k) c :: go r end) kids)
  end.

Definition e_kids (kids : list (bytes * node)) : list X.xml :=
  (fix go (l : list (bytes * node)) : list X.xml := match l with [] => [] | (k, c) :: r => e_node (Some k) c :: go r end) kids.
Definition d_kids (kids : list (bytes * node)) : list (X.node bytes) :=
  (fix go (l : list (bytes * node)) : list (X.node bytes) := match l with [] => [] | (k, c) :: r => d_node (Some k) c :: go r end) kids.

Lemma erase_node : forall n name, erase (node_item name n) = [e_node name n].
Proof.
  fix IH 1. intros [ifs kids] name. rewrite node_item_unfold, erase_elem. cbn [e_node]. f_equal. f_equal.
  rewrite flat_map_app. f_equal.
  - rewrite (flat_map_map_one erase iface_item e_iface); [reflexivity|]. intro d. apply erase_iface.
  - induction kids as [|[k c] r IHk]; [reflexivity|]. cbn [kid_items flat_map]. fold (kid_items r).
    rewrite (IH c (Some k)), IHk. reflexivity.
Qed.

Lemma e_kids_el kids : Forall (XP.is_el (B "node")) (e_kids kids).
Proof. induction kids as [|[k [ifs ks]] r IH]; cbn; constructor; auto. reflexivity. Qed.

Theorem rd_node : forall n name, names_ok n -> of_node' (e_node name n) = Ok (d_node name n).
Proof.
  fix IH 1. intros [ifs kids] name [Hifs Hkids]. cbn [e_node]. fold (e_kids kids). rewrite XP.of_node_unfold.
  set (ds := std_ifaces ++ map in_desc ifs).
  assert (Hall : Forall names_ok_desc ds).
  { apply Forall_app. split; [exact std_names_ok|]. apply Forall_map, Hifs. }
  assert (H1 : X.children (B "interface") of_iface' (map e_iface ds ++ e_kids kids) = Ok (map d_iface ds)).
  { exact (children_map (B "interface") e_iface d_iface of_iface' [] _ _ (fun _ => eq_refl) eq_refl eq_refl
             (XP.filter_none (B "interface") _ _ (e_kids_el kids) eq_refl) (Forall_impl _ rd_iface Hall)). }
  assert (H2 : X.children (B "node") of_node' (map e_iface ds ++ e_kids kids) = Ok (d_kids kids)).
  { rewrite <- (app_nil_r (e_kids kids)).
    apply (XP.children_group (B "node") of_node' _ _ [] _ eq_refl (no_children (B "node") _ e_iface ds (fun _ => eq_refl) eq_refl) eq_refl
             (e_kids_el kids)).
    clear H1. induction kids as [|[k c] r IHk]; cbn; constructor.
    - apply IH. exact (proj1 Hkids).
    - apply IHk. exact (proj2 Hkids). }
  rewrite H1, H2. cbn [d_node]. fold (d_kids kids).
  destruct name; reflexivity.
Qed.

(* the statement: what the library's reader makes of the written XML is the declared document *)
Theorem reads_back n name :
  names_ok n -> exists t, erase (node_item name n) = [t] /\ read_doc t = Ok (d_node name n).
Proof. intro H. exists (e_node name n). split; [apply erase_node|]. exact (rd_node n name H). Qed.
