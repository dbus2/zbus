(* C26/Facts.v — small facts shared by the proofs of C26 / C27 / C28 / C33: boolean equalities, lookups,
   value typing, the signature conventions, meeting an expectation. *)
From ZV Require Import Base.Bytes Base.WinnowFacts C26.Desc C26.Tree C26.Msg C26.Model C28.Spec.

(* case analysis on whatever a match or an if of the goal looks at, until none is left *)
Ltac case_all :=
  repeat match goal with
         | |- context [match ?x with _ => _ end] => destruct x eqn:?
         | |- context [if ?x then _ else _] => destruct x eqn:?
         end.

Lemma lbeq_false a b : lbeq a b = false -> a <> b.
Proof. apply WinnowFacts.lbeq_false. Qed.

Lemma lbeq_list_eq a : forall b, lbeq_list a b = true <-> a = b.
Proof.
  induction a as [|x a IH]; intros [|y b]; cbn; split; intro H; try reflexivity; try discriminate.
  - apply andb_true_iff in H as [H1 H2]. apply lbeq_eq in H1. apply IH in H2. congruence.
  - inversion H; subst. rewrite lbeq_refl. cbn. now apply IH.
Qed.

Lemma lbeq_list_refl a : lbeq_list a a = true.
Proof. now apply lbeq_list_eq. Qed.

(* ---------------------------------------------------------------- find *)
Lemma find_name_eq {A} (name : A -> bytes) (m : bytes) (l : list A) x :
  find (fun y => lbeq (name y) m) l = Some x -> name x = m /\ In x l.
Proof.
  intro H. apply find_some in H as [Hin H]. apply lbeq_eq in H. auto.
Qed.

Lemma find_method_name d m md : find_method d m = Some md -> md_name md = m /\ In md (id_methods d).
Proof. apply find_name_eq. Qed.
Lemma find_prop_name d m p : find_prop d m = Some p -> pd_name p = m /\ In p (id_props d).
Proof. apply find_name_eq. Qed.
Lemma find_signal_name d m s : find_signal d m = Some s -> sd_name s = m /\ In s (id_signals d).
Proof. apply find_name_eq. Qed.
Lemma find_inst_in n iface i : find_inst n iface = Some i -> id_name (in_desc i) = iface /\ In i (node_ifs n).
Proof. apply (find_name_eq (fun i => id_name (in_desc i))). Qed.

Lemma find_first_and {A} (name : A -> bytes) (q : A -> bool) m l x :
  find (fun y => lbeq (name y) m) l = Some x -> q x = true ->
  find (fun y => q y && lbeq (name y) m) l = Some x.
Proof.
  induction l as [|y l IH]; cbn; [discriminate|]. intros H Hq.
  destruct (lbeq (name y) m) eqn:E.
  - inversion H; subst. now rewrite Hq.
  - rewrite andb_false_r. auto.
Qed.

Lemma gen_call_mut_same d m md :
  find_method d m = Some md -> md_mut md = true -> gen_call_mut d m = Some md.
Proof. intros H Hm. unfold gen_call_mut. now apply (find_first_and md_name md_mut). Qed.

Lemma nodupb_cons x l : nodupb (x :: l) = true -> existsb (lbeq x) l = false /\ nodupb l = true.
Proof. cbn. intro H. apply andb_true_iff in H as [H1 H2]. apply negb_true_iff in H1. auto. Qed.

(* with pairwise distinct names, "first with the name and q" is "first with the name, if it satisfies q" *)
Lemma find_unique {A} (name : A -> bytes) (q : A -> bool) m l :
  nodupb (map name l) = true ->
  find (fun y => q y && lbeq (name y) m) l =
  match find (fun y => lbeq (name y) m) l with Some x => if q x then Some x else None | None => None end.
Proof.
  induction l as [|y l IH]; cbn [map find]; [reflexivity|]. intro H. apply nodupb_cons in H as [Hn Hd].
  destruct (lbeq (name y) m) eqn:E.
  - destruct (q y) eqn:Q; cbn; [reflexivity|].
    (* no later element has the name *)
    apply lbeq_eq in E. subst m.
    assert (forall l', existsb (lbeq (name y)) (map name l') = false ->
                       find (fun z => q z && lbeq (name z) (name y)) l' = None) as K.
    { induction l' as [|z l' IH']; cbn; [reflexivity|]. intro Hx. apply orb_false_iff in Hx as [H1 H2].
      rewrite lbeq_sym, H1, andb_false_r. auto. }
    now apply K.
  - rewrite andb_false_r. auto.
Qed.

Lemma nodup_find_self {A} (name : A -> bytes) (l : list A) x :
  nodupb (map name l) = true -> In x l -> find (fun y => lbeq (name y) (name x)) l = Some x.
Proof.
  induction l as [|y l IH]; cbn [map find In]; [tauto|]. intros Hd [->|Hin].
  - now rewrite lbeq_refl.
  - apply nodupb_cons in Hd as [Hn Hd]. destruct (lbeq (name y) (name x)) eqn:E; [|auto].
    exfalso. apply lbeq_eq in E. rewrite E in Hn.
    assert (existsb (lbeq (name x)) (map name l) = true) as K.
    { apply existsb_exists. exists (name x). split; [now apply in_map|apply lbeq_refl]. }
    congruence.
Qed.

(* ---------------------------------------------------------------- association lists *)
(* The model keeps three association lists keyed by names: property values (get_val / set_val), child nodes
   (find_kid / set_kid) and the proxy cache (clook / cset).  Each pair unfolds to this one, so the facts below
   apply to all three by conversion. *)
Section Assoc.
  Context {A : Type}.
  Fixpoint assoc (k : bytes) (l : list (bytes * A)) : option A :=
    match l with [] => None | (k0, v) :: r => if lbeq k0 k then Some v else assoc k r end.
  Fixpoint assoc_set (k : bytes) (v : A) (l : list (bytes * A)) : list (bytes * A) :=
    match l with [] => [(k, v)] | (k0, v0) :: r => if lbeq k0 k then (k0, v) :: r else (k0, v0) :: assoc_set k v r end.

  Lemma assoc_set_same k v l : assoc k (assoc_set k v l) = Some v.
  Proof.
    induction l as [|[k0 v0] r IH]; cbn; [now rewrite lbeq_refl|].
    destruct (lbeq k0 k) eqn:E; cbn; rewrite E; [reflexivity|exact IH].
  Qed.

  Lemma assoc_set_other k k' v l : lbeq k k' = false -> assoc k' (assoc_set k v l) = assoc k' l.
  Proof.
    intro Hn. induction l as [|[k0 v0] r IH]; cbn.
    - now rewrite Hn.
    - destruct (lbeq k0 k) eqn:E; cbn.
      + apply lbeq_eq in E. subst k0. now rewrite Hn.
      + destruct (lbeq k0 k'); [reflexivity|exact IH].
  Qed.
End Assoc.

(* ---------------------------------------------------------------- typing *)
Definition typed (outs : list val) (ts : list ty) : Prop := Forall2 (fun v t => has_ty v t = true) outs ts.

Lemma has_ty_sig v t : has_ty v t = true -> vsig v = sigstr t.
Proof. apply lbeq_eq. Qed.

Lemma typed_sigs outs ts : typed outs ts -> map vsig outs = map sigstr ts.
Proof. induction 1 as [|v t outs ts H _ IH]; cbn; [reflexivity|]. now rewrite (has_ty_sig _ _ H), IH. Qed.

Lemma typed_length outs ts : typed outs ts -> length outs = length ts.
Proof. induction 1; cbn; congruence. Qed.

Lemma sig_fields v t : vsig v = sigstr t -> vfields v = struct_fields t.
Proof. destruct v, t; intro H; try reflexivity; discriminate H. Qed.

Lemma struct_fields_us t fs : struct_fields t = Some fs -> fs = [B "u"; B "s"] /\ sigstr t = B "(us)".
Proof. destruct t; try discriminate; intro H; injection H as <-; auto. Qed.
Lemma vfields_struct v fs : vfields v = Some fs -> exists n s, v = VR n s /\ fs = [B "u"; B "s"].
Proof. destruct v; cbn; try discriminate. intro H. inversion H. eauto. Qed.

Lemma has_ty_struct v t : has_ty v t = true -> struct_fields t <> None -> exists n s, v = VR n s.
Proof.
  intros H Hs. apply has_ty_sig, sig_fields in H. destruct (vfields v) eqn:E; [|congruence].
  apply vfields_struct in E as (n & s & -> & _). eauto.
Qed.
Lemma has_ty_nonstruct v t : has_ty v t = true -> struct_fields t = None -> vfields v = None.
Proof. intros H <-. now apply sig_fields, has_ty_sig. Qed.

(* ---------------------------------------------------------------- signatures *)
Lemma sg_eqb_refl a : sg_eqb a a = true.
Proof. destruct a; cbn; auto using lbeq_refl, lbeq_list_refl. Qed.

Lemma sg_eqb_eq a b : sg_eqb a b = true -> a = b.
Proof.
  destruct a, b; cbn; try discriminate; intro H; try reflexivity.
  - apply lbeq_eq in H. congruence.
  - apply lbeq_list_eq in H. congruence.
Qed.

(* ---------------------------------------------------------------- meeting an expectation *)
(* a call answers through [finish]: under NO_REPLY_EXPECTED nothing is sent, which every flagged expectation allows *)
Lemma flagged_finish c x lg sg r :
  reply_meets x [r] -> reply_meets (flagged (c_noreply c) x) (ef_replies (finish c lg sg r)).
Proof. intro H. unfold flagged, finish. cbn. destruct (c_noreply c); [destruct x; cbn; auto|exact H]. Qed.

(* an error sent whatever the flag says is allowed by the flagged expectation of that error *)
Lemma flagged_error nr x e m : reply_meets x [RErr e m] -> reply_meets (flagged nr x) [RErr e m].
Proof. destruct nr; [|auto]. destruct x; cbn; auto; [discriminate|intros (vals & H & _); discriminate]. Qed.

Lemma meets_finish nr c x lg sg root r :
  c_noreply c = nr -> reply_meets x [r] ->
  meets {| x_reply := flagged nr x; x_log := lg; x_signals := sg; x_root := root |} (finish c lg sg r, root).
Proof. intros <- H. split; [now apply flagged_finish|repeat split]. Qed.

Lemma meets_error_sent nr x root e :
  reply_meets x [RErr e None] -> meets (quiet nr root x) (reply_only (RErr e None), root).
Proof. intro H. split; [now apply flagged_error|repeat split]. Qed.
