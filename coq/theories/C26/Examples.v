(* C26/Examples.v — concrete instances: the hypotheses of the theorems are satisfiable (non-vacuity), and
   the witnesses that refute the full statement in each known-deviation class. *)
From ZV Require Import Base.Bytes C26.Desc C26.Tree C26.Msg C26.Std C26.Model.
From ZV Require Import C28.Spec C26.Spec C26.Proofs C26.StdFacts C28.Registration.

Lemma tree_respects_add bh root segs i :
  tree_respects bh root -> bh_respects bh (in_desc i) -> tree_respects bh (fst (add_at root segs i)).
Proof.
  intros Hr Hi segs' n' j Hg Hin.
  destruct (proj1 (add_at_child i segs root segs' n' Hg) j Hin) as [->|(n & Hn & Hj)]; [exact Hi|exact (Hr _ _ _ Hn Hj)].
Qed.

Definition mk (n : bytes) (ins : list (bytes * ty)) (o : oshape) (mu fall : bool) : mdesc :=
  {| md_name := n; md_ins := ins; md_out := o; md_mut := mu; md_fall := fall; md_async := false; md_doc := [] |}.

Definition ex_d : idesc :=
  {| id_name := B "org.zv.Ex";
     id_methods := [mk (B "MTwo") [(B "a0", TU); (B "a1", TS)] (OTuple [TS; TU]) false false;
                    mk (B "MNoargs") [] OUnit true false;
                    mk (B "MNamed") [(B "a0", TU)] (OSingle TN) false false;
                    mk (B "MFall") [(B "a0", TU)] (OSingle TU) true true];
     id_signals := []; id_props := [] |}.

Definition ex_path : bytes := B "/zv/a".
Definition ex_root : node := fst (add_at empty_node (segs_of ex_path) (new_inst ex_d ex_path)).
Definition ex_bh : behaviour := std_bh [ex_d].

Lemma ex_respects : tree_respects ex_bh ex_root.
Proof.
  apply tree_respects_add; [|now apply std_respects].
  intros segs n i Hg. apply get_child_empty in Hg. now subst n.
Qed.

Definition ex_call (member : bytes) (noreply : bool) (args : list val) : call :=
  {| c_path := Some ex_path; c_iface := Some (id_name ex_d); c_member := Some member; c_noreply := noreply; c_args := args |}.

(* ---- the theorem's hypotheses hold, and the conclusion says something, on a correct call … *)
Example ex_good :
  let c := ex_call (B "MTwo") false [VU 5; VS (B "x")] in
  class26 ex_root c = None /\ is_props_call ex_root c = false /\
  exists x, spec26 ex_bh ex_root c = Some x /\
            x_log x = [LMethod ex_path (B "MTwo") [VU 5; VS (B "x")]] /\
            (exists s n, x_reply x = XRet [VS s; VU n]) /\ meets x (dispatch ex_bh ex_root c).
Proof.
  cbn zeta. split; [reflexivity|]. split; [reflexivity|]. eexists. split; [reflexivity|].
  split; [reflexivity|]. split; [vm_compute; eauto|].
  apply dispatch_partial; [apply ex_respects|reflexivity|reflexivity|reflexivity].
Qed.

(* … on a `&mut self` fallible method with the no-reply flag … *)
Example ex_noreply :
  let c := ex_call (B "MFall") true [VU 7] in
  class26 ex_root c = None /\ ef_replies (fst (dispatch ex_bh ex_root c)) = [] /\
  ef_log (fst (dispatch ex_bh ex_root c)) = [LMethod ex_path (B "MFall") [VU 7]].
Proof. cbn zeta. repeat split; reflexivity. Qed.

(* … and on wrong routing *)
Example ex_routing :
  fst (dispatch ex_bh ex_root {| c_path := Some (B "/zv"); c_iface := Some (id_name ex_d); c_member := Some (B "MTwo");
                                 c_noreply := false; c_args := [] |}) = reply_only (RErr EUnknownInterface None) /\
  fst (dispatch ex_bh ex_root {| c_path := Some (B "/nope"); c_iface := Some (id_name ex_d); c_member := Some (B "MTwo");
                                 c_noreply := true; c_args := [] |}) = reply_only (RErr EUnknownObject None) /\
  fst (dispatch ex_bh ex_root (ex_call (B "MThree") false [])) = reply_only (RErr EUnknownMethod None).
Proof. repeat split; reflexivity. Qed.

(* ---------------------------------------------------------------- the refutations *)
Definition refutes (c : call) : Prop :=
  tree_respects ex_bh ex_root /\ exists x, spec26 ex_bh ex_root c = Some x /\ ~ meets x (dispatch ex_bh ex_root c).

(* the reply the model computes is not one the specification allows *)
Ltac refute := split; [apply ex_respects|]; eexists; split; [reflexivity|]; unfold meets; vm_compute; intros (H & _);
               try match goal with E : exists _, _ |- _ => destruct E end; discriminate.

(* wrong argument types: since fix 86474bc3 the former witness of the class invalid_args_name meets the
   specification — exactly one InvalidArgs error, the handler does not run *)
Example invalid_args_answered :
  let c := ex_call (B "MTwo") false [VS (B "x")] in
  class26 ex_root c = None /\
  exists x, spec26 ex_bh ex_root c = Some x /\ x_reply x = XErr EInvalidArgs None /\ x_log x = [] /\
            meets x (dispatch ex_bh ex_root c) /\
            dispatch ex_bh ex_root c = (reply_only (RErr EInvalidArgs None), ex_root).
Proof.
  cbn zeta. split; [reflexivity|]. eexists. split; [reflexivity|]. split; [reflexivity|]. split; [reflexivity|].
  split; [|reflexivity]. apply dispatch_partial; [apply ex_respects|reflexivity|reflexivity|reflexivity].
Qed.

(* a method without inputs runs whatever the body holds *)
Lemma noarg_extra_refuted : refutes (ex_call (B "MNoargs") false [VU 1]).
Proof. refute. Qed.
Lemma noarg_extra_runs :
  ef_log (fst (dispatch ex_bh ex_root (ex_call (B "MNoargs") false [VU 1]))) = [LMethod ex_path (B "MNoargs") []].
Proof. reflexivity. Qed.

(* one structure (us) is accepted where two arguments u, s are declared *)
Lemma struct_flattened_refuted : refutes (ex_call (B "MTwo") false [VR 5 (B "x")]).
Proof. refute. Qed.
Lemma struct_flattened_runs :
  ef_log (fst (dispatch ex_bh ex_root (ex_call (B "MTwo") false [VR 5 (B "x")]))) =
  [LMethod ex_path (B "MTwo") [VU 5; VS (B "x")]].
Proof. reflexivity. Qed.
Lemma struct_flattened_regrouped : [VU 5; VS (B "x")] <> [VR 5 (B "x")].
Proof. discriminate. Qed.

(* a call without INTERFACE is answered with Failed although exactly one interface has the member *)
Lemma missing_interface_refuted :
  refutes {| c_path := Some ex_path; c_iface := None; c_member := Some (B "MNoargs"); c_noreply := false; c_args := [] |}.
Proof. refute. Qed.

(* a single named structure is declared as one (us) out argument but travels as two values u, s *)
Lemma single_struct_return_refuted : refutes (ex_call (B "MNamed") false [VU 1]).
Proof. refute. Qed.

(* ---------------------------------------------------------------- the refutations, in the form Properties/C26.v states them *)
Lemma refuted_class c k :
  refutes c -> class26 ex_root c = Some k ->
  exists (bh : behaviour) (root : node) (c : call) (x : expect),
    tree_respects bh root /\ class26 root c = Some k /\ spec26 bh root c = Some x /\ ~ meets x (dispatch bh root c).
Proof. intros (R1 & x & R2 & R3) Hk. exists ex_bh, ex_root, c, x. auto. Qed.

(* the same with what the handler log shows besides *)
Lemma refuted_class_log (P : behaviour -> node -> call -> Prop) c k :
  refutes c -> class26 ex_root c = Some k -> P ex_bh ex_root c ->
  exists (bh : behaviour) (root : node) (c : call) (x : expect),
    tree_respects bh root /\ class26 root c = Some k /\ spec26 bh root c = Some x /\ ~ meets x (dispatch bh root c) /\
    P bh root c.
Proof. intros (R1 & x & R2 & R3) Hk HP. exists ex_bh, ex_root, c, x. auto 6. Qed.

Lemma full_statement_refuted :
  ~ (forall (bh : behaviour) (root : node) (c : call) (x : expect),
       tree_respects bh root -> is_props_call root c = false ->
       spec26 bh root c = Some x -> meets x (dispatch bh root c)).
Proof.
  intro F. destruct noarg_extra_refuted as (R1 & x & R2 & R3). apply R3. apply F; auto.
Qed.
