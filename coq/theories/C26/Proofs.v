(* C26/Proofs.v — method dispatch answers each call exactly once and correctly: theorems over ALL
   interface descriptions, ALL node trees, ALL calls and ALL handler behaviours. *)
From ZV Require Import Base.Bytes C26.Desc C26.Tree C26.Msg C27.Model C28.Model C26.Model.
From ZV Require Import C28.Spec C26.Spec C26.Facts.
From Coq Require Import Lia.

(* user code respects its Rust signature: a non-fallible method returns a value, and results have the declared types *)
Definition bh_respects (bh : behaviour) (d : idesc) : Prop :=
  forall md, In md (id_methods d) ->
    (md_fall md = false -> forall args e m, bh_method bh (id_name d) (md_name md) args <> HErr e m) /\
    (forall args outs, bh_method bh (id_name d) (md_name md) args = HOk outs -> typed outs (out_types (md_out md))).

Section P.
  Variable bh : behaviour.

  (* ================================================================ exactly one reply *)
  Definition once (c : call) (ef : effects) : Prop :=
    (c_noreply c = false -> length (ef_replies ef) = 1) /\ length (ef_replies ef) <= 1.

  Lemma once_finish c lg sg r : once c (finish c lg sg r).
  Proof. unfold once, finish. cbn. destruct (c_noreply c); cbn; split; intros; try discriminate; lia. Qed.

  Lemma once_reply_only c r : once c (reply_only r).
  Proof. unfold once. cbn. split; intros; lia. Qed.

  Lemma once_run_method i md c : once c (run_method bh i md c).
  Proof. unfold run_method. case_all; auto using once_finish, once_reply_only. Qed.

  Lemma once_user_call i m c : once c (user_call bh i m c).
  Proof. unfold user_call. case_all; auto using once_run_method, once_reply_only. Qed.

  Lemma once_std_call root n path d m c : once c (fst (std_call bh root n path d m c)).
  Proof. unfold std_call, of_presult. case_all; cbn [fst]; auto using once_finish, once_reply_only. Qed.

  Theorem once_dispatch root c : once c (fst (dispatch bh root c)).
  Proof.
    unfold dispatch. case_all; cbn [fst]; auto using once_user_call, once_reply_only, once_std_call.
  Qed.

  (* ================================================================ argument checking *)
  Lemma sigs_length {A C} (f : A -> bytes) (g : C -> bytes) l l' : map f l = map g l' -> length l = length l'.
  Proof. intro H. apply (f_equal (@length _)) in H. now rewrite !map_length in H. Qed.

  Lemma sg_single v t : vsig v = sigstr t -> sg_of_vals [v] = sg_of_ty t.
  Proof. intro H. unfold sg_of_vals, sg_of_ty. now rewrite (sig_fields _ _ H), H. Qed.

  (* values of the declared types, one each, parse to the declared signature ... *)
  Lemma sigs_parse ts args : map vsig args = map sigstr ts -> sg_of_vals args = sg_of_args ts.
  Proof.
    destruct ts as [|t [|t2 ts]], args as [|v [|v2 vs]]; try discriminate; intro Hs.
    - reflexivity.
    - injection Hs as Hs. now apply sg_single.
    - unfold sg_of_vals, sg_of_args, sg_of_tys. now rewrite Hs.
  Qed.

  Lemma sigs_accepted ts args : map vsig args = map sigstr ts -> dyn_sig_ok (sg_of_args ts) (sg_of_vals args) = true.
  Proof. intro Hs. unfold dyn_sig_ok. now rewrite (sigs_parse _ _ Hs), sg_eqb_refl. Qed.

  (* ... and are handed over unchanged *)
  Lemma sigs_unpack ts args : map vsig args = map sigstr ts -> unpack ts args = args.
  Proof. destruct ts as [|t [|t2 ts]], args as [|v [|v2 vs]]; try discriminate; try reflexivity; destruct v; reflexivity. Qed.

  Lemma types_match_sigs md args :
    types_match md args = true <-> map vsig args = map sigstr (in_tys md).
  Proof. unfold types_match, in_tys. now rewrite lbeq_list_eq, map_map. Qed.

  Lemma types_match_args_ok md args : types_match md args = true -> args_ok md args = true.
  Proof.
    intro H. apply types_match_sigs, sigs_accepted in H. unfold args_ok. now destruct (in_tys md).
  Qed.

  Lemma types_match_unpack md args : types_match md args = true -> unpack (in_tys md) args = args.
  Proof. intro H. now apply sigs_unpack, types_match_sigs. Qed.

  (* what IS accepted (for a method with declared inputs): the declared types, or the two flattenings *)
  Definition flattened (md : mdesc) (args : list val) : Prop :=
    (exists t n s, in_tys md = [t] /\ struct_fields t <> None /\ args = [VU n; VS s]) \/
    (exists n s, map sigstr (in_tys md) = [B "u"; B "s"] /\ args = [VR n s]).

  Lemma vsig_u v : vsig v = B "u" -> exists n, v = VU n.
  Proof. destruct v; cbn; try discriminate. eauto. Qed.
  Lemma vsig_s v : vsig v = B "s" -> exists n, v = VS n.
  Proof. destruct v; cbn; try discriminate. eauto. Qed.

  (* the text of a structure type is "(us)", which no value's signature in parentheses is *)
  Lemma sigstr_not_paren_wrapped t v : sigstr t = B "(" ++ vsig v ++ B ")" -> False.
  Proof. destruct t; try discriminate; destruct v; discriminate. Qed.

  (* the leniency for one-field structures never applies to declared inputs: one type is not wrapped, several
     are several fields *)
  Lemma inputs_strict ts got : dyn_sig_ok (sg_of_args ts) got = sg_eqb (sg_of_args ts) got.
  Proof. unfold dyn_sig_ok. destruct ts as [|t [|t2 ts]]; [|destruct t|]; apply orb_false_r. Qed.

  Lemma args_ok_inv md args :
    in_tys md <> [] -> args_ok md args = true -> types_match md args = true \/ flattened md args.
  Proof.
    unfold args_ok, flattened. rewrite types_match_sigs. intros Hne H.
    destruct (in_tys md) as [|t ts]; [congruence|]. rewrite inputs_strict in H. apply sg_eqb_eq in H.
    destruct ts as [|t2 ts], args as [|v [|v2 vs]]; cbn [sg_of_args sg_of_tys sg_of_vals] in H; unfold sg_of_ty in H.
    - destruct (struct_fields t); discriminate.
    - left. cbn. f_equal. destruct (struct_fields t) eqn:St, (vfields v) eqn:Vf; try discriminate; [|now injection H].
      apply struct_fields_us in St as [_ ->]. apply vfields_struct in Vf as (n & s & -> & _). reflexivity.
    - (* one declared structure, its two fields sent *)
      destruct (struct_fields t) eqn:St; [|discriminate]. pose proof (struct_fields_us _ _ St) as [-> _].
      destruct vs; [|discriminate]. injection H as Hu Hs. symmetry in Hu, Hs.
      apply vsig_u in Hu as [n ->]. apply vsig_s in Hs as [s ->].
      right. left. exists t, n, s. repeat split. congruence.
    - discriminate.
    - (* two declared arguments u, s, one structure sent *)
      destruct (vfields v) eqn:Vf; [|discriminate]. apply vfields_struct in Vf as (n & s & -> & ->).
      right. right. exists n, s. split; [congruence|reflexivity].
    - left. congruence.
  Qed.

  (* ================================================================ routing *)
  Definition tree_respects (root : node) : Prop :=
    forall segs n i, get_child root segs = Some n -> In i (node_ifs n) -> bh_respects bh (in_desc i).

  Lemma iface_at_inv n iface f :
    iface_at n iface = Some f ->
    match f with FUser i => find_inst n iface = Some i | FStd d => In d std_ifaces end.
  Proof.
    unfold iface_at. destruct (find_inst n iface); [intro H; now injection H as <-|].
    destruct (find _ std_ifaces) eqn:E; [|discriminate]. intro H. injection H as <-. now apply (find_name_eq id_name) in E.
  Qed.

  Lemma std_methods_async d m md :
    In d std_ifaces -> find_method d m = Some md -> gen_call d m = DAsync md.
  Proof.
    intros Hd Hf. unfold gen_call. rewrite Hf. apply find_method_name in Hf as [_ Hin].
    destruct Hd as [<-|[<-|[<-|[]]]]; cbn in Hin; repeat (destruct Hin as [<-|Hin]; [reflexivity|]); destruct Hin.
  Qed.

  (* `call` answers RequiresMut for a `&mut self` method and `call_mut` then finds the same method *)
  Lemma user_call_found i m md c : find_method (in_desc i) m = Some md -> user_call bh i m c = run_method bh i md c.
  Proof.
    intro Fm. unfold user_call, gen_call. rewrite Fm.
    destruct (md_mut md) eqn:Mm; [now rewrite (gen_call_mut_same _ _ _ Fm Mm)|reflexivity].
  Qed.

  (* what runs once object, interface and member are found *)
  Definition run_found (root n : node) (path : bytes) (f : found) (member : bytes) (md : mdesc) (c : call) : effects * node :=
    match f with
    | FUser i => (run_method bh i md c, root)
    | FStd d => std_call bh root n path d member c
    end.

  (* dispatch looks the object, the interface and the member up in the order the specification does *)
  Theorem dispatch_found root c :
    dispatch bh root c =
    match c_path c, c_iface c, c_member c with
    | Some path, Some iface, Some member =>
        match node_at root path with
        | None => (reply_only (RErr EUnknownObject None), root)
        | Some n =>
            match iface_at n iface with
            | None => (reply_only (RErr EUnknownInterface None), root)
            | Some f =>
                match find_method (found_desc f) member with
                | None => (reply_only (RErr EUnknownMethod None), root)
                | Some md => run_found root n path f member md c
                end
            end
        end
    | _, _, _ => (reply_only (RErr EFailed None), root)
    end.
  Proof.
    unfold dispatch, node_at, iface_at.
    destruct (c_path c) as [path|], (c_iface c) as [iface|], (c_member c) as [member|]; try reflexivity.
    destruct (get_child root (segs_of path)) as [n|]; [|reflexivity].
    destruct (find_inst n iface) as [i|]; cbn [found_desc run_found].
    - destruct (find_method (in_desc i) member) eqn:Fm; [now rewrite (user_call_found _ _ _ _ Fm)|].
      unfold user_call, gen_call. now rewrite Fm.
    - destruct (find _ std_ifaces) as [d|]; [|reflexivity]. cbn [found_desc run_found].
      destruct (find_method d member) eqn:Fm; [reflexivity|]. unfold std_call, gen_call. now rewrite Fm.
  Qed.

  Corollary dispatch_registered root c path iface member i md :
    c_path c = Some path -> c_iface c = Some iface -> c_member c = Some member ->
    registered root path iface = Some i -> find_method (in_desc i) member = Some md ->
    dispatch bh root c = (run_method bh i md c, root).
  Proof.
    intros Ep Ei Em Hr Fm. rewrite dispatch_found, Ep, Ei, Em. unfold registered in Hr. unfold node_at, iface_at.
    destruct (get_child root (segs_of path)); [|discriminate]. rewrite Hr. cbn [found_desc]. now rewrite Fm.
  Qed.

  (* a body that does not decode: InvalidArgs, sent whatever the flags say *)
  Lemma run_found_rejected root n path iface f member md c :
    iface_at n iface = Some f -> find_method (found_desc f) member = Some md -> args_ok md (c_args c) = false ->
    run_found root n path f member md c = (reply_only (RErr EInvalidArgs None), root).
  Proof.
    intros Hf Fm Ea. destruct f as [i|d]; cbn [run_found found_desc] in *.
    - unfold run_method. now rewrite Ea.
    - apply iface_at_inv in Hf. unfold std_call. now rewrite (std_methods_async _ _ _ Hf Fm), Ea.
  Qed.

  (* a body of the declared types: the handler runs on it *)
  Lemma run_method_typed i md c :
    types_match md (c_args c) = true ->
    run_method bh i md c =
    finish c [LMethod (in_tag i) (md_name md) (c_args c)] []
      match bh_method bh (id_name (in_desc i)) (md_name md) (c_args c) with
      | HOk outs => RRet (wire_out (md_out md) outs)
      | HErr e m => if md_fall md then RErr e (Some m) else RErr EStuck None
      end.
  Proof.
    intro Tm. unfold run_method, iname. rewrite (types_match_args_ok _ _ Tm), (types_match_unpack _ _ Tm).
    now destruct (bh_method _ _ _ _).
  Qed.

  Lemma respected_result d md args :
    bh_respects bh d -> In md (id_methods d) ->
    match bh_method bh (id_name d) (md_name md) args with
    | HOk outs => typed outs (out_types (md_out md))
    | HErr _ _ => md_fall md = true
    end.
  Proof.
    intros H Hin. destruct (H md Hin) as [Hf Ht]. destruct (bh_method _ _ _ _) eqn:E; [eauto|].
    destruct (md_fall md); [reflexivity|]. now destruct (Hf eq_refl _ _ _ E).
  Qed.

  (* ================================================================ the main theorem: routing and replies *)
  Lemma flagged_meets_retany noreply s vals c lg sg :
    c_noreply c = noreply -> body_sig vals = s ->
    reply_meets (flagged noreply (XRetAny s)) (ef_replies (finish c lg sg (RRet vals))).
  Proof. intros <- <-. apply flagged_finish. cbn. eauto. Qed.

  Lemma meets_quiet26 c root e x : quiet26 c root (XErr e None) = Some x -> meets x (reply_only (RErr e None), root).
  Proof. intro H. injection H as <-. apply (meets_error_sent (c_noreply c)). cbn. eauto. Qed.

  (* a result of a non-structure single type, or of a tuple type, travels as it is *)
  Lemma wire_out_id o outs :
    typed outs (out_types o) ->
    (forall t, o = OSingle t -> struct_fields t = None) -> wire_out o outs = outs.
  Proof.
    intros Ht Hs. destruct o as [|t|ts]; cbn [wire_out]; try reflexivity.
    cbn in Ht. inversion Ht as [|v t' r r' Hv Hr]; subst. inversion Hr; subst.
    pose proof (has_ty_nonstruct _ _ Hv (Hs t eq_refl)) as K. destruct v; try reflexivity. discriminate.
  Qed.

  Theorem dispatch_partial root c x :
    tree_respects root ->
    class26 root c = None -> is_props_call root c = false ->
    spec26 bh root c = Some x -> meets x (dispatch bh root c).
  Proof.
    intros Hres Hcl Hpc Hsp. rewrite dispatch_found.
    unfold spec26 in Hsp. unfold class26, target_method in Hcl. unfold is_props_call, target_method in Hpc.
    destruct (c_path c) as [path|]; [|discriminate].
    destruct (c_member c) as [member|]; [|discriminate].
    destruct (c_iface c) as [iface|]; [|discriminate].
    destruct (node_at root path) as [n|] eqn:En; [|exact (meets_quiet26 _ _ _ _ Hsp)].
    destruct (iface_at n iface) as [f|] eqn:Ef; [|exact (meets_quiet26 _ _ _ _ Hsp)].
    destruct (find_method (found_desc f) member) as [md|] eqn:Fm; [|exact (meets_quiet26 _ _ _ _ Hsp)].
    unfold run_expect in Hsp. destruct (types_match md (c_args c)) eqn:Tm.
    2:{ (* a type mismatch outside the two leniency classes is rejected, the handler not run *)
        rewrite (run_found_rejected _ _ _ _ _ _ _ _ Ef Fm); [exact (meets_quiet26 _ _ _ _ Hsp)|].
        destruct (md_ins md), (args_ok md (c_args c)); congruence. }
    pose proof (find_method_name _ _ _ Fm) as [Hmn Hmin].
    destruct f as [i|d]; cbn [found_desc run_found] in *.
    - (* a registered interface: the handler runs on the arguments as sent *)
      injection Hsp as <-. rewrite (run_method_typed _ _ _ Tm).
      apply iface_at_inv, find_inst_in in Ef as [_ Hin].
      pose proof (respected_result _ md (c_args c) (Hres _ _ _ En Hin) Hmin) as Hr.
      destruct (bh_method bh (id_name (in_desc i)) (md_name md) (c_args c)) as [outs|e m].
      + rewrite (wire_out_id _ _ Hr); [now apply meets_finish|].
        intros t Ho. rewrite Ho in Hcl. now destruct (struct_fields t).
      + rewrite Hr. now apply meets_finish.
    - (* Peer and Introspectable; a Properties call is C28's subject *)
      apply iface_at_inv in Ef as Hd. rewrite andb_true_r in Hpc.
      unfold std_call. rewrite (std_methods_async _ _ _ Hd Fm), (types_match_args_ok _ _ Tm).
      unfold std_expect in Hsp. rewrite Hmn in Hsp.
      destruct (lbeq (id_name d) peer_name) eqn:Ipeer;
        [destruct (lbeq member (B "Ping"))|destruct (lbeq (id_name d) intro_name) eqn:Iintro].
      1-3: injection Hsp as <-; apply meets_finish; try reflexivity; eexists; split; reflexivity.
      destruct Hd as [<-|[<-|[<-|[]]]]; [discriminate Ipeer|discriminate Iintro|discriminate Hpc].
  Qed.

  (* ================================================================ wrong argument types: rejected, handler not run *)
  Theorem badargs_rejected root c path iface member n i md :
    c_path c = Some path -> c_iface c = Some iface -> c_member c = Some member ->
    get_child root (segs_of path) = Some n -> find_inst n iface = Some i ->
    find_method (in_desc i) member = Some md ->
    in_tys md <> [] -> types_match md (c_args c) = false -> ~ flattened md (c_args c) ->
    dispatch bh root c = (reply_only (RErr EInvalidArgs None), root).
  Proof.
    intros Ep Ei Em En Ef Fm Hne Tm Hfl.
    rewrite (dispatch_registered _ _ _ _ _ i md Ep Ei Em) by (assumption || (unfold registered; now rewrite En)).
    unfold run_method. destruct (args_ok md (c_args c)) eqn:Ea; [|reflexivity].
    destruct (args_ok_inv _ _ Hne Ea); [congruence|contradiction].
  Qed.

  (* ================================================================ the handler runs iff everything matches *)
  Definition method_ran (ef : effects) : Prop := exists t n a, In (LMethod t n a) (ef_log ef).

  Lemma gen_get_all_aux_no_method i ps t n a : ~ In (LMethod t n a) (fst (gen_get_all_aux bh i ps)).
  Proof.
    induction ps as [|p r IH]; cbn; [auto|]. destruct (gen_get_all_aux bh i r) as [lg m] eqn:E. cbn in IH.
    destruct (readable p); [|exact IH]. destruct (run_getter bh i p); cbn; intros [H|H]; try discriminate; auto.
  Qed.

  Lemma gen_get_no_method i pname lg r t n a : gen_get bh i pname = Some (lg, r) -> ~ In (LMethod t n a) lg.
  Proof.
    unfold gen_get. destruct (getter_of (in_desc i) pname); [|discriminate]. intro H. inversion H; subst.
    cbn. intuition discriminate.
  Qed.

  Lemma do_set_no_method path i p sent t n a : ~ In (LMethod t n a) (sr_log (do_set bh path i p sent)).
  Proof. unfold do_set. case_all; cbn; intuition discriminate. Qed.

  Lemma props_get_no_method root path iface pname t n a : ~ In (LMethod t n a) (pr_log (props_get bh root path iface pname)).
  Proof.
    unfold props_get. destruct (lookup_iface root path iface); cbn; try tauto.
    destruct (gen_get bh i pname) as [[lg r]|] eqn:E; cbn; [|tauto]. eapply gen_get_no_method; eauto.
  Qed.
  Lemma props_get_all_no_method root path iface t n a : ~ In (LMethod t n a) (pr_log (props_get_all bh root path iface)).
  Proof.
    unfold props_get_all, gen_get_all. destruct (lookup_iface root path iface); cbn; try tauto.
    pose proof (gen_get_all_aux_no_method i (id_props (in_desc i)) t n a) as K.
    destruct (gen_get_all_aux bh i (id_props (in_desc i))). exact K.
  Qed.
  Lemma props_set_no_method root path iface pname sent t n a :
    ~ In (LMethod t n a) (pr_log (props_set bh root path iface pname sent)).
  Proof.
    unfold props_set. destruct (lookup_iface root path iface); cbn; try tauto.
    destruct (gen_set (in_desc i) pname); cbn; try tauto; [|apply do_set_no_method].
    destruct (gen_set_mut (in_desc i) pname); cbn; try tauto. apply do_set_no_method.
  Qed.

  (* the standard interfaces run getters and setters, never a method handler *)
  Lemma std_call_no_method root n path d member c t nm a :
    ~ In (LMethod t nm a) (ef_log (fst (std_call bh root n path d member c))).
  Proof.
    unfold std_call, of_presult. case_all; cbn [fst ef_log finish reply_only];
      auto using in_nil, props_get_no_method, props_get_all_no_method, props_set_no_method.
  Qed.

  Theorem handler_runs_iff root c :
    match class26 root c with Some MissingInterface | Some NoargExtra | Some StructFlattened => False | _ => True end ->
    (method_ran (fst (dispatch bh root c)) <->
     exists path iface member n i md,
       c_path c = Some path /\ c_iface c = Some iface /\ c_member c = Some member /\
       get_child root (segs_of path) = Some n /\ find_inst n iface = Some i /\
       find_method (in_desc i) member = Some md /\ types_match md (c_args c) = true /\
       ef_log (fst (dispatch bh root c)) = [LMethod (in_tag i) member (c_args c)]).
  Proof.
    intro Hcl. split.
    2:{ intros (path & iface & member & n & i & md & _ & _ & _ & _ & _ & _ & _ & Hl).
        exists (in_tag i), member, (c_args c). rewrite Hl. now left. }
    intros (t & nm & a & Hin). revert Hin Hcl. rewrite dispatch_found. unfold class26, target_method.
    destruct (c_path c) as [path|]; [|cbn; tauto].
    destruct (c_iface c) as [iface|]; [|destruct (c_member c); cbn; tauto].
    destruct (c_member c) as [member|]; [|cbn; tauto].
    destruct (node_at root path) as [n|] eqn:En; [|cbn; tauto].
    destruct (iface_at n iface) as [f|] eqn:Ef; [|cbn; tauto].
    destruct (find_method (found_desc f) member) as [md|] eqn:Fm; [|cbn; tauto].
    destruct (args_ok md (c_args c)) eqn:Ea; [|rewrite (run_found_rejected _ _ _ _ _ _ _ _ Ef Fm Ea); cbn; tauto].
    destruct (types_match md (c_args c)) eqn:Tm; [|destruct (md_ins md); cbn; tauto].
    destruct f as [i|d]; cbn [found_desc run_found fst] in *; [|intros Hin; now apply std_call_no_method in Hin].
    intros _ _. exists path, iface, member, n, i, md. rewrite (run_method_typed _ _ _ Tm).
    apply iface_at_inv in Ef. destruct (find_method_name _ _ _ Fm) as [<- _].
    repeat split; auto.
  Qed.
End P.
