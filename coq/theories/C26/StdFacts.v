(* C26/StdFacts.v — the standard handler behaviour (C26/Std.v) respects the Rust signatures: it is an
   instance of the behaviours the theorems quantify over (used by the Examples and the refutation witnesses). *)
From ZV Require Import Base.Bytes Base.WinnowFacts C26.Desc C26.Msg C26.Std.
From ZV Require Import C26.Facts C26.Proofs.

Lemma derive_typed t h : has_ty (derive t h) t = true.
Proof. destruct t; cbn; try reflexivity. Qed.

Lemma derive_outs_typed ts : forall h, typed (derive_outs ts h) ts.
Proof. induction ts as [|t r IH]; intro h; cbn; constructor; [apply derive_typed|apply IH]. Qed.

Lemma std_respects d :
  nodupb (map md_name (id_methods d)) = true -> bh_respects (std_bh [d]) d.
Proof.
  intros Hd md Hin. cbn [std_bh bh_method]. unfold std_method. cbn [find]. rewrite lbeq_refl.
  unfold find_method. rewrite (nodup_find_self md_name _ _ Hd Hin). split.
  - intros Hf args e m. rewrite Hf. cbn. discriminate.
  - intros args outs. destruct (md_fall md && _); [discriminate|]. destruct (md_fall md && _); [discriminate|].
    intro H. inversion H. apply derive_outs_typed.
Qed.
