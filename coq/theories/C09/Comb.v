(* C09/Comb.v — one lemma per way serde feeds a composite into the serializer: sequence, option-as-array, tuple,
   named struct, map, as_value wrapper (VARIANT), dict-struct (named struct under a{sv}), enum variants, struct-as-array.
   Each says: if the parts drive [ser] like the dynamic values v_i, the whole drives it like the composite value. *)
From ZV Require Import Base.Bytes Base.BytesFacts Base.Res Base.Sig Base.SigParseFacts DBus.Val DBus.Spec DBus.Ser DBus.SerFacts DBus.SerProofs C09.Facts.
From Coq Require Import Lia.
Local Open Scope N_scope.

(* ---------- elements sharing one serializer: they must leave it exactly as a dynamic value would ---------- *)
Lemma elemsx_ok o xs l : Forall2 (fun x v => okw o x v true true) xs l -> forall st el,
  forallb (fun x => wf x && sig_eqb (vsig x) el) l = true ->
  s_sig st = el -> s_vsign st = None -> dep_ok (s_dep st) ->
  forallb (depth_ok (d_struct (s_dep st)) (d_array (s_dep st)) (d_variant (s_dep st))) l = true ->
  len (mseq (s_e st) ByOccurrence l (abs_pos st) (nfd st)) < 2 ^ 32 ->
  (o = true -> c_oaa (s_cfg st) = true) ->
  ser_elems xs st
  = Ok (grow st (mseq (s_e st) ByOccurrence l (abs_pos st) (nfd st)) (concat (map fds_of l))).
Proof.
  induction 1 as [|x v xs l Hx Hl IH]; intros st el Hw Hs Hv Hd Hdep Hlen Ho.
  - cbn. now rewrite grow_nil.
  - cbn [forallb] in Hw, Hdep. apply andb_true_iff in Hw as [Hwx Hw]. apply andb_true_iff in Hwx as [Hwx Hsx].
    apply andb_true_iff in Hdep as [Hdx Hdep]. apply sig_eqb_eq in Hsx.
    cbn [map concat mseq ser_elems] in *. rewrite len_app in Hlen.
    rewrite (okw_exact o x v Hx st Hwx ltac:(congruence) Hv (conj Hd Hdx) ltac:(lia) Ho).
    cbn [bind]. specialize (IH (after st v) el Hw Hs Hv Hd Hdep). unfold after in IH |- *.
    autorewrite with sst in IH. rewrite IH, grow_grow by first [exact Ho|unfold nfds in *; lia]. reflexivity.
Qed.

(* ---------- fields: each runs in its own sub-serializer, only bytes / descriptors / variant cursor come back ---------- *)
Lemma back_weq st g x sub : s_vsign st = None -> weq sub (after (sub_of st g) x) ->
  back_from st sub = grow st (marshal (s_e st) ByOccurrence x (abs_pos st) (nfd st)) (fds_of x).
Proof. intros Hv W. rewrite (back_from_weq _ _ _ W). now apply back_after. Qed.

Lemma fieldsx_ok o xs l : Forall2 (fun x v => okw o x v false false) xs l -> forall st pre,
  s_sig st = SStruct (pre ++ map vsig l) -> s_vsign st = None -> forallb wf l = true -> dep_ok (s_dep st) ->
  forallb (depth_ok (d_struct (s_dep st)) (d_array (s_dep st)) (d_variant (s_dep st))) l = true ->
  len (mseq (s_e st) ByOccurrence l (abs_pos st) (nfd st)) < 2 ^ 32 ->
  (o = true -> c_oaa (s_cfg st) = true) ->
  ser_fields xs (length pre) st
  = Ok (grow st (mseq (s_e st) ByOccurrence l (abs_pos st) (nfd st)) (concat (map fds_of l))).
Proof.
  induction 1 as [|x v xs l Hx Hl IH]; intros st pre Hs Hv Hw Hd Hdep Hlen Ho.
  - cbn. now rewrite grow_nil.
  - cbn [forallb] in Hw, Hdep. apply andb_true_iff in Hw as [Hwx Hw]. apply andb_true_iff in Hdep as [Hdx Hdep].
    cbn [map concat mseq ser_fields] in *. rewrite len_app in Hlen.
    unfold field_sig. rewrite Hs, nth_error_app2, Nat.sub_diag by lia. cbn [nth_error bind].
    destruct (Hx (sub_of st (vsig v)) Hwx eq_refl eq_refl (conj Hd Hdx)
                 ltac:(change (len (marshal (s_e st) ByOccurrence v (abs_pos st) (nfd st)) < 2 ^ 32); lia)
                 Ho) as (sub & E & W & _ & _).
    rewrite E. cbn [bind]. rewrite (back_weq st (vsig v) v sub Hv W).
    specialize (IH (grow st (marshal (s_e st) ByOccurrence v (abs_pos st) (nfd st)) (fds_of v)) (pre ++ [vsig v])).
    rewrite app_length, Nat.add_1_r, <- app_assoc in IH. specialize (IH Hs Hv Hw Hd Hdep).
    autorewrite with sst in IH. rewrite IH, grow_grow by first [exact Ho|unfold nfds in *; lia]. reflexivity.
Qed.

Lemma ser_nfields_fields l idx st : ser_nfields l idx st = ser_fields (map snd l) idx st.
Proof.
  revert idx st. induction l as [|[n y] l IH]; intros idx st; [reflexivity|].
  cbn [ser_nfields ser_fields map snd]. destruct (field_sig st idx) as [[g i']| |]; [|reflexivity|reflexivity].
  cbn [bind]. destruct (ser y (sub_of st g)); [|reflexivity|reflexivity]. cbn [bind]. apply IH.
Qed.

(* a tuple / tuple struct under a STRUCT signature *)
Lemma tuplex_ok o xs l : Forall2 (fun x v => okw o x v false false) xs l -> okw o (XTuple xs) (VStruct l) true true.
Proof.
  intros HF. apply okw_of_exact. intros st Hw Hs Hv Hfit Hlen Ho. rewrite ser_tuple.
  cbn [wf] in Hw. apply andb_true_iff in Hw as [_ Hw]. cbn [vsig] in Hs.
  destruct (fits_struct _ _ Hfit) as (d' & Hinc & Hd' & Hdl).
  unfold struct_begin. rewrite Hs. cbn [align_of align_dbus bind]. rewrite padded_grow, sig_grow, Hs, dep_grow, Hinc. cbn [bind].
  rewrite marshal_struct in Hlen. cbv zeta in Hlen. rewrite len_app in Hlen.
  pose proof (fieldsx_ok o xs l HF (set_dep (grow st (pad (abs_pos st) 8) []) d') [] Hs Hv Hw Hd' Hdl) as G.
  cbn [s_e s_cfg set_dep grow set_fds set_out length] in G. autorewrite with sst in G.
  rewrite (G ltac:(lia) Ho). cbn [bind]. f_equal.
  unfold after. rewrite marshal_struct, <- set_dep_grow, grow_grow. apply sstate_ext; reflexivity.
Qed.
Lemma named_as_tuple nl st fs : s_sig st = SStruct fs -> ser (XStruct nl) st = ser (XTuple (map snd nl)) st.
Proof.
  intros Hs. rewrite ser_struct_named, ser_tuple. unfold struct_begin. rewrite Hs. cbn [align_of align_dbus bind].
  rewrite padded_grow, sig_grow, Hs. destruct (inc_struct _) as [d| |]; [|reflexivity|reflexivity]. cbn [bind].
  now rewrite ser_nfields_fields.
Qed.
Lemma namedx_ok o (nxs : list (bytes * sval)) l : Forall2 (fun x v => okw o x v false false) (map snd nxs) l ->
  okw o (XStruct nxs) (VStruct l) true true.
Proof. intros HF. eapply okw_ext; [intros st Hs; exact (named_as_tuple nxs st _ Hs)|]. now apply tuplex_ok. Qed.

(* ---------- sequences ---------- *)
Lemma seqx_ok o xs el l : Forall2 (fun x v => okw o x v true true) xs l -> okw o (XSeq xs) (VArray el l) true true.
Proof.
  intros HF. apply okw_of_exact. intros st Hw Hs Hv Hfit Hlen Ho. rewrite ser_seq.
  cbn [wf] in Hw. apply andb_true_iff in Hw as [Hel Hw]. cbn [vsig] in Hs.
  destruct (fits_array _ _ _ Hfit) as (d' & Hinc & Hdec & Hd' & Hdl).
  rewrite marshal_array in Hlen. cbv zeta in Hlen. rewrite !len_app in Hlen.
  set (p0 := pad (abs_pos st) 4) in *. set (p1 := pad (abs_pos st + len p0 + 4) (align_dbus el)) in *.
  pose proof (elemsx_ok o xs l HF (set_dep (set_sig (grow st (p0 ++ enc (s_e st) 4 0 ++ p1) []) el) d') el
                Hw eq_refl Hv Hd' Hdl) as He.
  cbn [s_e s_cfg set_dep set_sig] in He. autorewrite with sst in He. rewrite !len_app, len_enc, !N.add_assoc in He.
  change (N.of_nat 4) with 4 in He.
  rewrite (seq_wrap st el (align_dbus el) d' (ser_elems xs) _ _
             (or_introl (conj Hs (single_align el Hel))) Hinc Hdec (He ltac:(lia) Ho)) by lia.
  unfold after. rewrite marshal_array. reflexivity.
Qed.

(* a tuple (serde: arrays, Ipv4Addr octets...) under an ARRAY signature goes the sequence way *)
Lemma seq_begin_padded st : seq_begin (padded st 4) = seq_begin st.
Proof. unfold seq_begin. rewrite padded_idem by discriminate. reflexivity. Qed.
Lemma tuple_as_seq xs st c : s_sig st = SArray c -> ser (XTuple xs) st = ser (XSeq xs) st.
Proof.
  intros Hs. rewrite ser_tuple, ser_seq. unfold struct_begin. rewrite Hs. cbn [align_of align_dbus bind].
  assert (Hs' : s_sig (padded st 4) = SArray c) by (rewrite padded_grow, sig_grow; exact Hs).
  rewrite Hs'. rewrite seq_begin_padded.
  destruct (seq_begin st) as [[[[s1 start] fp] asig]| |]; reflexivity.
Qed.
Lemma tuple_seqx_ok o xs el l : Forall2 (fun x v => okw o x v true true) xs l -> okw o (XTuple xs) (VArray el l) true true.
Proof.
  intros HF. apply okw_of_exact. intros st Hw Hs Hv Hfit Hlen Ho.
  rewrite (tuple_as_seq xs st el Hs). exact (okw_exact o _ _ (seqx_ok o xs el l HF) st Hw Hs Hv Hfit Hlen Ho).
Qed.

(* ---------- Option as an array of zero or one element ---------- *)
Lemma nonex_ok el : okw true XNone (VArray el []) true true.
Proof.
  apply okw_of_exact. intros st Hw Hs Hv Hfit Hlen Ho. cbn [ser]. rewrite (Ho eq_refl).
  cbn [wf] in Hw. apply andb_true_iff in Hw as [Hel _]. cbn [vsig] in Hs.
  destruct (fits_array _ _ _ Hfit) as (d' & Hinc & Hdec & _).
  pose proof (seq_wrap st el (align_dbus el) d' (fun s => Ok s) [] []
                (or_introl (conj Hs (single_align el Hel))) Hinc Hdec) as G. cbv zeta in G.
  rewrite grow_nil in G. specialize (G eq_refl ltac:(cbn; lia)).
  etransitivity; [|etransitivity; [exact G|]].
  - destruct (seq_begin st) as [[[[s1 start] fp] asig]| |]; reflexivity.
  - unfold after. rewrite marshal_array. reflexivity.
Qed.

Lemma somex_ok o y v el dc sc : okw o y v dc sc -> okw true (XSome y) (VArray el [v]) dc true.
Proof.
  intros Hy st Hw Hs Hv Hfit Hlen Ho. cbn [ser]. rewrite (Ho eq_refl).
  cbn [wf forallb] in Hw. apply andb_true_iff in Hw as [Hel Hw]. apply andb_true_iff in Hw as [Hw _].
  apply andb_true_iff in Hw as [Hwv Hsv]. apply sig_eqb_eq in Hsv. cbn [vsig] in Hs.
  destruct (fits_array _ _ _ Hfit) as (d' & Hinc & Hdec & Hd' & Hdl). cbn [forallb] in Hdl. apply andb_true_iff in Hdl as [Hdv _].
  rewrite marshal_array in Hlen. cbv zeta in Hlen. cbn [mseq] in Hlen. rewrite !len_app, ?app_nil_r in Hlen.
  set (p0 := pad (abs_pos st) 4) in *. set (p1 := pad (abs_pos st + len p0 + 4) (align_dbus el)) in *.
  pose proof (Hy (set_dep (set_sig (grow st (p0 ++ enc (s_e st) 4 0 ++ p1) []) el) d') Hwv (eq_sym Hsv) Hv (conj Hd' Hdv)) as G.
  unfold after in G. cbn [s_e s_cfg s_dep s_sig set_dep set_sig] in G. autorewrite with sst in G.
  rewrite !len_app, len_enc, !N.add_assoc in G. change (N.of_nat 4) with 4 in G.
  destruct (G ltac:(lia) (fun _ => Ho eq_refl)) as (st2 & E & W & D & S).
  destruct (seq_wrap_w st el (align_dbus el) d' (ser y) _ (fds_of v) st2
              (or_introl (conj Hs (single_align el Hel))) Hinc Hdec E W ltac:(lia)) as (r & Er & Wr & Sr & Dr).
  exists r. split.
  { etransitivity; [|exact Er]. destruct (seq_begin st) as [[[[s1 start] fp] asig]| |]; reflexivity. }
  split; [|split; [intros Edc; exact (Dr (D Edc))|intros _; exact Sr]].
  eapply weq_trans; [exact Wr|]. unfold after. rewrite marshal_array. cbn [mseq fds_of map concat]. rewrite !app_nil_r. apply weq_refl.
Qed.

(* ---------- maps: the key leaves the serializer exact, the value may leave the signature cursor anywhere
   (serialize_value resets it) but not the depth counters ---------- *)
Lemma entriesx_ok o (xs : list (sval * sval)) (l : list (dval * dval)) :
  Forall2 (fun x p => okw o (fst x) (fst p) true true /\ okw o (snd x) (snd p) true false) xs l -> forall st ks vs,
  forallb (fun p => wf (fst p) && wf (snd p) && sig_eqb (vsig (fst p)) ks && sig_eqb (vsig (snd p)) vs) l = true ->
  s_sig st = ks -> s_vsign st = None -> dep_ok (s_dep st) ->
  forallb (fun p => depth_ok (d_struct (s_dep st)) (d_array (s_dep st)) (d_variant (s_dep st)) (fst p)
                    && depth_ok (d_struct (s_dep st)) (d_array (s_dep st)) (d_variant (s_dep st)) (snd p)) l = true ->
  len (mentries (s_e st) ByOccurrence l (abs_pos st) (nfd st)) < 2 ^ 32 ->
  (o = true -> c_oaa (s_cfg st) = true) ->
  ser_entries xs ks vs st
  = Ok (grow st (mentries (s_e st) ByOccurrence l (abs_pos st) (nfd st))
               (concat (map (fun p => fds_of (fst p) ++ fds_of (snd p)) l))).
Proof.
  induction 1 as [|[xk xv] [k x] xs l [Hk Hx] Hl IH]; intros st ks vs Hw Hs Hv Hd Hdep Hlen Ho.
  - cbn. now rewrite grow_nil.
  - cbn [fst snd] in Hk, Hx.
    cbn [forallb fst snd] in Hw, Hdep. apply andb_true_iff in Hw as [Hw1 Hw].
    apply andb_true_iff in Hw1 as [Hw1 Hsx]. apply andb_true_iff in Hw1 as [Hw1 Hsk]. apply andb_true_iff in Hw1 as [Hwk Hwx].
    apply sig_eqb_eq in Hsk, Hsx. apply andb_true_iff in Hdep as [Hd1 Hdep]. apply andb_true_iff in Hd1 as [Hdk Hdx].
    cbn [map concat mentries fst snd ser_entries] in *. rewrite !len_app in Hlen.
    unfold nfds in Hlen. rewrite padded_grow. set (b0 := pad (abs_pos st) 8) in *.
    (* the key, under the key signature *)
    pose proof (okw_exact o xk k Hk (grow st b0 []) Hwk ltac:(rewrite sig_grow; congruence) Hv (conj Hd Hdk)) as G.
    autorewrite with sst in G. rewrite (G ltac:(lia) Ho). clear G. cbn [bind].
    unfold after. autorewrite with sst. rewrite grow_grow. cbn [app].
    set (b1 := marshal (s_e st) ByOccurrence k (abs_pos st + len b0) (nfd st)) in *.
    (* the value, under the value signature; afterwards the cursor is put back on the key signature *)
    pose proof (Hx (set_sig (grow st (b0 ++ b1) (fds_of k)) vs) Hwx ltac:(cbn; congruence) Hv (conj Hd Hdx)) as G.
    unfold after in G. cbn [s_e s_cfg s_dep set_sig] in G. autorewrite with sst in G. rewrite len_app, N.add_assoc in G.
    destruct (G ltac:(lia) Ho) as (st3 & E3 & W3 & D3 & _). clear G.
    rewrite E3. cbn [bind]. rewrite (weq_set_sig_eq _ _ ks W3 (D3 eq_refl)), set_sig_grow.
    change (set_sig (set_sig ?s vs) ks) with (set_sig s ks). rewrite set_sig_grow, grow_grow.
    replace (set_sig st ks) with st by (rewrite <- Hs; symmetry; apply set_sig_id).
    specialize (IH (grow st ((b0 ++ b1) ++ marshal (s_e st) ByOccurrence x (abs_pos st + len b0 + len b1)
                                           (nfd st + N.of_nat (length (fds_of k)))) (fds_of k ++ fds_of x))
                   ks vs Hw Hs Hv Hd Hdep).
    autorewrite with sst in IH. rewrite !len_app, app_length, Nat2N.inj_add, !N.add_assoc in IH.
    rewrite IH, grow_grow by first [exact Ho|lia]. rewrite <- !app_assoc. reflexivity.
Qed.

Lemma mapx_ok o xs ks vs l :
  Forall2 (fun x p => okw o (fst x) (fst p) true true /\ okw o (snd x) (snd p) true false) xs l ->
  okw o (XMap xs) (VDict ks vs l) true true.
Proof.
  intros HF. apply okw_of_exact. intros st Hw Hs Hv Hfit Hlen Ho. cbn [vsig] in Hs. rewrite (ser_map _ st ks vs Hs).
  cbn [wf] in Hw. apply andb_true_iff in Hw as [_ Hw].
  destruct (fits_dict _ _ _ _ Hfit) as (d' & Hinc & Hdec & Hd' & Hdl).
  rewrite marshal_dict in Hlen. cbv zeta in Hlen. rewrite !len_app in Hlen.
  set (p0 := pad (abs_pos st) 4) in *. set (p1 := pad (abs_pos st + len p0 + 4) 8) in *.
  pose proof (entriesx_ok o xs l HF (set_dep (set_sig (grow st (p0 ++ enc (s_e st) 4 0 ++ p1) []) ks) d') ks vs
                Hw eq_refl Hv Hd' Hdl) as He.
  cbn [s_e s_cfg set_dep set_sig] in He. autorewrite with sst in He. rewrite !len_app, len_enc, !N.add_assoc in He.
  change (N.of_nat 4) with 4 in He.
  rewrite (seq_wrap st ks 8 d' (ser_entries _ ks vs) _ _
             (or_intror (ex_intro _ vs (conj Hs eq_refl))) Hinc Hdec (He ltac:(lia) Ho)) by lia.
  unfold after. rewrite marshal_dict. reflexivity.
Qed.

(* a named struct under a DICT signature (SerializeDict's helper struct) is a map from field names to values *)
Lemma ser_nentries_entries l ks vs st :
  ser_nentries l ks vs st = ser_entries (map (fun p => (XStr (fst p), snd p)) l) ks vs st.
Proof.
  revert st. induction l as [|[n y] l IH]; intros st; [reflexivity|].
  cbn [ser_nentries ser_entries map fst snd]. change (ser (XStr n) (padded st 8)) with (ser_str (padded st 8) n).
  destruct (ser_str (padded st 8) n); [|reflexivity|reflexivity]. cbn [bind].
  destruct (ser y (set_sig a vs)); [|reflexivity|reflexivity]. cbn [bind]. apply IH.
Qed.
Lemma named_as_map nl st ks vs : s_sig st = SDict ks vs ->
  ser (XStruct nl) st = ser (XMap (map (fun p => (XStr (fst p), snd p)) nl)) st.
Proof.
  intros Hs. rewrite ser_struct_named, (ser_map _ st ks vs Hs). unfold struct_begin. rewrite Hs. cbn [align_of align_dbus bind].
  assert (Hs' : s_sig (padded st 4) = SDict ks vs) by (rewrite padded_grow, sig_grow; exact Hs).
  rewrite Hs'. rewrite seq_begin_padded.
  destruct (seq_begin st) as [[[[s1 start] fp] asig]| |]; [|reflexivity|reflexivity]. cbn [bind].
  rewrite ser_nentries_entries. reflexivity.
Qed.

(* ---------- as_value: a value wrapped as a VARIANT ---------- *)
Lemma variantx_ok o y x : okw o y x false false -> okw o (XStruct [(B "signature", XStr (show (vsig x))); (B "value", y)]) (VVariant x) true true.
Proof.
  intros Hx. apply okw_of_exact. intros st Hw Hs Hv Hfit Hlen Ho. rewrite ser_struct_named.
  cbn [wf] in Hw. apply andb_true_iff in Hw as [Hw Hl255]. apply andb_true_iff in Hw as [Hw Hso].
  apply N.leb_le in Hl255. cbn [vsig] in Hs.
  destruct (fits_variant _ _ Hfit) as (d' & Hinc & Hfit').
  unfold struct_begin. rewrite Hs. cbn [align_of align_dbus bind]. rewrite padded_grow, pad_1, grow_nil.
  rewrite Hs, Hinc. cbn [bind].
  set (g := vsig x) in *. set (sg := show g) in *.
  set (hdr := nb (len sg) :: sg ++ [x00]).
  cbn [marshal] in Hlen. fold g sg hdr in Hlen. rewrite len_app in Hlen.
  set (st1 := set_dep st d').
  cbn [ser_nfields]. unfold field_sig at 1. change (s_sig st1) with (s_sig st). rewrite Hs.
  change (s_vsign st1) with (s_vsign st). rewrite Hv. cbn [bind].
  cbn [ser]. unfold ser_str. change (s_sig (sub_of st1 SVariant)) with SVariant. cbn [align_of align_dbus bind].
  rewrite padded_grow, pad_1, grow_nil. change (s_sig (sub_of st1 SVariant)) with SVariant.
  change (c_gv (s_cfg (sub_of st1 SVariant))) with (c_gv (s_cfg st)).
  pose proof (parse_show (c_gv (s_cfg st)) g (single_printable g Hso)) as Hps. fold sg in Hps. rewrite Hps. cbn [bind].
  destruct (N.leb_spec (len sg) 255) as [_|]; [|lia]. cbn [bind].
  rewrite !wr_grow, !grow_grow. cbn [app].
  unfold field_sig. cbn [s_sig s_vsign back_from set_vsign set_fds set_out grow set_sig sub_of set_dep bind].
  set (st2 := sub_of (back_from st1 (grow (set_vsign (sub_of st1 SVariant) (Some g)) (nb (len sg) :: sg ++ [x00]) [])) g).
  assert (Hp2 : abs_pos st2 = abs_pos st + len hdr).
  { subst st2 st1. clear. destruct st. unfold abs_pos, written. cbn -[len]. rewrite len_app. fold hdr. lia. }
  assert (Hn2 : nfd st2 = nfd st).
  { subst st2 st1. clear. destruct st. unfold nfd. cbn -[add_fds]. rewrite add_fds_nil. reflexivity. }
  destruct (Hx st2 Hw eq_refl eq_refl Hfit' ltac:(change (s_e st2) with (s_e st); rewrite Hp2, Hn2; lia) Ho)
    as (st3 & E & W & _ & _).
  change (s_sig st1) with (s_sig st). rewrite Hs. cbn [bind]. fold st2. rewrite E. cbn [bind]. f_equal.
  destruct W as (W1 & W2 & W3 & W4 & W5 & W6).
  unfold after in *. rewrite Hp2, Hn2 in *. change (s_e st2) with (s_e st) in *. cbn [marshal]. fold g sg hdr.
  subst st2 st1. apply sstate_ext; try reflexivity.
  - cbn -[len marshal app N.add] in *. rewrite W4. unfold hdr. rewrite <- ?app_assoc. cbn [app]. rewrite <- ?app_assoc. reflexivity.
  - cbn in *. rewrite W5. now rewrite Hv.
  - cbn -[add_fds] in *. rewrite W6. rewrite ?add_fds_nil. reflexivity.
Qed.

(* ---------- small leaves ---------- *)
(* `struct S {}` / [T; 0]: StructSerializer::unit writes one zero byte *)
Lemma empty_struct_ok o : okw o (XStruct []) (VU8 0) true true.
Proof.
  apply okw_of_exact. intros st _ Hs _ _ _ _. rewrite ser_struct_named. unfold struct_begin. cbn [vsig] in Hs. rewrite Hs.
  cbn [align_of align_dbus bind]. rewrite padded_grow, pad_1, grow_nil. rewrite Hs. rewrite basic_after. cbn [bind ser_nfields].
  rewrite dep_grow, set_dep_grow, set_dep_id. unfold after. cbn [marshal fds_of]. rewrite pad_1. cbn [app].
  destruct (s_e st); reflexivity.
Qed.
(* a variant number: serialize_u32 of the index as u32 *)
Lemma u32_mod_ok o x idx dc sc : (forall st, s_sig st = SU32 -> ser x st = basic st 4 4 (idx mod 2 ^ 32)) -> okw o x (VU32 idx) dc sc.
Proof.
  intros Hx. apply okw_of_exact. intros st _ Hs _ _ _ _. rewrite (Hx st Hs), basic_after.
  unfold after. cbn [marshal fds_of]. now rewrite enc_mod32.
Qed.
Lemma unit_variant_u32 o idx name : okw o (XUnitVariant idx name) (VU32 idx) true true.
Proof. apply u32_mod_ok. intros st Hs. cbn [ser]. now rewrite Hs. Qed.
Lemma unit_variant_str o idx name : okw o (XUnitVariant idx name) (VStr name) true true.
Proof.
  eapply okw_ext; [|exact (okw_dyn o (VStr name) true true eq_refl)].
  intros st Hs. cbn [ser]. cbn [vsig] in Hs. now rewrite Hs.
Qed.

(* ---------- enum variants: StructSerializer::enum_variant ---------- *)
Definition enum_begin (st : sstate) (idx : N) : res cerr (sstate * nat * depths) :=
  match s_sig st with
  | SStruct fs =>
      let inner := match nth_error fs 1 with Some (SStruct g) => Some (SStruct g) | _ => None end in
      let st := padded st 8 in
      let saved := s_dep st in
      let* d := inc_struct (s_dep st) in
      let st := set_dep st d in
      let* (g, i1) := field_sig st 0 in
      let* sub := basic (sub_of st g) 4 4 (idx mod 2 ^ 32) in
      let st := back_from st sub in
      match inner with
      | Some g' => Ok (set_sig (padded st 8) g', 0%nat, saved)
      | None => Ok (st, i1, saved)
      end
  | _ => Err ESigMismatch
  end.
Lemma ser_newtype_variant idx y st :
  ser (XNewtypeVariant idx y) st = let* (st, i, saved) := enum_begin st idx in ser_fields [y] i st.
Proof. reflexivity. Qed.
Lemma ser_tuple_variant idx l st :
  ser (XTupleVariant idx l) st = let* (st, i, saved) := enum_begin st idx in let* st := ser_fields l i st in Ok (set_dep st saved).
Proof. reflexivity. Qed.
Lemma ser_struct_variant idx l st :
  ser (XStructVariant idx l) st = let* (st, i, saved) := enum_begin st idx in let* st := ser_nfields l i st in Ok (set_dep st saved).
Proof. reflexivity. Qed.

Lemma back_grow_sub st g b h : s_vsign st = None -> back_from st (grow (sub_of st g) b h) = grow st b h.
Proof. intros Hv. unfold sub_of. rewrite back_grow, set_vsign_grow, <- Hv, set_vsign_id. reflexivity. Qed.

Lemma struct_variant_as_tuple idx nl st : ser (XStructVariant idx nl) st = ser (XTupleVariant idx (map snd nl)) st.
Proof.
  rewrite ser_struct_variant, ser_tuple_variant. destruct (enum_begin st idx) as [[[s1 i] sv]| |]; [|reflexivity|reflexivity].
  cbn [bind]. now rewrite ser_nfields_fields.
Qed.

(* newtype variant `V(T)`, T's signature not a STRUCT: the tuple (variant number, payload) without its end():
   the depth counter stays incremented *)
Lemma newtype_variant_as_tuple idx y st g : s_sig st = SStruct [SU32; g] -> (forall gs, g <> SStruct gs) ->
  ser (XTuple [XU32 (idx mod 2 ^ 32); y]) st = let* st' := ser (XNewtypeVariant idx y) st in Ok (set_dep st' (s_dep st)).
Proof.
  intros Hs Hg. rewrite ser_tuple, ser_newtype_variant. unfold struct_begin, enum_begin. rewrite Hs.
  assert (Hi : match g with SStruct x => Some (SStruct x) | _ => None end = None)
    by (destruct g; try reflexivity; now destruct (Hg fs)).
  cbn [align_of align_dbus bind nth_error]. rewrite Hi, padded_grow, sig_grow, Hs, dep_grow.
  destruct (inc_struct (s_dep st)) as [d| |]; [|reflexivity|reflexivity]. cbn [bind ser_fields ser].
  destruct (field_sig _ 0) as [[g0 i1]| |]; [|reflexivity|reflexivity]. unfold basic. cbn [bind].
  destruct (field_sig _ i1) as [[g1 i2]| |]; [|reflexivity|reflexivity]. cbn [bind].
  destruct (ser y _); reflexivity.
Qed.
Lemma newtype_variantx_ok o idx y v : (forall gs, vsig v <> SStruct gs) -> okw o y v false false ->
  okw o (XNewtypeVariant idx y) (VStruct [VU32 idx; v]) false true.
Proof.
  intros Hns Hy st Hw Hs Hv Hfit Hlen Ho.
  assert (HT : okw o (XTuple [XU32 (idx mod 2 ^ 32); y]) (VStruct [VU32 idx; v]) true true).
  { apply tuplex_ok. repeat constructor; [|exact Hy]. apply u32_mod_ok. reflexivity. }
  destruct (HT st Hw Hs Hv Hfit Hlen Ho) as (st1 & E & W & _ & S).
  rewrite (newtype_variant_as_tuple idx y st (vsig v) Hs Hns) in E.
  destruct (ser (XNewtypeVariant idx y) st) as [st'| |]; try discriminate E. injection E as <-.
  exists st'. split; [reflexivity|]. split; [|split; [discriminate|exact S]].
  exact (weq_trans _ _ _ (weq_sym _ _ (weq_set_dep st' _)) W).
Qed.

(* tuple / struct variant: after the variant number the serializer "pretends to be the inner struct": it pads to 8 and
   moves its signature cursor to the inner STRUCT for good, without incrementing the struct depth again *)
Lemma enum_begin_struct st idx gs d' : s_sig st = SStruct [SU32; SStruct gs] -> s_vsign st = None ->
  inc_struct (s_dep st) = Ok d' ->
  let p8 := pad (abs_pos st) 8 in
  let p4 := pad (abs_pos st + len p8) 4 in
  enum_begin st idx
  = Ok (set_sig (set_dep (grow st (p8 ++ p4 ++ enc (s_e st) 4 idx ++ pad (abs_pos st + len p8 + len p4 + 4) 8) []) d')
                (SStruct gs), 0%nat, s_dep st).
Proof.
  intros Hs Hv Hinc p8 p4. unfold enum_begin. rewrite Hs. cbn [nth_error]. rewrite padded_grow, dep_grow, Hinc. cbn [bind].
  unfold field_sig. cbn [s_sig set_dep]. rewrite sig_grow, Hs. cbn [nth_error bind]. rewrite basic_after. cbn [bind].
  rewrite back_grow_sub by exact Hv. unfold sub_of. cbn [s_e set_vsign set_sig set_dep]. autorewrite with sst.
  rewrite enc_mod32, padded_grow. autorewrite with sst. rewrite grow_grow, <- set_dep_grow, grow_grow.
  fold p8 p4. rewrite len_app, len_enc, <- !app_assoc, !N.add_assoc. reflexivity.
Qed.

Lemma tuple_variantx_ok o idx xs l : Forall2 (fun x v => okw o x v false false) xs l ->
  okw o (XTupleVariant idx xs) (VStruct [VU32 idx; VStruct l]) true false.
Proof.
  intros HF st Hw Hs Hv Hfit Hlen Ho. rewrite ser_tuple_variant.
  cbn [wf forallb] in Hw. apply andb_true_iff in Hw as [_ Hw]. apply andb_true_iff in Hw as [_ Hw]. apply andb_true_iff in Hw as [Hw _].
  apply andb_true_iff in Hw as [_ Hw]. cbn [vsig map] in Hs.
  destruct (fits_struct _ _ Hfit) as (d' & Hinc & Hd' & Hdl).
  cbn [forallb depth_ok] in Hdl. apply andb_true_iff in Hdl as [_ Hdl]. apply andb_true_iff in Hdl as [Hdl _]. apply andb_true_iff in Hdl as [_ Hdl].
  (* the value nests the fields two structs deep, the serializer has counted one *)
  assert (Hdl' : forallb (depth_ok (d_struct d') (d_array d') (d_variant d')) l = true).
  { rewrite forallb_forall in *. intros x Hin. eapply depth_ok_mono; [| | |exact (Hdl x Hin)]; lia. }
  rewrite (enum_begin_struct st idx _ d' Hs Hv Hinc). cbn [bind].
  rewrite marshal_struct in Hlen. cbv zeta in Hlen. cbn [mseq] in Hlen. rewrite marshal_struct in Hlen. cbv zeta in Hlen.
  cbn [marshal] in Hlen. rewrite !len_app, len_enc, !N.add_assoc in Hlen.
  change (nfds (VU32 idx)) with 0 in Hlen. rewrite !N.add_0_r in Hlen. change (N.of_nat 4) with 4 in Hlen.
  set (p8 := pad (abs_pos st) 8) in *. set (p4 := pad (abs_pos st + len p8) 4) in *.
  pose proof (fieldsx_ok o xs l HF
                (set_sig (set_dep (grow st (p8 ++ p4 ++ enc (s_e st) 4 idx ++ pad (abs_pos st + len p8 + len p4 + 4) 8) []) d')
                         (SStruct (map vsig l))) [] eq_refl Hv Hw Hd' Hdl') as G.
  cbn [s_e s_cfg set_dep set_sig length] in G. autorewrite with sst in G.
  rewrite !len_app, len_enc, !N.add_assoc in G. change (N.of_nat 4) with 4 in G.
  rewrite (G ltac:(lia) Ho). cbn [bind]. eexists. split; [reflexivity|]. split; [|split; [reflexivity|discriminate]].
  eapply weq_trans; [apply weq_set_dep|]. rewrite <- set_sig_grow. eapply weq_trans; [apply weq_set_sig|].
  rewrite <- set_dep_grow. eapply weq_trans; [apply weq_set_dep|]. rewrite grow_grow.
  unfold after. rewrite marshal_struct. cbv zeta. cbn [mseq fds_of map concat]. rewrite marshal_struct. cbv zeta. cbn [marshal].
  change (nfds (VU32 idx)) with 0. fold p8 p4.
  rewrite !len_app, len_enc, !N.add_assoc, N.add_0_r, <- !app_assoc, !app_nil_r. apply weq_refl.
Qed.
Lemma struct_variantx_ok o idx (nxs : list (bytes * sval)) l : Forall2 (fun x v => okw o x v false false) (map snd nxs) l ->
  okw o (XStructVariant idx nxs) (VStruct [VU32 idx; VStruct l]) true false.
Proof. intros HF. eapply okw_ext; [intros st _; apply struct_variant_as_tuple|]. now apply tuple_variantx_ok. Qed.
