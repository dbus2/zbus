(* C09/Unfold.v — induction principle for [tshape] and standalone versions of the local fixpoints of
   sig_of / dsig / sval_of_shape / dval_of_shape / typed / shape_ok / has_option, with their unfolding equations. *)
From ZV Require Import Base.Bytes Base.Sig DBus.Val DBus.Spec DBus.Ser C09.Model C09.Spec.

Notation variant := (vkind * list (bytes * tshape))%type (only parsing).
Notation dfield := (bytes * (bool * tshape))%type (only parsing).

Section TshapeInd.
  Variable P : tshape -> Prop.
  Hypothesis Hprim : forall p, P (TPrim p).
  Hypothesis Hunit : P TUnit.
  Hypothesis Hph : forall t, P t -> P (TPhantom t).
  Hypothesis Hseq : forall t, P t -> P (TSeq t).
  Hypothesis Hmap : forall k v, P k -> P v -> P (TMap k v).
  Hypothesis Hopt : forall t, P t -> P (TOption t).
  Hypothesis Htup : forall ts, Forall P ts -> P (TTuple ts).
  Hypothesis Hnt : forall t, P t -> P (TNewtype t).
  Hypothesis Hst : forall fs, Forall (fun f => P (snd f)) fs -> P (TStruct fs).
  Hypothesis Huenum : forall r ds, P (TUnitEnum r ds).
  Hypothesis Hsenum : forall names, P (TStrEnum names).
  Hypothesis Henum : forall vs, Forall (fun v : variant => Forall (fun f => P (snd f)) (snd v)) vs -> P (TEnum vs).
  Hypothesis Hdict : forall rn fs, Forall (fun f : dfield => P (snd (snd f))) fs -> P (TDict rn fs).
  Hypothesis Hip : P TIpAddr.

  Fixpoint tshape_ind' (sh : tshape) : P sh :=
    let flds := fix go (fs : list (bytes * tshape)) : Forall (fun f => P (snd f)) fs :=
        match fs with
        | [] => Forall_nil _
        | (n, t) :: r => Forall_cons (n, t) (tshape_ind' t) (go r)
        end in
    match sh with
    | TPrim p => Hprim p
    | TUnit => Hunit
    | TPhantom t => Hph t (tshape_ind' t)
    | TSeq t => Hseq t (tshape_ind' t)
    | TMap k v => Hmap k v (tshape_ind' k) (tshape_ind' v)
    | TOption t => Hopt t (tshape_ind' t)
    | TTuple ts => Htup ts ((fix go (ts : list tshape) : Forall P ts :=
                               match ts with [] => Forall_nil _ | t :: r => Forall_cons t (tshape_ind' t) (go r) end) ts)
    | TNewtype t => Hnt t (tshape_ind' t)
    | TStruct fs => Hst fs (flds fs)
    | TUnitEnum r ds => Huenum r ds
    | TStrEnum names => Hsenum names
    | TEnum vs => Henum vs ((fix go (vs : list variant) : Forall (fun v : variant => Forall (fun f => P (snd f)) (snd v)) vs :=
                               match vs with
                               | [] => Forall_nil _
                               | (k, fs) :: r => Forall_cons (k, fs) (flds fs) (go r)
                               end) vs)
    | TDict rn fs => Hdict rn fs ((fix go (fs : list dfield) : Forall (fun f : dfield => P (snd (snd f))) fs :=
                                     match fs with
                                     | [] => Forall_nil _
                                     | (n, (o, t)) :: r => Forall_cons (n, (o, t)) (tshape_ind' t) (go r)
                                     end) fs)
    | TIpAddr => Hip
    end.
End TshapeInd.

(* ---------- signatures of lists ---------- *)
Definition fsigs (fs : list (bytes * tshape)) : list sig := map (fun f => sig_of (snd f)) fs.
Definition fdsigs (fs : list (bytes * tshape)) : list sig := map (fun f => dsig (snd f)) fs.

Lemma sig_tuple ts : sig_of (TTuple ts) = SStruct (map sig_of ts).
Proof. reflexivity. Qed.
Lemma sig_fsigs_local fs :
  (fix go (fs : list (bytes * tshape)) : list sig := match fs with [] => [] | (_, t) :: r => sig_of t :: go r end) fs = fsigs fs.
Proof. induction fs as [|[n t] r IH]; [reflexivity|]. cbn [fsigs map snd]. now rewrite IH. Qed.
Lemma sig_struct fs : sig_of (TStruct fs) = match fs with [] => SU8 | _ => SStruct (fsigs fs) end.
Proof. destruct fs as [|[n t] r]; [reflexivity|]. cbn [sig_of]. unfold struct_sig. rewrite sig_fsigs_local. reflexivity. Qed.
Fixpoint last_variant_sig (vs : list variant) : sig :=
  match vs with
  | [] => SUnit
  | [v] => variant_sig v
  | _ :: r => last_variant_sig r
  end.
Lemma sig_enum vs : sig_of (TEnum vs) = last_variant_sig vs.
Proof.
  cbn [sig_of]. induction vs as [|[k fs] r IH]; [reflexivity|].
  destruct r as [|v2 r2].
  - cbn [last_variant_sig]. unfold variant_sig. cbn [fst snd]. rewrite sig_fsigs_local. reflexivity.
  - change (last_variant_sig ((k, fs) :: v2 :: r2)) with (last_variant_sig (v2 :: r2)). exact IH.
Qed.

Lemma dsig_tuple ts : dsig (TTuple ts) = SStruct (map dsig ts).
Proof. reflexivity. Qed.
Lemma dsig_fsigs_local fs :
  (fix go (fs : list (bytes * tshape)) : list sig := match fs with [] => [] | (_, t) :: r => dsig t :: go r end) fs = fdsigs fs.
Proof. induction fs as [|[n t] r IH]; [reflexivity|]. cbn [fdsigs map snd]. now rewrite IH. Qed.
Lemma dsig_struct fs : dsig (TStruct fs) = match fs with [] => SU8 | _ => SStruct (fdsigs fs) end.
Proof. destruct fs as [|[n t] r]; [reflexivity|]. cbn [dsig]. rewrite dsig_fsigs_local. reflexivity. Qed.
Definition variant_dsig (v : variant) : sig := struct_sig (is_unnamed (fst v)) (fdsigs (snd v)) true.
Lemma dsig_enum v vs : dsig (TEnum (v :: vs)) = variant_dsig v.
Proof.
  destruct v as [k fs]. unfold variant_dsig. rewrite <- dsig_fsigs_local.
  destruct k; [|reflexivity]. destruct fs as [|[n t] [|[n2 t2] fr]]; reflexivity.
Qed.

(* ---------- data-model trees and values of lists ---------- *)
Fixpoint sv_tup (ts : list tshape) (l : list rval) : list sval :=
  match ts, l with t :: ts', y :: l' => sval_of_shape t y :: sv_tup ts' l' | _, _ => [] end.
Fixpoint sv_nam (fs : list (bytes * tshape)) (l : list rval) : list (bytes * sval) :=
  match fs, l with (n, t) :: fs', y :: l' => (n, sval_of_shape t y) :: sv_nam fs' l' | _, _ => [] end.
Fixpoint dv_tup (ts : list tshape) (l : list rval) : list dval :=
  match ts, l with t :: ts', y :: l' => dval_of_shape t y :: dv_tup ts' l' | _, _ => [] end.
Fixpoint dv_nam (fs : list (bytes * tshape)) (l : list rval) : list dval :=
  match fs, l with (_, t) :: fs', y :: l' => dval_of_shape t y :: dv_nam fs' l' | _, _ => [] end.
Fixpoint ty_tup (ts : list tshape) (l : list rval) : bool :=
  match ts, l with [], [] => true | t :: ts', y :: l' => typed t y && ty_tup ts' l' | _, _ => false end.
Fixpoint ty_nam (fs : list (bytes * tshape)) (l : list rval) : bool :=
  match fs, l with [], [] => true | (_, t) :: fs', y :: l' => typed t y && ty_nam fs' l' | _, _ => false end.

Lemma sv_nam_tup fs l : map snd (sv_nam fs l) = sv_tup (map snd fs) l.
Proof. revert l. induction fs as [|[n t] fs IH]; intros [|y l]; cbn [sv_nam sv_tup map snd]; now rewrite ?IH. Qed.
Lemma dv_nam_tup fs l : dv_nam fs l = dv_tup (map snd fs) l.
Proof. revert l. induction fs as [|[n t] fs IH]; intros [|y l]; cbn [dv_nam dv_tup map snd]; now rewrite ?IH. Qed.
Lemma ty_nam_tup fs l : ty_nam fs l = ty_tup (map snd fs) l.
Proof. revert l. induction fs as [|[n t] fs IH]; intros [|y l]; cbn [ty_nam ty_tup map snd]; now rewrite ?IH. Qed.

Lemma sval_tuple ts l : sval_of_shape (TTuple ts) (RList l) = XTuple (sv_tup ts l). Proof. reflexivity. Qed.
Lemma sval_struct fs l : sval_of_shape (TStruct fs) (RList l) = XStruct (sv_nam fs l). Proof. reflexivity. Qed.
Lemma dval_tuple ts l : dval_of_shape (TTuple ts) (RList l) = VStruct (dv_tup ts l). Proof. reflexivity. Qed.
Lemma dval_struct f fs l : dval_of_shape (TStruct (f :: fs)) (RList l) = VStruct (dv_nam (f :: fs) l). Proof. reflexivity. Qed.
Lemma typed_tuple ts l : typed (TTuple ts) (RList l) = ty_tup ts l. Proof. reflexivity. Qed.
Lemma typed_struct fs l : typed (TStruct fs) (RList l) = ty_nam fs l. Proof. reflexivity. Qed.

(* enum variants; [n] is the variant number *)
Definition variant_sval (n : N) (v : variant) (l : list rval) : sval :=
  match fst v with
  | KNamed => XStructVariant n (sv_nam (snd v) l)
  | KUnnamed =>
      match snd v with
      | [(_, t)] => match l with y :: _ => XNewtypeVariant n (sval_of_shape t y) | [] => XUnit end
      | fs => XTupleVariant n (map snd (sv_nam fs l))
      end
  end.
Definition variant_dval (n : N) (v : variant) (l : list rval) : dval :=
  match fst v, snd v with
  | KUnnamed, [(_, t)] => match l with y :: _ => VStruct [VU32 n; dval_of_shape t y] | [] => VStruct [] end
  | _, fs => VStruct [VU32 n; VStruct (dv_nam fs l)]
  end.
Lemma sval_enum vs i l :
  sval_of_shape (TEnum vs) (REnum i l) = match nth_error vs i with Some v => variant_sval (N.of_nat i) v l | None => XUnit end.
Proof.
  cbn [sval_of_shape]. generalize (N.of_nat i) as n. intros n. revert i.
  induction vs as [|[kd fs] r IH]; intros [|i]; try reflexivity; [|apply IH].
  cbn [nth_error]. unfold variant_sval. cbn [fst snd]. destruct kd; [|reflexivity]. destruct fs as [|[m t] [|f2 fr]]; reflexivity.
Qed.
Lemma dval_enum vs i l :
  dval_of_shape (TEnum vs) (REnum i l) = match nth_error vs i with Some v => variant_dval (N.of_nat i) v l | None => VStruct [] end.
Proof.
  cbn [dval_of_shape]. generalize (N.of_nat i) as n. intros n. revert i.
  induction vs as [|[kd fs] r IH]; intros [|i]; try reflexivity; [|apply IH].
  cbn [nth_error]. unfold variant_dval. cbn [fst snd]. destruct kd; [|reflexivity]. destruct fs as [|[m t] [|f2 fr]]; reflexivity.
Qed.
Lemma typed_enum vs i l :
  typed (TEnum vs) (REnum i l) = match nth_error vs i with Some v => ty_nam (snd v) l | None => false end.
Proof.
  cbn [typed]. revert i. induction vs as [|[kd fs] r IH]; intros [|i]; try reflexivity. apply IH.
Qed.

(* dict-structs *)
Fixpoint sv_dict (rn : rename) (fs : list dfield) (l : list rval) : list (bytes * sval) :=
  match fs, l with
  | (n, (opt, t)) :: fs', y :: l' =>
      if opt then match y with
                  | RSome z => (dict_key rn n, as_value (sig_of t) (sval_of_shape t z)) :: sv_dict rn fs' l'
                  | _ => sv_dict rn fs' l'
                  end
      else (dict_key rn n, as_value (sig_of t) (sval_of_shape t y)) :: sv_dict rn fs' l'
  | _, _ => []
  end.
Fixpoint dv_dict (rn : rename) (fs : list dfield) (l : list rval) : list (dval * dval) :=
  match fs, l with
  | (n, (opt, t)) :: fs', y :: l' =>
      if opt then match y with
                  | RSome z => (VStr (dict_key rn n), VVariant (dval_of_shape t z)) :: dv_dict rn fs' l'
                  | _ => dv_dict rn fs' l'
                  end
      else (VStr (dict_key rn n), VVariant (dval_of_shape t y)) :: dv_dict rn fs' l'
  | _, _ => []
  end.
Fixpoint ty_dict (fs : list dfield) (l : list rval) : bool :=
  match fs, l with
  | [], [] => true
  | (_, (opt, t)) :: fs', y :: l' =>
      (if opt then match y with RNone => true | RSome z => typed t z | _ => false end else typed t y) && ty_dict fs' l'
  | _, _ => false
  end.
Lemma sval_dict rn fs l : sval_of_shape (TDict rn fs) (RList l) = XStruct (sv_dict rn fs l).
Proof.
  cbn [sval_of_shape]. f_equal. revert l. induction fs as [|[n [o t]] r IH]; intros l; [destruct l; reflexivity|].
  destruct l as [|y l']; [reflexivity|]. cbn [sv_dict]. destruct o; [destruct y|]; rewrite <- ?IH; reflexivity.
Qed.
Lemma dval_dict rn fs l : dval_of_shape (TDict rn fs) (RList l) = VDict SStr SVariant (dv_dict rn fs l).
Proof.
  cbn [dval_of_shape]. f_equal. revert l. induction fs as [|[n [o t]] r IH]; intros l; [destruct l; reflexivity|].
  destruct l as [|y l']; [reflexivity|]. cbn [dv_dict]. destruct o; [destruct y|]; rewrite <- ?IH; reflexivity.
Qed.
Lemma typed_dict rn fs l : typed (TDict rn fs) (RList l) = ty_dict fs l. Proof. reflexivity. Qed.

(* ---------- shape_ok / has_option of lists ---------- *)
Definition ok_list (ts : list tshape) : bool := forallb shape_ok ts.
Definition ok_fields (fs : list (bytes * tshape)) : bool := forallb (fun f => shape_ok (snd f)) fs.
Lemma ok_fields_list fs : ok_fields fs = ok_list (map snd fs).
Proof. unfold ok_fields, ok_list. induction fs as [|f fs IH]; [reflexivity|]. cbn [forallb map]. now rewrite IH. Qed.
Lemma ok_tuple ts : shape_ok (TTuple ts) = nonempty ts && ok_list ts.
Proof. reflexivity. Qed.
Lemma ok_fields_local fs :
  (fix go (fs : list (bytes * tshape)) : bool := match fs with [] => true | (_, t) :: r => shape_ok t && go r end) fs = ok_fields fs.
Proof. induction fs as [|[n t] r IH]; [reflexivity|]. cbn [ok_fields forallb snd]. now rewrite IH. Qed.
Lemma ok_struct fs : shape_ok (TStruct fs) = ok_fields fs.
Proof. cbn [shape_ok]. apply ok_fields_local. Qed.
Definition ok_variant (g : sig) (v : variant) : bool :=
  nonempty (snd v) && ok_fields (snd v)
  && (match fst v, snd v with KUnnamed, [(_, t)] => negb (is_struct_sig (sig_of t)) | _, _ => true end)
  && sig_eqb (variant_sig v) g.
Lemma ok_enum vs : shape_ok (TEnum vs) = nonempty vs && (N.of_nat (length vs) <? 4294967296)%N && forallb (ok_variant (sig_of (TEnum vs))) vs.
Proof.
  cbn [shape_ok]. f_equal. generalize (sig_of (TEnum vs)) as g. intros g.
  induction vs as [|[k fs] r IH]; [reflexivity|]. cbn [forallb]. rewrite <- IH. unfold ok_variant. cbn [fst snd].
  rewrite ok_fields_local. reflexivity.
Qed.
Definition ok_dfield (rn : rename) (f : dfield) : bool :=
  shape_ok (snd (snd f)) && str_ok (dict_key rn (fst f)) && (len (show (sig_of (snd (snd f)))) <=? 255)%N
  && (fst (snd f) || negb (match snd (snd f) with TOption _ => true | _ => false end)).
Lemma ok_dict rn fs : shape_ok (TDict rn fs) = forallb (ok_dfield rn) fs.
Proof.
  cbn [shape_ok]. induction fs as [|[n [o t]] r IH]; [reflexivity|]. cbn [forallb]. rewrite <- IH. reflexivity.
Qed.

Lemma opt_tuple ts : has_option (TTuple ts) = existsb has_option ts.
Proof. reflexivity. Qed.
Definition opt_fields (fs : list (bytes * tshape)) : bool := existsb (fun f => has_option (snd f)) fs.
Lemma opt_fields_local fs :
  (fix go (fs : list (bytes * tshape)) : bool := match fs with [] => false | (_, t) :: r => has_option t || go r end) fs = opt_fields fs.
Proof. induction fs as [|[n t] r IH]; [reflexivity|]. cbn [opt_fields existsb snd]. now rewrite IH. Qed.
Lemma opt_struct fs : has_option (TStruct fs) = opt_fields fs.
Proof. cbn [has_option]. apply opt_fields_local. Qed.
Lemma opt_enum vs : has_option (TEnum vs) = existsb (fun v : variant => opt_fields (snd v)) vs.
Proof.
  cbn [has_option]. induction vs as [|[k fs] r IH]; [reflexivity|]. cbn [existsb snd]. rewrite <- IH, opt_fields_local. reflexivity.
Qed.
Lemma opt_dict rn fs : has_option (TDict rn fs) = existsb (fun f : dfield => has_option (snd (snd f))) fs.
Proof. cbn [has_option]. induction fs as [|[n [o t]] r IH]; [reflexivity|]. cbn [existsb snd]. now rewrite <- IH. Qed.
