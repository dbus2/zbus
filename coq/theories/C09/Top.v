(* C09/Top.v — top-level statements: to_bytes / serialized_size of a typed value, the in-message step, no descriptors. *)
From ZV Require Import Base.Bytes Base.Res DBus.Val DBus.Spec DBus.Ser DBus.SerProofs
  C09.Model C09.Spec C09.Unfold C09.Main.
From Coq Require Import Lia.
Local Open Scope N_scope.

(* ---------- the denoted values carry no file descriptors ---------- *)
Lemma concat_map_nil {A} (f : A -> dval) l : (forall y, fds_of (f y) = []) -> concat (map fds_of (map f l)) = [].
Proof. intros H. induction l as [|y l IH]; [reflexivity|]. cbn [map concat]. now rewrite H, IH. Qed.

Definition NF (t : tshape) : Prop := forall x, fds_of (dval_of_shape t x) = [].

Lemma nofd_tup ts : Forall NF ts -> forall l, concat (map fds_of (dv_tup ts l)) = [].
Proof.
  induction 1 as [|t ts Ht Hts IH]; intros l; [destruct l; reflexivity|].
  destruct l as [|y l]; [reflexivity|]. cbn [dv_tup map concat]. now rewrite Ht, IH.
Qed.
Lemma nofd_nam fs : Forall (fun f => NF (snd f)) fs -> forall l, concat (map fds_of (dv_nam fs l)) = [].
Proof.
  induction 1 as [|[n t] fs Ht Hts IH]; intros l; [destruct l; reflexivity|].
  destruct l as [|y l]; [reflexivity|]. cbn [dv_nam map concat]. cbn [snd] in Ht. now rewrite Ht, IH.
Qed.
Lemma nofd_prim p x : fds_of (prim_dval p x) = [].
Proof. destruct p, x; reflexivity. Qed.

Lemma nofd_all : forall t, NF t.
Proof.
  induction t using tshape_ind'; intros x.
  - apply nofd_prim.
  - reflexivity.
  - reflexivity.
  - destruct x; try reflexivity. cbn [dval_of_shape fds_of]. now apply concat_map_nil.
  - destruct x; try reflexivity. cbn [dval_of_shape fds_of].
    induction l as [|[a b] l IH]; [reflexivity|]. cbn [map concat fst snd]. now rewrite IHt1, IHt2, IH.
  - destruct x; try reflexivity. cbn [dval_of_shape fds_of map concat]. now rewrite IHt.
  - destruct x; try reflexivity. rewrite dval_tuple. cbn [fds_of]. now apply nofd_tup.
  - apply IHt.
  - destruct fs as [|f fs]; [reflexivity|]. destruct x; try reflexivity. rewrite dval_struct. cbn [fds_of]. now apply nofd_nam.
  - destruct x; try reflexivity. cbn [dval_of_shape]. destruct r; [apply nofd_prim|reflexivity].
  - destruct x; reflexivity.
  - destruct x; try reflexivity. rewrite dval_enum. destruct (nth_error vs i) as [v|] eqn:En; [|reflexivity].
    assert (Hv : Forall (fun f => NF (snd f)) (snd v)).
    { rewrite Forall_forall in H. apply H. eapply nth_error_In. exact En. }
    destruct v as [k fs]. unfold variant_dval. cbn [fst snd] in *.
    assert (G : fds_of (VStruct [VU32 (N.of_nat i); VStruct (dv_nam fs l)]) = []).
    { cbn [fds_of map concat]. rewrite (nofd_nam fs Hv l). reflexivity. }
    destruct k; [|exact G]. destruct fs as [|[n t] [|f2 fr]]; try exact G.
    destruct l as [|y l']; [reflexivity|]. cbn [fds_of map concat]. inversion Hv as [|? ? Ht _]; subst. cbn [snd] in Ht. now rewrite Ht.
  - destruct x; try reflexivity. rewrite dval_dict. cbn [fds_of].
    revert l. induction H as [|[n [o t]] fs Ht Hfs IH]; intros l; [destruct l; reflexivity|].
    destruct l as [|y l]; [reflexivity|]. cbn [dv_dict snd] in *.
    destruct o; [destruct y|]; try apply IH; cbn [map concat fst snd fds_of]; now rewrite Ht, IH.
  - destruct x; try reflexivity. cbn [dval_of_shape]. destruct l as [|[| | | | |o| | | |] [|? ?]]; try reflexivity.
    cbn [fds_of map concat]. rewrite (concat_map_nil (prim_dval PU8) o (nofd_prim PU8)). reflexivity.
Qed.

Theorem signature_ok sh : shape_ok sh = true -> sig_of sh = dsig sh /\ single_ok (sig_of sh) = true.
Proof. intros H. destruct (Q_all sh H) as [[H1 H2] _]. split; assumption. Qed.

Theorem value_ok sh x : shape_ok sh = true -> typed sh x = true ->
  wf (dval_of_shape sh x) = true /\ vsig (dval_of_shape sh x) = sig_of sh /\ enc_form (dval_of_shape sh x) = true
  /\ fds_of (dval_of_shape sh x) = [].
Proof.
  intros H Ht. destruct (Q_all sh H) as [_ Hx]. destruct (Hx x Ht) as [(F1 & F2 & F3) _].
  repeat split; try assumption. apply nofd_all.
Qed.

(* ---------- the general step: in the middle of a message ---------- *)
Theorem step sh x st :
  shape_ok sh = true -> typed sh x = true ->
  s_sig st = sig_of sh -> s_vsign st = None -> fits (s_dep st) (dval_of_shape sh x) -> nfd st < 2 ^ 32 ->
  len (marshal (s_e st) ByOccurrence (dval_of_shape sh x) (abs_pos st) (nfd st)) < 2 ^ 32 ->
  (has_option sh = true -> c_oaa (s_cfg st) = true) ->
  exists st', ser (sval_of_shape sh x) st = Ok st'
    /\ s_out st' = s_out st ++ marshal (s_e st) ByOccurrence (dval_of_shape sh x) (abs_pos st) (nfd st)
    /\ s_fds st' = s_fds st /\ s_vsign st' = None /\ s_cfg st' = s_cfg st /\ s_e st' = s_e st /\ s_pos0 st' = s_pos0 st
    /\ (dep_clean sh = true -> s_dep st' = s_dep st) /\ (sig_clean sh = true -> s_sig st' = s_sig st).
Proof.
  intros Hok Ht Hs Hv Hf Hn Hl Ho. destruct (Q_all sh Hok) as [_ Hx]. destruct (Hx x Ht) as [(F1 & F2 & F3) Hk].
  pose proof (nofd_all sh x) as Hnf.
  destruct (Hk st F1 ltac:(congruence) Hv Hf Hl Ho) as (st' & E & W & D & S).
  exists st'. destruct W as (W1 & W2 & W3 & W4 & W5 & W6). unfold after in *. rewrite Hnf in *.
  split; [exact E|]. split; [exact W4|]. split; [rewrite W6; cbn; apply add_fds_nil|].
  split; [rewrite W5; exact Hv|]. repeat split; assumption.
Qed.

(* ---------- to_bytes / serialized_size ---------- *)
(* either pass, from the initial state *)
Lemma step_init c e pos sh x f : nfd (init_state c e pos (sig_of sh) f) = 0 ->
  shape_ok sh = true -> typed sh x = true -> (has_option sh = true -> c_oaa c = true) ->
  within_limits (dval_of_shape sh x) = true -> len (marshal_top e pos (dval_of_shape sh x)) < 2 ^ 32 ->
  exists st', ser (sval_of_shape sh x) (init_state c e pos (sig_of sh) f) = Ok st'
    /\ s_out st' = marshal_top e pos (dval_of_shape sh x) /\ s_fds st' = f.
Proof.
  intros Hf Hok Ht Ho Hlim Hlen.
  destruct (step sh x (init_state c e pos (sig_of sh) f) Hok Ht eq_refl eq_refl) as (st' & E & O & F & _).
  - split; [unfold dep_ok; cbn; lia|exact Hlim].
  - rewrite Hf. lia.
  - rewrite abs_pos_init, Hf. exact Hlen.
  - exact Ho.
  - rewrite abs_pos_init, Hf in O. now exists st'.
Qed.

Theorem conforms c e pos sh x :
  shape_ok sh = true -> typed sh x = true -> (has_option sh = true -> c_oaa c = true) ->
  within_limits (dval_of_shape sh x) = true -> len (marshal_top e pos (dval_of_shape sh x)) < 2 ^ 32 ->
  ser_top c e pos (sig_of sh) (sval_of_shape sh x) = Ok (marshal_top e pos (dval_of_shape sh x), []).
Proof.
  intros Hok Ht Ho Hlim Hlen. unfold ser_top.
  destruct (step_init c e pos sh x (FdsMode []) eq_refl Hok Ht Ho Hlim Hlen) as (st' & E & O & F).
  rewrite E. cbn [bind]. now rewrite O, F.
Qed.

Theorem size_conforms c e pos sh x :
  shape_ok sh = true -> typed sh x = true -> (has_option sh = true -> c_oaa c = true) ->
  within_limits (dval_of_shape sh x) = true -> len (marshal_top e pos (dval_of_shape sh x)) < 2 ^ 32 ->
  size_top c e pos (sig_of sh) (sval_of_shape sh x) = Ok (len (marshal_top e pos (dval_of_shape sh x)), 0).
Proof.
  intros Hok Ht Ho Hlim Hlen. unfold size_top, written.
  destruct (step_init c e pos sh x (NumMode 0) eq_refl Hok Ht Ho Hlim Hlen) as (st' & E & O & F).
  rewrite E. cbn [bind]. now rewrite O, F.
Qed.
