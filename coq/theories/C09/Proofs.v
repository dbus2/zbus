(* C09/Proofs.v — for every type definition of the fragment and every value of it: the declared signature is the D-Bus type
   of the type, the denoted D-Bus value is well-formed and of that signature, and what serde feeds the serializer
   produces exactly the specification's marshalling of that value. *)
From ZV Require Import Base.Bytes Base.Sig DBus.Val DBus.Spec DBus.Ser DBus.SerFacts DBus.SerProofs
  C09.Model C09.Spec C09.Facts C09.Comb C09.Unfold.
From Coq Require Import Lia.
Local Open Scope N_scope.

Lemma not_struct_sig g : is_struct_sig g = false -> forall gs, g <> SStruct gs.
Proof. intros H gs ->. discriminate H. Qed.

(* ---------- primitives ---------- *)
Lemma prim_sig_ok p : single_ok (prim_sig p) = true /\ is_basic (prim_sig p) = true /\ prim_sig p = prim_dsig p.
Proof. destruct p; repeat split; reflexivity. Qed.

Lemma prim_ser p x st : prim_typed p x = true -> ser (prim_sval p x) st = ser (sval_of (prim_dval p x)) st.
Proof. destruct p, x; try discriminate; reflexivity. Qed.

Lemma prim_facts p x : prim_typed p x = true ->
  wf (prim_dval p x) = true /\ vsig (prim_dval p x) = prim_sig p /\ enc_form (prim_dval p x) = true.
Proof.
  intros Ht. destruct p, x; cbn in Ht; try discriminate; cbn [prim_dval wf vsig prim_sig enc_form]; repeat split; try reflexivity;
    try exact Ht;
    try (unfold in_range_z in Ht; apply andb_true_iff in Ht as [H1 H2]; apply Z.leb_le in H1; apply Z.ltb_lt in H2;
         first [apply N.ltb_lt; lia | apply andb_true_iff; split; [apply Z.leb_le|apply Z.ltb_lt]; lia]).
  - now apply andb_true_iff in Ht as [Ht _].
Qed.

Lemma prim_okw o p x dc sc : prim_typed p x = true -> okw o (prim_sval p x) (prim_dval p x) dc sc.
Proof.
  intros Ht. destruct (prim_facts p x Ht) as (_ & _ & He).
  eapply okw_ext; [intros st _; apply prim_ser; exact Ht|]. now apply okw_dyn.
Qed.

(* ---------- the statement proved by induction on the type definition ---------- *)
Definition vfacts (g : sig) (d : dval) : Prop := wf d = true /\ vsig d = g /\ enc_form d = true.
Definition Q (t : tshape) : Prop :=
  shape_ok t = true ->
  (single_ok (sig_of t) = true /\ sig_of t = dsig t) /\
  forall x, typed t x = true ->
    vfacts (sig_of t) (dval_of_shape t x) /\
    okw (has_option t) (sval_of_shape t x) (dval_of_shape t x) (dep_clean t) (sig_clean t).

(* lists of fields: every field in its own sub-serializer *)
Lemma tup_facts o ts : Forall Q ts -> ok_list ts = true -> (forall t, In t ts -> has_option t = true -> o = true) ->
  (forallb single_ok (map sig_of ts) = true /\ map sig_of ts = map dsig ts) /\
  forall l, ty_tup ts l = true ->
    Forall2 (fun x v => okw o x v false false) (sv_tup ts l) (dv_tup ts l) /\
    forallb wf (dv_tup ts l) = true /\ map vsig (dv_tup ts l) = map sig_of ts /\ forallb enc_form (dv_tup ts l) = true.
Proof.
  induction 1 as [|t ts Ht Hts IH]; intros Hok Ho.
  - split; [split; reflexivity|]. intros [|y l] Hty; [|discriminate]. cbn. repeat split; constructor.
  - cbn [ok_list forallb] in Hok. apply andb_true_iff in Hok as [Hokt Hok].
    destruct (Ht Hokt) as [[Hs1 Hs2] Hx].
    destruct (IH Hok (fun t' Hin => Ho t' (or_intror Hin))) as [[Hl1 Hl2] Hl].
    split; [split; cbn [map forallb]; [now rewrite Hs1, Hl1|now rewrite Hs2, Hl2]|].
    intros [|y l] Hty; [discriminate|]. cbn [ty_tup] in Hty. apply andb_true_iff in Hty as [Hty1 Hty2].
    destruct (Hx y Hty1) as [(F1 & F2 & F3) Hk]. destruct (Hl l Hty2) as (G1 & G2 & G3 & G4).
    cbn [sv_tup dv_tup map forallb]. rewrite F1, F2, F3, G2, G3, G4. repeat split.
    constructor; [|exact G1].
    eapply okw_oaa; [eapply okw_weaken; [exact Hk|discriminate|discriminate]|]. apply Ho. now left.
Qed.

Lemma nam_facts o fs : Forall (fun f => Q (snd f)) fs -> ok_fields fs = true ->
  (forall f, In f fs -> has_option (snd f) = true -> o = true) ->
  (forallb single_ok (fsigs fs) = true /\ fsigs fs = fdsigs fs) /\
  forall l, ty_nam fs l = true ->
    Forall2 (fun x v => okw o x v false false) (map snd (sv_nam fs l)) (dv_nam fs l) /\
    forallb wf (dv_nam fs l) = true /\ map vsig (dv_nam fs l) = fsigs fs /\ forallb enc_form (dv_nam fs l) = true.
Proof.
  intros HF Hok Ho. rewrite ok_fields_list in Hok. unfold fsigs, fdsigs. rewrite <- !map_map with (f := snd).
  destruct (tup_facts o (map snd fs)) as [Hs Hl]; [now apply Forall_map|exact Hok| |].
  { intros t Hin. apply in_map_iff in Hin as (f & <- & Hin). now apply Ho. }
  split; [exact Hs|]. intros l Ht. rewrite sv_nam_tup, dv_nam_tup. apply Hl. now rewrite <- ty_nam_tup.
Qed.

Lemma map_nonempty {A B} (f : A -> B) l : nonempty l = true -> match map f l with [] => false | _ => true end = true.
Proof. destruct l; [discriminate|reflexivity]. Qed.

(* ---------- one lemma per constructor ---------- *)
Lemma Q_prim p : Q (TPrim p).
Proof.
  intros _. destruct (prim_sig_ok p) as (H1 & _ & H3). split; [split; assumption|].
  intros x Ht. cbn [typed] in Ht. split; [exact (prim_facts p x Ht)|]. now apply prim_okw.
Qed.

Lemma Q_newtype t : Q t -> Q (TNewtype t).
Proof. intros H Hok. exact (H Hok). Qed.

(* elements of a sequence: one serializer for all, so they must leave both cursors intact *)
Lemma elems_facts t l : Q t -> shape_ok t = true -> dep_clean t = true -> sig_clean t = true -> forallb (typed t) l = true ->
  Forall2 (fun x v => okw (has_option t) x v true true) (map (sval_of_shape t) l) (map (dval_of_shape t) l)
  /\ forallb (fun x => wf x && sig_eqb (vsig x) (sig_of t)) (map (dval_of_shape t) l) = true
  /\ forallb enc_form (map (dval_of_shape t) l) = true.
Proof.
  intros H Hok Hdc Hsc. destruct (H Hok) as [_ Hx]. rewrite Hdc, Hsc in Hx.
  induction l as [|y l IH]; intros Ht; [repeat split; constructor|].
  cbn [forallb] in Ht. apply andb_true_iff in Ht as [Hy Hl]. destruct (IH Hl) as (A & B & C).
  destruct (Hx y Hy) as [(F1 & F2 & F3) Hk]. cbn [map forallb]. rewrite F1, F2, F3, B, C, sig_eqb_refl. repeat split. now constructor.
Qed.

Lemma Q_seq t : Q t -> Q (TSeq t).
Proof.
  intros H Hok. cbn [shape_ok] in Hok. apply andb_true_iff in Hok as [Hok Hdc]. apply andb_true_iff in Hok as [Hok Hsc].
  destruct (H Hok) as [[Hs1 Hs2] Hx]. split; [split; cbn [sig_of dsig single_ok]; [exact Hs1|now rewrite Hs2]|].
  intros [| | | | |l| | | |] Ht; try discriminate Ht. cbn [typed] in Ht. cbn [dval_of_shape sval_of_shape].
  destruct (elems_facts t l H Hok Hdc Hsc Ht) as (A & B & C). rewrite Hs2 in B. split.
  - unfold vfacts. cbn [wf vsig enc_form sig_of]. rewrite <- Hs2, Hs1, Hs2, B, C. repeat split.
  - cbn [has_option dep_clean sig_clean]. now apply seqx_ok.
Qed.

Lemma Q_option t : Q t -> Q (TOption t).
Proof.
  intros H Hok. cbn [shape_ok] in Hok. destruct (H Hok) as [[Hs1 Hs2] Hx].
  split; [split; cbn [sig_of dsig single_ok]; [exact Hs1|now rewrite Hs2]|].
  intros x Ht. cbn [has_option dep_clean sig_clean]. destruct x; try discriminate Ht; cbn [typed] in Ht; cbn [dval_of_shape sval_of_shape].
  - split; [unfold vfacts; cbn [wf vsig enc_form sig_of forallb]; rewrite <- Hs2, Hs1; repeat split; reflexivity|].
    eapply okw_weaken; [apply nonex_ok|reflexivity|reflexivity].
  - destruct (Hx x Ht) as [(F1 & F2 & F3) Hk]. split.
    + unfold vfacts. cbn [wf vsig enc_form sig_of forallb]. rewrite F1, F2, F3, <- Hs2, Hs1, sig_eqb_refl. repeat split; reflexivity.
    + eapply somex_ok. exact Hk.
Qed.

(* entries of a map: what [mapx_ok] and the well-formedness of the dictionary ask of them *)
Definition entries_ok o ks vs (xs : list (sval * sval)) (l : list (dval * dval)) : Prop :=
  Forall2 (fun x p => okw o (fst x) (fst p) true true /\ okw o (snd x) (snd p) true false) xs l
  /\ forallb (fun p => wf (fst p) && wf (snd p) && sig_eqb (vsig (fst p)) ks && sig_eqb (vsig (snd p)) vs) l = true
  /\ forallb (fun p => enc_form (fst p) && enc_form (snd p)) l = true.
Lemma entries_ok_nil o ks vs : entries_ok o ks vs [] [].
Proof. repeat split; constructor. Qed.
Lemma entries_ok_cons o ks vs xk xv k v xs l :
  vfacts ks k -> okw o xk k true true -> vfacts vs v -> okw o xv v true false ->
  entries_ok o ks vs xs l -> entries_ok o ks vs ((xk, xv) :: xs) ((k, v) :: l).
Proof.
  intros (F1 & F2 & F3) Hk (G1 & G2 & G3) Hv (A & B & C). unfold entries_ok. cbn [forallb fst snd].
  rewrite F1, F2, F3, G1, G2, G3, B, C, !sig_eqb_refl. repeat split. now constructor.
Qed.
Lemma entries_ok_dict o ks vs xs l : is_basic ks = true -> single_ok vs = true -> entries_ok o ks vs xs l ->
  vfacts (SDict ks vs) (VDict ks vs l) /\ okw o (XMap xs) (VDict ks vs l) true true.
Proof.
  intros Hk Hv (A & B & C). split; [|now apply mapx_ok]. unfold vfacts. cbn [wf vsig enc_form]. now rewrite Hk, Hv, B, C.
Qed.

Lemma Q_map k v : Q k -> Q v -> Q (TMap k v).
Proof.
  intros Hk Hv Hok. cbn [shape_ok] in Hok.
  apply andb_true_iff in Hok as [Hok Hvd]. apply andb_true_iff in Hok as [Hok Hvok].
  apply andb_true_iff in Hok as [Hok Hkd]. apply andb_true_iff in Hok as [Hok Hks]. apply andb_true_iff in Hok as [Hkok Hkb].
  destruct (Hk Hkok) as [[Ks1 Ks2] Kx]. destruct (Hv Hvok) as [[Vs1 Vs2] Vx].
  split; [split; cbn [sig_of dsig single_ok]; [now rewrite Hkb, Vs1|now rewrite Ks2, Vs2]|].
  intros [| | | | | |l| | |] Ht; try discriminate Ht. cbn [typed] in Ht.
  cbn [dval_of_shape sval_of_shape sig_of dep_clean sig_clean]. rewrite <- Ks2, <- Vs2.
  apply entries_ok_dict; [exact Hkb|exact Vs1|].
  induction l as [|[a b] l IH]; [apply entries_ok_nil|].
  cbn [forallb fst snd] in Ht. apply andb_true_iff in Ht as [Hy Hl]. apply andb_true_iff in Hy as [Ha Hb].
  destruct (Kx a Ha) as [Fk Kk]. destruct (Vx b Hb) as [Fv Vk]. rewrite Hkd, Hks in Kk. rewrite Hvd in Vk.
  cbn [map fst snd]. apply entries_ok_cons; [exact Fk| |exact Fv| |exact (IH Hl)].
  - eapply okw_oaa; [exact Kk|]. cbn [has_option]. intros ->. reflexivity.
  - eapply okw_oaa; [eapply okw_weaken; [exact Vk|reflexivity|discriminate]|]. cbn [has_option]. intros ->. apply orb_true_r.
Qed.

Lemma Q_tuple ts : Forall Q ts -> Q (TTuple ts).
Proof.
  intros HF Hok. rewrite ok_tuple in Hok. apply andb_true_iff in Hok as [Hne Hok].
  destruct (tup_facts (has_option (TTuple ts)) ts HF Hok) as [[Hs1 Hs2] Hl].
  { intros t Hin Ht. rewrite opt_tuple. apply existsb_exists. now exists t. }
  split; [split; rewrite sig_tuple, ?dsig_tuple; [cbn [single_ok]; now rewrite Hs1, map_nonempty|now rewrite Hs2]|].
  intros [| | | | |l| | | |] Ht; try discriminate Ht. rewrite typed_tuple in Ht. rewrite sval_tuple, dval_tuple.
  destruct (Hl l Ht) as (G1 & G2 & G3 & G4). split.
  - unfold vfacts. rewrite ?sig_tuple. cbn [wf vsig enc_form]. rewrite G2, G3, G4. repeat split.
    destruct ts; [discriminate|]. destruct l; [discriminate|]. reflexivity.
  - cbn [dep_clean sig_clean]. now apply tuplex_ok.
Qed.

Lemma Q_struct fs : Forall (fun f => Q (snd f)) fs -> Q (TStruct fs).
Proof.
  intros HF Hok. rewrite ok_struct in Hok.
  destruct (nam_facts (has_option (TStruct fs)) fs HF Hok) as [[Hs1 Hs2] Hl].
  { intros f Hin Ht. rewrite opt_struct. apply existsb_exists. now exists f. }
  rewrite sig_struct, dsig_struct.
  destruct fs as [|f fs].
  - split; [split; reflexivity|]. intros [| | | | |l| | | |] Ht; try discriminate Ht. rewrite typed_struct in Ht.
    destruct l; [|discriminate]. split; [repeat split|]. cbn [dep_clean sig_clean]. apply empty_struct_ok.
  - split; [split; [cbn [single_ok]; rewrite Hs1; reflexivity|now rewrite Hs2]|].
    intros [| | | | |l| | | |] Ht; try discriminate Ht. rewrite typed_struct in Ht. rewrite sval_struct, dval_struct.
    destruct (Hl l Ht) as (G1 & G2 & G3 & G4). split.
    + unfold vfacts. cbn [wf vsig enc_form]. rewrite G2, G3, G4. repeat split.
      destruct f as [n t]. destruct l; [discriminate|]. reflexivity.
    + cbn [dep_clean sig_clean]. now apply namedx_ok.
Qed.

Lemma nth_In_lt {A} (l : list A) i d : (i < length l)%nat -> In (nth i l d) l.
Proof. intros H. now apply nth_In. Qed.

Lemma Q_uenum r ds : Q (TUnitEnum r ds).
Proof.
  intros Hok. cbn [shape_ok] in Hok. apply andb_true_iff in Hok as [_ Hr].
  split; [split; destruct r as [r|]; cbn [sig_of dsig]; try reflexivity; destruct (prim_sig_ok (repr_prim r)) as (A & _ & B); assumption|].
  intros [| | | | | | | | |i l] Ht; try discriminate Ht. cbn [typed] in Ht. destruct l; [|discriminate]. apply Nat.ltb_lt in Ht.
  cbn [has_option dep_clean sig_clean dval_of_shape sval_of_shape sig_of]. destruct r as [r|]; cbn [repr_ok] in Hr.
  - assert (Hp : prim_typed (repr_prim r) (RInt (nth i ds 0%Z)) = true).
    { rewrite forallb_forall in Hr. apply Hr. now apply nth_In. }
    split; [exact (prim_facts _ _ Hp)|]. now apply prim_okw.
  - apply N.ltb_lt in Hr. split; [|apply unit_variant_u32].
    unfold vfacts. cbn [wf vsig enc_form]. repeat split. apply N.ltb_lt. lia.
Qed.

Lemma Q_senum names : Q (TStrEnum names).
Proof.
  intros Hok. cbn [shape_ok] in Hok. apply andb_true_iff in Hok as [_ Hr].
  split; [split; reflexivity|].
  intros [| | | | | | | | |i l] Ht; try discriminate Ht. cbn [typed] in Ht. destruct l; [|discriminate]. apply Nat.ltb_lt in Ht.
  cbn [has_option dep_clean sig_clean dval_of_shape sval_of_shape sig_of]. split; [|apply unit_variant_str].
  unfold vfacts. cbn [wf vsig enc_form]. repeat split. rewrite forallb_forall in Hr. apply Hr. now apply nth_In.
Qed.

Lemma Q_ip : Q TIpAddr.
Proof.
  intros _. split; [split; reflexivity|].
  intros [| | | | | | | | |i l] Ht; try discriminate Ht. cbn [typed] in Ht.
  destruct l as [|[| | | | |o| | | |] [|? ?]]; try discriminate Ht. apply andb_true_iff in Ht as [Ho Hi].
  cbn [has_option dep_clean sig_clean dval_of_shape sval_of_shape sig_of].
  destruct (elems_facts (TPrim PU8) o (Q_prim PU8) eq_refl eq_refl eq_refl Ho) as (A & B & C).
  change (dval_of_shape (TPrim PU8)) with (prim_dval PU8) in A, B, C. change (sval_of_shape (TPrim PU8)) with (prim_sval PU8) in A.
  cbn [sig_of prim_sig has_option] in A, B.
  assert (Hi' : (N.of_nat i <? 4294967296) = true).
  { apply N.ltb_lt. destruct i as [|[|i]]; [lia|lia|discriminate Hi]. }
  split.
  - unfold vfacts. cbn [wf vsig enc_form forallb map single_ok]. rewrite Hi', B, C. repeat split.
  - apply newtype_variantx_ok; [discriminate|]. eapply okw_weaken; [apply tuple_seqx_ok; exact A|discriminate|discriminate].
Qed.

Lemma Q_dict rn fs : Forall (fun f : dfield => Q (snd (snd f))) fs -> Q (TDict rn fs).
Proof.
  intros HF Hok. rewrite ok_dict in Hok. split; [split; reflexivity|].
  intros [| | | | |l| | | |] Ht; try discriminate Ht. rewrite typed_dict in Ht. rewrite sval_dict, dval_dict.
  cbn [sig_of dep_clean sig_clean]. set (o := has_option (TDict rn fs)).
  assert (Ho : forall f : dfield, In f fs -> has_option (snd (snd f)) = true -> o = true).
  { intros f Hin Hf. subst o. rewrite opt_dict. apply existsb_exists. now exists f. }
  clearbody o.
  enough (HE : entries_ok o SStr SVariant (map (fun p => (XStr (fst p), snd p)) (sv_dict rn fs l)) (dv_dict rn fs l)).
  { destruct (entries_ok_dict o SStr SVariant _ _ eq_refl eq_refl HE) as [F K]. split; [exact F|].
    eapply okw_ext; [intros st Hs; exact (named_as_map _ st SStr SVariant Hs)|exact K]. }
  revert l Ht. induction HF as [|[n [opt t]] fs Hq HFs IH]; intros l Ht.
  - destruct l; [|discriminate]. apply entries_ok_nil.
  - cbn [forallb] in Hok. apply andb_true_iff in Hok as [Hf Hok]. unfold ok_dfield in Hf. cbn [fst snd] in Hf, Hq.
    apply andb_true_iff in Hf as [Hf _]. apply andb_true_iff in Hf as [Hf H255]. apply andb_true_iff in Hf as [Hokt Hkey].
    destruct l as [|y l]; [discriminate|]. cbn [ty_dict] in Ht. apply andb_true_iff in Ht as [Hy Hl].
    specialize (IH Hok (fun f Hin => Ho f (or_intror Hin)) l Hl). destruct (Hq Hokt) as [[Hs1 Hs2] Hx].
    (* a field that is present: its name, and its value as a VARIANT *)
    assert (Hone : forall z, typed t z = true ->
              entries_ok o SStr SVariant
                (map (fun p => (XStr (fst p), snd p)) ((dict_key rn n, as_value (sig_of t) (sval_of_shape t z)) :: sv_dict rn fs l))
                ((VStr (dict_key rn n), VVariant (dval_of_shape t z)) :: dv_dict rn fs l)).
    { intros z Hz. destruct (Hx z Hz) as [(F1 & F2 & F3) Hk]. cbn [map fst snd]. apply entries_ok_cons; [| | | |exact IH].
      - repeat split. exact Hkey.
      - exact (okw_dyn o (VStr (dict_key rn n)) true true eq_refl).
      - unfold vfacts. cbn [wf vsig enc_form]. now rewrite F1, F2, F3, Hs1, H255.
      - unfold as_value. rewrite <- F2. eapply okw_weaken; [apply variantx_ok|reflexivity|discriminate].
        eapply okw_oaa; [eapply okw_weaken; [exact Hk|discriminate|discriminate]|].
        apply (Ho (n, (opt, t))). now left. }
    cbn [sv_dict dv_dict]. destruct opt.
    + destruct y; try discriminate Hy; [exact IH|]. now apply Hone.
    + now apply Hone.
Qed.
