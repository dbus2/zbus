(* C09/Facts.v — generalisations of the serializer lemmas of DBus/SerProofs.v from [sval_of v] to an arbitrary data-model
   tree [x] that is known to drive [ser] like the dynamic value [v]:
     okw o x v dc sc  :  from every admissible state, [ser x] succeeds and the result agrees with [after st v] on the
                         bytes, descriptors, configuration and variant cursor; if [dc] also on the depth counters; if [sc]
                         also on the signature cursor.  [o]: the tree contains an Option (needs option-as-array). *)
From ZV Require Import Base.Bytes Base.Res Base.Sig Base.WinnowFacts DBus.Val DBus.Spec DBus.Ser DBus.SerFacts DBus.SerProofs.
From Coq Require Import Lia.
Local Open Scope N_scope.

#[export] Hint Rewrite cfg_grow : sst.

Definition weq (a b : sstate) : Prop :=
  s_cfg a = s_cfg b /\ s_e a = s_e b /\ s_pos0 a = s_pos0 b /\ s_out a = s_out b /\ s_vsign a = s_vsign b /\ s_fds a = s_fds b.
Lemma weq_refl a : weq a a. Proof. repeat split. Qed.
Lemma weq_sym a b : weq a b -> weq b a.
Proof. unfold weq. intuition congruence. Qed.
Lemma weq_trans a b c : weq a b -> weq b c -> weq a c.
Proof. unfold weq. intuition congruence. Qed.
Lemma weq_set_sig a g : weq (set_sig a g) a. Proof. repeat split. Qed.
Lemma weq_set_dep a d : weq (set_dep a d) a. Proof. repeat split. Qed.
Lemma weq_eq a b : weq a b -> s_sig a = s_sig b -> s_dep a = s_dep b -> a = b.
Proof. intros (H1 & H2 & H3 & H4 & H5 & H6) H7 H8. apply sstate_ext; assumption. Qed.
Lemma weq_set_sig_eq a b g : weq a b -> s_dep a = s_dep b -> set_sig a g = set_sig b g.
Proof. intros (H1 & H2 & H3 & H4 & H5 & H6) H7. apply sstate_ext; cbn; assumption || reflexivity. Qed.
Lemma back_from_weq st a b : weq a b -> back_from st a = back_from st b.
Proof. intros (H1 & H2 & H3 & H4 & H5 & H6). unfold back_from. rewrite H4, H5, H6. reflexivity. Qed.

Definition okw (o : bool) (x : sval) (v : dval) (dc sc : bool) : Prop :=
  forall st, wf v = true -> s_sig st = vsig v -> s_vsign st = None -> fits (s_dep st) v ->
             len (marshal (s_e st) ByOccurrence v (abs_pos st) (nfd st)) < 2 ^ 32 ->
             (o = true -> c_oaa (s_cfg st) = true) ->
             exists st', ser x st = Ok st' /\ weq st' (after st v)
                         /\ (dc = true -> s_dep st' = s_dep st) /\ (sc = true -> s_sig st' = s_sig st).

(* both cursors intact: the state afterwards is [after st v] itself *)
Definition exactly (o : bool) (x : sval) (v : dval) : Prop :=
  forall st, wf v = true -> s_sig st = vsig v -> s_vsign st = None -> fits (s_dep st) v ->
             len (marshal (s_e st) ByOccurrence v (abs_pos st) (nfd st)) < 2 ^ 32 ->
             (o = true -> c_oaa (s_cfg st) = true) ->
             ser x st = Ok (after st v).
Lemma okw_exact o x v : okw o x v true true -> exactly o x v.
Proof.
  intros H st H1 H2 H3 H4 H5 H6. destruct (H st H1 H2 H3 H4 H5 H6) as (st' & E & W & D & S).
  rewrite E. f_equal. apply weq_eq; [assumption|rewrite (S eq_refl)|rewrite (D eq_refl)]; reflexivity.
Qed.
Lemma okw_of_exact o x v : exactly o x v -> forall dc sc, okw o x v dc sc.
Proof.
  intros H dc sc st H1 H2 H3 H4 H5 H6. exists (after st v). split; [now apply H|]. split; [apply weq_refl|]. split; reflexivity.
Qed.
Lemma okw_weaken o x v dc sc dc' sc' : okw o x v dc sc -> (dc' = true -> dc = true) -> (sc' = true -> sc = true) -> okw o x v dc' sc'.
Proof.
  intros H Hd Hs st H1 H2 H3 H4 H5 H6. destruct (H st H1 H2 H3 H4 H5 H6) as (st' & E & W & D & S).
  exists st'. split; [exact E|]. split; [exact W|]. split; auto.
Qed.
Lemma okw_oaa (o o' : bool) x v dc sc : okw o x v dc sc -> (o = true -> o' = true) -> okw o' x v dc sc.
Proof. intros H Ho st H1 H2 H3 H4 H5 H6. apply H; auto. Qed.
Lemma okw_ext o x x' v dc sc : (forall st, s_sig st = vsig v -> ser x st = ser x' st) -> okw o x' v dc sc -> okw o x v dc sc.
Proof. intros He H st H1 H2 H3 H4 H5 H6. rewrite (He st H2). now apply H. Qed.
Lemma okw_dyn o v dc sc : enc_form v = true -> okw o (sval_of v) v dc sc.
Proof.
  intros He. apply okw_of_exact. intros st Hw Hs Hv [Hd Hdep] Hl _.
  pose proof (ser_step v He st Hw Hs Hv Hd Hl) as H. now rewrite Hdep in H.
Qed.

(* ---------- entering a container: the counter goes up, and the parts fit under the new counters ---------- *)
Lemma fits_array d el l : fits d (VArray el l) ->
  exists d', inc_array d = Ok d' /\ dec_array d' = d /\ dep_ok d' /\
             forallb (depth_ok (d_struct d') (d_array d') (d_variant d')) l = true.
Proof.
  intros [Hd H]. cbn [depth_ok] in H. apply andb_true_iff in H as [H Hl]. apply andb_true_iff in H as [Ha Ht].
  apply N.leb_le in Ha, Ht. destruct (inc_array_ok d Hd Ha Ht) as (d' & Hinc & Hdec & Hd' & E1 & E2 & E3).
  exists d'. rewrite E1, E2, E3. auto.
Qed.
Lemma fits_dict d ks vs l : fits d (VDict ks vs l) ->
  exists d', inc_array d = Ok d' /\ dec_array d' = d /\ dep_ok d' /\
             forallb (fun p => depth_ok (d_struct d') (d_array d') (d_variant d') (fst p)
                               && depth_ok (d_struct d') (d_array d') (d_variant d') (snd p)) l = true.
Proof.
  intros [Hd H]. cbn [depth_ok] in H. apply andb_true_iff in H as [H Hl]. apply andb_true_iff in H as [Ha Ht].
  apply N.leb_le in Ha, Ht. destruct (inc_array_ok d Hd Ha Ht) as (d' & Hinc & Hdec & Hd' & E1 & E2 & E3).
  exists d'. rewrite E1, E2, E3. auto.
Qed.
Lemma fits_struct d l : fits d (VStruct l) ->
  exists d', inc_struct d = Ok d' /\ dep_ok d' /\ forallb (depth_ok (d_struct d') (d_array d') (d_variant d')) l = true.
Proof.
  intros [Hd H]. cbn [depth_ok] in H. apply andb_true_iff in H as [H Hl]. apply andb_true_iff in H as [Ha Ht].
  apply N.leb_le in Ha, Ht. destruct (inc_struct_ok d Hd Ha Ht) as (d' & Hinc & Hd' & E1 & E2 & E3).
  exists d'. rewrite E1, E2, E3. auto.
Qed.
Lemma fits_variant d x : fits d (VVariant x) -> exists d', inc_variant d = Ok d' /\ fits d' x.
Proof.
  intros [Hd H]. cbn [depth_ok] in H. apply andb_true_iff in H as [Ht Hx]. apply N.leb_le in Ht.
  destruct (inc_variant_ok d Hd Ht) as (d' & Hinc & Hd' & E1 & E2 & E3).
  exists d'. unfold fits. rewrite E1, E2, E3. auto.
Qed.

Lemma padn_idem p al : al <> 0 -> padn (p + padn p al) al = 0.
Proof.
  intros Hal. destruct (padn_spec p al Hal) as [_ H]. unfold padn at 1. rewrite H, N.sub_0_r. now apply N.mod_same.
Qed.
Lemma padded_idem st al : al <> 0 -> padded (padded st al) al = padded st al.
Proof.
  intros Hal. rewrite (padded_grow (padded st al)).
  assert (E : pad (abs_pos (padded st al)) al = []).
  { rewrite padded_grow, abs_pos_grow. unfold pad. rewrite len_zeros, padn_idem by assumption. reflexivity. }
  rewrite E. apply grow_nil.
Qed.

(* seq_end only reads the bytes written, and overwrites the signature cursor *)
Lemma seq_end_weq a b start fp asig : weq a b ->
  seq_end a start fp asig =
  match seq_end b start fp asig with
  | Ok r => Ok (set_dep r (dec_array (s_dep a)))
  | Err e => Err e
  | Panic p => Panic p
  end.
Proof.
  intros (H1 & H2 & H3 & H4 & H5 & H6). unfold seq_end, written. rewrite H4, H2.
  destruct (negb (len (s_out b) - start <? 2 ^ 32)); [reflexivity|]. f_equal.
  apply sstate_ext; cbn; congruence.
Qed.

(* a sequence whose body [f] behaves like the marshalling of the elements, up to the cursors *)
Lemma seq_wrap_w st child al d' (f : sstate -> res cerr sstate) body hs st2 :
  ((s_sig st = SArray child /\ align_of child = Ok al) \/ (exists v, s_sig st = SDict child v /\ al = 8)) ->
  inc_array (s_dep st) = Ok d' -> dec_array d' = s_dep st ->
  let p0 := pad (abs_pos st) 4 in
  let p1 := pad (abs_pos st + len p0 + 4) al in
  let st' := set_dep (set_sig (grow st (p0 ++ enc (s_e st) 4 0 ++ p1) []) child) d' in
  f st' = Ok st2 -> weq st2 (grow st' body hs) -> len body < 2 ^ 32 ->
  exists r, (let* (st1, start, fp, asig) := seq_begin st in let* s2 := f st1 in seq_end s2 start fp asig) = Ok r
            /\ weq r (grow st (p0 ++ enc (s_e st) 4 (len body) ++ p1 ++ body) hs)
            /\ s_sig r = s_sig st /\ (s_dep st2 = d' -> s_dep r = s_dep st).
Proof.
  intros Hsig Hinc Hdec p0 p1 st' Hf Hw Hlen.
  rewrite (seq_begin_eq st child al Hsig), Hinc. cbn [bind]. fold p0 p1 st'. rewrite Hf. cbn [bind].
  rewrite (seq_end_weq _ _ _ _ _ Hw). subst st'.
  rewrite <- set_dep_grow, <- set_sig_grow, grow_grow, <- !app_assoc. cbn [app].
  rewrite seq_end_grow by assumption.
  eexists. split; [reflexivity|]. split; [|split; [reflexivity|]].
  - eapply weq_trans; [apply weq_set_dep|]. eapply weq_trans; [apply weq_set_dep|]. apply weq_set_sig.
  - intros E. cbn [s_dep set_dep]. rewrite E. exact Hdec.
Qed.

Lemma depth_ok_mono v : forall ds da dv ds' da' dv', ds' <= ds -> da' <= da -> dv' <= dv ->
  depth_ok ds da dv v = true -> depth_ok ds' da' dv' v = true.
Proof.
  induction v using dval_ind'; intros ds da dv ds' da' dv' H1 H2 H3;
    [destruct v; try contradiction; reflexivity| | | |];
    cbn [depth_ok]; rewrite ?andb_true_iff, ?N.leb_le; try rewrite Forall_forall in H.
  - intros [Ha Hb]. split; [lia|]. eapply IHv; [| | |exact Hb]; lia.
  - intros [[Ha Hb] Hc]. repeat split; try lia. revert Hc. apply forallb_impl_in. intros x Hin. apply (H x Hin); lia.
  - intros [[Ha Hb] Hc]. repeat split; try lia. revert Hc. apply forallb_impl_in. intros x Hin.
    rewrite !andb_true_iff. destruct (H x Hin) as [Hk Hv]. intros [A B]. split; [eapply Hk|eapply Hv]; try eassumption; lia.
  - intros [[Ha Hb] Hc]. repeat split; try lia. revert Hc. apply forallb_impl_in. intros x Hin. apply (H x Hin); lia.
Qed.
