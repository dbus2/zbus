(* C09/Refute.v — the full statement fails on the faithful model: one witness per class; the classes lie outside the
   proved fragment; concrete instances of the fragment (non-vacuity). *)
From ZV Require Import Base.Bytes Base.Res Base.Sig Base.SigParse Base.WinnowFacts DBus.Spec DBus.Ser DBus.De
  C09.Model C09.Spec C09.Unfold C09.Top.
Local Open Scope N_scope.

Definition cfg_oaa : cfg := {| c_gv := false; c_oaa := true |}.
Definition u8 := TPrim PU8.
Definition u32 := TPrim PU32.
Definition str := TPrim PStr.

(* a value of a compilable type definition on which serialization does not produce the marshalling of the denoted value *)
Definition refutes (sh : tshape) (x : rval) : Prop :=
  shape_wf sh = true /\ typed sh x = true /\ within_limits (dval_of_shape sh x) = true /\
  len (marshal_top LE 0 (dval_of_shape sh x)) < 2 ^ 32 /\
  ser_top cfg_oaa LE 0 (sig_of sh) (sval_of_shape sh x) <> Ok (marshal_top LE 0 (dval_of_shape sh x), []).
Lemma refutes_statement sh x : refutes sh x -> ~ C09_statement sh.
Proof.
  intros (Hwf & Ht & Hl & Hlen & Hne) (_ & _ & H).
  destruct (H cfg_oaa LE 0 x Ht (fun _ => eq_refl) Hl Hlen) as (_ & _ & E). exact (Hne E).
Qed.

(* 1. newtype variant whose payload is a struct: `enum E { V0(S) }  struct S { a: u8, b: u8 }` — unreachable!() *)
Definition sh_nt_struct : tshape := TEnum [(KUnnamed, [(B "_", TStruct [(B "a", u8); (B "b", u8)])])].
Definition x_nt_struct : rval := REnum 0 [RList [RInt 1; RInt 2]].
Lemma nt_struct_panics :
  ser_top cfg_oaa LE 0 (sig_of sh_nt_struct) (sval_of_shape sh_nt_struct x_nt_struct) = Panic PUnreachable.
Proof. vm_compute. reflexivity. Qed.
Lemma nt_struct_refutes : refutes sh_nt_struct x_nt_struct.
Proof. repeat apply conj; [vm_compute; reflexivity ..|]. rewrite nt_struct_panics. discriminate. Qed.
(* same with `struct S { a: u32, b: String }`: Error::SignatureMismatch *)
Definition sh_nt_struct2 : tshape := TEnum [(KUnnamed, [(B "_", TStruct [(B "a", u32); (B "b", str)])])].
Lemma nt_struct2_errs :
  ser_top cfg_oaa LE 0 (sig_of sh_nt_struct2) (sval_of_shape sh_nt_struct2 (REnum 0 [RList [RInt 1; RStr (B "x")]])) = Err ESigMismatch.
Proof. vm_compute. reflexivity. Qed.

(* 2. an enum with tuple / struct variants as sequence element: the second element meets the inner struct's signature *)
Definition sh_enum_seq : tshape := TSeq (TEnum [(KUnnamed, [(B "_", u32); (B "_", u32)])]).
Definition x_enum_seq : rval := RList [REnum 0 [RInt 1; RInt 2]; REnum 0 [RInt 3; RInt 4]].
Lemma enum_seq_errs : ser_top cfg_oaa LE 0 (sig_of sh_enum_seq) (sval_of_shape sh_enum_seq x_enum_seq) = Err ESigMismatch.
Proof. vm_compute. reflexivity. Qed.
Lemma enum_seq_refutes : refutes sh_enum_seq x_enum_seq.
Proof. repeat apply conj; [vm_compute; reflexivity ..|]. rewrite enum_seq_errs. discriminate. Qed.
(* one element is fine *)
Lemma enum_seq_one_ok :
  ser_top cfg_oaa LE 0 (sig_of sh_enum_seq) (sval_of_shape sh_enum_seq (RList [REnum 0 [RInt 1; RInt 2]]))
  = Ok (marshal_top LE 0 (dval_of_shape sh_enum_seq (RList [REnum 0 [RInt 1; RInt 2]])), []).
Proof. vm_compute. reflexivity. Qed.

(* 3. newtype variants never call end(): the struct depth leaks by one per element — 33 elements exceed the limit of 32 *)
Definition sh_leak : tshape := TSeq (TEnum [(KUnnamed, [(B "_", u32)])]).
Definition x_leak : rval := RList (repeat (REnum 0 [RInt 7]) 33).
Lemma leak_errs : ser_top cfg_oaa LE 0 (sig_of sh_leak) (sval_of_shape sh_leak x_leak) = Err (EDepth DStruct).
Proof. vm_compute. reflexivity. Qed.
Lemma leak_refutes : refutes sh_leak x_leak.
Proof. repeat apply conj; [vm_compute; reflexivity ..|]. rewrite leak_errs. discriminate. Qed.
(* the library type: Vec<IpAddr> with 33 addresses *)
Definition x_leak_ip : rval := RList (repeat (REnum 0 [RList [RInt 127; RInt 0; RInt 0; RInt 1]]) 33).
Lemma leak_ip_errs c : ser_top c LE 0 (sig_of (TSeq TIpAddr)) (sval_of_shape (TSeq TIpAddr) x_leak_ip) = Err (EDepth DStruct).
Proof. vm_compute. reflexivity. Qed.
Lemma leak_ip_refutes : refutes (TSeq TIpAddr) x_leak_ip.
Proof. repeat apply conj; [vm_compute; reflexivity ..|]. rewrite leak_ip_errs. discriminate. Qed.

(* 4. Vec<()>: the declared signature "a" is not a D-Bus signature *)
Lemma unit_seq_refutes : ~ C09_statement (TSeq TUnit).
Proof. intros (_ & H & _). vm_compute in H. discriminate H. Qed.
Lemma unit_seq_signature : show (sig_of (TSeq TUnit)) = B "a" /\ parse_sig false (show (sig_of (TSeq TUnit))) = None.
Proof. vm_compute. split; reflexivity. Qed.

(* 5. PhantomData<T> declares T's signature and writes nothing: `struct S { a: u32, p: PhantomData<u64> }` is "(ut)", 4 bytes *)
Definition sh_phantom : tshape := TStruct [(B "a", u32); (B "p", TPhantom (TPrim PU64))].
Definition x_phantom : rval := RList [RInt 3; RUnit].
Lemma phantom_bytes :
  show (sig_of sh_phantom) = B "(ut)" /\
  ser_top cfg_oaa LE 0 (sig_of sh_phantom) (sval_of_shape sh_phantom x_phantom) = Ok (enc LE 4 3, []) /\
  de_struct_top cfg_oaa LE 0 (sig_of sh_phantom) (enc LE 4 3) [] = Err EBounds.
Proof. vm_compute. repeat split. Qed.
Lemma phantom_refutes : ~ C09_statement sh_phantom.
Proof. intros (H & _). vm_compute in H. discriminate H. Qed.

Theorem full_statement_refuted : ~ C09_full_statement.
Proof. intros H. apply (refutes_statement _ _ nt_struct_refutes). apply H. vm_compute. reflexivity. Qed.

(* ---------- every type definition of a known class lies outside the proved fragment ---------- *)
Lemma any_fields_local P fs :
  (fix go (fs : list (bytes * tshape)) : bool := match fs with [] => false | (_, t) :: r => anywhere P t || go r end) fs
  = existsb (fun f => anywhere P (snd f)) fs.
Proof. induction fs as [|[n t] r IH]; [reflexivity|]. cbn [existsb snd]. now rewrite IH. Qed.
Lemma any_struct P fs : anywhere P (TStruct fs) = P (TStruct fs) || existsb (fun f => anywhere P (snd f)) fs.
Proof. cbn [anywhere]. now rewrite any_fields_local. Qed.
Lemma any_enum P vs : anywhere P (TEnum vs) = P (TEnum vs) || existsb (fun v : variant => existsb (fun f => anywhere P (snd f)) (snd v)) vs.
Proof.
  cbn [anywhere]. f_equal. induction vs as [|[k fs] r IH]; [reflexivity|]. cbn [existsb snd]. now rewrite <- IH, any_fields_local.
Qed.
Lemma any_dict P rn fs : anywhere P (TDict rn fs) = P (TDict rn fs) || existsb (fun f : dfield => anywhere P (snd (snd f))) fs.
Proof. cbn [anywhere]. f_equal. induction fs as [|[n [o t]] r IH]; [reflexivity|]. cbn [existsb snd]. now rewrite <- IH. Qed.

Lemma anywhere_ok P : (forall sh, P sh = true -> shape_ok sh = false) -> forall sh, shape_ok sh = true -> anywhere P sh = false.
Proof.
  intros HP. assert (HP' : forall sh, shape_ok sh = true -> P sh = false).
  { intros sh Hok. destruct (P sh) eqn:E; [|reflexivity]. rewrite (HP sh E) in Hok. discriminate. }
  induction sh using tshape_ind'; intros Hok; try (cbn [anywhere]; rewrite (HP' _ Hok); reflexivity); try discriminate Hok.
  - cbn [anywhere]. rewrite (HP' _ Hok). cbn [shape_ok] in Hok. apply andb_true_iff in Hok as [Hok _]. apply andb_true_iff in Hok as [Hok _]. now apply IHsh.
  - cbn [anywhere]. rewrite (HP' _ Hok). cbn [shape_ok] in Hok.
    apply andb_true_iff in Hok as [Hok _]. apply andb_true_iff in Hok as [Hok Hv].
    apply andb_true_iff in Hok as [Hok _]. apply andb_true_iff in Hok as [Hok _]. apply andb_true_iff in Hok as [Hk _].
    now rewrite IHsh1, IHsh2.
  - cbn [anywhere]. rewrite (HP' _ Hok). cbn [shape_ok] in Hok. now apply IHsh.
  - change (anywhere P (TTuple ts)) with (P (TTuple ts) || existsb (anywhere P) ts). rewrite (HP' _ Hok). rewrite ok_tuple in Hok.
    apply andb_true_iff in Hok as [_ Hok]. unfold ok_list in Hok. rewrite forallb_forall in Hok. rewrite Forall_forall in H.
    apply existsb_false, Forall_forall. intros t Hin. apply H; auto.
  - cbn [anywhere]. rewrite (HP' _ Hok). cbn [shape_ok] in Hok. now apply IHsh.
  - rewrite any_struct, (HP' _ Hok). rewrite ok_struct in Hok. unfold ok_fields in Hok. rewrite forallb_forall in Hok. rewrite Forall_forall in H.
    apply existsb_false, Forall_forall. intros f Hin. apply H; auto.
  - rewrite any_enum, (HP' _ Hok). rewrite ok_enum in Hok. apply andb_true_iff in Hok as [_ Hok]. rewrite forallb_forall in Hok.
    rewrite Forall_forall in H. apply existsb_false, Forall_forall. intros v Hin. specialize (Hok v Hin). unfold ok_variant in Hok.
    apply andb_true_iff in Hok as [Hok _]. apply andb_true_iff in Hok as [Hok _]. apply andb_true_iff in Hok as [_ Hok].
    unfold ok_fields in Hok. rewrite forallb_forall in Hok. specialize (H v Hin). rewrite Forall_forall in H.
    apply existsb_false, Forall_forall. intros f Hf. apply H; auto.
  - rewrite any_dict, (HP' _ Hok). rewrite ok_dict in Hok. rewrite forallb_forall in Hok. rewrite Forall_forall in H.
    apply existsb_false, Forall_forall. intros f Hin. specialize (Hok f Hin). unfold ok_dfield in Hok.
    apply andb_true_iff in Hok as [Hok _]. apply andb_true_iff in Hok as [Hok _]. apply andb_true_iff in Hok as [Hok _]. apply H; auto.
Qed.

Lemma unit_sig_not_ok t : unit_sig t = true -> shape_ok t = false.
Proof.
  intros Hu. destruct (shape_ok t) eqn:E; [|reflexivity]. destruct (signature_ok t E) as [_ Hs]. unfold unit_sig in Hu.
  destruct (sig_of t) as [| | | | | | | | | | | | | | | | | [|? ?] |]; try discriminate Hu; discriminate Hs.
Qed.

Lemma known_not_ok sh : Known_C09 sh -> shape_ok sh = false.
Proof.
  intros Hk. destruct (shape_ok sh) eqn:E; [|reflexivity]. exfalso. apply Hk. unfold known_class.
  rewrite (anywhere_ok k_phantom); [|intros t H; destruct t; try discriminate H; reflexivity|exact E].
  rewrite (anywhere_ok k_unit_in_container); [| |exact E].
  2:{ intros t H. destruct t; try discriminate H; cbn [k_unit_in_container] in H.
      - cbn [shape_ok]. now rewrite (unit_sig_not_ok _ H).
      - cbn [shape_ok]. apply orb_true_iff in H as [H|H]; rewrite (unit_sig_not_ok _ H); rewrite ?andb_false_r; reflexivity.
      - cbn [shape_ok]. now rewrite (unit_sig_not_ok _ H).
      - apply andb_true_iff in H as [Hne H]. rewrite ok_tuple. destruct ts as [|t ts]; [discriminate|].
        cbn [forallb] in H. apply andb_true_iff in H as [H _]. cbn [ok_list forallb]. now rewrite (unit_sig_not_ok _ H).
      - apply andb_true_iff in H as [Hne H]. rewrite ok_struct. destruct fs as [|[n t] fs]; [discriminate|].
        cbn [forallb snd] in H. apply andb_true_iff in H as [H _]. cbn [ok_fields forallb snd]. now rewrite (unit_sig_not_ok _ H). }
  rewrite (anywhere_ok k_newtype_struct_payload); [| |exact E].
  2:{ intros t H. destruct t; try discriminate H. cbn [k_newtype_struct_payload] in H. apply existsb_exists in H as (v & Hin & Hv).
      rewrite ok_enum. destruct (forallb (ok_variant (sig_of (TEnum vs))) vs) eqn:Ea; [|now rewrite andb_false_r].
      rewrite forallb_forall in Ea. specialize (Ea v Hin). unfold ok_variant in Ea.
      destruct v as [[|] [|[n t] [|? ?]]]; try discriminate Hv. cbn [fst snd] in Ea. rewrite Hv in Ea. cbn in Ea.
      rewrite !andb_false_r in Ea. discriminate Ea. }
  rewrite (anywhere_ok k_enum_in_seq); [| |exact E].
  2:{ intros t H. destruct t; try discriminate H. cbn [k_enum_in_seq] in H. apply negb_true_iff in H. cbn [shape_ok]. rewrite H.
      now rewrite andb_false_r. }
  rewrite (anywhere_ok k_depth_leak); [| |exact E].
  2:{ intros t H. destruct t; try discriminate H; cbn [k_depth_leak] in H; apply negb_true_iff in H; cbn [shape_ok]; rewrite H;
      now rewrite ?andb_false_r. }
  reflexivity.
Qed.

(* ---------- non-vacuity: concrete members of the fragment ---------- *)
Definition ex_shape : tshape :=
  TStruct [(B "id", u8);
           (B "e", TEnum [(KUnnamed, [(B "_", u32); (B "_", str)]); (KNamed, [(B "x", u32); (B "y", str)])]);
           (B "opt", TOption (TEnum [(KUnnamed, [(B "_", TSeq str)])]));
           (B "d", TDict RnPascal [(B "foo_bar", (false, TSeq (TTuple [u8; str]))); (B "k", (true, TPrim PI64))]);
           (B "m", TMap str (TEnum [(KNamed, [(B "a", TPrim PF64)])]));
           (B "ip", TIpAddr); (B "t", TDuration); (B "u", TUnitEnum (Some RI16) [(-5)%Z; 300%Z]); (B "s", TStrEnum [B "Alpha"; B "Beta"])].
Definition ex_value : rval :=
  RList [RInt 7; REnum 1 [RInt 5; RStr (B "hi")]; RSome (REnum 0 [RList [RStr (B "a"); RStr (B "bc")]]);
         RList [RList [RList [RInt 1; RStr (B "x")]]; RSome (RInt (-9))];
         RMap [(RStr (B "k"), REnum 0 [RF64 4609434218613702656])];
         REnum 1 [RList (repeat (RInt 1) 16)]; RList [RInt 5; RInt 999999999]; REnum 1 []; REnum 0 []].
Example ex_in_fragment : shape_ok ex_shape = true /\ typed ex_shape ex_value = true /\ known_class ex_shape = None
  /\ within_limits (dval_of_shape ex_shape ex_value) = true /\ len (marshal_top BE 3 (dval_of_shape ex_shape ex_value)) < 2 ^ 32.
Proof. vm_compute. repeat split. Qed.
Example ex_bytes :
  ser_top cfg_oaa BE 3 (sig_of ex_shape) (sval_of_shape ex_shape ex_value) = Ok (marshal_top BE 3 (dval_of_shape ex_shape ex_value), []).
Proof.
  destruct ex_in_fragment as (H1 & H2 & _ & H4 & H5). exact (conforms cfg_oaa BE 3 ex_shape ex_value H1 H2 (fun _ => eq_refl) H4 H5).
Qed.

(* the library impls are members of the fragment *)
Definition library_shapes : list tshape :=
  [TPrim PUsize; TPrim PIsize; TPrim PChar; TPrim PI8; TPrim PF32; TDuration; TSystemTime; TIpv4; TIpv6; TIpAddr; TSockV4; TSockV6;
   TRange u32; TRangeInclusive u8; TRangeFrom (TPrim PI64); TRangeTo (TPrim PU16); TArrayN 0 u8; TArrayN 5 str;
   TNewtype (TPrim PU16) (* Wrapping<u16>, Reverse<u16>, Box<u16>, RefCell<u16> *);
   TSeq (TPrim PU8); TMap str u32; TOption str; TTuple [u8; str; TPrim PU64]].
Lemma library_in_fragment : forallb shape_ok library_shapes = true.
Proof. vm_compute. reflexivity. Qed.
